From Coq Require Import ZArith NArith List Bool.
Require Import Value FreshModel FreshProofs.
Import ListNotations.
Local Open Scope N_scope.

(* C17, across interpreter restarts, for ANY site table (import-time sites included): the secrets of artifacts made
   after a restart come from draws later than every draw recorded before it (one non-repeating OS stream assumed). *)
Theorem restart_redraws :
  forall (t : table) (c : closure) (h1 h2 : list op),
  exists later,
    w_slots (run t c (h1 ++ Restart :: h2)) = w_slots (run t c h1) ++ later /\
    forall i j, In i (indices (w_slots (run t c h1))) -> In j (indices later) -> i < j.
Proof.
  intros t c h1 h2. unfold run at 1. rewrite run_from_app. fold (run t c h1). simpl.
  set (w1 := run t c h1). set (n0 := r_next (w_rs w1)).
  assert (H0 : after n0 (w_slots w1) (fst (step t c w1 Restart))).
  { pose proof (import_after t c n0 (w_slots w1) (RS n0 []) [] 0 (w_objs w1) (nlen (w_objs w1)) []) as H.
    rewrite app_nil_r in H. simpl. fold n0. destruct (ensure_import t c (RS n0 []) [] 0) as [[s1 imp1] d1].
    apply H; [split; simpl; [Lia.lia | intros k v []] | intros i []]. }
  destruct (run_from_after t c n0 (w_slots w1) h2 _ H0) as (_ & _ & later & EL & HL).
  exists later. split; [exact EL|]. intros i j Hi Hj. specialize (HL j Hj).
  pose proof (run_below t c h1 i Hi) as Hb. fold w1 in Hb. fold n0 in Hb. Lia.lia.
Qed.
Print Assumptions restart_redraws.
