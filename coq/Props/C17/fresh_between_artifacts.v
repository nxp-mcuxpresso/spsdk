From Coq Require Import ZArith NArith List Bool.
Require Import Value FreshModel FreshProofs.
Import ListNotations.
Local Open Scope N_scope.

(* C17: if every draw site is per-call, two recorded secrets that come from the same draw are the same field of the same
   artifact. *)
Theorem fresh_between_artifacts :
  forall (t : table) (c : closure), all_percall t = true ->
  forall (h : list op) (a fa b fb i : N),
    In (a, fa, ODraw i) (w_slots (run t c h)) -> In (b, fb, ODraw i) (w_slots (run t c h)) ->
    a = b /\ fa = fb.
Proof. exact fresh_slot_unique. Qed.
Print Assumptions fresh_between_artifacts.
