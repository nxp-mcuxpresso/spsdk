From Coq Require Import ZArith NArith List Bool.
Require Import Value GenFresh FreshModel FreshProofs FreshGenProofs.
Import ListNotations.
Local Open Scope N_scope.

(* C17 for the site table extracted from the current source, without premise. *)
Theorem fresh_for_this_tree :
  forall h : list op,
  NoDup (indices (w_slots (run gen_sites gen_closure h))) /\
  (forall a fa b fb i,
      In (a, fa, ODraw i) (w_slots (run gen_sites gen_closure h)) ->
      In (b, fb, ODraw i) (w_slots (run gen_sites gen_closure h)) -> a = b /\ fa = fb) /\
  (forall a b fk fn fk' fn' k n,
      a <> b ->
      In (a, fk, k) (w_slots (run gen_sites gen_closure h)) -> In (a, fn, n) (w_slots (run gen_sites gen_closure h)) ->
      In (b, fk', k) (w_slots (run gen_sites gen_closure h)) -> In (b, fn', n) (w_slots (run gen_sites gen_closure h)) ->
      is_draw k = true \/ is_draw n = true -> False).
Proof.
  intro h. split; [apply fresh_nodup, gen_all_percall|]. split; [apply fresh_generated|].
  apply ctr_pair_unique_lem, gen_all_percall.
Qed.
Print Assumptions fresh_for_this_tree.
