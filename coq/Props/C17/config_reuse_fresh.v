From Coq Require Import ZArith NArith List Bool.
Require Import Value FreshModel FreshProofs.
Import ListNotations.
Local Open Scope N_scope.

(* C17: a configuration object is an immutable input.  Building again from the SAME configuration object as artifact j
   (load_from_config / get_advanced_params / get_dek_from_config called a second time with the same dict) gives an
   artifact that shares no draw with artifact j, for every history before it. *)
Theorem config_reuse_fresh :
  forall (t : table) (c : closure), all_percall t = true ->
  forall (h : list op) (j : N), j < nlen (w_objs (run t c h)) ->
  forall (f f' i : N),
    In (j, f, ODraw i) (w_slots (run t c (h ++ [Again j]))) ->
    In (nlen (w_objs (run t c h)), f', ODraw i) (w_slots (run t c (h ++ [Again j]))) -> False.
Proof.
  intros t c Ht h j Hj f f' i H1 H2.
  destruct (fresh_slot_unique t c Ht (h ++ [Again j]) _ _ _ _ _ H1 H2) as [E _]. Lia.lia.
Qed.
Print Assumptions config_reuse_fresh.
