From Coq Require Import ZArith NArith List Bool.
Require Import Value FreshModel FreshProofs.
Import ListNotations.
Local Open Scope N_scope.

(* C17: a secret supplied by the user consumes no entropy and is recorded as the user's value, whatever the guard. *)
Theorem user_secret_kept :
  forall (t : table) (s : rs) (f site : N) (es : list N) (g : guard) (v len : N),
    exec_item t s (Item f site es g (AGiven v) len true) = (s, [], [(f, OUser v)]).
Proof. intros. simpl. destruct g; reflexivity. Qed.
Print Assumptions user_secret_kept.
