From Coq Require Import ZArith NArith List Bool Lia.
Require Import Value Bytes BytesProofs GenMisc MiscModel GenCrypto Sha2 Aes Sm4 Modes Hmac Hkdf Cmac KeyWrap Crc
               CryptoProofs SymWrapModel SymWrapProofs.
Import ListNotations.
Local Open Scope N_scope.

Theorem wrap_ccm_roundtrip :
  forall key m nonce aad taglen,
  aes_key_ok key = true -> wf_bytes key -> ccm_nonce_ok nonce = true ->
  ccm_tag_ok (match taglen with Some t => t | None => 16%Z end) = true ->
  ccm_len_ok nonce (length m + Z.to_nat (match taglen with Some t => t | None => 16%Z end)) = true ->
  exists c, aes_ccm_encrypt key m nonce aad taglen = Ok c /\
            aes_ccm_decrypt key c nonce (match aad with Some a => a | None => [] end) taglen = Ok m.
Proof.
  intros key m nonce aad taglen Hk Wk Hn Ht Hl. set (t := match taglen with Some t => t | None => 16%Z end) in *.
  set (a := match aad with Some a => a | None => [] end).
  exists (ccm_encrypt (aesE key) nonce a (Z.to_nat t) m).
  assert (Hn14 : (length nonce <= 14)%nat).
  { unfold ccm_nonce_ok in Hn. apply andb_true_iff in Hn as [_ Hn]. apply Nat.leb_le in Hn. lia. }
  assert (Ht16 : (Z.to_nat t <= 16)%nat).
  { unfold ccm_tag_ok in Ht. apply andb_true_iff in Ht as [Ht _]. apply andb_true_iff in Ht as [_ Ht]. lia. }
  pose proof (aes_E_len key Hk Wk) as EL.
  assert (Lc : length (ccm_encrypt (aesE key) nonce a (Z.to_nat t) m) = (length m + Z.to_nat t)%nat).
  { unfold ccm_encrypt. rewrite app_length, ccm_crypt_length, ccm_tag_length by assumption. reflexivity. }
  assert (Hl' : ccm_len_ok nonce (length m) = true).
  { unfold ccm_len_ok in *. apply N.ltb_lt. apply N.ltb_lt in Hl. lia. }
  unfold aes_ccm_encrypt, aes_ccm_decrypt, ccm_params_ok. fold t. fold a.
  rewrite Hk, Ht, Hn, Hl', Lc, Hl. cbn [negb andb]. split; [reflexivity|].
  now rewrite ccm_dec_enc_l.
Qed.
Print Assumptions wrap_ccm_roundtrip.
