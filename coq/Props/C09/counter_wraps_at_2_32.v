From Coq Require Import ZArith NArith List Bool Lia.
Require Import Value Bytes BytesProofs GenMisc MiscModel GenCrypto Sha2 Aes Sm4 Modes Hmac Hkdf Cmac KeyWrap Crc
               CryptoProofs SymWrapModel SymWrapProofs.
Import ListNotations.
Local Open Scope N_scope.

(* the witness of finding C09-F1 (Counter(nonce ending ffffffff).increment(1).value) wraps to zero since the repair in /repo *)
Theorem counter_wraps_at_2_32 :
  counter_run (repeat 0 12 ++ repeat 255 4) None false [1%Z] = Ok [Ok (repeat 0 12 ++ repeat 255 4); Ok (repeat 0 16)].
Proof. vm_compute. reflexivity. Qed.
Print Assumptions counter_wraps_at_2_32.
