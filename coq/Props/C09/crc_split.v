From Coq Require Import ZArith NArith List Bool Lia.
Require Import Value Bytes BytesProofs GenMisc MiscModel GenCrypto Sha2 Aes Sm4 Modes Hmac Hkdf Cmac KeyWrap Crc
               CryptoProofs SymWrapModel SymWrapProofs.
Import ListNotations.
Local Open Scope N_scope.

Theorem crc_split :
  forall p reg a b,
  crc_update p reg (a ++ b) = crc_update p (crc_update p reg a) b /\
  crc p (a ++ b) = crc_finish p (crc_update p (crc_update p (crc_init p) a) b).
Proof. intros p reg a b. split; [exact (crc_update_app p reg a b) | exact (crc_app p a b)]. Qed.
Print Assumptions crc_split.
