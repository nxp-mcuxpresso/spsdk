From Coq Require Import ZArith NArith List Bool Lia.
Require Import Value Bytes BytesProofs GenMisc MiscModel GenCrypto Sha2 Aes Sm4 Modes Hmac Hkdf Cmac KeyWrap Crc
               CryptoProofs SymWrapModel SymWrapProofs.
Import ListNotations.
Local Open Scope N_scope.

Theorem sm4_dec_enc :
  forall key b, okb b -> sm4_dec key (sm4_enc key b) = b /\ okb (sm4_enc key b).
Proof. intros key b Hb. exact (sm4_dec_enc_l key b Hb). Qed.
Print Assumptions sm4_dec_enc.
