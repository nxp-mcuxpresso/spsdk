From Coq Require Import ZArith NArith List Bool Lia.
Require Import Value Bytes BytesProofs GenMisc MiscModel GenCrypto Sha2 Aes Sm4 Modes Hmac Hkdf Cmac KeyWrap Crc
               CryptoProofs SymWrapModel SymWrapProofs.
Import ListNotations.
Local Open Scope N_scope.

Theorem keystore_derivations :
  forall k,
  (nlen k = 32 ->
   derive_hmac_key k = Ok (aesE k (zeros 16)) /\
   derive_enc_image_key k = Ok (aesE k (ks_block 1) ++ aesE k (ks_block 2)) /\
   derive_sb_kek_key k = Ok (aesE k (ks_block 3) ++ aesE k (ks_block 4)) /\
   (forall i, nlen i = 16 -> derive_otfad_kek_key k i = Ok (aesE k i))) /\
  (nlen k <> 32 -> forall i,
   derive_hmac_key k = Err 1 /\ derive_enc_image_key k = Err 1 /\ derive_sb_kek_key k = Err 1 /\
   derive_otfad_kek_key k i = Err 1).
Proof. intros k. split; [exact (keystore_derivations_l k) | intros H i; exact (keystore_rejects_l k i H)]. Qed.
Print Assumptions keystore_derivations.
