From Coq Require Import ZArith NArith List Bool Lia.
Require Import Value Bytes BytesProofs GenMisc MiscModel GenCrypto Sha2 Aes Sm4 Modes Hmac Hkdf Cmac KeyWrap Crc
               CryptoProofs SymWrapModel SymWrapProofs.
Import ListNotations.
Local Open Scope N_scope.

Theorem wrap_ctr_roundtrip :
  forall key m nonce, aes_key_ok key = true -> wf_bytes key -> length nonce = 16%nat ->
  exists c, aes_ctr_crypt key m nonce = Ok c /\ aes_ctr_crypt key c nonce = Ok m /\ length c = length m.
Proof.
  intros key m nonce Hk Wk Ln. exists (ctr_xcrypt (aesE key) nonce m). unfold aes_ctr_crypt.
  rewrite Hk, Ln. cbn [negb Nat.eqb]. split; [reflexivity|]. split.
  - f_equal. apply ctr_involutive_l; auto using aes_E_len.
  - apply ctr_length; auto using aes_E_len.
Qed.
Print Assumptions wrap_ctr_roundtrip.
