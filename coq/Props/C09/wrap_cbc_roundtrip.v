From Coq Require Import ZArith NArith List Bool Lia.
Require Import Value Bytes BytesProofs GenMisc MiscModel GenCrypto Sha2 Aes Sm4 Modes Hmac Hkdf Cmac KeyWrap Crc
               CryptoProofs SymWrapModel SymWrapProofs.
Import ListNotations.
Local Open Scope N_scope.

Theorem wrap_cbc_roundtrip :
  forall key m iv, aes_key_ok key = true -> wf_bytes key -> wf_bytes m -> iv_arg_ok iv ->
  exists c, aes_cbc_encrypt key m iv = Ok c /\ aes_cbc_decrypt key c iv = Ok (zero_pad16 m).
Proof. intros key m iv Hk Wk Wm Hiv. exact (wrap_cbc_roundtrip_l key m iv Hk Wk Wm Hiv). Qed.
Print Assumptions wrap_cbc_roundtrip.
