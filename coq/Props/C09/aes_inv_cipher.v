From Coq Require Import ZArith NArith List Bool Lia.
Require Import Value Bytes BytesProofs GenMisc MiscModel GenCrypto Sha2 Aes Sm4 Modes Hmac Hkdf Cmac KeyWrap Crc
               CryptoProofs SymWrapModel SymWrapProofs.
Import ListNotations.
Local Open Scope N_scope.

Theorem aes_inv_cipher :
  forall key b, aes_key_ok key = true -> wf_bytes key -> okb b ->
  aes_dec key (aes_enc key b) = b /\ okb (aes_enc key b).
Proof. intros key b Hk W Hb. exact (aes_dec_enc key b Hk W Hb). Qed.
Print Assumptions aes_inv_cipher.
