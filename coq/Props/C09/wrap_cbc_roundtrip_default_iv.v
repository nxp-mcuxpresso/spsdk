From Coq Require Import ZArith NArith List Bool Lia.
Require Import Value Bytes BytesProofs GenMisc MiscModel GenCrypto Sha2 Aes Sm4 Modes Hmac Hkdf Cmac KeyWrap Crc
               CryptoProofs SymWrapModel SymWrapProofs.
Import ListNotations.
Local Open Scope N_scope.

Theorem wrap_cbc_roundtrip_default_iv :
  forall key m, aes_key_ok key = true -> wf_bytes key -> wf_bytes m ->
  exists c, aes_cbc_encrypt key m None = Ok c /\ aes_cbc_decrypt key c None = Ok (zero_pad16 m).
Proof. intros key m Hk Wk Wm. exact (wrap_cbc_roundtrip_l key m None Hk Wk Wm I). Qed.
Print Assumptions wrap_cbc_roundtrip_default_iv.
