From Coq Require Import ZArith NArith List Bool Lia.
Require Import Value Bytes BytesProofs GenMisc MiscModel GenCrypto Sha2 Aes Sm4 Modes Hmac Hkdf Cmac KeyWrap Crc
               CryptoProofs SymWrapModel SymWrapProofs.
Import ListNotations.
Local Open Scope N_scope.

Theorem wrap_xts_roundtrip :
  forall key m tweak, xts_key_ok key = true -> wf_bytes key ->
  eqb_list (xts_k1 key) (xts_k2 key) = false -> okb tweak -> wf_bytes m -> (16 <= length m)%nat ->
  exists c, aes_xts_encrypt key m tweak = Ok c /\ aes_xts_decrypt key c tweak = Ok m.
Proof.
  intros key m tweak Hk Wk Hne [Lt Wt] Wm Lm.
  destruct (xts_half_ok key Hk Wk) as (K1 & W1 & K2 & W2).
  assert (Ht : okb (aesE (xts_k2 key) tweak)) by (apply aes_E_ok; auto; now split).
  exists (xts_crypt (aesE (xts_k1 key)) (aesE (xts_k2 key)) false tweak m).
  pose proof (xts_enc_length (aesE (xts_k1 key)) (aes_E_ok _ K1 W1) (aesE (xts_k2 key)) tweak m Ht Wm Lm) as Lc.
  unfold aes_xts_encrypt, aes_xts_decrypt. rewrite Hk, Lt, Hne. cbn [negb Nat.eqb].
  replace (Nat.ltb (length m) 16) with false by (symmetry; apply Nat.ltb_ge; lia).
  destruct m as [|x m']; [simpl in Lm; lia|]. split; [reflexivity|].
  remember (xts_crypt (aesE (xts_k1 key)) (aesE (xts_k2 key)) false tweak (x :: m')) as c.
  replace (Nat.ltb (length c) 16) with false by (symmetry; apply Nat.ltb_ge; lia).
  destruct c as [|y c']; [simpl in Lc; lia|]. f_equal. rewrite Heqc.
  apply (xts_dec_enc_l (aesE (xts_k1 key)) (aesD (xts_k1 key)) (aes_DE _ K1 W1) (aes_E_ok _ K1 W1)); assumption.
Qed.
Print Assumptions wrap_xts_roundtrip.
