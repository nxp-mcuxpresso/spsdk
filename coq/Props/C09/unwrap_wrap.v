From Coq Require Import ZArith NArith List Bool Lia.
Require Import Value Bytes BytesProofs GenMisc MiscModel GenCrypto Sha2 Aes Sm4 Modes Hmac Hkdf Cmac KeyWrap Crc
               CryptoProofs SymWrapModel SymWrapProofs.
Import ListNotations.
Local Open Scope N_scope.

Theorem unwrap_wrap :
  forall (E D : list N -> list N),
  (forall b, okb b -> D (E b) = b) -> (forall b, okb b -> okb (E b)) ->
  forall key_data, wf_bytes key_data -> Nat.modulo (length key_data) 8 = 0%nat ->
  kw_unwrap D (kw_wrap E key_data) = Some key_data.
Proof. intros E D DE EO d W M. exact (unwrap_wrap_l E D DE EO d W M). Qed.
Print Assumptions unwrap_wrap.
