From Coq Require Import ZArith NArith List Bool Lia.
Require Import Value Bytes BytesProofs GenMisc MiscModel GenCrypto Sha2 Aes Sm4 Modes Hmac Hkdf Cmac KeyWrap Crc
               CryptoProofs SymWrapModel SymWrapProofs.
Import ListNotations.
Local Open Scope N_scope.

Theorem mac_hash_wrappers_reference :
  forall k d s i inf len,
  get_hash d 1 = Ok (sha256 d) /\ get_hash d 2 = Ok (sha384 d) /\ get_hash d 3 = Ok (sha512 d) /\ get_hash d 254 = Err 1 /\
  spsdk_hmac k d 1 = Ok (hmac_sha256 k d) /\ spsdk_hmac k d 2 = Ok (hmac_sha384 k d) /\ spsdk_hmac k d 3 = Ok (hmac_sha512 k d) /\
  (aes_key_ok k = true -> spsdk_cmac k d = Ok (aes_cmac k d)) /\
  ((0 <= len <= 8160)%Z -> spsdk_hkdf s i inf len = Ok (hkdf_sha256 s i inf (Z.to_nat len))).
Proof.
  intros k d s i inf len.
  repeat split; try reflexivity.
  - intros H. unfold spsdk_cmac. now rewrite H.
  - intros H. unfold spsdk_hkdf. replace (8160 <? len)%Z with false by (symmetry; apply Z.ltb_ge; lia). reflexivity.
Qed.
Print Assumptions mac_hash_wrappers_reference.
