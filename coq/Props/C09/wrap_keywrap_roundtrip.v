From Coq Require Import ZArith NArith List Bool Lia.
Require Import Value Bytes BytesProofs GenMisc MiscModel GenCrypto Sha2 Aes Sm4 Modes Hmac Hkdf Cmac KeyWrap Crc
               CryptoProofs SymWrapModel SymWrapProofs.
Import ListNotations.
Local Open Scope N_scope.

Theorem wrap_keywrap_roundtrip :
  forall kek key_data, aes_key_ok kek = true -> wf_bytes kek -> wf_bytes key_data ->
  (16 <= length key_data)%nat -> Nat.modulo (length key_data) 8 = 0%nat ->
  exists c, aes_key_wrap kek key_data = Ok c /\ aes_key_unwrap kek c = Ok key_data.
Proof.
  intros kek data Hk Wk Wd Ld Md. exists (aes_kw_wrap kek data). unfold aes_key_wrap, aes_key_unwrap.
  pose proof (kw_wrap_length (aesE kek) (aes_E_ok kek Hk Wk) data Wd Md) as [Lc _].
  change (kw_wrap (aesE kek) data) with (aes_kw_wrap kek data) in Lc.
  rewrite Hk, Lc. cbn [negb].
  replace (Nat.ltb (length data) 16) with false by (symmetry; apply Nat.ltb_ge; lia).
  replace (Nat.ltb (8 + length data) 24) with false by (symmetry; apply Nat.ltb_ge; lia).
  rewrite Md. cbn [Nat.eqb negb].
  assert (M2 : Nat.modulo (8 + length data) 8 = 0%nat).
  { apply Nat2Z.inj. rewrite Nat2Z.inj_mod. apply (f_equal Z.of_nat) in Md. rewrite Nat2Z.inj_mod in Md. dlia. }
  rewrite M2. cbn [Nat.eqb negb]. split; [reflexivity|].
  unfold aes_kw_unwrap, aes_kw_wrap.
  change (inv_cipher_rks (key_expansion kek)) with (aesD kek). change (cipher_rks (key_expansion kek)) with (aesE kek).
  now rewrite (unwrap_wrap_l (aesE kek) (aesD kek) (aes_DE kek Hk Wk) (aes_E_ok kek Hk Wk)).
Qed.
Print Assumptions wrap_keywrap_roundtrip.
