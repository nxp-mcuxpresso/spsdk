From Coq Require Import ZArith NArith List Bool Lia.
Require Import Value Bytes BytesProofs GenMisc MiscModel GenCrypto Sha2 Aes Sm4 Modes Hmac Hkdf Cmac KeyWrap Crc
               CryptoProofs SymWrapModel SymWrapProofs.
Import ListNotations.
Local Open Scope N_scope.

Theorem ccm_dec_enc :
  forall (E : list N -> list N), (forall b, length b = 16%nat -> length (E b) = 16%nat) ->
  forall nonce aad taglen p, (length nonce <= 14)%nat -> (taglen <= 16)%nat ->
  ccm_decrypt E nonce aad taglen (ccm_encrypt E nonce aad taglen p) = Some p.
Proof. intros E EL nonce aad t p Hn Ht. exact (ccm_dec_enc_l E EL nonce aad t p Hn Ht). Qed.
Print Assumptions ccm_dec_enc.
