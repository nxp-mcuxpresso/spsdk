From Coq Require Import ZArith NArith List Bool Lia.
Require Import Value Bytes BytesProofs GenMisc MiscModel GenCrypto Sha2 Aes Sm4 Modes Hmac Hkdf Cmac KeyWrap Crc
               CryptoProofs SymWrapModel SymWrapProofs.
Import ListNotations.
Local Open Scope N_scope.

Theorem ctr_involutive :
  forall (E : list N -> list N), (forall b, length b = 16%nat -> length (E b) = 16%nat) ->
  forall nonce m, length nonce = 16%nat ->
  ctr_xcrypt E nonce (ctr_xcrypt E nonce m) = m /\ length (ctr_xcrypt E nonce m) = length m.
Proof. intros E EL nonce m Ln. split; [exact (ctr_involutive_l E EL nonce m Ln) | exact (ctr_length E EL nonce m Ln)]. Qed.
Print Assumptions ctr_involutive.
