From Coq Require Import ZArith NArith List Bool Lia.
Require Import Value Bytes BytesProofs GenMisc MiscModel GenCrypto Sha2 Aes Sm4 Modes Hmac Hkdf Cmac KeyWrap Crc
               CryptoProofs SymWrapModel SymWrapProofs.
Import ListNotations.
Local Open Scope N_scope.

Theorem wrap_ecb_roundtrip :
  forall key m, aes_key_ok key = true -> wf_bytes key -> wf_bytes m -> Nat.modulo (length m) 16 = 0%nat ->
  exists c, aes_ecb_encrypt key m = Ok c /\ aes_ecb_decrypt key c = Ok m.
Proof.
  intros key m Hk Wk Wm M. exists (ecb (aesE key) m). unfold aes_ecb_encrypt, aes_ecb_decrypt.
  destruct (ecb_length (aesE key) (aes_E_ok key Hk Wk) m Wm M) as [Lc _].
  rewrite Hk, (len_mult16_true m M), (len_mult16_true (ecb (aesE key) m)) by (rewrite Lc; exact M).
  cbn [negb]. split; [reflexivity|]. f_equal.
  apply (ecb_dec_enc_l (aesE key) (aesD key) (aes_DE key Hk Wk) (aes_E_ok key Hk Wk)); assumption.
Qed.
Print Assumptions wrap_ecb_roundtrip.
