From Coq Require Import ZArith NArith List Bool Lia.
Require Import Value Bytes BytesProofs GenMisc MiscModel GenCrypto Sha2 Aes Sm4 Modes Hmac Hkdf Cmac KeyWrap Crc
               CryptoProofs SymWrapModel SymWrapProofs.
Import ListNotations.
Local Open Scope N_scope.

Theorem wrap_sm4_cbc_roundtrip :
  forall key m iv, sm4_key_ok key = true -> wf_bytes m -> iv_arg_ok iv ->
  exists c, sm4_cbc_encrypt key m iv = Ok c /\ sm4_cbc_decrypt key c iv = Ok (zero_pad16 m).
Proof.
  intros key m iv Hk Wm Hiv. unfold sm4_cbc_encrypt, sm4_cbc_decrypt.
  apply (cbc_wrapper_roundtrip sm4_key_ok sm4E sm4D key Hk (sm4_DE key) (sm4_E_ok key));
    auto; now apply sm4_key_bits_ok.
Qed.
Print Assumptions wrap_sm4_cbc_roundtrip.
