From Coq Require Import ZArith NArith List Bool Lia.
Require Import Value Bytes BytesProofs GenMisc MiscModel GenCrypto Sha2 Aes Sm4 Modes Hmac Hkdf Cmac KeyWrap Crc
               CryptoProofs SymWrapModel SymWrapProofs.
Import ListNotations.
Local Open Scope N_scope.

Theorem cbc_dec_enc :
  forall (E D : list N -> list N),
  (forall b, okb b -> D (E b) = b) -> (forall b, okb b -> okb (E b)) ->
  forall iv m, okb iv -> wf_bytes m -> Nat.modulo (length m) 16 = 0%nat -> cbc_dec D iv (cbc_enc E iv m) = m.
Proof. intros E D DE EO iv m Hiv W M. exact (cbc_dec_enc_l E D DE EO iv m Hiv W M). Qed.
Print Assumptions cbc_dec_enc.
