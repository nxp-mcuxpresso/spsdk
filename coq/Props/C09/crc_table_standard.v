From Coq Require Import ZArith NArith List Bool Lia.
Require Import Value Bytes BytesProofs GenMisc MiscModel GenCrypto Sha2 Aes Sm4 Modes Hmac Hkdf Cmac KeyWrap Crc
               CryptoProofs SymWrapModel SymWrapProofs.
Import ListNotations.
Local Open Scope N_scope.

Theorem crc_table_standard :
  (map fst crc_table = [str_crc32; str_crc32_mpeg; str_crc16_xmodem] /\
   map (fun e => crcmod_params (snd e)) crc_table = [Some CRC32; Some CRC32_MPEG2; Some CRC16_XMODEM]) /\
  forall data, spsdk_crc str_crc32 data = Ok (crc CRC32 data) /\
               spsdk_crc str_crc32_mpeg data = Ok (crc CRC32_MPEG2 data) /\
               spsdk_crc str_crc16_xmodem data = Ok (crc CRC16_XMODEM data).
Proof. split; [exact crc_table_standard_l | exact spsdk_crc_standard_l]. Qed.
Print Assumptions crc_table_standard.
