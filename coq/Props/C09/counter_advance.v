From Coq Require Import ZArith NArith List Bool Lia.
Require Import Value Bytes BytesProofs GenMisc MiscModel GenCrypto Sha2 Aes Sm4 Modes Hmac Hkdf Cmac KeyWrap Crc
               CryptoProofs SymWrapModel SymWrapProofs.
Import ListNotations.
Local Open Scope N_scope.

(* full strength: every start value, ctr_value and increment sequence (negative ones included), wrap past 2^32 included *)
Theorem counter_advance :
  forall nonce cv big incs k,
  length nonce = 16%nat -> (k <= length incs)%nat ->
  let c0 := (dec32 big (skipn 12 nonce) + match cv with Some v => v | None => 0 end)%Z in
  let c := (c0 + zsum (firstn k incs))%Z in
  counter_init nonce cv big = Ok c0 /\
  exists v, nth k (counter_trace nonce big c0 incs) (Err 0) = Ok v /\
            v = firstn 12 nonce ++ enc32 big (c mod 4294967296) /\
            length v = 16%nat /\ firstn 12 v = firstn 12 nonce /\ dec32 big (skipn 12 v) = (c mod 4294967296)%Z.
Proof.
  intros nonce cv big incs k Ln Hk c0 c. split.
  - unfold counter_init. rewrite Ln. reflexivity.
  - rewrite counter_trace_nth by assumption. fold c. unfold counter_encode. rewrite land_mask32.
    eexists. split; [reflexivity|].
    assert (L12 : length (firstn 12 nonce) = 12%nat) by (rewrite firstn_length; lia).
    fold (enc32 big (c mod 4294967296)).
    assert (L4 : length (enc32 big (c mod 4294967296)) = 4%nat)
      by (unfold enc32; destruct big; [apply be_enc_length | apply le_enc_length]).
    repeat split.
    + rewrite app_length. lia.
    + now apply firstn_app_exact.
    + rewrite (skipn_app_exact _ _ _ L12). apply dec32_enc32. apply Z.mod_pos_bound. lia.
Qed.
Print Assumptions counter_advance.
