From Coq Require Import ZArith NArith List Bool Lia.
Require Import Value Bytes BytesProofs GenMisc MiscModel GenCrypto Sha2 Aes Sm4 Modes Hmac Hkdf Cmac KeyWrap Crc
               CryptoProofs SymWrapModel SymWrapProofs.
Import ListNotations.
Local Open Scope N_scope.

Theorem xts_dec_enc :
  forall (E D : list N -> list N),
  (forall b, okb b -> D (E b) = b) -> (forall b, okb b -> okb (E b)) ->
  forall (E2 : list N -> list N) tweak m, okb (E2 tweak) -> wf_bytes m -> (16 <= length m)%nat ->
  xts_crypt D E2 true tweak (xts_crypt E E2 false tweak m) = m.
Proof. intros E D DE EO E2 tw m Ht W L. exact (xts_dec_enc_l E D DE EO E2 tw m Ht W L). Qed.
Print Assumptions xts_dec_enc.
