From Coq Require Import ZArith NArith List Bool Lia.
Require Import Value Bytes BytesProofs GenMisc MiscModel GenCrypto Sha2 Aes Sm4 Modes Hmac Hkdf Cmac KeyWrap Crc
               CryptoProofs SymWrapModel SymWrapProofs.
Import ListNotations.
Local Open Scope N_scope.

Theorem sb31_kdf_spec :
  forall key const rights mode key_length,
  ((0 <= rights <= 3)%Z -> (key_length = 128 \/ key_length = 256)%Z -> (0 <= const < 2 ^ 96)%Z -> aes_key_ok key = true ->
   kdf_derive key const rights mode key_length =
   Ok (aes_cmac key (kdf_layout const rights mode key_length 1) ++
       (if (key_length =? 256)%Z then aes_cmac key (kdf_layout const rights mode key_length 2) else [])) /\
   length (kdf_layout const rights mode key_length 1) = 32%nat) /\
  ((~ (0 <= rights <= 3) \/ (key_length <> 128 /\ key_length <> 256))%Z ->
   kdf_derive key const rights mode key_length = Err 1).
Proof. intros key c r m kl. split; [intros Hr Hk Hc Ha; split; [exact (sb31_kdf_spec_l key c r m kl Hr Hk Hc Ha) | apply kdf_layout_length] | exact (sb31_kdf_rejects_l key c r m kl)]. Qed.
Print Assumptions sb31_kdf_spec.
