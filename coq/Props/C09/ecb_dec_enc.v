From Coq Require Import ZArith NArith List Bool Lia.
Require Import Value Bytes BytesProofs GenMisc MiscModel GenCrypto Sha2 Aes Sm4 Modes Hmac Hkdf Cmac KeyWrap Crc
               CryptoProofs SymWrapModel SymWrapProofs.
Import ListNotations.
Local Open Scope N_scope.

Theorem ecb_dec_enc :
  forall (E D : list N -> list N),
  (forall b, okb b -> D (E b) = b) -> (forall b, okb b -> okb (E b)) ->
  forall m, wf_bytes m -> Nat.modulo (length m) 16 = 0%nat -> ecb D (ecb E m) = m.
Proof. intros E D DE EO m W M. exact (ecb_dec_enc_l E D DE EO m W M). Qed.
Print Assumptions ecb_dec_enc.
