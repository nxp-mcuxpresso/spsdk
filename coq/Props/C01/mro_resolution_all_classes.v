From Coq Require Import ZArith NArith List Bool Lia.
Require Import Value Bytes MbiMixinModel GenMbi MbiModel MbiProofs.
Import ListNotations.
Local Open Scope Z_scope.

(* C01: the composition mechanism of the model is the one of the code, for EVERY class of EVERY family in the database
   (Gen/GenMbi.v is regenerated from the database and the mixin classes on every run):
   - per mixin class: contributed attributes, PRE_PARSED, COUNT_IN_LEGACY_CERT_BLOCK_LEN and the defining class of each
     stage method are the hand tables of the model;
   - per distinct composition: the provider of collect_data / encrypt / post_encrypt / sign / finalize / disassemble_image /
     update_ivt / check_total_length / clean_ivt / disassembly_app_data found by the model's first-provider rule is the one
     Python's MRO finds on the created class, and hasattr() agrees;
   - the constants (IVT offsets, masks, flags, HMAC offset/size, key-store size, ...) are the ones the model assumes. *)
Theorem mro_resolution_all_classes : mixin_table_ok = true /\ resolution_ok = true /\ consts_ok = true.
Proof. repeat split; vm_compute; reflexivity. Qed.
Print Assumptions mro_resolution_all_classes.
