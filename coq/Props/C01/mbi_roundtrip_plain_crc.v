From Coq Require Import ZArith NArith List Bool Lia.
Require Import Value Bytes MbiMixinModel GenMbi MbiModel MbiProofs MbiRtProofs.
Import ListNotations.
Local Open Scope Z_scope.

(* C01, plain and CRC images (XIP or load-to-RAM), for EVERY mixin list accepted by wf_plain_crc (any order; App, IVT or
   IvtZeroTotalLength, TrustZone or TrustZoneMandatory, load address, image version, sub-type, HW key, relocation-table
   mixin, FwVersion; export mixins App / AppTrustZone with or without CrcSign), every payload of >= 0x38 bytes (multiple
   of 4, as the app setter guarantees; ANY content, including one that ends in a relocation-table marker), every load
   address / image version / sub-type / TrustZone setting (disabled, default, custom preset of the family's size) /
   HW-key flag, WITH or WITHOUT a relocation table of any number of entries:
   if the builder accepts x, parsing the exported image with the same class gives back the application (IVT words zeroed),
   the relocation table and every setting the class carries; and when the settings the class does not carry are at their
   defaults, re-exporting the parsed object reproduces the image. *)
Theorem mbi_roundtrip_plain_crc :
  forall (k : crypto) (c : mbi_class) (x : mbi) (tzsize sigsz : nat) (dek : option (list N)) (im : list N),
    wf_plain_crc c = true ->
    (56 <= length (m_app x))%nat -> (length (m_app x) mod 4 = 0)%nat ->
    0 <= m_subtype x < 4 -> 0 <= m_imgver x < 65536 ->
    (forall es, m_table x = Some es -> has_attr c AAppTable = true /\ entries_ok es) ->
    (forall d, m_tz x = TzCustom d -> length d = tzsize /\ (0 < tzsize)%nat) ->
    export_mbi k c x = Ok im ->
    parse_mbi k c tzsize sigsz dek im = Ok (parsed c x dek) /\
    (canonical_plain c x ->
       parsed c x dek = set_app x (clean_ivt (m_app x)) /\ export_mbi k c (parsed c x dek) = Ok im).
Proof.
  intros k c x tzsize sigsz dek im W L L4 R2 R3 HTb HZ E. split.
  2:{ intros C. rewrite (parsed_plain_canonical c x dek W C). split; [reflexivity|].
      rewrite export_clean_app; [exact E | exact L | apply (wf_plain_crc_spec c W)]. }
  destruct (export_plain_shape k c x im W L E) as (app'' & tb & La & CL & _ & FF & FL & TB & ->).
  destruct (wf_plain_crc_spec c W) as (WA & Wa & Wi & R1 & p & _ & PD & K).
  destruct (plain_class c WA) as (SUP & PE & PP & PF & PS & NC & HTZ & TG & _).
  set (data := app'' ++ tb ++ tz_part c x).
  assert (DF : get_flags data = create_flags c x) by (unfold get_flags, data; rewrite rd32_app by (rewrite off_flags_eq; lia); exact FF).
  assert (DL : rd32 OFF_LOAD data = ivt_load c x) by (unfold data; rewrite rd32_app by (rewrite off_load_eq; lia); exact FL).
  assert (PO : parse_ok c x dek tzsize sigsz data (c_mixins c)).
  { intros m Hi st _ _.
    assert (Hal : allowed_plain m = true) by (eapply forallb_forall in WA; eauto).
    destruct (simple_mixin m) eqn:Sm; [now apply mix_parse_simple|].
    assert (Hm : m = MixinTrustZone \/ m = MixinTrustZoneMandatory) by (destruct m; try discriminate Hal; try discriminate Sm; auto).
    pose proof (has_tz_mixin_attr c m Hi Hm) as HA2.
    apply mix_parse_tz_nocert; try assumption; [now rewrite HTZ|].
    intros d Ed. destruct (HZ d Ed) as [Ld Lz]. destruct tzsize as [|n]; [lia|]. unfold data, tz_part. rewrite HA2, Ed. cbn [tz_export].
    rewrite <- Ld, (app_assoc app'' tb d), take_last_app. apply tz_from_binary_exact. }
  unfold parse_mbi. rewrite SUP. cbn [negb].
  rewrite (rounds_result c x dek tzsize sigsz data PO) by (rewrite NC; discriminate). cbn [bind].
  set (st := rounds_state c x dek).
  rewrite finalize_revert_none by exact PF. cbn [bind].
  assert (SR : sign_revert c st data = Ok data) by (unfold sign_revert; destruct PS as [-> | ->]; reflexivity).
  rewrite SR. cbn [bind]. rewrite post_encrypt_revert_none by exact PP. cbn [bind].
  rewrite encrypt_revert_none by exact PE. cbn [bind].
  assert (RC : reloc_cut c st (app'' ++ tb) = Ok (set_table st (m_table x), app''))
    by (apply (reloc_cut_ok c x); try assumption; [lia | reflexivity]).
  destruct (clean_provider _ Wi) as (dcl & PCL).
  assert (FIN : finish_app c (set_table st (m_table x)) app'' = parsed c x dek).
  { unfold finish_app, provider. rewrite PCL, CL, pad4_id by (rewrite clean_ivt_length; assumption). reflexivity. }
  unfold disassemble. rewrite PD. destruct K as [[-> TZ]|[-> TZ]].
  - unfold data, tz_part. rewrite TZ, app_nil_r, RC. cbn [bind fst snd]. now rewrite FIN.
  - assert (CUT : cut_tz st data = app'' ++ tb).
    { unfold cut_tz, data, tz_part, st, rounds_state. cbn [m_tz]. rewrite TG, TZ.
      destruct (tz_export (m_tz x)) eqn:Et; [now rewrite !app_nil_r | rewrite <- Et, app_assoc; apply drop_last_app]. }
    rewrite CUT, RC. cbn [bind fst snd]. now rewrite FIN.
Qed.
Print Assumptions mbi_roundtrip_plain_crc.
