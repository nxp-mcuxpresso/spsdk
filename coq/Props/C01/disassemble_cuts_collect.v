From Coq Require Import ZArith NArith List Bool Lia.
Require Import Value Bytes MbiMixinModel GenMbi MbiModel MbiProofs MbiRtProofs.
Import ListNotations.
Local Open Scope Z_scope.

(* C01, signed classes (certificate block v1: Mbi_ExportMixinAppTrustZoneCertBlock; v2.1 + manifest:
   Mbi_ExportMixinAppCertBlockManifest) without the relocation-table mixin, duplicate-free mixin list, image type <> 0:
   whatever collect_data appends behind the application (certificate block, TrustZone data / manifest) and whatever
   follows (signature, digest), disassemble_image cuts the image at the certificate-block offset written into IVT word
   0x28, and that offset is the length of the application -- so the application comes back (IVT words zeroed).
   (Defect D20 -- a negative slice at this place -- made exactly this statement false.) *)
Theorem disassemble_cuts_collect :
  forall (c : mbi_class) (x : mbi) (tzsize : nat) (st : mbi) (segs : image) (tail : list N),
    (provider c SCollect = Some ExportMixinAppTrustZoneCertBlock /\ provider c SDisassemble = Some ExportMixinAppTrustZoneCertBlock
     \/ provider c SCollect = Some ExportMixinAppCertBlockManifest /\ provider c SDisassemble = Some ExportMixinAppCertBlockManifest
        /\ m_cert st <> None) ->
    nodupb (c_mixins c) = true -> has c MixinApp = true -> has c MixinRelocTable = false -> c_type c <> 0 ->
    (56 <= length (m_app x))%nat -> (length (m_app x) mod 4 = 0)%nat ->
    collect c x = Ok segs ->
    disassemble c tzsize st (flat segs ++ tail) = Ok (set_app st (clean_ivt (m_app x))).
Proof.
  intros c x tzsize st segs tail K ND HA HR T0 L L4 C.
  assert (SH : exists app' rest t, segs = app' :: rest /\ update_ivt c x (m_app x) t (app_len c x) = Ok app').
  { unfold collect in C. destruct K as [[K1 _]|[K1 _]]; rewrite K1 in C;
      destruct (m_app x) as [|b0 t0] eqn:Ea; try discriminate C; destruct (m_cert x) as [cb|]; try discriminate C.
    - destruct cb as [pre post sg|]; [|discriminate C].
      apply bind_ok in C as (cbb & _ & C). apply bind_ok in C as (app' & U & C). apply bind_ok in C as (rs & _ & C).
      injection C as <-. eauto.
    - apply bind_ok in C as ([] & _ & C). apply bind_ok in C as (app' & U & C). apply bind_ok in C as (cbb & _ & C).
      apply bind_ok in C as (mf0 & _ & C).
      destruct (has c MixinManifestCrc); [apply bind_ok in C as (mf & _ & C)|]; injection C as <-; eauto. }
  destruct SH as (app' & rest & t & -> & U). destruct (ivt_header c x _ _ _ _ L U) as (La & CL & _ & _ & W & _).
  replace (flat (app' :: rest) ++ tail) with ((app' ++ []) ++ flat rest ++ tail) by (now rewrite app_nil_r, flat_cons, app_assoc).
  apply disassemble_cert_cut; try (rewrite La; assumption); try assumption.
  - destruct K as [[_ K2]|[_ K2]]; auto.
  - rewrite W, app_nil_r. unfold ivt_crc, zlen. destruct (Z.eqb_spec (c_type c) 0); [contradiction|].
    rewrite La. now apply app_len_no_table.
  - unfold reloc_cut, provider. rewrite reloc_provider_has. unfold has in HR. unfold hasl. now rewrite HR, app_nil_r.
Qed.
Print Assumptions disassemble_cuts_collect.
