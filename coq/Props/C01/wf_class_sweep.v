From Coq Require Import ZArith NArith List Bool Lia.
Require Import Value Bytes MbiMixinModel GenMbi MbiModel MbiProofs MbiRtProofs MbiSweepProofs.
Import ListNotations.
Local Open Scope Z_scope.

(* C01: EVERY class of EVERY family in the database (332 classes / 50 distinct compositions on this tree; the list is
   regenerated on every run) has a duplicate-free mixin list, an image type in 0..63, the App mixin, at most one TrustZone
   mixin, and is of one of the kinds: plain/CRC (for which mbi_roundtrip_plain_crc and len_is_sum_plain_crc apply),
   signed cert-block-v1, signed cert-block-v2.1 + manifest, encrypted, or one of the BCA/FCF based classes
   (Model/MbiBcaModel.v). *)
Theorem wf_class_sweep : forall c, In c gen_compositions -> wf_class c = true.
Proof. exact (proj1 (forallb_forall wf_class gen_compositions) wf_class_all). Qed.
Print Assumptions wf_class_sweep.
