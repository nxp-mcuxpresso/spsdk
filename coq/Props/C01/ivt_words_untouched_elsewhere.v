From Coq Require Import ZArith NArith List Bool Lia.
Require Import Value Bytes MbiMixinModel GenMbi MbiModel MbiProofs.
Import ListNotations.
Local Open Scope Z_scope.

(* C01: update_ivt keeps the length and changes nothing outside bytes 0x20..0x2B and 0x34..0x37. *)
Theorem ivt_words_untouched_elsewhere :
  forall (c : mbi_class) (x : mbi) (app app' : list N) (total crc_cert : Z),
    (56 <= length app)%nat ->
    update_ivt c x app total crc_cert = Ok app' ->
    length app' = length app /\
    forall i, ~ (32 <= i < 44)%nat -> ~ (52 <= i < 56)%nat -> nth i app' 0%N = nth i app 0%N.
Proof.
  intros c x app app' total cc L H. split; [eapply update_ivt_length; eassumption|].
  apply update_ivt_inv in H as (wf & wt & wc & wl & H1 & H2 & H3 & H4 & ->).
  apply u32_length in H1, H2, H3, H4. intros i N1 N2.
  destruct (ivt_chain_lengths app wf wt wc wl H1 H2 H3 H4 L) as (A1 & A2 & A3 & A4).
  rewrite !nth_wr_outside by lia. reflexivity.
Qed.
Print Assumptions ivt_words_untouched_elsewhere.
