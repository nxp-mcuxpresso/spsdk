From Coq Require Import ZArith NArith List Bool Lia.
Require Import Value Bytes MbiMixinModel GenMbi MbiModel MbiProofs MbiRtProofs MbiSweepProofs.
Import ListNotations.
Local Open Scope Z_scope.

(* C01: the witnesses of the repaired findings, positive, computed on the model with classes of the database:
   F1 image with a relocation table parses back;  F2 payload ending in a table marker comes back whole;  F3 HMAC class
   with a 56-byte application is refused by the builder;  F4 encrypted class with a 64-byte application: emitted length =
   IVT word 0x20 and the image parses back;  F5 manifest class with default TrustZone parses back as default;
   F7 cert block v1 with custom TrustZone parses back, also behind HMAC + key store. *)
Theorem repaired_findings_hold :
  (in_db c_crc_ram = true /\ export_mbi (k0 0) c_crc_ram x_reloc = Ok im_reloc /\
   parse_mbi (k0 0) c_crc_ram 1140 0 None im_reloc = Ok (parsed c_crc_ram x_reloc None)) /\
  (export_mbi (k0 0) c_crc_ram x_tail = Ok im_tail /\
   parse_mbi (k0 0) c_crc_ram 1140 0 None im_tail = Ok (parsed c_crc_ram x_tail None)) /\
  (in_db c_signed_ram = true /\ validate c_signed_ram (x_hmac 56) = Ok tt /\
   export_mbi (k0 256) c_signed_ram (x_hmac 56) = Err E_REJECT) /\
  (in_db c_encrypted = true /\ export_mbi (k0 256) c_encrypted x_enc = Ok im_enc /\ zlen im_enc = rd32 OFF_LEN im_enc /\
   parse_mbi (k0 256) c_encrypted 1140 256 (Some (zeros 32)) im_enc = Ok (parsed c_encrypted x_enc (Some (zeros 32)))) /\
  (in_db c_manifest = true /\ export_mbi (k0 64) c_manifest x_manifest = Ok im_manifest /\
   parse_mbi (k0 64) c_manifest 1100 64 None im_manifest = Ok (parsed c_manifest x_manifest None)) /\
  (in_db c_signed_xip = true /\ export_mbi (k0 256) c_signed_xip x_v1_tz = Ok im_v1_tz /\
   parse_mbi (k0 256) c_signed_xip 464 256 None im_v1_tz = Ok (parsed c_signed_xip (set_load x_v1_tz 0) None) /\
   export_mbi (k0 256) c_signed_ram x_ram_tz = Ok im_ram_tz /\
   parse_mbi (k0 256) c_signed_ram 1140 256 (Some (zeros 32)) im_ram_tz = Ok (parsed c_signed_ram x_ram_tz (Some (zeros 32)))).
Proof. exact MbiSweepProofs.repaired_findings_hold. Qed.
Print Assumptions repaired_findings_hold.
