From Coq Require Import ZArith NArith List Bool Lia.
Require Import Value Bytes MbiMixinModel GenMbi MbiModel MbiHistProofs.
Import ListNotations.
Local Open Scope Z_scope.

(* C01, ONE builder object used many times.  A history is any list of operations [export | assign a member: application,
   load address, image version, sub-type, TrustZone preset, HW-key flag, key store, HMAC key, CTR IV, relocation table,
   certificate block, manifest]; the object IS its current field values.  The n-th image produced by ANY history is
   export_mbi of the fields current at that moment -- nothing else is carried from earlier exports or assignments (a
   total length remembered from an earlier export, for instance, would falsify this for the implementation: the
   "object reuse histories" stream of the check compares every such export with a fresh object and with this model). *)
Theorem history_export_is_current_state :
  forall (k : crypto) (c : mbi_class) (ops : list op) (x : mbi) (n : nat) (r : res (list N)),
    nth_error (run_history k c x ops) n = Some r ->
    exists pre post, ops = pre ++ OpExport :: post /\ exports_in pre = n /\ r = export_mbi k c (state_after x pre).
Proof.
  intros k c ops. induction ops as [|o t IH]; intros x n r H; [destruct n; discriminate H|].
  cbn [run_history] in H. destruct (is_export o) eqn:Eo.
  - destruct o; try discriminate Eo. destruct n as [|n].
    + cbn [nth_error] in H. injection H as <-. exists [], t. repeat split.
    + cbn [nth_error] in H. destruct (IH _ _ _ H) as (pre & post & -> & Hn & ->).
      exists (OpExport :: pre), post. repeat split. unfold exports_in in *. cbn [filter is_export length]. now rewrite Hn.
  - destruct (IH _ _ _ H) as (pre & post & -> & Hn & ->).
    exists (o :: pre), post. repeat split. unfold exports_in in *. cbn [filter]. now rewrite Eo.
Qed.
Print Assumptions history_export_is_current_state.
