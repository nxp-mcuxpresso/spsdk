From Coq Require Import ZArith NArith List Bool Lia.
Require Import Value Bytes MbiMixinModel GenMbi MbiModel MbiProofs MbiRtProofs MbiSweepProofs.
Import ListNotations.
Local Open Scope Z_scope.

(* C01: for EVERY family and EVERY (target, authentication) pair it offers, MasterBootImage.parse finds a class for the
   image type the exporting class writes, and the class it finds has the same image type and at least the mixins of the
   exporting class -- except for the listed incompatibility (finding C01-F8: the selected class lacks the IVT-with-length
   or load-address mixin of the exporting class, or the family has a fixed image type). *)
Theorem class_selection_sweep :
  forall s, In s all_selections ->
    exists c c', s = Some (c, c') /\ (sel_ok c c' = true \/ known_ambiguous c c' = true).
Proof.
  intros s Hs. pose proof (proj1 (forallb_forall _ all_selections) class_selection_all s Hs) as H.
  destruct s as [[c c']|]; [|discriminate]. exists c, c'. split; [reflexivity|]. now apply orb_true_iff.
Qed.
Print Assumptions class_selection_sweep.
