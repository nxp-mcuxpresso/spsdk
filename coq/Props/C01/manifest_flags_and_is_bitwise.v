From Coq Require Import ZArith NArith List Bool Lia.
Require Import Value Bytes MbiMixinModel GenMbi MbiModel MbiProofs.
Import ListNotations.
Local Open Scope Z_scope.

(* C01: Mbi_ExportMixinAppCertBlockManifest.finalize tests `flags and DIGEST_PRESENT_FLAG and digest_hash_algo is not None`
   (logical `and`); for every manifest the constructor can build (digest algorithm none / sha256 / sha384 / sha512) this is
   the same as the bitwise test `flags & DIGEST_PRESENT_FLAG` that mix_len uses -- the logical `and` is harmless. *)
Theorem manifest_flags_and_is_bitwise :
  forall dg : Z, 0 <= dg <= 3 ->
    (negb (manifest_flags dg =? 0) && negb (dg =? 0)) = negb (Z.land (manifest_flags dg) G_MANIFEST_DIGEST_PRESENT_FLAG =? 0).
Proof.
  intros dg H. assert (D : dg = 0 \/ dg = 1 \/ dg = 2 \/ dg = 3) by lia.
  destruct D as [->|[->|[->| ->]]]; vm_compute; reflexivity.
Qed.
Print Assumptions manifest_flags_and_is_bitwise.
