From Coq Require Import ZArith NArith List Bool Lia.
Require Import Value Bytes MbiMixinModel GenMbi MbiModel MbiProofs MbiRtProofs MbiSweepProofs.
Import ListNotations.
Local Open Scope Z_scope.

(* C01 refuted (finding C01-F8): some family offers a class WITH a load address whose images are parsed with a class that
   has a different mixin set and NO load address (the two classes share their image type), so the load address cannot
   come back. *)
Theorem class_selection_refuted : exists s, In s all_selections /\ bad_selection s = true.
Proof. apply existsb_exists. vm_compute. reflexivity. Qed.
Print Assumptions class_selection_refuted.
