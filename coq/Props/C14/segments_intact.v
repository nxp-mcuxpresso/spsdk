From Coq Require Import ZArith NArith List Bool Lia.
From Coq Require String.
Require Import Value Bytes GenBimg BimgModel BimgProofs.
Import ListNotations.
Local Open Scope Z_scope.

(* C14: the exported image carries every supplied, non-excluded segment unchanged at its offset. *)
Theorem segments_intact :
  forall t io ps k x o img,
  wf_table t -> List.length ps = List.length (segs t) -> fits t ps -> valid_start t io ->
  nth_error (place t io ps) k = Some x -> present io x = true -> p_off x = Ok o ->
  merge t io ps = Ok img ->
  zfirst (zlen (p_data x)) (zskip o img) = p_data x.
Proof.
  intros t io ps k x o img.
  intros W Hl F V Hk Hp Ho Hm. destruct (merge_flat t io ps img W Hl F V Hm) as (S & _ & ->).
  destruct (fill_layout_skip (fillb t) _ o (p_data x) 0 S (subs_in _ _ _ _ _ Hk Hp Ho)) as [rest Hr].
  rewrite Z.sub_0_r in Hr. rewrite Hr. now apply zfirst_app_exact.
Qed.
Print Assumptions segments_intact.
