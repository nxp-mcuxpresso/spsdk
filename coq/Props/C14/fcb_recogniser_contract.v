From Coq Require Import ZArith NArith List Bool Lia.
From Coq Require String.
Require Import Value Bytes GenBimg BimgModel BimgProofs.
Import ListNotations.
Local Open Scope Z_scope.

(* C14 (repaired C14-F4): the FCB segment parser meets the recogniser contract rec_ok for a tagged block of the class SIZE and
   for an omitted FCB, whether or not the family has an FCB description (fcb_supported c). *)
Theorem fcb_recogniser_contract :
  forall c f s p,
  fcb_class s = true -> 0 < fsize s -> In f padding_bytes ->
  (p = [] \/ (zlen p = fsize s /\ fcb_tag p = true /\ forall b, In b padding_bytes -> all_eq b p = false)) ->
  rec_ok (rec_std c) (find_std c) f s p.
Proof.
  intros c f s p.
  intros Ht Hs Hf Hp. pose proof (fun bin => rec_std_fcb c s bin Ht) as Hrec. unfold fcb_class in Ht.
  split.
  - intros -> _. split; [assumption|]. intros n rest Hn. rewrite Hrec, zlen_app, zlen_repeat.
    pose proof (zlen_nonneg rest). destruct (Z.of_nat n + zlen rest <? fsize s) eqn:E; [lia|].
    rewrite fcb_tag_fill, is_padding_fill by (assumption || lia). reflexivity.
  - intros Hne rest _. destruct Hp as [->|(Hlen & Htg & Hnp)]; [congruence|].
    split; [|intros _; apply find_std_0; lia]. rewrite Hrec, zlen_app.
    pose proof (zlen_nonneg rest). destruct (zlen p + zlen rest <? fsize s) eqn:E; [lia|].
    assert (Htag : fcb_tag (p ++ rest) = true).
    { unfold fcb_tag in *. apply orb_true_iff in Htg. apply orb_true_iff.
      destruct Htg as [T|T]; [left|right]; now apply starts_with_app. }
    rewrite Htag. destruct (fcb_supported c); [|now apply rec_raw_payload].
    cbv zeta. now rewrite zfirst_app_exact.
Qed.
Print Assumptions fcb_recogniser_contract.
