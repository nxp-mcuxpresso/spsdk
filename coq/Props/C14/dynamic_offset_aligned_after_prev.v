From Coq Require Import ZArith NArith List Bool Lia.
From Coq Require String.
Require Import Value Bytes GenBimg BimgModel BimgProofs.
Import ListNotations.
Local Open Scope Z_scope.

(* C14: a floating segment (database offset < 0) starts at the least multiple of its alignment at or after the end of its
   predecessor (which has a fixed offset), in full-image coordinates. *)
Theorem dynamic_offset_aligned_after_prev :
  forall t io ps k xp x,
  wf_table t -> nth_error (place t io ps) k = Some xp -> nth_error (place t io ps) (S k) = Some x ->
  doff (p_seg x) < 0 ->
  let e := doff (p_seg xp) + zlen (p_data xp) in
  let a := algn (p_seg x) in
  exists o, p_off x = Ok o /\ 0 <= doff (p_seg xp) /\ 0 < a /\
            e <= o + io /\ (o + io) mod a = 0 /\ o + io < e + a /\
            (forall m, e <= m -> m mod a = 0 -> o + io <= m).
Proof.
  intros t io ps k xp x.
  intros W H1 H2 Hd e a. rewrite (place_spec t io ps W) in H1, H2.
  destruct (place_from_nth _ _ _ _ _ H1) as (pe1 & Hn1 & _ & Ho). specialize (Ho _ H2).
  destruct (place_from_nth _ _ _ _ _ H2) as (_ & Hn2 & _). apply combine_nth_fst in Hn1, Hn2.
  destruct (before_floating t k _ _ W Hn1 Hn2 Hd) as (Ha & Hfx & Hdp & Hfp).
  rewrite (off_of_fixed pe1), Hfp, (off_of_floating _ _ Hfx) in Ho by lia. fold e a in Ho.
  unfold seg_offset, excluded in Ho. replace (0 <=? fo (p_seg x)) with false in Ho by lia.
  rewrite andb_false_r in Ho. cbn in Ho.
  exists (align_up e a - io). pose proof (align_up_spec e a Ha) as (A1 & A2 & A3).
  repeat split; try assumption; try lia.
  - now replace (align_up e a - io + io) with (align_up e a) by lia.
  - intros m Hm Hmod. pose proof (align_up_least e a m Ha Hm Hmod). lia.
Qed.
Print Assumptions dynamic_offset_aligned_after_prev.
