From Coq Require Import ZArith NArith List Bool Lia.
From Coq Require String.
Require Import Value Bytes GenBimg BimgModel BimgProofs.
Import ListNotations.
Local Open Scope Z_scope.

(* C14-F3 (known finding): a segment set that round-trips as a complete image, merged from the start of a non-INIT segment
   (image_version of the LPC55S3x NOR layout, accepted by the init_offset setter), cannot be parsed back. *)
Theorem parse_noninit_offset_refuted :
  exists t io ps c img0 img, wf_table t /\ valid_start t io /\ set_init t io = Ok io /\
    merge t 0 ps = Ok img0 /\ parse_typed (rec_std c) (find_std c) t img0 = Ok (0, ps) /\
    merge t io ps = Ok img /\ parse_typed (rec_std c) (find_std c) t img = Err 1%N.
Proof.
  pose (ps := [[70; 67; 70; 66]%N ++ syn 130 508; [52; 18; 203; 237]%N; syn 140 64]).
  pose (img := fun io => match merge t_lpc55s3x_nor io ps with Ok a => a | Err _ => [] end).
  exists t_lpc55s3x_nor, 1536, ps, (mkCtx true [mkDescr 10 (firstn 8 (syn 140 64)) 64 true]), (img 0), (img 1536).
  split; [vm_compute; reflexivity|]. split.
  - right. eexists. split; [right; left; reflexivity|]. vm_compute. split; [reflexivity|discriminate].
  - split; [vm_compute; reflexivity|]. split; [apply res_ok_get; vm_compute; reflexivity|].
    split; [apply parsed_eq; vm_compute; reflexivity|]. split; [apply res_ok_get|]; vm_compute; reflexivity.
Qed.
Print Assumptions parse_noninit_offset_refuted.
