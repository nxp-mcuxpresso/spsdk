From Coq Require Import ZArith NArith List Bool Lia.
From Coq Require String.
Require Import Value Bytes GenBimg BimgModel BimgProofs.
Import ListNotations.
Local Open Scope Z_scope.

(* C14: the contract rec_ok is met by the code's generic Segment.parse_binary (key blob, key store, BEE headers) for payloads
   of exactly the class SIZE that are not pure padding, and for omitted segments when the fill byte is a padding byte. *)
Theorem raw_recogniser_contract :
  forall c f s p,
  raw_tag s = true -> 0 < fsize s -> In f padding_bytes ->
  (p = [] \/ (zlen p = fsize s /\ forall b, In b padding_bytes -> all_eq b p = false)) ->
  rec_ok (rec_std c) (find_std c) f s p.
Proof.
  intros c f s p.
  intros Ht Hs Hf Hp. unfold raw_tag in Ht.
  assert (Hrec : forall bin, rec_std c s bin = rec_raw s bin) by (intros bin; unfold rec_std; cbv zeta; now rewrite Ht).
  split.
  - intros -> _. split; [assumption|]. intros n rest Hn. rewrite Hrec. apply rec_raw_fill; [assumption|lia].
  - intros Hne rest _. destruct Hp as [->|[Hlen Hnp]]; [congruence|].
    split; [rewrite Hrec; now apply rec_raw_payload | intros _; apply find_std_0; lia].
Qed.
Print Assumptions raw_recogniser_contract.
