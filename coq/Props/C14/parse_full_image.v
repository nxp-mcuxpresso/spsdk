From Coq Require Import ZArith NArith List Bool Lia.
From Coq Require String.
Require Import Value Bytes GenBimg BimgModel BimgProofs.
Import ListNotations.
Local Open Scope Z_scope.

(* C14: BootableImage.parse (memory type given) of a complete merged image returns init offset 0 and the supplied segments:
   the first attempt succeeds (verify_layout / verify_segments are the layout-dependent checks of verify()). *)
Theorem parse_full_image :
  forall rec find t ps img,
  wf_table t -> List.length ps = List.length (segs t) -> fits t ps ->
  supplied_ok 0 (combine (segs t) ps) ->
  (forall s p, In (s, p) (combine (segs t) ps) -> rec_ok rec find (fillb t) s p) ->
  verify_layout t 0 ps = true -> verify_segments t ps = true ->
  merge t 0 ps = Ok img ->
  parse_typed rec find t img = Ok (0, ps).
Proof.
  intros rec find t ps img.
  intros W Hl F Su R V1 V2 Hm. unfold parse_typed, try_parse. cbn [set_init Z.ltb Z.eqb Z.compare].
  rewrite (parse_merge_lemma rec find t 0 ps img W Hl F (or_introl eq_refl) Su); try assumption.
  - rewrite (masked_full t ps Hl), V1, V2. reflexivity.
  - intros s p Hin _. now apply R.
Qed.
Print Assumptions parse_full_image.
