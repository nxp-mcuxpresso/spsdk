From Coq Require Import ZArith NArith List Bool Lia.
From Coq Require String.
Require Import Value Bytes GenBimg BimgModel BimgProofs.
Import ListNotations.
Local Open Scope Z_scope.

(* C14: when no payload reaches into the next fixed segment ("sizes up to the next segment's offset"), any two segments of
   the image occupy disjoint byte ranges, in table order. *)
Theorem no_overlap :
  forall t io ps i j xi xj oi oj,
  wf_table t -> fits t ps -> (i < j)%nat ->
  nth_error (place t io ps) i = Some xi -> nth_error (place t io ps) j = Some xj ->
  p_off xi = Ok oi -> p_off xj = Ok oj ->
  oi + zlen (p_data xi) <= oj.
Proof.
  intros t io ps i j xi xj oi oj.
  intros W F Hij Hi Hj Hoi Hoj. rewrite (place_spec t io ps W) in Hi, Hj.
  eapply chain_disjoint; try eassumption. now apply chain_of_table.
Qed.
Print Assumptions no_overlap.
