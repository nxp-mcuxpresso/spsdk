From Coq Require Import ZArith NArith List Bool Lia.
From Coq Require String.
Require Import Value Bytes GenBimg BimgModel BimgProofs.
Import ListNotations.
Local Open Scope Z_scope.

(* C14: the exported image ends with its last segment, and every byte outside the supplied segments is the device's fill
   pattern. *)
Theorem gaps_are_pattern :
  forall t io ps img,
  wf_table t -> List.length ps = List.length (segs t) -> fits t ps -> valid_start t io ->
  merge t io ps = Ok img ->
  total_len io (place t io ps) = Ok (zlen img) /\
  forall i, 0 <= i < zlen img ->
    (forall k x o, nth_error (place t io ps) k = Some x -> present io x = true -> p_off x = Ok o ->
                   ~ (o <= i < o + zlen (p_data x))) ->
    nth_error img (Z.to_nat i) = Some (fillb t).
Proof.
  intros t io ps img.
  intros W Hl F V Hm. destruct (merge_flat t io ps img W Hl F V Hm) as (S & Ht & ->).
  split.
  - rewrite Ht. f_equal. pose proof (BytesProofs.fill_layout_length (fillb t) _ 0 S). zlen_one. lia.
  - intros i Hi Hout. rewrite (nth_error_nth' _ (fillb t)) by (unfold zlen in *; lia). f_equal.
    rewrite <- (Z.sub_0_r i) at 1. apply fill_layout_gap; [exact S | lia |].
    intros o d Hin. destruct (subs_in_inv _ _ _ _ Hin) as (k & x & H1 & H2 & H3 & ->). eapply Hout; eassumption.
Qed.
Print Assumptions gaps_are_pattern.
