From Coq Require Import ZArith NArith List Bool Lia.
From Coq Require String.
Require Import Value Bytes GenBimg BimgModel BimgProofs.
Import ListNotations.
Local Open Scope Z_scope.

(* C14: every (family, revision, memory type) of the bootable_image feature points at a well-formed layout. *)
Theorem all_triples_indexed :
  forall f r m i, In (f, r, m, i) triples -> exists t, nth_error tables i = Some t /\ wf_table t.
Proof.
  intros f r m i.
  intros H. apply (proj1 (forallb_forall _ _) triples_in_range) in H. cbn [snd] in H. apply Nat.ltb_lt in H.
  destruct (nth_error tables i) as [t|] eqn:E; [|apply nth_error_None in E; lia].
  exists t. split; [reflexivity|]. exact (tables_wf t (nth_error_In _ _ E)).
Qed.
Print Assumptions all_triples_indexed.
