From Coq Require Import ZArith NArith List Bool Lia.
From Coq Require String.
Require Import Value Bytes GenBimg BimgModel BimgProofs.
Import ListNotations.
Local Open Scope Z_scope.

(* C14 (repaired C14-F2): a configuration is loaded only when no fixed-size class (key blob, FCB, key store, BEE headers, XMCD
   binary) is given more bytes than its SIZE, so nothing can be truncated by parse. *)
Theorem oversize_fixed_segment_rejected :
  forall t ps, load_check t ps = Ok tt ->
  forall s p, In (s, p) (combine (segs t) ps) -> sized_tag s = true -> 0 < fsize s -> zlen p <= fsize s.
Proof.
  intros t ps.
 apply oversize_rejected_l.
Qed.
Print Assumptions oversize_fixed_segment_rejected.
