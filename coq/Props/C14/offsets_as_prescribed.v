From Coq Require Import ZArith NArith List Bool Lia.
From Coq Require String.
Require Import Value Bytes GenBimg BimgModel BimgProofs.
Import ListNotations.
Local Open Scope Z_scope.

(* C14: in a well-formed layout every segment with a fixed database offset that belongs to the image (not excluded by the
   init offset) is reported and placed at  database offset - init offset , whatever the payloads are. *)
Theorem offsets_as_prescribed :
  forall t io ps k x,
  wf_table t -> nth_error (place t io ps) k = Some x ->
  0 <= doff (p_seg x) -> excluded io (p_seg x) = false ->
  p_off x = Ok (doff (p_seg x) - io).
Proof.
  intros t io ps k x.
  intros W H Hd Hx. rewrite (place_spec t io ps W) in H.
  destruct (place_from_nth _ _ _ _ _ H) as (pe' & Hn & Ho & _).
  apply combine_nth_fst in Hn. apply nth_error_In in Hn.
  pose proof (wf_static_offset t _ W Hn Hd) as Hf.
  rewrite Ho, off_of_fixed by lia. unfold seg_offset. rewrite Hx. cbn. now rewrite Hf.
Qed.
Print Assumptions offsets_as_prescribed.
