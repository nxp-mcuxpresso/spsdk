From Coq Require Import ZArith NArith List Bool Lia.
From Coq Require String.
Require Import Value Bytes GenBimg BimgModel BimgProofs.
Import ListNotations.
Local Open Scope Z_scope.

(* C14: every init offset the setter accepts is 0 or the non-negative start of a segment, i.e. a start for which
   segments_intact / gaps_are_pattern / parse_merge hold. *)
Theorem init_offset_valid_start :
  forall t r io, set_init t r = Ok io -> valid_start t io.
Proof.
  intros t r io.
  intros H. destruct (Z_lt_le_dec 0 r) as [Hr|Hr].
  - pose proof (init_offset_snaps_lemma t r Hr) as S. rewrite H in S. destruct S as ((s & Hs1 & Hs2) & Hle & _).
    right. exists s. repeat split; try assumption. lia.
  - unfold set_init in H. destruct (r <? 0) eqn:E1; [discriminate|]. destruct (r =? 0) eqn:E2; [|lia].
    injection H as <-. now left.
Qed.
Print Assumptions init_offset_valid_start.
