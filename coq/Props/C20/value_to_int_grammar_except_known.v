From Coq Require Import ZArith NArith List Bool Lia.
Require Import Value Bytes GenMisc MiscModel MiscProofs MiscGrammarProofs.
Import ListNotations.
Local Open Scope Z_scope.

Theorem value_to_int_grammar_except_known :
  forall s, ~ dup_prefix_class (strip_lower s) ->
    (forall v, value_to_int_str s = Ok v <-> number_grammar (strip_lower s) v) /\
    ((forall v, ~ number_grammar (strip_lower s) v) -> value_to_int_str s = Err 1%N).
Proof. exact value_to_int_grammar_except_known_l. Qed.
Print Assumptions value_to_int_grammar_except_known.
