From Coq Require Import ZArith NArith List Bool Lia.
Require Import Value Bytes GenMisc MiscModel MiscProofs.
Import ListNotations.
Local Open Scope Z_scope.

Theorem reverse_bytes_in_longs_involution :
  forall l, (forall l2, reverse_bytes_in_longs l = Ok l2 -> reverse_bytes_in_longs l2 = Ok l /\ length l2 = length l) /\
  ((Nat.modulo (length l) 4 <> 0)%nat <-> reverse_bytes_in_longs l = Err E_REJECT).
Proof. intros l. split; [intros l2 H; split; [now apply reverse_bytes_in_longs_involutive|now apply reverse_bytes_in_longs_length]|apply reverse_bytes_in_longs_rejects]. Qed.
Print Assumptions reverse_bytes_in_longs_involution.
