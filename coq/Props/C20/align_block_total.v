From Coq Require Import ZArith NArith List Bool Lia.
Require Import Value Bytes GenMisc MiscModel MiscProofs MiscPatternProofs.
Import ListNotations.
Local Open Scope Z_scope.

Theorem align_block_total :
  forall d a p,
    (0 < a -> pattern_defined p ->
       exists r, py_align (Z.of_nat (length d)) a = Ok r /\
         align_block d a p = Ok (d ++ pattern_prefix p (Z.to_nat (r - Z.of_nat (length d)))) /\
         Z.of_nat (length d) <= r < Z.of_nat (length d) + a /\ r mod a = 0) /\
    (a <= 0 -> align_block d a p = Err 1%N) /\
    (forall v, p = PNum v -> 0 < a -> v < 0 ->
       align_block d a p = if Z.of_nat (length d) mod a =? 0 then Ok d else Err 1%N).
Proof. exact align_block_total_l. Qed.
Print Assumptions align_block_total.
