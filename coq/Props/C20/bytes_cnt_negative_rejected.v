From Coq Require Import ZArith NArith List Bool Lia.
Require Import Value Bytes GenMisc MiscModel MiscProofs.
Import ListNotations.
Local Open Scope Z_scope.

Theorem bytes_cnt_negative_rejected :
  forall fuel v a2n bc, v < 0 -> py_get_bytes_cnt_of_int fuel v a2n bc = Err E_REJECT.
Proof. intros. now apply bytes_cnt_neg_rejected. Qed.
Print Assumptions bytes_cnt_negative_rejected.
