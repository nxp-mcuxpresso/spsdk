From Coq Require Import ZArith NArith List Bool Lia.
Require Import Value Bytes GenMisc MiscModel MiscProofs.
Import ListNotations.
Local Open Scope Z_scope.

Theorem bytes_cnt_width :
  forall v a2n, 0 <= v ->
  py_get_bytes_cnt_of_int (bytes_fuel v) v a2n 0 = Ok (width_spec v a2n) /\
  v < 2 ^ (8 * width_spec v a2n) /\ 0 < width_spec v a2n /\
  (a2n = false -> forall c, 0 < v -> 0 <= c -> v < 2 ^ (8 * c) -> width_spec v false <= c).
Proof. intros v a2n Hv. split; [now apply bytes_cnt_total|]. destruct (width_spec_fits v a2n Hv) as [H1 H2]. repeat split; try assumption. intros _ c Hp Hc Hb. now apply width_spec_minimal. Qed.
Print Assumptions bytes_cnt_width.
