From Coq Require Import ZArith NArith List Bool Lia.
Require Import Value Bytes GenMisc MiscModel MiscProofs MiscBitsProofs.
Import ListNotations.
Local Open Scope Z_scope.

Theorem reverse_bits_involution :
  forall x bits, 0 <= bits -> 0 <= x < 2 ^ bits ->
    exists y, reverse_bits x bits = Ok y /\ 0 <= y < 2 ^ bits /\
      (forall i, 0 <= i < bits -> Z.testbit y i = Z.testbit x (bits - 1 - i)) /\
      reverse_bits y bits = Ok x.
Proof. exact reverse_bits_involution_l. Qed.
Print Assumptions reverse_bits_involution.
