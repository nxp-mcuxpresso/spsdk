From Coq Require Import ZArith NArith List Bool Lia.
Require Import Value Bytes GenMisc MiscModel MiscProofs MiscPatternProofs.
Import ListNotations.
Local Open Scope Z_scope.

Theorem align_block_padding_is_pattern :
  forall d a p d2, align_block d a p = Ok d2 ->
    exists r, py_align (Z.of_nat (length d)) a = Ok r /\ Z.of_nat (length d) <= r /\
      d2 = d ++ pattern_prefix p (Z.to_nat (r - Z.of_nat (length d))).
Proof. exact align_block_pattern. Qed.
Print Assumptions align_block_padding_is_pattern.
