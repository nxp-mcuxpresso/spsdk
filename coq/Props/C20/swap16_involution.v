From Coq Require Import ZArith NArith List Bool Lia.
Require Import Value Bytes GenMisc MiscModel MiscProofs.
Import ListNotations.
Local Open Scope Z_scope.

Theorem swap16_involution :
  forall x, (0 <= x <= 65535 -> exists y, py_swap16 x = Ok y /\ 0 <= y <= 65535 /\ py_swap16 y = Ok x) /\
            (~ (0 <= x <= 65535) -> py_swap16 x = Err E_REJECT).
Proof. intros x. split; [apply swap16_involutive|apply swap16_rejects]. Qed.
Print Assumptions swap16_involution.
