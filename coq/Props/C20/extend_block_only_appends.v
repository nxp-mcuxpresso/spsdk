From Coq Require Import ZArith NArith List Bool Lia.
Require Import Value Bytes GenMisc MiscModel MiscProofs.
Import ListNotations.
Local Open Scope Z_scope.

Theorem extend_block_only_appends :
  forall d len pad, (forall d2, extend_block d len pad = Ok d2 ->
  exists k, d2 = d ++ repeat (Z.to_N pad) k /\ Z.of_nat (length d2) = len) /\
  (len < Z.of_nat (length d) <-> extend_block d len pad = Err E_REJECT).
Proof. intros d len pad. split; [intros d2; apply extend_block_appends|apply extend_block_rejects]. Qed.
Print Assumptions extend_block_only_appends.
