From Coq Require Import ZArith NArith List Bool Lia.
Require Import Value Bytes GenMisc MiscModel MiscProofs.
Import ListNotations.
Local Open Scope Z_scope.

Theorem align_block_only_appends :
  forall d a p d2, align_block d a p = Ok d2 ->
  exists pad r, d2 = d ++ pad /\ py_align (Z.of_nat (length d)) a = Ok r /\ Z.of_nat (length d2) = r.
Proof. intros d a p d2 H. now apply (align_block_appends d a p d2). Qed.
Print Assumptions align_block_only_appends.
