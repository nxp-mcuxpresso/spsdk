From Coq Require Import ZArith NArith List Bool Lia.
Require Import Value Bytes GenMisc MiscModel MiscProofs.
Import ListNotations.
Local Open Scope Z_scope.

Theorem swap_bytes_involution :
  forall l, (forall l2, swap_bytes l = Ok l2 -> swap_bytes l2 = Ok l) /\
  (Nat.even (length l) = false -> swap_bytes l = Err E_REJECT).
Proof. intros l. split; [intros l2; apply swap_bytes_involutive|]. intros H. unfold swap_bytes. now rewrite H. Qed.
Print Assumptions swap_bytes_involution.
