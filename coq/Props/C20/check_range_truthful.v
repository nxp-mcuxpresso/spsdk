From Coq Require Import ZArith NArith List Bool Lia.
Require Import Value Bytes GenMisc MiscModel MiscProofs.
Import ListNotations.
Local Open Scope Z_scope.

Theorem check_range_truthful :
  forall x lo hi, py_check_range x lo hi = Ok (if (lo <=? x) && (x <=? hi) then 1 else 0).
Proof.
  intros x lo hi. unfold py_check_range. rewrite (Z.leb_antisym x lo), (Z.leb_antisym hi x), <- negb_orb.
  now destruct (_ || _).
Qed.
Print Assumptions check_range_truthful.
