From Coq Require Import ZArith NArith List Bool Lia.
Require Import Value Bytes GenMisc MiscModel MiscProofs.
Import ListNotations.
Local Open Scope Z_scope.

Theorem align_least :
  forall n a, 0 <= n -> 0 < a ->
  exists r, py_align n a = Ok r /\ n <= r /\ r mod a = 0 /\ r < n + a /\
            (forall m, n <= m -> m mod a = 0 -> r <= m).
Proof. intros n a Hn Ha. destruct (align_ok n a Hn Ha) as (r & H1 & H2 & H3 & H4). exists r. repeat split; try assumption. intros m; now apply (align_least n a r m). Qed.
Print Assumptions align_least.
