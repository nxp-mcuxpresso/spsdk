From Coq Require Import ZArith NArith List Bool Lia.
Require Import Value Bytes GenMisc MiscModel MiscProofs.
Import ListNotations.
Local Open Scope Z_scope.

Theorem int_to_bytes_roundtrip :
  forall v cnt big bs, int_to_bytes v cnt big = Ok bs ->
  (if big then be_dec bs else le_dec bs) = Z.to_N v /\ Z.of_nat (length bs) = cnt /\ wf_bytes bs.
Proof. intros. now apply int_to_bytes_roundtrip. Qed.
Print Assumptions int_to_bytes_roundtrip.
