From Coq Require Import ZArith NArith List Bool Lia.
Require Import Value Bytes GenMisc MiscModel MiscProofs MiscBcdProofs.
Import ListNotations.
Local Open Scope Z_scope.

Theorem bcd_check_is_bcd :
  forall v, bcd_check v = true <-> bcd_valid v.
Proof. exact bcd_check_valid. Qed.
Print Assumptions bcd_check_is_bcd.
