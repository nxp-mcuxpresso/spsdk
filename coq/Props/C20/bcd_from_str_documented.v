From Coq Require Import ZArith NArith List Bool Lia.
Require Import Value Bytes GenMisc MiscModel MiscProofs MiscBcdProofs.
Import ListNotations.
Local Open Scope Z_scope.

Theorem bcd_from_str_documented :
  forall a b c, dec_str a -> dec_str b -> dec_str c ->
    bcd_from_str (dotted a b c) = Ok (bcd_read a, bcd_read b, bcd_read c) /\
    bcd_valid (bcd_read a) /\ bcd_valid (bcd_read b) /\ bcd_valid (bcd_read c) /\
    (canonical a -> canonical b -> canonical c ->
       bcd_to_str (bcd_read a, bcd_read b, bcd_read c) = dotted a b c).
Proof. exact bcd_from_str_documented_l. Qed.
Print Assumptions bcd_from_str_documented.
