From Coq Require Import ZArith NArith List Bool Lia.
Require Import Value Bytes GenMisc MiscModel MiscExtModel MiscBlkModel MiscBlkProofs.
Import ListNotations.
Local Open Scope Z_scope.

(* C20: SecBootBlckSize (spsdk/sbfile/misc.py) *)
Theorem blck_align_least :
  forall n,
  (0 <= n -> exists r, sbb_align n = Ok r /\ n <= r < n + BLOCK_SIZE /\ sbb_is_aligned r = true /\
                       (forall m, n <= m -> sbb_is_aligned m = true -> r <= m)) /\
  (n < 0 -> sbb_align n = Err 1%N).
Proof. exact sbb_align_least_l. Qed.
Print Assumptions blck_align_least.
