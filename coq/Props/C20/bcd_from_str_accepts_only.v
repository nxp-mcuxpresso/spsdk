From Coq Require Import ZArith NArith List Bool Lia.
Require Import Value Bytes GenMisc MiscModel MiscProofs MiscBcdProofs.
Import ListNotations.
Local Open Scope Z_scope.

Theorem bcd_from_str_accepts_only :
  forall s,
    ((exists v, bcd_from_str s = Ok v) \/ bcd_from_str s = Err 1%N) /\
    (forall x y z, bcd_from_str s = Ok (x, y, z) ->
       bcd_valid x /\ bcd_valid y /\ bcd_valid z /\
       exists a b c, s = dotted a b c /\ nodot a /\ nodot b /\ nodot c /\
         (length a <= 4)%nat /\ (length b <= 4)%nat /\ (length c <= 4)%nat /\
         bcd_num_from_str a = Ok x /\ bcd_num_from_str b = Ok y /\ bcd_num_from_str c = Ok z).
Proof. exact bcd_from_str_accepts_only_l2. Qed.
Print Assumptions bcd_from_str_accepts_only.
