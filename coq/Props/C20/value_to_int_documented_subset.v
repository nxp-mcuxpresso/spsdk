From Coq Require Import ZArith NArith List Bool Lia.
Require Import Value Bytes GenMisc MiscModel MiscProofs MiscGrammarProofs.
Import ListNotations.
Local Open Scope Z_scope.

Theorem value_to_int_documented_subset :
  forall t v,
    (number_grammar t v -> number_grammar_impl t v) /\
    (number_grammar_impl t v ->
       number_grammar t v \/ (dup_prefix_class t /\ forall v', ~ number_grammar t v')).
Proof. exact documented_subset_l. Qed.
Print Assumptions value_to_int_documented_subset.
