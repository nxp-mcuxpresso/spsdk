From Coq Require Import ZArith NArith List Bool Lia.
Require Import Value Bytes GenMisc MiscModel MiscProofs.
Import ListNotations.
Local Open Scope Z_scope.

Theorem align_rejects :
  forall n a, ((exists k, py_align n a = Err k) <-> (a <= 0 \/ n < 0)) /\ (forall k, py_align n a = Err k -> k = E_REJECT).
Proof. intros n a. split; [apply align_err_iff|apply align_err_kind]. Qed.
Print Assumptions align_rejects.
