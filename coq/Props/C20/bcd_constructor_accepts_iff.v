From Coq Require Import ZArith NArith List Bool Lia.
Require Import Value Bytes GenMisc MiscModel MiscExtModel MiscProofs MiscBcdProofs MiscBcdCtorProofs.
Import ListNotations.
Local Open Scope Z_scope.

Theorem bcd_constructor_accepts_iff :
  forall x y z,
    (bcd_valid x /\ bcd_valid y /\ bcd_valid z -> bcd_new x y z = Ok (x, y, z)) /\
    (~ (bcd_valid x /\ bcd_valid y /\ bcd_valid z) -> bcd_new x y z = Err 1%N) /\
    (forall v, bcd_new x y z = Ok v -> v = (x, y, z) /\ bcd_valid x /\ bcd_valid y /\ bcd_valid z).
Proof. exact bcd_new_iff_l. Qed.
Print Assumptions bcd_constructor_accepts_iff.
