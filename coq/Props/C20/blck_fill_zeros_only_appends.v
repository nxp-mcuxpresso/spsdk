From Coq Require Import ZArith NArith List Bool Lia.
Require Import Value Bytes GenMisc MiscModel MiscExtModel MiscBlkModel MiscBlkProofs.
Import ListNotations.
Local Open Scope Z_scope.

(* C20: SecBootBlckSize (spsdk/sbfile/misc.py) *)
Theorem blck_fill_zeros_only_appends :
  forall d, exists npad, sbb_align_block_fill_zeros d = Ok (d ++ repeat 0%N npad) /\ (npad < 16)%nat /\
               sbb_is_aligned (Z.of_nat (length d + npad)) = true /\
               (sbb_is_aligned (Z.of_nat (length d)) = true -> npad = 0%nat).
Proof.
  intros d. unfold sbb_align_block_fill_zeros, BLOCK_SIZE.
  destruct (MiscPatternProofs.align_block_total d 16 PZeros ltac:(lia) I) as (r & H1 & H2 & H3 & H4).
  exists (Z.to_nat (r - Z.of_nat (length d))). split.
  - rewrite H2. unfold MiscPatternProofs.pattern_prefix. cbn [MiscPatternProofs.pattern_byte]. now rewrite MiscPatternProofs.repeat_map_seq.
  - split; [lia|]. split.
    + apply sbb_is_aligned_mod. now replace (Z.of_nat (length d + Z.to_nat (r - Z.of_nat (length d)))) with r by lia.
    + intros Ha. apply sbb_is_aligned_mod in Ha.
      pose proof (MiscProofs.align_least (Z.of_nat (length d)) 16 r _ ltac:(lia) ltac:(lia) H1 (Z.le_refl _) Ha). lia.
Qed.
Print Assumptions blck_fill_zeros_only_appends.
