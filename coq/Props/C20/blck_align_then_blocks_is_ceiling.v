From Coq Require Import ZArith NArith List Bool Lia.
Require Import Value Bytes GenMisc MiscModel MiscExtModel MiscBlkModel MiscBlkProofs.
Import ListNotations.
Local Open Scope Z_scope.

(* C20: SecBootBlckSize (spsdk/sbfile/misc.py) *)
Theorem blck_align_then_blocks_is_ceiling :
  forall n, 0 <= n ->
  exists r k, sbb_align n = Ok r /\ sbb_to_num_blocks r = Ok k /\ BLOCK_SIZE * (k - 1) < n <= BLOCK_SIZE * k.
Proof.
  intros n Hn. destruct (proj1 (sbb_align_least_l n) Hn) as (r & H1 & H2 & H3 & _).
  apply sbb_is_aligned_iff in H3 as [k ->]. exists (BLOCK_SIZE * k), k.
  split; [exact H1|]. split; [now apply sbb_to_num_blocks_iff_l|]. unfold BLOCK_SIZE in *. lia.
Qed.
Print Assumptions blck_align_then_blocks_is_ceiling.
