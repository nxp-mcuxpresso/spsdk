From Coq Require Import ZArith NArith List Bool Lia.
Require Import Value Bytes GenMisc MiscModel MiscExtModel MiscBlkModel MiscBlkProofs.
Import ListNotations.
Local Open Scope Z_scope.

(* C20: SecBootBlckSize (spsdk/sbfile/misc.py) *)
Theorem blck_num_blocks_total :
  forall s, sbb_to_num_blocks s = Err 1%N \/ exists k, sbb_to_num_blocks s = Ok k /\ s = BLOCK_SIZE * k.
Proof.
  intros s. destruct (sbb_to_num_blocks s) as [k|e] eqn:E.
  - right. exists k. split; [reflexivity|]. now apply sbb_to_num_blocks_iff_l.
  - left. unfold sbb_to_num_blocks in E. now destruct (negb (sbb_is_aligned s)).
Qed.
Print Assumptions blck_num_blocks_total.
