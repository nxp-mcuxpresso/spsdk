From Coq Require Import ZArith NArith List Bool Lia.
Require Import Value Bytes GenMisc MiscModel MiscProofs MiscGrammarProofs.
Import ListNotations.
Local Open Scope Z_scope.

Theorem value_to_bytes_str_grammar :
  forall s a2n big,
    (forall v, number_grammar_impl (strip_lower s) v ->
       exists bs, value_to_bytes_str s a2n 0 big = Ok bs
         /\ (if big then be_dec bs else le_dec bs) = Z.to_N v
         /\ Z.of_nat (length bs) = width_spec v a2n) /\
    ((forall v, ~ number_grammar_impl (strip_lower s) v) ->
       forall bc, value_to_bytes_str s a2n bc big = Err 1%N).
Proof. exact value_to_bytes_str_grammar_l2. Qed.
Print Assumptions value_to_bytes_str_grammar.
