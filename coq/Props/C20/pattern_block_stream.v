From Coq Require Import ZArith NArith List Bool Lia.
Require Import Value Bytes GenMisc MiscModel MiscProofs MiscPatternProofs.
Import ListNotations.
Local Open Scope Z_scope.

Theorem pattern_block_stream :
  forall p n,
    (pattern_defined p -> pattern_block p n = Ok (pattern_prefix p n)) /\
    (~ pattern_defined p -> pattern_block p n = Err 1%N).
Proof. exact pattern_block_spec_l. Qed.
Print Assumptions pattern_block_stream.
