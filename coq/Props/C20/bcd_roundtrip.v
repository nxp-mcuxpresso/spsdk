From Coq Require Import ZArith NArith List Bool Lia.
Require Import Value Bytes GenMisc MiscModel MiscProofs MiscBcdProofs.
Import ListNotations.
Local Open Scope Z_scope.

Theorem bcd_roundtrip :
  forall x y z, bcd_valid x -> bcd_valid y -> bcd_valid z ->
    bcd_from_str (bcd_to_str (x, y, z)) = Ok (x, y, z).
Proof. exact bcd_roundtrip_l. Qed.
Print Assumptions bcd_roundtrip.
