From Coq Require Import ZArith NArith List Bool Lia.
Require Import Value Bytes GenMisc MiscModel MiscExtModel MiscBlkModel MiscBlkProofs.
Import ListNotations.
Local Open Scope Z_scope.

(* C20: SecBootBlckSize (spsdk/sbfile/misc.py) *)
Theorem blck_num_blocks_exact :
  forall s k, sbb_to_num_blocks s = Ok k <-> s = BLOCK_SIZE * k.
Proof. exact sbb_to_num_blocks_iff_l. Qed.
Print Assumptions blck_num_blocks_exact.
