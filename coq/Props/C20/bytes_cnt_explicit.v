From Coq Require Import ZArith NArith List Bool Lia.
Require Import Value Bytes GenMisc MiscModel MiscProofs.
Import ListNotations.
Local Open Scope Z_scope.

Theorem bytes_cnt_explicit :
  forall v a2n bc, 0 <= v -> 0 < bc ->
  py_get_bytes_cnt_of_int (bytes_fuel v) v a2n bc =
    if v =? 0 then Ok bc else if bc <? width_spec v a2n then Err E_REJECT else Ok bc.
Proof. intros. now apply bytes_cnt_with_cnt. Qed.
Print Assumptions bytes_cnt_explicit.
