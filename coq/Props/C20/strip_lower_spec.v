From Coq Require Import ZArith NArith List Bool Lia.
Require Import Value Bytes GenMisc MiscModel MiscProofs MiscGrammarProofs.
Import ListNotations.
Local Open Scope Z_scope.

Theorem strip_lower_spec :
  forall s, exists a m b, s = a ++ m ++ b /\ Forall ws a /\ Forall ws b /\
    (forall c m', m = c :: m' -> ~ ws c) /\ (forall c m', m = m' ++ [c] -> ~ ws c) /\
    strip_lower s = map to_lower m.
Proof. exact strip_lower_spec_l. Qed.
Print Assumptions strip_lower_spec.
