From Coq Require Import ZArith NArith List Bool Lia.
Require Import Value Bytes GenMisc MiscModel MiscExtModel MiscProofs MiscBcdProofs MiscBcdCtorProofs.
Import ListNotations.
Local Open Scope Z_scope.

Theorem bcd_to_version_is_from_str :
  forall s, bcd_to_version s = bcd_from_str s.
Proof. exact to_version_is_from_str. Qed.
Print Assumptions bcd_to_version_is_from_str.
