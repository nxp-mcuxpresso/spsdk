From Coq Require Import ZArith NArith List Bool Lia.
Require Import Value Bytes GenMisc MiscModel MiscProofs MiscBcdProofs.
Import ListNotations.
Local Open Scope Z_scope.

Theorem bcd_from_str_rejects :
  (forall s, count_occ N.eq_dec s 46%N <> 2%nat -> bcd_from_str s = Err 1%N) /\
  (forall a b c, nodot a -> nodot b -> nodot c ->
     (4 < length a \/ 4 < length b \/ 4 < length c)%nat -> bcd_from_str (dotted a b c) = Err 1%N).
Proof. exact bcd_from_str_rejects_l. Qed.
Print Assumptions bcd_from_str_rejects.
