From Coq Require Import ZArith NArith List Bool Lia.
Require Import Value Bytes GenMisc MiscModel MiscProofs.
Import ListNotations.
Local Open Scope Z_scope.

Theorem value_to_bytes_roundtrip :
  forall v a2n big, 0 <= v ->
  exists bs, value_to_bytes_int v a2n 0 big = Ok bs
   /\ (if big then be_dec bs else le_dec bs) = Z.to_N v
   /\ Z.of_nat (length bs) = width_spec v a2n.
Proof. intros. now apply value_to_bytes_total. Qed.
Print Assumptions value_to_bytes_roundtrip.
