From Coq Require Import ZArith NArith List Bool Lia.
Require Import Value Bytes GenMisc MiscModel MiscExtModel MiscBlkModel MiscBlkProofs.
Import ListNotations.
Local Open Scope Z_scope.

(* C20: SecBootBlckSize (spsdk/sbfile/misc.py) *)
Theorem blck_is_aligned_iff :
  forall s, sbb_is_aligned s = true <-> exists k, s = BLOCK_SIZE * k.
Proof. exact sbb_is_aligned_iff. Qed.
Print Assumptions blck_is_aligned_iff.
