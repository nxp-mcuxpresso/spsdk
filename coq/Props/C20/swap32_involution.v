From Coq Require Import ZArith NArith List Bool Lia.
Require Import Value Bytes GenMisc MiscModel MiscProofs.
Import ListNotations.
Local Open Scope Z_scope.

Theorem swap32_involution :
  forall x, (0 <= x <= 4294967295 -> exists y, swap32 x = Ok y /\ 0 <= y <= 4294967295 /\ swap32 y = Ok x) /\
            (~ (0 <= x <= 4294967295) -> swap32 x = Err E_REJECT).
Proof. intros x. split; [apply swap32_involutive|apply swap32_rejects]. Qed.
Print Assumptions swap32_involution.
