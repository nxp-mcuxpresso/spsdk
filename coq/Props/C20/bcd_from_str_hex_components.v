From Coq Require Import ZArith NArith List Bool Lia.
Require Import Value Bytes GenMisc MiscModel MiscExtModel MiscProofs MiscBcdProofs MiscBcdCtorProofs.
Import ListNotations.
Local Open Scope Z_scope.

Theorem bcd_from_str_hex_components :
  forall a b c, hex_str a -> hex_str b -> hex_str c ->
    ((exists v, bcd_from_str (dotted a b c) = Ok v) <-> (dec_str a /\ dec_str b /\ dec_str c)) /\
    (~ (dec_str a /\ dec_str b /\ dec_str c) -> bcd_from_str (dotted a b c) = Err 1%N).
Proof. exact bcd_from_str_hex_components_l. Qed.
Print Assumptions bcd_from_str_hex_components.
