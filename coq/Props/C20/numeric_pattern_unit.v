From Coq Require Import ZArith NArith List Bool Lia.
Require Import Value Bytes GenMisc MiscModel MiscProofs MiscPatternProofs.
Import ListNotations.
Local Open Scope Z_scope.

Theorem numeric_pattern_unit :
  forall v, 0 <= v ->
    value_to_bytes_int v false 0 true = Ok (num_unit v) /\ be_dec (num_unit v) = Z.to_N v /\
    (0 < length (num_unit v))%nat /\
    (forall c, 0 <= c -> v < 2 ^ (8 * c) -> v <> 0 -> Z.of_nat (length (num_unit v)) <= c).
Proof. exact num_unit_spec. Qed.
Print Assumptions numeric_pattern_unit.
