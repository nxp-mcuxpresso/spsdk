From Coq Require Import ZArith NArith List Bool Lia.
Require Import Value Bytes GenMisc MiscModel MiscProofs MiscBitsProofs.
Import ListNotations.
Local Open Scope Z_scope.

Theorem reverse_bits_out_of_range :
  forall x bits,
    (0 <= bits -> 2 ^ bits <= x ->
       exists y, reverse_bits x bits = Ok y /\ Z.odd y = true /\
         reverse_bits x bits = reverse_bits x (Z.log2 x + 1) /\
         (reverse_bits y bits = Ok x <-> Z.odd x = true)) /\
    (x < 0 \/ bits < 0 -> reverse_bits x bits = Err 2%N).
Proof. exact reverse_bits_out_of_range_l. Qed.
Print Assumptions reverse_bits_out_of_range.
