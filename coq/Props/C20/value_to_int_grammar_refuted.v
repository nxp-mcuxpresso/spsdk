From Coq Require Import ZArith NArith List Bool Lia.
Require Import Value Bytes GenMisc MiscModel MiscProofs MiscGrammarProofs.
Import ListNotations.
Local Open Scope Z_scope.

Theorem value_to_int_grammar_refuted :
  exists s v, value_to_int_str s = Ok v /\ dup_prefix_class (strip_lower s) /\
              forall v', ~ number_grammar (strip_lower s) v'.
Proof. exact value_to_int_grammar_refuted_l. Qed.
Print Assumptions value_to_int_grammar_refuted.
