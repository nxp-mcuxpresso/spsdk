From Coq Require Import ZArith NArith List Bool Lia.
Require Import Value Bytes GenMisc MiscModel MiscExtModel MiscProofs MiscBcdProofs MiscBcdCtorProofs.
Import ListNotations.
Local Open Scope Z_scope.

Theorem bcd_valid_is_decimal_nibbles :
  forall v, bcd_valid v <->
    (0 <= v < 16 ^ 4 /\ v mod 16 <= 9 /\ (v / 16) mod 16 <= 9 /\ (v / 256) mod 16 <= 9 /\ (v / 4096) mod 16 <= 9).
Proof. exact bcd_valid_nibbles. Qed.
Print Assumptions bcd_valid_is_decimal_nibbles.
