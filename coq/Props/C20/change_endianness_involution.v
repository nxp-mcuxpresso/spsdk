From Coq Require Import ZArith NArith List Bool Lia.
Require Import Value Bytes GenMisc MiscModel MiscProofs.
Import ListNotations.
Local Open Scope Z_scope.

Theorem change_endianness_involution :
  forall l l2, change_endianness l = Ok l2 -> change_endianness l2 = Ok l.
Proof. intros. now apply change_endianness_involutive. Qed.
Print Assumptions change_endianness_involution.
