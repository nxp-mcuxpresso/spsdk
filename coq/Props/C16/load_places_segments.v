From Coq Require Import ZArith NArith List Bool Lia Sorted Permutation.
Require Import Value Bytes GenMisc MiscModel ImageModel ImageProofs.
Import ListNotations.
Local Open Scope Z_scope.

(* C16: load_binary_image turns address-sorted segments (what bincopy delivers for BIN / HEX / S19) into an image
   whose offset is the lowest address (+ the caller's offset), which validates, and whose export holds every
   segment's bytes at (segment address - lowest address): the same bytes at the same absolute addresses. *)
Theorem load_places_segments :
  forall offset segs i,
  segs_sorted segs -> 0 <= offset + seg_base segs -> load_segments offset segs = Ok i ->
  ioff i = offset + seg_base segs /\ wf i /\ validate i = true /\
  exists b, export i = Ok b /\
            forall s d, In (s, d) segs ->
                        slice b (Z.to_nat (s - seg_base segs)) (Z.to_nat (s - seg_base segs + zlen d)) = d.
Proof.
  intros offset segs i.
  intros Hs Hoff Hload.
  assert (Hne : segs <> []) by (intros ->; discriminate).
  rewrite (load_segments_shape offset segs Hs Hne) in Hload. injection Hload as <-.
  assert (Hge : forall w, In w segs -> seg_base segs <= fst w).
  { destruct segs as [|[s d] t]; [congruence|]. intros w [<-|Hw]; [simpl; lia|].
    pose proof (segs_sorted_head_end t s d Hs) as Hf. rewrite Forall_forall in Hf. specialize (Hf w Hw).
    pose proof (BytesProofs.zlen_nonneg d). simpl in *. lia. }
  set (m := seg_base segs) in *. set (kids := map (seg_child m) segs).
  assert (Hw : wf (Img 0 1 (offset + m) [] None kids)).
  { constructor; simpl; auto; try lia. intros c Hc. apply in_map_iff in Hc. destruct Hc as (w & <- & _). apply wf_seg_child. }
  assert (Hv : validate (Img 0 1 (offset + m) [] None kids) = true).
  { apply validate_inv. repeat split.
    - exact Hoff.
    - now left.
    - intros c Hc. apply in_map_iff in Hc. destruct Hc as (w & <- & Hin). apply validate_seg_child. auto.
    - exact (proj2 (ilen_auto _ Hw eq_refl)).
    - apply segs_extents_disj. exact Hs. }
  split; [reflexivity|]. split; [exact Hw|]. split; [exact Hv|].
  destruct (export_xbytes _ Hw Hv) as [Hb _]. eexists. split; [exact Hb|].
  intros s d Hin.
  assert (Hc : In (seg_child m (s, d)) (isubs (Img 0 1 (offset + m) [] None kids))).
  { simpl. apply in_map_iff. now exists (s, d). }
  destruct (export_places_children_lemma _ _ Hw Hv Hc) as (b & x & Hb' & Hx & _ & Hsl).
  rewrite Hb in Hb'. injection Hb' as <-. rewrite export_seg_child in Hx. injection Hx as <-.
  rewrite ilen_seg_child in Hsl. exact Hsl.
Qed.
Print Assumptions load_places_segments.
