From Coq Require Import ZArith NArith List Bool Lia Sorted Permutation.
Require Import Value Bytes GenMisc MiscModel ImageModel ImageProofs.
Import ListNotations.
Local Open Scope Z_scope.

(* C16: validate() succeeds exactly for valid layouts (layout_ok: offset not negative, own binary fits, every
   sub-image valid and inside its parent, two distinct sub-images never overlap); otherwise it raises an SPSDK error
   (the model's validate is a boolean because every raise in validate() is an SPSDKError subclass). *)
Theorem validate_iff : forall i : img, validate i = true <-> layout_ok i.
Proof.
  intros i.
  induction i as [sz al off bin pat subs IH] using img_ind'. rewrite Forall_forall in IH.
  rewrite validate_inv. cbn [ioff ibin isubs]. split.
  - intros (H1 & H2 & H3 & H4 & H5). constructor; auto.
    + intros Hne. destruct H2; [contradiction|assumption].
    + intros c Hc. apply IH; auto.
    + now apply disj_extents_nth.
  - intros H. inversion H as [? ? ? ? ? ? Ho Hb Hcs Hf Hd]; subst. repeat split; auto.
    + destruct bin; [now left|right; apply Hb; discriminate].
    + intros c Hc. apply IH; auto.
    + now apply disj_extents_nth.
Qed.
Print Assumptions validate_iff.
