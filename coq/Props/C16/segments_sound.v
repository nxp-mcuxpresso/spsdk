From Coq Require Import ZArith NArith List Bool Lia Sorted Permutation.
Require Import Value Bytes GenMisc MiscModel ImageModel ImageProofs.
Import ListNotations.
Local Open Scope Z_scope.

(* C16: the memory -> segment step (maximal runs of written addresses, as bincopy keeps them): segments come out
   sorted and separated, every segment byte is the last value written to its address, and every written address
   lies in a segment. *)
Theorem segments_sound :
  forall ws : list (Z * list N),
  segs_sorted (segments ws) /\
  (forall s d, In (s, d) (segments ws) ->
     d <> [] /\ forall j, 0 <= j < zlen d -> mem_at ws (s + j) None = getz d j /\ getz d j <> None) /\
  (forall x b, mem_at ws x None = Some b -> exists s d, In (s, d) (segments ws) /\ s <= x < s + zlen d).
Proof. exact segments_sound_lemma. Qed.
Print Assumptions segments_sound.
