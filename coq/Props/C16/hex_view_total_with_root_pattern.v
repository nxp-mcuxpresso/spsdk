From Coq Require Import ZArith NArith List Bool Lia Sorted Permutation.
Require Import Value Bytes GenMisc MiscModel ImageModel ImageProofs.
Import ListNotations.
Local Open Scope Z_scope.

(* C16: an image whose root has a pattern (what `nxpimage utils binary-image merge` builds) is written completely:
   together with hex_view_is_export the HEX / S19 content is exactly export() on the whole extent. *)
Theorem hex_view_total_with_root_pattern :
  forall (f : bool) (i : img) (k : Z), ipat i <> None -> covered f i k = true.
Proof.
  intros f i k.
  destruct i as [sz al off bin [p|] subs]; simpl; [intros _; now rewrite orb_true_r|congruence].
Qed.
Print Assumptions hex_view_total_with_root_pattern.
