From Coq Require Import ZArith NArith List Bool Lia Sorted Permutation.
Require Import Value Bytes GenMisc MiscModel ImageModel ImageProofs.
Import ListNotations.
Local Open Scope Z_scope.

(* C16: append_image places the new sub-image at the parent's current length; for a parent with derived size
   the result is again a valid layout (nothing overlaps, nothing sticks out). *)
Theorem append_image_at_end :
  forall (p c : img), wf p -> wf c -> isz p = 0 -> validate p = true -> validate c = true ->
  validate (append_image p c) = true /\
  In (set_off c (ilen p)) (isubs (append_image p c)) /\ ioff (set_off c (ilen p)) = ilen p.
Proof.
  intros p c.
  intros Hwp Hwc Hsz Hvp Hvc. pose proof (ilen_nonneg p Hwp) as HL0.
  set (c' := set_off c (ilen p)).
  assert (Hoff : ioff c' = ilen p) by (unfold c'; destruct c; reflexivity).
  assert (Hvc' : validate c' = true) by (apply validate_set_off; auto).
  assert (Hwa : wf (append_image p c)) by (apply wf_add_image; [|apply wf_set_off]; assumption).
  apply validate_inv in Hvp. destruct Hvp as (H1 & H2 & H3 & H4 & H5).
  destruct p as [sz al off bin pat subs]. cbn [isz ioff ibin isubs] in *. subst sz.
  unfold append_image in *. fold c' in Hwa |- *. cbn [add_image isubs] in *.
  destruct (ilen_auto _ Hwa eq_refl) as (A1 & A2). cbn [ibin isubs] in A1, A2.
  destruct (insert_img_split c' subs) as (l1 & l2 & Hsubs & Hins & _ & _).
  split; [|split; [rewrite Hins; apply in_or_app; right; now left|exact Hoff]].
  apply validate_inv. cbn [ioff ibin isubs]. repeat split; [exact H1|right; exact A1| |exact A2|].
  - intros x Hx. apply in_insert_img in Hx. destruct Hx as [->|Hx]; auto.
  - rewrite Hins. unfold extents. rewrite map_app. cbn [map]. apply fop_insert.
    + rewrite <- map_app, <- Hsubs. exact H5.
    + intros x Hx. rewrite <- map_app, <- Hsubs in Hx. apply in_map_iff in Hx. destruct Hx as (y & <- & Hy).
      specialize (H4 y Hy). unfold disj. simpl. rewrite Hoff. split; [left|right]; lia.
Qed.
Print Assumptions append_image_at_end.
