From Coq Require Import ZArith NArith List Bool Lia Sorted Permutation.
Require Import Value Bytes GenMisc MiscModel ImageModel ImageProofs.
Import ListNotations.
Local Open Scope Z_scope.

(* C16: every position of the export that is not covered by a sub-image holds the image's own binary
   (positions below its length) or else the fill pattern byte of that position (fill_block; zeros when no
   pattern is given; for zeros / ones / inc the byte is 0 / 255 / k mod 256). *)
Theorem export_fill :
  forall (i : img) (k : Z), wf i -> validate i = true -> 0 <= k < ilen i ->
  (forall c, In c (isubs i) -> ~ (ioff c <= k < ioff c + ilen c)) ->
  (exists b, export i = Ok b /\
             getz b k = (if k <? zlen (ibin i) then getz (ibin i) k else getz (fill_block i) k)) /\
  match ipat i with
  | None | Some PZeros => getz (fill_block i) k = Some 0%N
  | Some POnes => getz (fill_block i) k = Some 255%N
  | Some PInc => getz (fill_block i) k = Some (Z.to_N (k mod 256))
  | Some (PNum _) => True
  end.
Proof. exact export_fill_lemma. Qed.
Print Assumptions export_fill.
