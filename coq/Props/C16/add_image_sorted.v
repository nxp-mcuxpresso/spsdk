From Coq Require Import ZArith NArith List Bool Lia Sorted Permutation.
Require Import Value Bytes GenMisc MiscModel ImageModel ImageProofs.
Import ListNotations.
Local Open Scope Z_scope.

(* C16: add_image keeps sub_images sorted by offset, adds exactly the new image, and is stable
   (the new image goes behind every sub-image with a smaller or equal offset). *)
Theorem add_image_sorted :
  forall (p c : img), Sorted off_le (isubs p) ->
  Sorted off_le (isubs (add_image p c)) /\ Permutation (c :: isubs p) (isubs (add_image p c)) /\
  exists l1 l2, isubs p = l1 ++ l2 /\ isubs (add_image p c) = l1 ++ c :: l2 /\
                Forall (fun x => ioff x <= ioff c) l1 /\
                match l2 with x :: _ => ioff c < ioff x | [] => True end.
Proof.
  intros p c.
  intros H. destruct p as [sz al off bin pat subs]. cbn [isubs add_image] in *. split; [now apply insert_img_sorted|].
  destruct (insert_img_split c subs) as (l1 & l2 & E1 & E2 & Hs). split; [|now exists l1, l2].
  rewrite E2, E1. apply Permutation_middle.
Qed.
Print Assumptions add_image_sorted.
