From Coq Require Import ZArith NArith List Bool Lia Sorted Permutation.
Require Import Value Bytes GenMisc MiscModel ImageModel ImageProofs.
Import ListNotations.
Local Open Scope Z_scope.

(* C16: for non-empty extents the two interval tests of validate() mean "no byte in common" and
   "every byte inside the parent". *)
Theorem validate_nonempty_bytes :
  forall b1 l1 b2 l2 L, 0 < l1 -> 0 < l2 ->
  (no_overlap (b1, l1) (b2, l2) = true <-> ~ exists x, (b1 <= x < b1 + l1) /\ (b2 <= x < b2 + l2)) /\
  (fits_in L (b1, l1) = true <-> forall x, b1 <= x < b1 + l1 -> x < L).
Proof.
  intros b1 l1 b2 l2 L.
  intros H1 H2. rewrite no_overlap_iff, fits_in_iff. unfold disj. cbn [fst snd]. repeat split.
  - intros H (x & Hx1 & Hx2). lia.
  - intros H. destruct (Z_le_dec (b1 + l1) b2) as [|Hn1]; [now left|].
    destruct (Z_le_dec (b2 + l2) b1) as [|Hn2]; [now right|].
    exfalso. apply H. exists (Z.max b1 b2). lia.
  - intros H x Hx. lia.
  - intros H. specialize (H (b1 + l1 - 1)). lia.
Qed.
Print Assumptions validate_nonempty_bytes.
