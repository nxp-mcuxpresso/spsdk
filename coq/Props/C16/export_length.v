From Coq Require Import ZArith NArith List Bool Lia Sorted Permutation.
Require Import Value Bytes GenMisc MiscModel ImageModel ImageProofs.
Import ListNotations.
Local Open Scope Z_scope.

(* C16: exporting a valid image tree yields a buffer of exactly the reported length.
   wf = what the BinaryImage constructor guarantees (alignment >= 1, _size >= 0 and aligned, pattern not negative);
   every image built by ImageModel.build is wf (ImageProofs.build_wf). *)
Theorem export_length :
  forall i : img, wf i -> validate i = true ->
  exists b, export i = Ok b /\ zlen b = ilen i.
Proof.
  intros i.
  intros Hw Hv. destruct (export_valid i Hw Hv) as (b & Hb & Hl & _). eauto.
Qed.
Print Assumptions export_length.
