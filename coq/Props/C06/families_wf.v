From Coq Require Import ZArith NArith List Bool Lia.
Require Import Value Bytes Sha2 Aes Modes CryptoProofs GenMisc GenAhab AhabModel AhabProofs.
Import ListNotations.
Local Open Scope Z_scope.

(* C06: every AHAB family/revision of the device database (regenerated on this run), every target memory and every container
   version the family allows: the image area starts on a 1 KiB boundary, all alignments and limits are positive, at most 4
   containers, and for container version 1 all container slots lie before the image area (containers at fixed offsets never
   reach the first image). *)
Theorem families_wf : forall fam, In fam gen_families -> fam_ok fam = true.
Proof.
 apply forallb_forall. vm_compute. reflexivity.
Qed.
Print Assumptions families_wf.
