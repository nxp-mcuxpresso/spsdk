From Coq Require Import ZArith NArith List Bool Lia.
Require Import Value Bytes Sha2 Aes Modes CryptoProofs GenMisc GenAhab AhabModel AhabProofs.
Import ListNotations.
Local Open Scope Z_scope.

(* C06: the SRK hash SPSDK reports (for the fuses) is SHA-256 of the SRK table bytes as they stand in the exported container. *)
Theorem srk_hash_of_exported_table :
  forall v2 c rs s bl,
  rs <> [] -> blob_ok bl -> c_sb c = sigblock_update rs (Some s) bl ->
  srk_hash v2 (c_sb c)
  = sha256 (zslice (container_bytes v2 c) (sbo c + sb_srk_off (c_sb c)) (sbo c + sb_srk_off (c_sb c) + srk_table_len rs)).
Proof.
  intros v2 c rs s bl.
  intros Hr Hb Hs. destruct (sigblock_update_exact rs s bl Hr) as (E1 & _ & _ & E4 & E5 & _). rewrite <- Hs in E1, E4, E5.
  pose proof (srk_table_len_pos rs) as TP. pose proof (srk_table_bytes_len v2 (srk_table_len rs) rs) as LT.
  unfold srk_hash. rewrite E4, E5, E1. destruct rs as [|r rt] eqn:ER; [contradiction|]. rewrite <- ER in *. f_equal.
  destruct (container_bytes_split v2 c) as [rest ->]. rewrite Hs, sigblock_concat by assumption.
  unfold zslice. rewrite <- !app_assoc, (app_assoc (container_head c)). symmetry. apply BytesProofs.slice_app_mid.
  - rewrite app_length, container_head_length, sigblock_header_len, sbo_val. len.
  - rewrite sbo_val. len.
Qed.
Print Assumptions srk_hash_of_exported_table.
