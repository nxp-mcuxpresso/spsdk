From Coq Require Import ZArith NArith List Bool Lia.
Require Import Value Bytes Sha2 Aes Modes CryptoProofs GenMisc GenAhab AhabModel AhabProofs.
Import ListNotations.
Local Open Scope Z_scope.

(* C06: after update_fields every entry carries, left aligned in the 64-byte field, the hash -- under the algorithm declared in
   its flags -- of exactly the bytes it points at in the exported file. *)
Theorem entry_hash :
  forall p l cs,
  ahab_update p l = Ok cs -> layout_ok p cs = true -> zlen' (containers_block p cs) = start_real p cs ->
  forall c e, In c cs -> In e (c_images c) ->
  exists h, hash_of (flags_hash (p_v2 p) (i_flags e)) (zslice (ahab_bytes p cs) (img_abs c e) (img_abs c e + i_size e)) = Ok h /\
            i_hash e = h ++ repeat 0%N (64 - length h).
Proof.
  intros p l cs.
  intros HU HL HB c e Hc He.
  assert (HS : forall c0 e0, In c0 cs -> In e0 (c_images c0) -> zlen' (i_image e0) <= i_size e0).
  { intros c0 e0 H0 H1. eapply entry_hash_ok_size, entry_hash_l; eassumption. }
  rewrite (entry_points_at_image_l p cs HL HB HS c e Hc He).
  destruct (entry_hash_l p l cs c e HU Hc He) as (m & h & Hm & Hh & Hf & _). exists h. split; [|assumption].
  rewrite fit_image_extend in Hm by (now apply (HS c e)). now inversion Hm; subst.
Qed.
Print Assumptions entry_hash.
