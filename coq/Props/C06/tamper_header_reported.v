From Coq Require Import ZArith NArith List Bool Lia.
Require Import Value Bytes Sha2 Aes Modes CryptoProofs GenMisc GenAhab AhabModel AhabProofs.
Import ListNotations.
Local Open Scope Z_scope.

(* C06, the modelled header parser: any change of the 16 header bytes is reported by a parse error, a changed
   object or the record; a change confined to the reserved half word (which the parser never reads: the object is unchanged)
   is reported by the record. *)
Theorem tamper_header_reported :
  forall v2 l l' h,
  header_parse v2 l = Ok h -> header_as_parsed v2 l h = true -> length l = length l' -> firstn 16 l <> firstn 16 l' ->
  (match header_parse v2 l' with Err _ => True | Ok h' => h' = h -> header_as_parsed v2 l' h' = false end) /\
  (firstn 14 l = firstn 14 l' -> header_parse v2 l' = Ok h /\ header_as_parsed v2 l' h = false).
Proof.
  intros v2 l l' h.
  intros HP HS HL HD.
  pose proof (eqb_list_pins _ _ _ HS HD : header_as_parsed v2 l' h = false) as K.
  split.
  - destruct (header_parse v2 l') as [h'|]; [|exact I]. now intros ->.
  - intros H14. split; [|exact K]. rewrite <- HP. symmetry. now apply header_parse_ignores_reserved.
Qed.
Print Assumptions tamper_header_reported.
