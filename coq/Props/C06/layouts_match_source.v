From Coq Require Import ZArith NArith List Bool Lia.
Require Import Value Bytes Sha2 Aes Modes CryptoProofs GenMisc GenAhab AhabModel AhabProofs.
Import ListNotations.
Local Open Scope Z_scope.

(* C06: the byte layouts used by the model are the struct formats extracted from spsdk/image/ahab/*.py on this run. *)
Theorem layouts_match_source :
  gen_fmt_container = [1; 2; 1; 4; 2; 1; 1; 2; 2] /\ gen_fmt_iae = [4; 4; 8; 8; 4; 4; 64; 32] /\
  gen_fmt_sigblock = [1; 2; 1; 2; 2; 2; 2; 4] /\ gen_fmt_srk_record = [1; 2; 1; 1; 1; 1; 1; 4] /\
  gen_fmt_srk_table = [1; 2; 1] /\ gen_fmt_signature = [1; 2; 1; 4] /\ gen_fmt_blob = [1; 2; 1; 1; 1; 1; 1] /\
  (forall v l f s u n o, length (header_bytes_raw v l f s u n o) = Z.to_nat (fold_right Z.add 0%Z gen_fmt_container)) /\
  (forall e, length (iae_bytes e) = Z.to_nat (fold_right Z.add 0%Z gen_fmt_iae)) /\
  (forall v sb, length (sigblock_header v sb) = Z.to_nat (fold_right Z.add 0%Z gen_fmt_sigblock)) /\
  (forall r, length (srk_rec_bytes r) = (Z.to_nat (fold_right Z.add 0%Z gen_fmt_srk_record) + length (sr_params r))%nat) /\
  (forall n s, length (signature_bytes n s) = (Z.to_nat (fold_right Z.add 0%Z gen_fmt_signature) + length s)%nat) /\
  (forall b, length (blob_bytes b) = (Z.to_nat (fold_right Z.add 0%Z gen_fmt_blob) + length (b_keyblob b))%nat).
Proof.
  repeat split; try reflexivity; intros;
    unfold header_bytes_raw, iae_bytes, sigblock_header, srk_rec_bytes, signature_bytes, blob_bytes;
    try destruct (key_sizes _); rewrite ?app_length, ?le_length, ?fit_s_length; simpl; lia.
Qed.
Print Assumptions layouts_match_source.
