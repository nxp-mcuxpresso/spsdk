From Coq Require Import ZArith NArith List Bool Lia.
Require Import Value Bytes Sha2 Aes Modes CryptoProofs GenMisc GenAhab AhabModel AhabProofs.
Import ListNotations.
Local Open Scope Z_scope.

(* C06: each range check of the verifier (the table extracted from AHABContainerBase._verify / ImageArrayEntry.verify on this
   run, evaluated with the translated misc.check_range) fails iff its OWN field is outside the width it has in the binary. *)
Theorem verify_flags_each_field :
  (forall c id, In id (failing_checks (cfield c) gen_container_checks) <->
     (id = 0 /\ ~ 0 <= c_flags c <= 2 ^ 32 - 1) \/ (id = 1 /\ ~ 0 <= flag_used_srk (c_flags c) <= 3) \/
     (id = 2 /\ ~ 0 <= flag_revoke (c_flags c) <= 15) \/ (id = 3 /\ ~ 0 <= c_sw c <= 2 ^ 16 - 1) \/
     (id = 4 /\ ~ 0 <= c_fuse c <= 2 ^ 8 - 1) \/ (id = 5 /\ ~ 0 <= sbo c <= 65535)) /\
  (forall e id, In id (failing_checks (ifield e) gen_iae_checks) <->
     (id = 10 /\ ~ 0 <= i_raw_off e <= 2 ^ 32 - 1) \/ (id = 11 /\ ~ 0 <= i_size e <= 2 ^ 32 - 1) \/
     (id = 12 /\ ~ 0 <= i_load e <= 2 ^ 64 - 1) \/ (id = 13 /\ ~ 0 <= i_entry e <= 2 ^ 64 - 1) \/
     (id = 14 /\ ~ 0 <= i_flags e <= 2 ^ 32 - 1) \/ (id = 15 /\ ~ 0 <= i_meta e <= 2 ^ 32 - 1)).
Proof.
  split; intros x id; unfold gen_container_checks, gen_iae_checks; rewrite !failing_checks_cons by auto;
    change (In id (failing_checks _ [])) with False; simpl; tauto.
Qed.
Print Assumptions verify_flags_each_field.
