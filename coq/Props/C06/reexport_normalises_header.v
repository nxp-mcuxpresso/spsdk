From Coq Require Import ZArith NArith List Bool Lia.
Require Import Value Bytes Sha2 Aes Modes CryptoProofs GenMisc GenAhab AhabModel AhabProofs.
Import ListNotations.
Local Open Scope Z_scope.

(* C06: what a parsed container header re-exports (and therefore what verify() authenticates): bytes 0..11 as read, the
   signature block offset recomputed from the number of images, the reserved half word zero. *)
Theorem reexport_normalises_header :
  forall v2 l h, wf_bytes l -> header_parse v2 l = Ok h ->
  header_reexport v2 h = firstn 12 l ++ le 2 (zalign (16 + rd l 11 1 * 128) gen_container_alignment) ++ [0%N; 0%N].
Proof.
  intros v2 l h.
  intros W. unfold header_parse, head_ok.
  destruct (Nat.leb 16 (length l)) eqn:HL; [|discriminate]. apply Nat.leb_le in HL.
  destruct (rd l 3 1 =? gen_tag_container) eqn:HT; [|discriminate]. apply Z.eqb_eq in HT.
  cbn [existsb]. rewrite orb_false_r.
  destruct (Z.eqb (rd l 0 1) (gen_version_container v2)) eqn:HV; [|discriminate]. apply Z.eqb_eq in HV.
  destruct (rd l 1 2 <=? zlen' l); [|discriminate]. cbn [andb]. intros E. inversion E; subst h; clear E.
  unfold header_reexport, header_bytes_raw. rewrite <- HV, <- HT. unfold rd.
  rewrite !le_enc_dec_Z by (try apply wf_slice; try assumption; rewrite BytesProofs.slice_length by lia; reflexivity).
  do 16 (destruct l as [|? l]; [simpl in HL; lia|]). reflexivity.
Qed.
Print Assumptions reexport_normalises_header.
