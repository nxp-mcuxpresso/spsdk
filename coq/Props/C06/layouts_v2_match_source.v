From Coq Require Import ZArith NArith List Bool Lia.
Require Import Value Bytes Sha2 Aes Modes CryptoProofs GenMisc GenAhab AhabModel AhabProofs Ahab2Model Ahab2Proofs.
Import ListNotations.
Local Open Scope Z_scope.

(* C06, container version 2: the layouts of the SRK table array and SRK data containers used by the model are the struct formats,
   tags and versions extracted from spsdk/image/ahab/ahab_srk.py / ahab_sign_block.py on this run. *)
Theorem layouts_v2_match_source :
  gen_fmt_srk_array = [1; 2; 1; 1; 2; 1] /\ gen_fmt_srk_data = [1; 2; 1; 2; 1; 1] /\ gen_fmt_srk_record = [1; 2; 1; 1; 1; 1; 1; 4] /\
  gen_tag_srk_array = 90 /\ gen_tag_srk_data = 93 /\ gen_version_srk_table true = 67 /\ gen_version_sigblock true = 1 /\
  gen_version_container true = 2 /\
  (forall id d, length (srk_data_bytes id d) = (Z.to_nat (fold_right Z.add 0%Z gen_fmt_srk_data) + length d)%nat) /\
  (forall a, zlen' (srk_array_bytes a)
             = fold_right Z.add 0%Z gen_fmt_srk_array + srk_table_len (a_recs a) + srk_data_len (used_data a)).
Proof.
  repeat split; try reflexivity; intros;
    try (unfold srk_data_bytes; rewrite !app_length, !le_length; reflexivity).
  rewrite srk_array_bytes_len. unfold srk_array_len. simpl. lia.
Qed.
Print Assumptions layouts_v2_match_source.
