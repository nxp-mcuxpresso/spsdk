From Coq Require Import ZArith NArith List Bool Lia.
Require Import Value Bytes Sha2 Aes Modes CryptoProofs GenMisc GenAhab AhabModel AhabProofs.
Import ListNotations.
Local Open Scope Z_scope.

(* C06: an encrypted entry stores IV = SHA-256(plain image) and its bytes decrypt, with the DEK under AES-CBC with the second
   half of the IV field, to the plain image (padded to the cipher block); the plain image is the configured data padded to the
   family's image size alignment. AES and CBC are the CryptoRef definitions; no hypothesis on the cipher is left open. *)
Theorem iv_is_plain_hash_and_decrypts :
  forall p ix cc c e bits dek kid,
  container_build p ix cc = Ok c -> In e (c_images c) -> flags_enc (p_v2 p) (i_flags e) = true ->
  cc_blob cc = Some (bits, dek, kid) -> aes_key_ok dek = true -> wf_bytes dek ->
  (forall ic, In ic (cc_images cc) -> wf_bytes (ic_data ic)) ->
  i_iv e = sha256 (i_plain e) /\
  blob_decrypt dek (skipn 16 (i_iv e)) (i_image e) = pad_to 16 (i_plain e) /\
  exists ic, In ic (cc_images cc) /\ i_plain e = pad_to (p_size_align p) (ic_data ic).
Proof.
  intros p ix cc c e bits dek kid.
  intros Hb He Hf Hbl Hk Wk Wd. destruct (container_build_images _ _ _ _ _ Hb He) as (ic & Hic & Hu).
  rewrite Hbl in Hu. cbn [option_map blob_of_cfg] in Hu.
  set (e0 := build_iae p (p_csize p * ix) ic) in *.
  apply iae_update_fields in Hu. destruct Hu as (U1 & U2 & U3 & U4).
  assert (Fe : flags_enc (p_v2 p) (i_flags e0) = true).
  { rewrite <- Hf, U1, iae_encrypt_flags. reflexivity. }
  assert (Iv0 : i_iv e0 = sha256 (i_plain e0)).
  { unfold e0, build_iae. cbn [i_iv i_plain i_flags]. unfold e0, build_iae in Fe. cbn [i_flags] in Fe. now rewrite Fe. }
  unfold iae_encrypt in U1, U2, U3, U4. rewrite Fe in U1, U2, U3, U4. cbn [i_image i_plain i_iv i_flags b_dek] in U1, U2, U3, U4.
  assert (Iv : i_iv e = sha256 (i_plain e0)).
  { rewrite U4. destruct (forallb (N.eqb 0) (i_iv e0) && flags_enc (p_v2 p) (i_flags e0)); [reflexivity|assumption]. }
  rewrite U3, Iv, U2. split; [reflexivity|]. split.
  - rewrite Iv0. apply blob_decrypt_encrypt; try assumption.
    + destruct (sha256_shape (i_plain e0)) as [L W]. split; [rewrite skipn_length, L; reflexivity|now apply BytesProofs.wf_bytes_skipn].
    + unfold e0, build_iae. cbn [i_plain]. apply pad_to_wf. now apply Wd.
  - exists ic. split; [assumption|reflexivity].
Qed.
Print Assumptions iv_is_plain_hash_and_decrypts.
