From Coq Require Import ZArith NArith List Bool Lia.
Require Import Value Bytes Sha2 Aes Modes CryptoProofs GenMisc GenAhab AhabModel AhabProofs.
Import ListNotations.
Local Open Scope Z_scope.

(* C06: corrupting any byte of the signed range of a parsed container -- reserved and padding bytes included -- is reported:
   whatever the parser does with the corrupted bytes (any function `parse`), it either rejects them, or returns a different
   object, or returns the same object and then the verifier's "Signed data as parsed" record (re-exported signed data =
   the bytes that were parsed) fails. (Repair ef48ac1 of former finding C06-F1; satisfiable: tamper_signed_range_nonvacuous.) *)
Theorem tamper_signed_range_reported :
  forall v2 (parse : list N -> res container) b b' c,
  parse b = Ok c -> signed_as_parsed v2 b c = true ->
  (exists i, (i < length (signed_data v2 c))%nat /\ nth i b 0%N <> nth i b' 0%N) ->
  match parse b' with Err _ => True | Ok c' => c' = c -> signed_as_parsed v2 b' c' = false end.
Proof.
  intros v2 parse b b' c.
  intros _ HS (i & Hi & Hn). destruct (parse b') as [c'|]; [|exact I]. intros ->.
  apply (eqb_list_pins _ _ _ HS). intros E. apply Hn.
  now rewrite <- (nth_firstn_lt 0%N _ i b Hi), <- (nth_firstn_lt 0%N _ i b' Hi), E.
Qed.
Print Assumptions tamper_signed_range_reported.
