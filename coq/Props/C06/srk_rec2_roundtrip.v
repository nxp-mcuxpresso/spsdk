From Coq Require Import ZArith NArith List Bool Lia.
Require Import Value Bytes Sha2 Aes Modes CryptoProofs GenMisc GenAhab AhabModel AhabProofs Ahab2Model Ahab2Proofs.
Import ListNotations.
Local Open Scope Z_scope.

(* C06, version 2: an SRK record (signing algorithm, hash algorithm, key size code, flags, 512-bit SRK data hash) parses back to
   itself with SRKRecordV2.parse, whatever the parameter-length words hold and whatever follows. *)
Theorem srk_rec2_roundtrip :
  forall r rest, srk_rec2_wf r -> srk_rec2_parse (srk_rec_bytes r ++ rest) = Ok r.
Proof.
  intros r rest.
  intros (HL & HP & HA & HH & HK & HF).
  destruct (srk_rec_fields r rest) as (R0 & R1 & R3 & R4 & R5 & R7 & _ & _ & SK & Ll);
    try assumption; [now rewrite HL | eapply fits1_of_In; [exact HA | reflexivity] | eapply fits1_of_In; [exact HH | reflexivity] |].
  unfold srk_rec2_parse.
  rewrite R0, R1, R3, R4, R5, R7, HL, Z.eqb_refl, (existsb_In_Z _ _ HA), (existsb_In_Z _ _ HH).
  rewrite (proj2 (Nat.leb_le _ _)), (proj2 (Z.leb_le _ _)) by len. cbn [andb negb].
  rewrite (slice_at _ _ _ 12 76 SK) by lia.
  destruct r; cbn in *; subst; reflexivity.
Qed.
Print Assumptions srk_rec2_roundtrip.
