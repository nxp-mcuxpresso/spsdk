From Coq Require Import ZArith NArith List Bool Lia.
Require Import Value Bytes Sha2 Aes Modes CryptoProofs GenMisc GenAhab AhabModel AhabProofs Ahab2Model Ahab2Proofs.
Import ListNotations.
Local Open Scope Z_scope.

(* C06, version 2: the SRK table array header parses back to (length, number of tables = 1). *)
Theorem srk_array_head_roundtrip :
  forall a rest, fits 2 (srk_array_len a) = true ->
  srk_array_head_parse (srk_array_bytes a ++ rest) = Ok (srk_array_len a, 1).
Proof.
  intros a rest.
  intros H1. unfold srk_array_head_parse. pose proof (srk_array_bytes_len a) as LA. unfold srk_array_bytes, zlen' in *.
  rewrite !app_length, !le_length in LA.
  rewrite (head_ok_export _ _ gen_version_SRKTableArray (srk_array_len a)) by first [assumption | reflexivity | now left | len].
  set (l := _ ++ rest). now rewrite (rd_field l 4 1 1), (rd_field l 1 2 (srk_array_len a)) by (reflexivity || assumption).
Qed.
Print Assumptions srk_array_head_roundtrip.
