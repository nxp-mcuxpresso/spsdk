From Coq Require Import ZArith NArith List Bool Lia.
Require Import Value Bytes Sha2 Aes Modes CryptoProofs GenMisc GenAhab AhabModel AhabProofs Ahab2Model Ahab2Proofs.
Import ListNotations.
Local Open Scope Z_scope.

(* C06, version 2: record number j of the table built from the configured keys carries, left aligned in its 64-byte field, the
   hash (under the record's own algorithm) of the exported SRK data container number j of key j, and the requested flags. *)
Theorem srk_record_hashes_srk_data :
  forall flags ks ix rds, srk2_of_keys flags ix ks = Ok rds ->
  forall j r d, nth_error rds j = Some (r, d) ->
  exists h, hash_of (sr_hash r) (srk_data_bytes (ix + Z.of_nat j) d) = Ok h /\ sr_params r = h ++ repeat 0%N (64 - length h) /\
            sr_flags r = flags /\ exists key, nth_error ks j = Some key /\ key_data key = Ok d.
Proof.
  intros flags.
  induction ks as [|key t IH]; intros ix rds H j r d Hj; cbn [srk2_of_keys] in H.
  - inversion H; subst. destruct j; discriminate.
  - destruct (srk2_of_key flags ix key) as [x|] eqn:E1; [|discriminate]. cbn [bind] in H.
    destruct (srk2_of_keys flags (ix + 1) t) as [xs|] eqn:E2; [|discriminate]. cbn [bind] in H. inversion H; subst rds; clear H.
    destruct j as [|j].
    + cbn in Hj. inversion Hj; subst x; clear Hj. unfold srk2_of_key in E1.
      destruct (key_size_code key) as [ks0|]; [|discriminate].
      destruct (key_data key) as [d0|] eqn:EK; [|discriminate]. cbn [bind] in E1.
      destruct (hash_of (key_hash_tag key) (srk_data_bytes ix d0)) as [h|] eqn:EH; [|discriminate]. cbn [bind] in E1.
      inversion E1; subst. exists h. cbn. rewrite Z.add_0_r. repeat split; try assumption. exists key. auto.
    + cbn in Hj. destruct (IH _ _ E2 j r d Hj) as (h & H1 & H2 & H3 & key' & H4 & H5).
      exists h. replace (ix + Z.of_nat (S j)) with (ix + 1 + Z.of_nat j) by lia. repeat split; try assumption. exists key'. auto.
Qed.
Print Assumptions srk_record_hashes_srk_data.
