From Coq Require Import ZArith NArith List Bool Lia.
Require Import Value Bytes Sha2 Aes Modes CryptoProofs GenMisc GenAhab AhabModel AhabProofs Ahab2Model Ahab2Proofs.
Import ListNotations.
Local Open Scope Z_scope.

(* C06, version 2: in the exported file every image array entry points at the bytes of its image (zero-extended to the entry
   size) when the layout check of export passes. *)
Theorem entry_points_at_image_v2 :
  forall p ks,
  layout_ok p (map k_c ks) = true -> zlen' (containers_block2 p ks) = start_real p (map k_c ks) ->
  (forall c e, In c (map k_c ks) -> In e (c_images c) -> zlen' (i_image e) <= i_size e) ->
  forall c e, In c (map k_c ks) -> In e (c_images c) ->
  zslice (ahab2_bytes p ks) (img_abs c e) (img_abs c e + i_size e) = fit_image (i_size e) (i_image e).
Proof.
  intros p ks.
 exact (entry_points_gen p (map k_c ks) (containers_block2 p ks)).
Qed.
Print Assumptions entry_points_at_image_v2.
