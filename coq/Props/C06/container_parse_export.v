From Coq Require Import ZArith NArith List Bool Lia.
Require Import Value Bytes Sha2 Aes Modes CryptoProofs GenMisc GenAhab AhabModel AhabProofs Ahab2Model Ahab2Proofs
               AhabParseModel AhabParseProofs.
Import ListNotations.
Local Open Scope Z_scope.

(* C06, container version 1: AHABContainer.parse of an exported container returns the container (everything that travels in the
   binary: header fields, every image array entry, the signature block with its offsets, the four SRK records, the signature
   and the blob), whatever bytes follow -- for any number of images, any record/signature/blob contents that satisfy
   container_wf (field widths, four SRK records of one length, the IV of a plain entry is zero). *)
Theorem container_parse_export :
  forall c rs s bl rest,
  container_wf c rs s bl ->
  container_parse (c_coff c) (container_bytes false c ++ rest) = Ok (container_wire c).
Proof.
  intros c rs s bl rest.
  intros (HV & HS & WS & HL & HF & HI). pose proof (sigblock_wf_blob_ok rs s bl WS) as Hbo.
  assert (Hr : rs <> []) by (destruct WS as (H4 & _); intros ->; discriminate).
  pose proof (sigblock_bytes_length false rs s bl Hr Hbo) as LSB. rewrite <- HS in LSB.
  pose proof (sb_length_ge rs s bl Hr Hbo) as Lsb. rewrite <- HS in Lsb. pose proof (sig_off_ge rs). pose proof (srk_table_len_pos rs).
  destruct (container_bytes_split false c) as [rest0 ->].
  pose proof (container_head_length c) as LHd. pose proof (sbo_val c) as SV.
  unfold header_fmt_ok in HF. repeat (apply andb_true_iff in HF; destruct HF as [HF ?]).
  unfold container_parse, container_head, header_bytes in *. rewrite <- !app_assoc, HV in *.
  rewrite header_roundtrip_l; try assumption; try (now rewrite <- HV); [|rewrite HL; unfold header_length, zlen' in *; rewrite !app_length, iaes_length, LSB; lia].
  cbn [bind]. rewrite app_assoc, (BytesProofs.skipn_app_exact _ _ _ LHd), HS, sigblock_roundtrip_l by assumption. cbn [bind].
  rewrite <- app_assoc, BytesProofs.skipn_app_exact by reflexivity.
  unfold zlen'. rewrite Nat2Z.id, iaes_parse_roundtrip by assumption.
  unfold container_wire. rewrite HV, HS. reflexivity.
Qed.
Print Assumptions container_parse_export.
