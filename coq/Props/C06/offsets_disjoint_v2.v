From Coq Require Import ZArith NArith List Bool Lia.
Require Import Value Bytes Sha2 Aes Modes CryptoProofs GenMisc GenAhab AhabModel AhabProofs Ahab2Model Ahab2Proofs.
Import ListNotations.
Local Open Scope Z_scope.

(* C06, version 2 families of the database (regenerated on this run) and every target memory: automatically assigned image
   offsets are chained, pairwise disjoint, 1 KiB aligned from the first one on, none before 0xC000 (0xBC00 for NAND); two 16 KiB
   container slots always end before the image area, all of them (at most 3) for the non-NAND memories. *)
Theorem offsets_disjoint_v2 :
  forall fam tm cs,
  In fam gen_families -> fam_allows_v2 fam = true -> In tm [0; 2; 3; 4] ->
  let p := params_of fam tm true in
  (forall c e, In c cs -> In e (c_images c) -> i_raw_off e + c_coff c <= 0 /\ 0 <= i_size e /\ 0 <= i_gap e) ->
  let sp := spans (assign_offsets p (p_start p) cs) in
  gchain (p_start p) sp /\ pairwise_disjoint sp /\ all_after (if is_nand tm then 48128 else 49152) sp /\
  achain_all p 1024 (assign_offsets p (p_start p) cs) /\
  2 * 16384 <= p_start p /\ (is_nand tm = false -> p_max_cnt p * 16384 <= p_start p).
Proof.
  intros fam tm cs.
  intros Hf Hv Ht p H sp. destruct (v2_start_facts fam Hf Hv tm Ht) as (S1 & S2 & S3 & S4 & S5). fold p in S1, S2, S3, S4, S5.
  destruct (offsets_disjoint_l p cs H) as (O1 & O2 & O3 & _). fold sp in O1, O2, O3.
  repeat split; try assumption.
  - now rewrite <- S1.
  - apply offsets_aligned_l; [intros c e Hc He; now apply (H c e)|]. rewrite S1. destruct (is_nand tm); reflexivity.
  - now rewrite <- S2.
  - intros Hn. rewrite <- S2. now apply S5.
Qed.
Print Assumptions offsets_disjoint_v2.
