From Coq Require Import ZArith NArith List Bool Lia.
Require Import Value Bytes Sha2 Aes Modes CryptoProofs GenMisc GenAhab AhabModel AhabProofs Ahab2Model Ahab2Proofs.
Import ListNotations.
Local Open Scope Z_scope.

(* C06, version 2: an SRK data container parses back to (record number, key data), whatever follows it. *)
Theorem srk_data_roundtrip :
  forall id d rest, fits 2 id = true -> fits 2 (8 + zlen' d) = true ->
  srk_data_parse (srk_data_bytes id d ++ rest) = Ok (id, d).
Proof.
  intros id d rest.
  intros H1 H2. unfold srk_data_parse, srk_data_bytes.
  rewrite (head_ok_export _ _ gen_version_SRKData (8 + zlen' d)) by first [assumption | reflexivity | now left | len].
  set (l := _ ++ rest). rewrite (rd_field l 4 2 id), (rd_field l 1 2 (8 + zlen' d)) by (reflexivity || assumption).
  do 2 f_equal. apply (slice_at _ _ rest); [reflexivity | len].
Qed.
Print Assumptions srk_data_roundtrip.
