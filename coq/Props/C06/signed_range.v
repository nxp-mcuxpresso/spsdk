From Coq Require Import ZArith NArith List Bool Lia.
Require Import Value Bytes Sha2 Aes Modes CryptoProofs GenMisc GenAhab AhabModel AhabProofs.
Import ListNotations.
Local Open Scope Z_scope.

(* C06: the data a container signs is exactly header ++ image array ++ signature block up to the signature offset; it does not
   depend on the signature bytes (so signing does not change what was signed), and the SRK table lies inside it. *)
Theorem signed_range :
  forall v2 c rs s s' bl,
  rs <> [] -> blob_ok bl -> c_sb c = sigblock_update rs (Some s) bl -> length s' = length s ->
  signed_data v2 c = container_head c ++ firstn (Z.to_nat (sb_sig_off (c_sb c))) (sigblock_bytes v2 (c_sb c)) /\
  signed_data v2 (set_sb c (sigblock_update rs (Some s') bl)) = signed_data v2 c /\
  sb_srk_off (c_sb c) = 16 /\ 16 + srk_table_len rs <= sb_sig_off (c_sb c).
Proof.
  intros v2 c rs s s' bl.
  intros Hr Hb Hs Hl. pose proof (sig_off_ge rs) as G1. pose proof (srk_table_len_pos rs) as TP.
  assert (SD : forall c0 s0, c_sb c0 = sigblock_update rs (Some s0) bl ->
            signed_data v2 c0 = container_head c0 ++ firstn (Z.to_nat (sig_off rs)) (sigblock_bytes v2 (c_sb c0))).
  { intros c0 s0 E0. destruct (sigblock_update_exact rs s0 bl Hr) as (_ & E2 & _ & E4 & _ & E6 & _). rewrite <- E0 in *.
    unfold signed_data. rewrite E6, E4, E2. destruct rs as [|r rt] eqn:ER; [contradiction|]. rewrite <- ER in *.
    destruct (container_bytes_split v2 c0) as [rest ->].
    rewrite Z2Nat.inj_add, <- container_head_length, firstn_app_2 by (rewrite ?sbo_val; len). f_equal.
    rewrite firstn_app, (proj2 (Nat.sub_0_le _ _)); [apply app_nil_r|].
    rewrite E0, sigblock_bytes_length by assumption. pose proof (sb_length_ge rs s0 bl Hr Hb). len. }
  destruct (sigblock_update_exact rs s bl Hr) as (E1 & E2 & _). rewrite <- Hs in E1, E2. rewrite E1, E2.
  split; [exact (SD c s Hs)|]. split; [|split; [reflexivity|exact G1]].
  rewrite (SD (set_sb c (sigblock_update rs (Some s') bl)) s' eq_refl), (SD c s Hs), Hs. cbn [set_sb c_sb].
  rewrite !sigblock_signed_part by assumption. unfold container_head, header_bytes, sbo, header_length.
  cbn [set_sb c_sb c_images c_version c_length c_flags c_sw c_fuse].
  destruct rs as [|r rt]; [contradiction|].
  destruct bl as [b|]; unfold sigblock_header, sigblock_update, zlen';
    cbn [sb_length sb_srk_off sb_sig_off sb_cert_off sb_blob_off sb_blob]; rewrite Hl; reflexivity.
Qed.
Print Assumptions signed_range.
