From Coq Require Import ZArith NArith List Bool Lia.
Require Import Value Bytes Sha2 Aes Modes CryptoProofs GenMisc GenAhab AhabModel AhabProofs Ahab2Model Ahab2Proofs.
Import ListNotations.
Local Open Scope Z_scope.

(* C06, version 2: the SRK hash SPSDK reports for the fuses is SHA-512 of the SRK table bytes as they stand in the exported
   container (8 bytes after the start of the SRK table array). *)
Theorem srk_hash_of_exported_table_v2 :
  forall k ar s bl,
  k_arr k = Some ar -> c_sb (k_c k) = sigblock2_update (Some ar) (Some s) bl -> blob_ok bl ->
  srk_hash2 ar
  = sha512 (zslice (container2_bytes k) (sbo (k_c k) + sb_srk_off (c_sb (k_c k)) + 8)
                   (sbo (k_c k) + sb_srk_off (c_sb (k_c k)) + 8 + srk_table_len (a_recs ar))).
Proof.
  intros k ar s bl.
  intros Ha Hs Hb. destruct (sigblock2_update_facts ar s bl) as (F1 & _). rewrite <- Hs in F1.
  pose proof (srk_table_len_pos (a_recs ar)) as TP.
  pose proof (srk_table_bytes_len true (srk_table_len (a_recs ar)) (a_recs ar)) as LT.
  unfold srk_hash2. f_equal.
  rewrite F1. destruct (container2_bytes_split k) as [rest ->]. rewrite Ha, Hs, sigblock2_bytes_concat by assumption.
  unfold srk_array_bytes, zslice.
  rewrite <- !app_assoc. do 7 rewrite app_assoc. symmetry. apply BytesProofs.slice_app_mid.
  - rewrite !app_length, !le_length, container_head_length, sigblock_header_len, sbo_val. len.
  - rewrite sbo_val. len.
Qed.
Print Assumptions srk_hash_of_exported_table_v2.
