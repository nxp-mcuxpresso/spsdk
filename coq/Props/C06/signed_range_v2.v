From Coq Require Import ZArith NArith List Bool Lia.
Require Import Value Bytes Sha2 Aes Modes CryptoProofs GenMisc GenAhab AhabModel AhabProofs Ahab2Model Ahab2Proofs.
Import ListNotations.
Local Open Scope Z_scope.

(* C06, version 2: the data a container signs is exactly container header ++ image array ++ signature block header ++ SRK table
   array (table and the SRK data of the selected key) -- everything up to the signature container; it does not depend on
   the signature bytes, and the offsets in the block header say so. *)
Theorem signed_range_v2 :
  forall k ar s s' bl,
  k_arr k = Some ar -> c_sb (k_c k) = sigblock2_update (Some ar) (Some s) bl -> blob_ok bl -> length s' = length s ->
  signed_data2 k = container_head (k_c k) ++ sigblock_header true (c_sb (k_c k)) ++ srk_array_bytes ar /\
  signed_data2 (set_sb2 k (sigblock2_update (Some ar) (Some s') bl)) = signed_data2 k /\
  sb_srk_off (c_sb (k_c k)) = 16 /\ sb_sig_off (c_sb (k_c k)) = 16 + srk_array_len ar.
Proof.
  intros k ar s s' bl.
  intros Ha Hs Hb Hl.
  assert (SD : forall k0 s0, k_arr k0 = Some ar -> c_sb (k_c k0) = sigblock2_update (Some ar) (Some s0) bl ->
            signed_data2 k0 = container_head (k_c k0) ++ sigblock_header true (c_sb (k_c k0)) ++ srk_array_bytes ar).
  { intros k0 s0 A0 E0. destruct (sigblock2_update_facts ar s0 bl) as (_ & F2 & F3 & _). rewrite <- E0 in F2, F3.
    pose proof (srk_array_len_pos ar) as AP. pose proof (srk_array_bytes_len ar) as LA.
    unfold signed_data2. rewrite F3, A0, F2.
    destruct (container2_bytes_split k0) as [rest ->]. rewrite A0, E0, sigblock2_bytes_concat by assumption. rewrite <- E0.
    rewrite <- !app_assoc, (app_assoc (sigblock_header _ _)), app_assoc. apply BytesProofs.firstn_app_exact.
    rewrite !app_length, container_head_length, sigblock_header_len, sbo_val. len. }
  split; [exact (SD k s Ha Hs)|]. split.
  - rewrite (SD (set_sb2 k (sigblock2_update (Some ar) (Some s') bl)) s' Ha eq_refl), (SD k s Ha Hs).
    unfold set_sb2, container_head, header_bytes, sbo, header_length.
    cbn [k_c set_sb c_sb c_images c_version c_length c_flags c_sw c_fuse]. rewrite Hs.
    destruct bl as [b|]; unfold sigblock_header, sigblock2_update, zlen';
      cbn [sb_length sb_srk_off sb_sig_off sb_cert_off sb_blob_off sb_blob]; rewrite Hl; reflexivity.
  - destruct (sigblock2_update_facts ar s bl) as (F1 & F2 & _). rewrite <- Hs in *. auto.
Qed.
Print Assumptions signed_range_v2.
