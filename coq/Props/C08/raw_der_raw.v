From Coq Require Import ZArith NArith List Bool Lia.
Require Import Value Bytes BytesProofs GenSigEnc SigEncModel SigEncProofs.
Import ListNotations.
Local Open Scope Z_scope.

(* C08: raw -> DER (PublicKeyEcc.verify_signature re-encoding) -> raw (PrivateKeyEcc.sign / serialize_signature)
   is the identity on every byte string of the signature size of the curve. *)
Theorem raw_der_raw :
  forall raw cv c ks, curve_ok cv c ks -> wf_bytes raw -> zlen raw = 2 * c ->
  bind (verify_reencode raw ks) (fun der => ecc_sign_format der ks false) = Ok raw.
Proof.
  intros raw cv c ks HC Hwf HL. destruct (curve_ok_facts cv c ks HC) as (Hc & _ & _ & (H1 & H2 & H3 & _) & _).
  destruct (pair_enc_dec c raw ltac:(lia) Hwf HL) as (E & Ba & Bb).
  unfold verify_reencode. rewrite H2, H3, HL, Z.eqb_refl, encode_dss_ok by lia. cbn [bind].
  unfold ecc_sign_format. rewrite H1, (serialize_der_sig _ _ cv c ks) by assumption. f_equal. exact E.
Qed.
Print Assumptions raw_der_raw.
