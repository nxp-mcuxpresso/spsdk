From Coq Require Import ZArith NArith List Bool Lia.
Require Import Value Bytes BytesProofs GenSigEnc SigEncModel SigEncProofs.
Import ListNotations.
Local Open Scope Z_scope.

(* C08: signatures whose r and s have at most one leading zero byte (2^(8(c-2)) <= r, s < 2^key_size) survive
   parse . export in both encodings; the known class needs r or s at least two bytes short. *)
Theorem sniff_sound_typical :
  forall r s cv c ks enc, curve_ok cv c ks ->
  2 ^ (8 * (c - 2)) <= r < 2 ^ ks -> 2 ^ (8 * (c - 2)) <= s < 2 ^ ks -> enc = 0 \/ enc = 1 ->
  sig_parse_export r s cv enc = Ok (r, s, cv).
Proof.
  intros r s cv c ks enc HC Hr Hs He. destruct (curve_ok_facts cv c ks HC) as (_ & _ & _ & _ & (K2 & K1 & _) & _).
  apply (sniff_sound_except_known_lemma r s cv c ks enc HC); [lia|lia|].
  destruct He as [-> | ->]; [left; reflexivity|right; split; [reflexivity|]].
  eapply typical_in_window; eassumption.
Qed.
Print Assumptions sniff_sound_typical.
