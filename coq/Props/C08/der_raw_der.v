From Coq Require Import ZArith NArith List Bool Lia.
Require Import Value Bytes BytesProofs GenSigEnc SigEncModel SigEncProofs.
Import ListNotations.
Local Open Scope Z_scope.

(* C08: DER -> raw (serialize_signature) -> DER (verify_signature re-encoding) is the identity for all
   r, s < 2^(8c), in particular for all (r, s) in [1, n-1]. *)
Theorem der_raw_der :
  forall r s cv c ks, curve_ok cv c ks -> 0 <= r < 2 ^ (8 * c) -> 0 <= s < 2 ^ (8 * c) ->
  bind (ecc_sign_format (der_sig (Z.to_N r) (Z.to_N s)) ks false) (fun raw => verify_reencode raw ks)
  = Ok (der_sig (Z.to_N r) (Z.to_N s)).
Proof.
  intros r s cv c ks HC Hr Hs. destruct (curve_ok_facts cv c ks HC) as (_ & _ & _ & (H1 & _) & _).
  unfold ecc_sign_format. rewrite H1, (serialize_der_sig r s cv c ks) by assumption. now apply (verify_reencode_raw r s cv c ks).
Qed.
Print Assumptions der_raw_der.
