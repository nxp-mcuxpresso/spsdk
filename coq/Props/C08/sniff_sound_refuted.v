From Coq Require Import ZArith NArith List Bool Lia.
Require Import Value Bytes BytesProofs GenSigEnc SigEncModel SigEncProofs.
Import ListNotations.
Local Open Scope Z_scope.

(* C08 (D23): parse (export DER sigma) = sigma does NOT hold for all signatures of a supported curve. *)
Theorem sniff_sound_refuted :
  exists r s cv c ks, curve_ok cv c ks /\ 0 < r < 2 ^ (8 * c) /\ 0 < s < 2 ^ (8 * c) /\
                      sig_parse_export r s cv 1 <> Ok (r, s, cv).
Proof.
  exists 1, 1, 0, 32, 256. split; [unfold curve_ok; tauto|].
  split; [split; [lia|reflexivity]|]. split; [split; [lia|reflexivity]|].
  rewrite sniff_refuted_small. discriminate.
Qed.
Print Assumptions sniff_sound_refuted.
