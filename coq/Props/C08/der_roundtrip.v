From Coq Require Import ZArith NArith List Bool Lia.
Require Import Value Bytes BytesProofs GenSigEnc SigEncModel SigEncProofs.
Import ListNotations.
Local Open Scope Z_scope.

(* C08: decode_dss_signature (encode_dss_signature r s) = (r, s) for all non-negative r, s of any size whose
   encoding stays below the 4 GiB limit of the strict decoder (4 length bytes). *)
Theorem der_roundtrip :
  forall r s : Z, 0 <= r -> 0 <= s ->
  exists d, encode_dss r s = Ok d /\ (zlen d < 2 ^ 32 -> decode_dss d = Some (Z.to_N r, Z.to_N s)).
Proof.
  intros r s. intros Hr Hs. exists (der_sig (Z.to_N r) (Z.to_N s)). split; [now apply encode_dss_ok|apply der_roundtrip_len]. Qed.
Print Assumptions der_roundtrip.
