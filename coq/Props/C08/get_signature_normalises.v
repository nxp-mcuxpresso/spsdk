From Coq Require Import ZArith NArith List Bool Lia.
Require Import Value Bytes BytesProofs GenSigEnc SigEncModel SigEncProofs.
Import ListNotations.
Local Open Scope Z_scope.

(* C08: SignatureProvider.get_signature returns the raw r||s form for a raw signature and for a DER signature
   whose length is in the window of its curve; with encoding=DER a raw signature becomes its DER form. *)
Theorem get_signature_normalises :
  forall r s cv c ks, curve_ok cv c ks -> 0 <= r < 2 ^ (8 * c) -> 0 <= s < 2 ^ (8 * c) ->
  get_signature (raw_sig c r s) (-1) = Ok (raw_sig c r s) /\
  get_signature (raw_sig c r s) 1 = Ok (der_sig (Z.to_N r) (Z.to_N s)) /\
  (in_window cv (zlen (der_sig (Z.to_N r) (Z.to_N s))) = true ->
   get_signature (der_sig (Z.to_N r) (Z.to_N s)) (-1) = Ok (raw_sig c r s)).
Proof.
  intros r s cv c ks HC Hr Hs. unfold get_signature. rewrite (sig_parse_raw_sig r s cv c ks) by assumption. cbn [Z.eqb Pos.eqb].
  rewrite (sig_export_raw r s cv c ks) by assumption. split; [reflexivity|]. split.
  - unfold sig_export. cbn [Z.eqb Pos.eqb]. now rewrite encode_dss_ok by lia.
  - intros HW. rewrite (sig_parse_der_in_window _ _ cv HW), !Z2N.id by lia. cbn [Z.eqb Pos.eqb].
    now rewrite (sig_export_raw r s cv c ks) by assumption.
Qed.
Print Assumptions get_signature_normalises.
