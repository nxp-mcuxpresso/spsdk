From Coq Require Import ZArith NArith List Bool Lia.
Require Import Value Bytes GenMboot MbootModel MbootProofs SdpModel SdpProofs.
Import ListNotations.
Local Open Scope N_scope.

Theorem sdp_read_exact :
  forall (D : Type) (recv : D -> list N -> D * list N) (ce : bool) (fuel : nat) (a d : list N)
         (s : sdps (ssenv D)) (v : list N) (s1 : sdps (ssenv D)),
  sdp_api _ (sdp_serial_iface D recv) ce fuel (Call 1 a d) s = (ROk (AVBytes v), s1) ->
  exists hab, nlen hab = 4 /\ eaten D (senv_of D s) (senv_of D s1) (hab ++ v) /\ nlen v = nth 1 a 0.
Proof. exact sdp_read_exact_serial. Qed.
Print Assumptions sdp_read_exact.
