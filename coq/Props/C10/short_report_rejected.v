From Coq Require Import ZArith NArith List Bool Lia.
Require Import Value Bytes GenMboot MbootModel MbootProofs.
Import ListNotations.
Local Open Scope N_scope.

(* every report the HID protocol accepts is complete: at least 4 + plen bytes long, and the payload handed on has exactly
   the announced length plen > 0 *)
Theorem short_report_rejected :
  forall (D : Type) (raw : list N) (e : henv D) (v : rx) (e1 : henv D),
  h_parse_frame D raw e = (ROk v, e1) ->
  e1 = e /\ 4 + le_dec (firstn 2 (skipn 2 raw)) <= nlen raw /\ 0 < le_dec (firstn 2 (skipn 2 raw)) /\
  let p := firstnN (le_dec (firstn 2 (skipn 2 raw))) (skipn 4 raw) in
  nlen p = le_dec (firstn 2 (skipn 2 raw)) /\
  (if nth 0 raw 0 =? RID_CMD_IN then exists r, parse_cmd_response p = ROk r /\ v = RxResp r else v = RxData p).
Proof.
  intros D raw e v e'.
  unfold h_parse_frame. destruct (nlen raw <? 4) eqn:E4; [discriminate|].
  set (plen := le_dec (firstn 2 (skipn 2 raw))).
  destruct (plen =? 0) eqn:E0; [discriminate|]. destruct (nlen raw <? 4 + plen) eqn:EL; [discriminate|].
  apply N.ltb_ge in E4, EL. apply N.eqb_neq in E0. intros H.
  assert (Hn : nlen (firstnN plen (skipn 4 raw)) = plen).
  { apply nlen_firstnN. unfold nlen in *. rewrite skipn_length. lia. }
  destruct (nth 0 raw 0 =? RID_CMD_IN).
  - unfold parse_rx in H. destruct (parse_cmd_response (firstnN plen (skipn 4 raw))) as [r|x] eqn:P; [|discriminate].
    injection H as <- <-. repeat split; try assumption; try lia. exists r. auto.
  - injection H as <- <-. repeat split; try assumption; lia.
Qed.
Print Assumptions short_report_rejected.
