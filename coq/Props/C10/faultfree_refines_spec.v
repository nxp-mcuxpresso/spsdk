From Coq Require Import ZArith NArith List Bool Lia.
Require Import Value Bytes GenMboot MbootModel MbootProofs.
Import ListNotations.
Local Open Scope N_scope.

Theorem faultfree_refines_spec :
  forall (ce : bool) (fuel : nat) (xs : list wr) (c : dcore) (st : N) (out cons : list (list N)),
  wf_dev c -> all_ok fuel c xs ->
  exists out1 cons1 st1,
    session (senv sdev) (serial_iface sdev sdev_recv) ce fuel (map wr_call xs) (idle st c out cons) =
    (fst (spec_run c xs), idle st1 (snd (spec_run c xs)) out1 cons1).
Proof.
  intros ce fuel.
  induction xs as [|x t IH]; intros c st out cons Hwf Hok.
  - exists out, cons, st. reflexivity.
  - destruct Hok as [Hx Ht]. destruct (wr_call_live ce fuel c x st out cons Hwf Hx) as (Hwf' & o1 & c1 & Hw).
    destruct (IH (spec_dev c x) SC_SUCCESS o1 c1 Hwf' Ht) as (o2 & c2 & st2 & Hs).
    cbn [map session spec_run]. rewrite Hw, Hs. destruct (spec_run (spec_dev c x) t) as [rs c'].
    exists o2, c2, st2. destruct x; reflexivity.
Qed.
Print Assumptions faultfree_refines_spec.
