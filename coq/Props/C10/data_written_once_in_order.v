From Coq Require Import ZArith NArith List Bool Lia.
Require Import Value Bytes GenMboot MbootModel MbootProofs.
Import ListNotations.
Local Open Scope N_scope.

Theorem data_written_once_in_order :
  forall (D : Type) (recv : D -> list N -> D * list N) (ab : bool) (chunks : list (list N)) (e : senv D)
         (r : result unit) (e1 : senv D),
  write_chunks (senv D) (serial_iface D recv) ab chunks e = (r, e1) ->
  exists n, wrote D e e1 (map (mk_frame FP_DATA) (firstn n chunks)) /\ (r = ROk tt -> n = length chunks).
Proof.
  intros D recv ab.
  induction chunks as [|c t IH]; intros e r e' H.
  - injection H as <- <-. exists 0%nat. split; [reflexivity|reflexivity].
  - cbn [write_chunks] in H. unfold mbind in H. cbn [i_write_data serial_iface] in H.
    destruct (s_write_data D recv ab c e) as [[[]|x] e1] eqn:W.
    + apply s_write_data_out in W. destruct W as [[W _]|[_ W]]; [|contradiction].
      apply IH in H. destruct H as (n & Hn & Hr). exists (S n). split.
      * cbn [firstn map]. apply (wrote_trans D _ _ _ [_] _ W Hn).
      * intros Hok. cbn [length]. now rewrite (Hr Hok).
    + injection H as <- <-. apply s_write_data_out in W. destruct W as [[W _]|[W _]].
      * exists 1%nat. split; [exact W|discriminate].
      * exists 0%nat. split; [exact W|discriminate].
Qed.
Print Assumptions data_written_once_in_order.
