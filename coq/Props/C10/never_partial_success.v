From Coq Require Import ZArith NArith List Bool Lia.
Require Import Value Bytes GenMboot MbootModel MbootProofs.
Import ListNotations.
Local Open Scope N_scope.

Theorem never_partial_success :
  forall (E : Type) (I : iface E) (ce : bool) (fuel : nat) (address len mem_id : N) (s : mbs E) (v : list N) (s1 : mbs E),
  i_usb I = true -> read_memory E I ce fuel address len mem_id false s = (ROk (AVBytes v), s1) ->
  mb_status E s1 = SC_SUCCESS -> nlen v = len.
Proof.
  intros E I ce fuel address len mem_id s v s' Hu H Hs. unfold read_memory in H. rewrite Hu in H. cbn [andb negb] in H. unfold mbind in H.
  destruct (get_max_packet_size E I ce s) as [[ps|x] s1]; [|discriminate].
  destruct (ps =? 0) eqn:E0; [discriminate|]. apply N.eqb_neq in E0.
  eapply (read_usb_loop_complete E I ce address (clamp_down_memory_id mem_id) ps len ltac:(lia)); [| |exact H|exact Hs].
  - apply N.le_0_l.
  - rewrite N.mul_0_l, N.min_0_l. reflexivity.
Qed.
Print Assumptions never_partial_success.
