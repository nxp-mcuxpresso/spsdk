From Coq Require Import ZArith NArith List Bool Lia.
Require Import Value Bytes GenMboot MbootModel MbootProofs.
Import ListNotations.
Local Open Scope N_scope.

Theorem status_mirrors_device :
  forall (E : Type) (I : iface E) (ce : bool) (p : cmdpkt) (s : mbs E) (rs : resp) (s1 : mbs E),
  process_cmd E I ce p s = (ROk rs, s1) ->
  mb_mps E s1 = mb_mps E s /\ mb_status E s1 = r_status rs /\ (ce = true -> r_status rs = SC_SUCCESS) /\
  ((exists b e0, pkt_bytes p = ROk b /\ i_write_command I b (mb_env E s) = (ROk tt, e0) /\
                 i_read I e0 = (ROk (RxResp rs), mb_env E s1))
   \/ rs = no_response (pkt_tag p)).
Proof. exact process_cmd_sound. Qed.
Print Assumptions status_mirrors_device.
