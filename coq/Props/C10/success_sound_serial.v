From Coq Require Import ZArith NArith List Bool Lia.
Require Import Value Bytes GenMboot MbootModel MbootProofs.
Import ListNotations.
Local Open Scope N_scope.

Theorem success_sound_serial :
  forall (D : Type) (recv : D -> list N -> D * list N) (ce : bool) (fuel : nat) (p : cmdpkt) (cls : N)
         (s : mbs (senv D)) (v : list N) (s1 : mbs (senv D)),
  cmd_data_in (senv D) (serial_iface D recv) ce fuel p cls s = (ROk (AVBytes v), s1) ->
  mb_status _ s1 = SC_SUCCESS ->
  exists b e0 e1 rs pr wr its bs rsf,
    pkt_bytes p = ROk b /\ s_write_command D recv b (mb_env _ s) = (ROk tt, e0) /\
    eaten D e0 e1 wr /\ frame_wire FP_CMD pr wr /\ parse_cmd_response pr = ROk rs /\ r_status rs = SC_SUCCESS /\ r_cls rs = cls /\
    eaten D e1 (mb_env _ s1) bs /\ swire its bs /\ v = firstnN (r_second rs) (datas its) /\
    last_resp its = Some rsf /\ r_cls rsf = 1 /\ r_second rsf = pkt_tag p /\ r_status rsf = SC_SUCCESS /\
    nlen v = r_second rs.
Proof.
  intros D recv ce fuel p cls s v s' H Hs. apply cmd_data_in_sound in H.
  destruct H as (b & e0 & rs & e1 & its & e_end & rsf & s1 & Hb & Hw & Hr & Hst & Hcl & Hits & Hv & _ & _ & Hend & _).
  destruct (Hend Hs) as (-> & Hl & Hc1 & Hc2 & Hc3 & Hn).
  cbn [i_read i_write_command serial_iface] in Hr, Hw.
  apply s_read_wire in Hr. destruct Hr as (ft & pr & wr & He & Hfw & Hvv).
  destruct (ft =? FP_CMD) eqn:EF; [|discriminate]. apply N.eqb_eq in EF. subst ft.
  destruct Hvv as (r0 & Hpr & Hrr). injection Hrr as <-.
  apply ireads_serial_wire in Hits. destruct Hits as (bs & Hbs & Hsw).
  exists b, e0, e1, rs, pr, wr, its, bs, rsf. repeat (split; [assumption|]). exact Hn.
Qed.
Print Assumptions success_sound_serial.
