From Coq Require Import ZArith NArith List Bool Lia.
Require Import Value Bytes GenMboot MbootModel MbootProofs.
Import ListNotations.
Local Open Scope N_scope.

(* every "command, typed response, incoming data" call, both cmd_exception settings, every protocol interface:
   status SUCCESS after the call means the value has exactly the length the delivered response announced *)
Theorem success_complete :
  forall (E : Type) (I : iface E) (ce : bool) (fuel : nat) (p : cmdpkt) (cls : N) (s : mbs E) (v : list N) (s1 : mbs E),
  cmd_data_in E I ce fuel p cls s = (ROk (AVBytes v), s1) -> mb_status E s1 = SC_SUCCESS ->
  exists b e0 rs e1, pkt_bytes p = ROk b /\ i_write_command I b (mb_env E s) = (ROk tt, e0) /\
    i_read I e0 = (ROk (RxResp rs), e1) /\ r_status rs = SC_SUCCESS /\ r_cls rs = cls /\ nlen v = r_second rs.
Proof.
  intros E I ce fuel p cls s v s' H Hs. apply cmd_data_in_sound in H.
  destruct H as (b & e0 & rs & e1 & its & e_end & rsf & s1 & Hb & Hw & Hr & Hst & Hcl & _ & _ & _ & _ & Hend & _).
  destruct (Hend Hs) as (_ & _ & _ & _ & _ & Hn). exists b, e0, rs, e1. auto 10.
Qed.
Print Assumptions success_complete.
