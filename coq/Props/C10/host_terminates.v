From Coq Require Import ZArith NArith List Bool Lia.
Require Import Value Bytes GenMboot MbootModel MbootProofs.
Import ListNotations.
Local Open Scope N_scope.

(* HOST_TERMINATES: for EVERY device-to-host byte stream and every call list, with the fuel the check gives the model
   (two more than the length of the stream) no call ends by exhausting a loop's fuel: every receive loop of the host stops
   after at most one iteration per byte the link delivered *)
Theorem host_terminates :
  forall (ce : bool) (mps : option N) (stream : list N) (calls : list value),
  Forall (fun o => match fst o with RExn XHang => False | _ => True end)
         (fst (run_serial null_recv (S (S (length stream))) ce mps tt stream calls)).
Proof.
  intros ce mps stream calls.
  unfold run_serial.
  destruct (session _ _ _ _ _ _) as [rs s'] eqn:S. cbn [fst].
  eapply session_safe; [|exact S]. unfold avail, availe. cbn [mb_env se_in]. lia.
Qed.
Print Assumptions host_terminates.
