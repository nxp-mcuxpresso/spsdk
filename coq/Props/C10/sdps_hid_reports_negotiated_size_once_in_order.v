From Coq Require Import ZArith NArith List Bool Lia.
Require Import Value SdpsModel SdpsProofs.
Import ListNotations.

(* SDPS / SDP bulk data phase over USB-HID.
   For every negotiated report size > 0, report id and data: every report has exactly the negotiated size and the
   report id; the payloads concatenated are the data followed by fewer than one report of zero padding (each byte
   arrives once, in order); and the number of reports is the ceiling of len/size. *)
Theorem sdps_hid_reports_negotiated_size_once_in_order :
  forall rid size data, 0 < size ->
  Forall (fun f => length f = S size /\ hd_error f = Some rid) (sdps_write_data rid size data) /\
  (exists k, concat (map (@tl N) (sdps_write_data rid size data)) = data ++ repeat 0%N k /\ k < size) /\
  length (sdps_write_data rid size data) = (length data + size - 1) / size.
Proof.
  intros rid size data Hs. unfold sdps_write_data. rewrite sdps_frames_chunks. fold (Bytes.chunks size data). split; [|split].
  - (* every report has the negotiated size plus the id byte *)
    apply Forall_map. eapply Forall_impl; [|exact (BytesProofs.chunked_le size _ (BytesProofs.chunked_chunks size data Hs))].
    intros c Hc. cbv beta in Hc. split; [|reflexivity]. unfold sdps_pad. cbn [length]. rewrite app_length, repeat_length. lia.
  - (* only the last report is padded: the payloads are the data, then fewer than `size` zeros *)
    rewrite map_map. unfold sdps_pad. cbn [tl]. revert data.
    apply (BytesProofs.chunks_ind size (fun l cs => exists k, concat (map (fun c => c ++ repeat 0%N (size - length c)) cs) = l ++ repeat 0%N k /\ k < size) Hs).
    + exists 0. split; [reflexivity|exact Hs].
    + intros l Hl (k & Hk & Hks). cbn [map concat]. rewrite Hk.
      destruct (Nat.le_gt_cases (length l) size) as [Hle|Hgt].
      * rewrite skipn_all2, firstn_all2 in * by exact Hle. exists (size - length l). destruct k; [|discriminate (f_equal (@length _) Hk)].
        split; [now rewrite !app_nil_r|]. destruct l; [congruence|simpl; lia].
      * rewrite firstn_length_le, Nat.sub_diag by lia. exists k. split; [|exact Hks].
        cbn [repeat]. now rewrite app_nil_r, app_assoc, firstn_skipn.
  - rewrite map_length. apply BytesProofs.chunks_length, Hs.
Qed.
Print Assumptions sdps_hid_reports_negotiated_size_once_in_order.
