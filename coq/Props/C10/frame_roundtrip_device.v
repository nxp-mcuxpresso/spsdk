From Coq Require Import ZArith NArith List Bool Lia.
Require Import Value Bytes GenMboot MbootModel MbootProofs.
Import ListNotations.
Local Open Scope N_scope.

Theorem frame_roundtrip_device :
  forall (c : dcore) (q : list (list N)) (p : list N), p <> [] -> nlen p < 65536 ->
  sdev_recv (mkSdev c q) (mk_frame FP_DATA p) =
  (mkSdev (fst (dev_data_out c p)) q,
   ACK_BYTES ++ match snd (dev_data_out c p) with Some r => mk_frame FP_CMD r | None => [] end).
Proof. exact sdev_recv_data. Qed.
Print Assumptions frame_roundtrip_device.
