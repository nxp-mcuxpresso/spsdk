From Coq Require Import ZArith NArith List Bool Lia.
Require Import Value Bytes GenMboot MbootModel MbootProofs.
Import ListNotations.
Local Open Scope N_scope.

Theorem write_reaches_memory :
  forall (c : dcore) (a : N) (d : list N),
  dc_mem (after_write c a d) = mem_put c a d /\
  dc_cmds (after_write c a d) = (CT_WRITE_MEMORY, CF_HAS_DATA_PHASE, [a; nlen d; 0]) :: dc_cmds c.
Proof. intros c a d. split; [apply after_write_mem|apply after_write_frame]. Qed.
Print Assumptions write_reaches_memory.
