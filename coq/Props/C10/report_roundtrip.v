From Coq Require Import ZArith NArith List Bool Lia.
Require Import Value Bytes GenMboot MbootModel MbootProofs.
Import ListNotations.
Local Open Scope N_scope.

Theorem report_roundtrip :
  forall (D : Type) (rid : N) (p : list N) (e : henv D), p <> [] -> nlen p < 65536 ->
  h_parse_frame D (mk_report rid p) e = if rid =? RID_CMD_IN then parse_rx p e else (ROk (RxData p), e).
Proof. exact report_roundtrip_lemma. Qed.
Print Assumptions report_roundtrip.
