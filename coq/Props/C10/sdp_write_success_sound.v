From Coq Require Import ZArith NArith List Bool Lia.
Require Import Value Bytes GenMboot MbootModel MbootProofs SdpModel SdpProofs.
Import ListNotations.
Local Open Scope N_scope.

(* write_file / write_dcd / write_csf answer True only when the command status word the interface delivered is the
   protocol's OK word for that command *)
Theorem sdp_write_success_sound :
  forall (E : Type) (I : sdp_iface E) (ce : bool) (tag address : N) (data : list N) (s s1 : sdps E),
  sdp_send_data E I ce tag address data s = (ROk true, s1) ->
  (tag = SDPCT_WRITE_FILE -> sd_cmd E s1 = SDPRV_WRITE_FILE_OK) /\
  (tag = SDPCT_WRITE_DCD -> sd_cmd E s1 = SDPRV_WRITE_DATA_OK) /\
  (tag = SDPCT_WRITE_CSF -> sd_cmd E s1 = SDPRV_WRITE_DATA_OK) /\ sd_status E s1 = SDPSC_SUCCESS.
Proof.
  intros E I ce tag address data s s'.
  unfold sdp_send_data. unfold mbind at 1. unfold sd_put_status at 1. cbv beta iota.
  set (s0 := mkSdps E SDPSC_SUCCESS (sd_hab E s) (sd_cmd E s) (sd_env E s)).
  unfold mbind at 1. unfold guarded at 1.
  match goal with |- context [match ?m s0 with _ => _ end] => destruct (m s0) as [[ok|x] s1] eqn:G end.
  2:{ destruct x; discriminate. }
  destruct ok; cbn [negb andb]; [|destruct ce; discriminate].
  unfold mret. intros H. injection H as <-.
  unfold mbind at 1, mlift in G. destruct (sdp_pkt tag address 0 (nlen data) 0) as [b|x]; [|discriminate].
  unfold mbind at 1 in G. destruct (sd_lift E (si_write_command I b) s0) as [[[]|x] t1] eqn:W1; [|discriminate].
  unfold mbind at 1 in G. destruct (sd_lift E (si_write_data I data) t1) as [[[]|x] t2] eqn:W2; [|discriminate].
  unfold mbind at 1 in G. destruct (read_word E I None t2) as [[hv|x] t3] eqn:R1; [|discriminate].
  unfold mbind at 1 in G. unfold sd_put_hab at 1 in G. cbv beta iota in G.
  unfold mbind at 1 in G.
  match type of G with context [read_word E I None ?t] => destruct (read_word E I None t) as [[cv|x] t4] eqn:R2; [|discriminate] end.
  unfold mbind at 1 in G. unfold sd_put_cmd at 1 in G. cbv beta iota in G.
  apply sd_lift_inv in W1, W2. destruct W1 as (_ & S1 & _), W2 as (_ & S2 & _).
  apply read_word_inv in R1, R2. destruct R1 as (_ & S3 & _), R2 as (_ & S4 & _). cbn [sd_status] in S4.
  destruct ((tag =? SDPCT_WRITE_DCD) && negb (snd cv =? SDPRV_WRITE_DATA_OK)) eqn:C1; [cbn in G; discriminate|].
  destruct ((tag =? SDPCT_WRITE_CSF) && negb (snd cv =? SDPRV_WRITE_DATA_OK)) eqn:C2; [cbn in G; discriminate|].
  destruct ((tag =? SDPCT_WRITE_FILE) && negb (snd cv =? SDPRV_WRITE_FILE_OK)) eqn:C3; [cbn in G; discriminate|].
  injection G as <-. cbn [sd_cmd sd_status].
  repeat split.
  - intros ->. cbn in C3. apply negb_false_iff, N.eqb_eq in C3. exact C3.
  - intros ->. cbn in C1. apply negb_false_iff, N.eqb_eq in C1. exact C1.
  - intros ->. cbn in C2. apply negb_false_iff, N.eqb_eq in C2. exact C2.
  - rewrite S4, S3, S2, S1. reflexivity.
Qed.
Print Assumptions sdp_write_success_sound.
