From Coq Require Import ZArith NArith List Bool Lia.
Require Import Value Bytes GenMboot MbootModel MbootProofs SdpModel SdpProofs.
Import ListNotations.
Local Open Scope N_scope.

Theorem sdp_write_once_in_order :
  forall (D : Type) (recv : D -> list N -> D * list N) (ce : bool) (tag address : N) (data b : list N)
         (s : sdps (ssenv D)) (r : result bool) (s1 : sdps (ssenv D)),
  sdp_pkt tag address 0 (nlen data) 0 = ROk b ->
  sdp_send_data _ (sdp_serial_iface D recv) ce tag address data s = (r, s1) ->
  exists n, wrote D (senv_of D s) (senv_of D s1) (firstn n [b; data]) /\ (forall ok, r = ROk ok -> n = 2%nat).
Proof.
  intros D recv ce tag address data b s r s' Hb H. destruct (sdp_send_data_writes_all D recv ce tag address data b Hb _ _ _ H) as (w & W & (t & T) & K).
  exists (length w). split; [rewrite T, BytesProofs.firstn_app_exact by reflexivity; exact W|]. intros ok Hr. rewrite (K ok Hr). reflexivity.
Qed.
Print Assumptions sdp_write_once_in_order.
