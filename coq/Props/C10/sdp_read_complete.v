From Coq Require Import ZArith NArith List Bool Lia.
Require Import Value Bytes GenMboot MbootModel MbootProofs SdpModel SdpProofs.
Import ListNotations.
Local Open Scope N_scope.

Theorem sdp_read_complete :
  forall (E : Type) (I : sdp_iface E) (ce : bool) (fuel : nat) (a d : list N) (s : sdps E) (v : list N) (s1 : sdps E),
  sdp_api E I ce fuel (Call 1 a d) s = (ROk (AVBytes v), s1) -> nlen v = nth 1 a 0.
Proof. exact SdpProofs.sdp_read_complete. Qed.
Print Assumptions sdp_read_complete.
