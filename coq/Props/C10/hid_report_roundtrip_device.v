From Coq Require Import ZArith NArith List Bool Lia.
Require Import Value Bytes GenMboot MbootModel MbootProofs MbootSpecProofs.
Import ListNotations.
Local Open Scope N_scope.

Theorem hid_report_roundtrip_device :
  forall (c : dcore) (b : list N), nlen b < 65536 ->
  hdev_recv c (mk_report RID_CMD_OUT b) =
  (cmd_core c b, mk_report RID_CMD_IN (cmd_first c b) :: hid_queue (cmd_core c b) (cmd_zfin c b) (cmd_din c b)).
Proof. exact hdev_recv_cmd. Qed.
Print Assumptions hid_report_roundtrip_device.
