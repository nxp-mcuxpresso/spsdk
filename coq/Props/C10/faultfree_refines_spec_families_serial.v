From Coq Require Import ZArith NArith List Bool Lia.
Require Import Value Bytes GenMboot MbootModel MbootProofs MbootSpecProofs.
Import ListNotations.
Local Open Scope N_scope.

(* FAULTFREE_REFINES_SPEC for McuBoot API call sequences of all families, on the serial link *)
Theorem faultfree_refines_spec_families_serial :
  forall (ce : bool) (fuel : nat) (xs : list fcall) (c : dcore) (st : N) (out cons : list (list N)),
  0 < dc_mps c -> dc_mps c <= 65535 -> fops_ok 65535 ce fuel c (map fcall_fop xs) ->
  exists out1 cons1 st1,
    session _ (serial_iface sdev sdev_recv) ce fuel (map fcall_call xs) (mkMbs _ st (Some (dc_mps c)) (live_env c [] [] out cons)) =
    (fst (spec_fops ce c (map fcall_fop xs)),
     mkMbs _ st1 (Some (dc_mps c)) (live_env (snd (spec_fops ce c (map fcall_fop xs))) [] [] out1 cons1)).
Proof.
  intros. rewrite session_fcalls. apply faultfree_families_serial; assumption.
Qed.
Print Assumptions faultfree_refines_spec_families_serial.
