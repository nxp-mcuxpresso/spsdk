From Coq Require Import ZArith NArith List Bool Lia.
Require Import Value Bytes GenMboot MbootModel MbootProofs.
Import ListNotations.
Local Open Scope N_scope.

Theorem frames_crc_checked :
  forall (D : Type) (recv : D -> list N -> D * list N) (e : senv D) (v : rx) (e1 : senv D),
  s_read D recv e = (ROk v, e1) ->
  exists zs hdr ft lenb crcb p,
    eaten D e e1 (zs ++ hdr ++ lenb ++ crcb ++ p) /\ zeros_only zs /\ hdr_ok hdr ft /\ ft <> FP_ABORT /\
    p <> [] /\ nlen p <= le_dec lenb /\ le_dec crcb = frame_crc ft p /\
    (if ft =? FP_CMD then exists r, parse_cmd_response p = ROk r /\ v = RxResp r else v = RxData p).
Proof. exact s_read_sound. Qed.
Print Assumptions frames_crc_checked.
