From Coq Require Import ZArith NArith List Bool Lia.
Require Import Value Bytes GenMboot MbootModel MbootProofs.
Import ListNotations.
Local Open Scope N_scope.

Theorem frame_roundtrip :
  forall (D : Type) (recv : D -> list N -> D * list N) (t : N) (p rest : list N) (d : D) (out cons : list (list N)),
  t <> FP_ABORT -> p <> [] -> nlen p < 65536 ->
  s_read D recv (mkSenv D d (mk_frame t p ++ rest) out cons) =
  let env := mkSenv D (fst (recv d ACK_BYTES)) (rest ++ snd (recv d ACK_BYTES)) (ACK_BYTES :: out)
                    (p :: le16 (frame_crc t p) :: le16 (nlen p) :: [t] :: [FRAME_START_BYTE] :: cons) in
  if t =? FP_CMD then parse_rx p env else (ROk (RxData p), env).
Proof. exact s_read_frame. Qed.
Print Assumptions frame_roundtrip.
