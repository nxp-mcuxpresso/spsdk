From Coq Require Import ZArith NArith List Bool Lia.
Require Import Value Bytes GenMboot MbootModel MbootProofs MbootSpecProofs.
Import ListNotations.
Local Open Scope N_scope.

Theorem faultfree_refines_spec_families_hid :
  forall (ce : bool) (fuel : nat) (xs : list fcall) (c : dcore) (st : N) (out cons : list (list N)),
  0 < dc_mps c -> dc_mps c <= HID_MAXC -> fops_ok HID_MAXC ce fuel c (map fcall_fop xs) ->
  exists out1 cons1 st1,
    session _ (hid_iface dcore hdev_recv) ce fuel (map fcall_call xs) (mkMbs _ st (Some (dc_mps c)) (mkHenv dcore c [] out cons)) =
    (fst (spec_fops ce c (map fcall_fop xs)),
     mkMbs _ st1 (Some (dc_mps c)) (mkHenv dcore (snd (spec_fops ce c (map fcall_fop xs))) [] out1 cons1)).
Proof.
  intros. rewrite session_fcalls. apply faultfree_families_hid; assumption.
Qed.
Print Assumptions faultfree_refines_spec_families_hid.
