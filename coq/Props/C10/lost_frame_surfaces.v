From Coq Require Import ZArith NArith List Bool Lia.
Require Import Value Bytes GenMboot MbootModel MbootProofs.
Import ListNotations.
Local Open Scope N_scope.

Theorem lost_frame_surfaces :
  (exists v s1, f1_run false = (ROk (AVBytes v), s1) /\ mb_status _ s1 = SC_FAIL /\ nlen v = 12) /\
  (exists s1, f1_run true = (RExn (XCmd SC_FAIL), s1)).
Proof.
  split; [eexists; eexists; vm_compute; repeat split|eexists; vm_compute; reflexivity].
Qed.
Print Assumptions lost_frame_surfaces.
