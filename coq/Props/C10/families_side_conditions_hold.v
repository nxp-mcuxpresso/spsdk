From Coq Require Import ZArith NArith List Bool Lia.
Require Import Value Bytes GenMboot MbootModel MbootProofs MbootSpecProofs.
Import ListNotations.
Local Open Scope N_scope.

Theorem families_side_conditions_hold :
  forall (maxc : N) (fuel : nat) (c : dcore), 16 <= maxc -> no_faults c -> dc_phase c = None ->
  (forall a l pat, a < U32 -> l < U32 -> pat < U32 -> fop_ok maxc fuel c (FSimple (pkt_fill_memory a l pat))) /\
  (forall a l m, a < U32 -> l < U32 -> m < U32 -> fop_ok maxc fuel c (FSimple (CT_FLASH_ERASE_REGION, CF_NONE, [a; l; m]))) /\
  (forall m, m < U32 -> fop_ok maxc fuel c (FSimple (pkt_flash_erase_all m))) /\
  (forall t v, t < U32 -> v < U32 -> fop_ok maxc fuel c (FSimple (pkt_set_property t v))) /\
  (forall idx v, idx < U32 -> v < U32 -> fop_ok maxc fuel c (FSimple (pkt_efuse_program_once idx v))).
Proof. intros maxc fuel c H Hn Hp. repeat split; intros; (apply fop_ok_generic; [lia|repeat constructor; first [assumption|reflexivity]|reflexivity|cbn; lia|reflexivity|reflexivity|exact Hn|exact Hp]). Qed.
Print Assumptions families_side_conditions_hold.
