From Coq Require Import ZArith NArith List Bool Lia.
Require Import Value Bytes GenMboot MbootModel MbootProofs.
Import ListNotations.
Local Open Scope N_scope.

(* get_property: the values returned are those of the response the interface delivered *)
Theorem property_values_mirror_device :
  forall (E : Type) (I : iface E) (ce : bool) (tag index : N) (s : mbs E) (vals : list N) (s1 : mbs E),
  get_property E I ce tag index s = (ROk (Some vals), s1) ->
  exists b e0 rs, pkt_bytes (pkt_get_property tag index) = ROk b /\ i_write_command I b (mb_env E s) = (ROk tt, e0) /\
    i_read I e0 = (ROk (RxResp rs), mb_env E s1) /\ r_status rs = SC_SUCCESS /\ r_cls rs = 2 /\ vals = r_values rs /\
    mb_status E s1 = SC_SUCCESS.
Proof.
  intros E I ce tag index s vals s'.
  unfold get_property, mbind. destruct (process_cmd E I ce (pkt_get_property tag index) s) as [[rs|x] s1] eqn:P; [|discriminate].
  apply process_cmd_sound in P. destruct P as (Hm & Hst & Hce & Hw).
  destruct (r_status rs =? SC_SUCCESS) eqn:Es; [|discriminate]. apply N.eqb_eq in Es.
  destruct (r_cls rs =? 2) eqn:Ec; [|discriminate]. apply N.eqb_eq in Ec.
  unfold mret. intros H. injection H as <- <-.
  destruct Hw as [(b & e0 & Hb & Hw & Hrd)|Hno]; [|subst rs; discriminate].
  exists b, e0, rs. rewrite Hst. auto 10.
Qed.
Print Assumptions property_values_mirror_device.
