From Coq Require Import ZArith NArith List Bool Lia.
Require Import Value Bytes GenMboot MbootModel MbootProofs.
Import ListNotations.
Local Open Scope N_scope.

(* PACKETS_BOUNDED (1): what _split_data hands to the data phase *)
Theorem packets_bounded :
  forall (E : Type) (I : iface E) (ce : bool) (data : list N) (s : mbs E) (ch : list (list N)) (s1 : mbs E),
  split_data E I ce data s = (ROk ch, s1) ->
  exists m, mb_mps E s1 = Some m /\ 0 < m /\ concat ch = data /\ Forall (fun c => c <> [] /\ nlen c <= m) ch.
Proof.
  intros E I ce data s ch s'.
  unfold split_data. change NEED_DATA_SPLIT with true. cbv iota. unfold mbind.
  destruct (get_max_packet_size E I ce s) as [[m|x] s1] eqn:G; [|discriminate].
  apply get_mps_cached in G. destruct (m =? 0) eqn:E0; [discriminate|]. apply N.eqb_neq in E0.
  unfold mret. intros H. injection H as <- <-. exists m. split; [exact G|]. split; [lia|].
  apply chunksN_spec. lia.
Qed.
Print Assumptions packets_bounded.
