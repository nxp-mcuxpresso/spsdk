From Coq Require Import ZArith NArith List Bool Lia.
Require Import Value Bytes GenMboot MbootModel MbootProofs SdpModel SdpProofs.
Import ListNotations.
Local Open Scope N_scope.

Theorem sdp_hid_data_once_in_order :
  forall (rid size : N) (data : list N), 0 < size ->
  exists chunks, sh_frames (length data) rid size data = map (sdp_pad rid size) chunks /\
    concat chunks = data /\ Forall (fun c => c <> [] /\ nlen c <= size) chunks.
Proof.
  intros rid size data Hs. exists (chunksN size data). split; [apply sh_frames_chunks|]. apply chunksN_spec. exact Hs.
Qed.
Print Assumptions sdp_hid_data_once_in_order.
