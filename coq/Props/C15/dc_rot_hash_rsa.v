From Coq Require Import ZArith NArith List Bool Lia.
Require Import Value Bytes Sha2 GenRot RotModel GenDat DatModel DatProofs.
Import ListNotations.
Local Open Scope N_scope.

(* C15: the RoT hash a created RSA credential reports is C03s debug-credential construction over the same key list
   (RotModel.dc_rsa_hash, proved equal to the image-tool value rot_spec_v1 in C03), and it is the SHA-256 of the 128-byte
   RoT meta field carried inside the credential. *)
Theorem dc_rot_hash_rsa :
  forall ele cnt socc ks rot_id dck uuid socu vu beacon fca d sig,
  dc_create ele cnt socc ks rot_id dck uuid socu vu beacon fca = Ok (CRsa, d) ->
  dc_calc_hash CRsa (dc_with_sig d sig) = dc_rsa_hash ks
  /\ exists items, d_meta d = RMRsa items /\ map_res dc_rsa_item ks = Ok items
                   /\ dc_calc_hash CRsa (dc_with_sig d sig) = Ok (sha256 (concat items ++ zeros (128 - length (concat items)))).
Proof.
  intros ele cnt socc ks rot_id dck uuid socu vu beacon fca d sig H. apply dc_create_iff in H as (rot & v & m & _ & _ & _ & _ & _ & _ & EM & ->).
  apply rot_meta_rsa_inv in EM as (HN & items & EI & ->).
  destruct (RotProofs.map_res_forall dc_rsa_item (fun b => length b = 32%nat) dc_rsa_item_length ks items EI) as [HF HL].
  assert (EH : dc_calc_hash CRsa (dc_with_sig {| d_major := fst v; d_minor := snd v; d_socc := socc; d_uuid := uuid; d_meta := RMRsa items;
                 d_dck := dck; d_socu := socu; d_vu := vu; d_beacon := beacon; d_rot := rot; d_sig := [] |} sig)
               = Ok (sha256 (concat items ++ zeros (128 - length (concat items))))).
  { unfold dc_calc_hash, dc_with_sig. cbn [d_meta rotmeta_export bind]. now rewrite rsa_meta_export_spec by (assumption || lia). }
  split; [|now exists items]. rewrite EH. unfold dc_rsa_hash, dc_rsa_meta.
  replace (4 <? nlen ks) with false by (symmetry; apply N.ltb_ge; unfold nlen; lia). now rewrite EI.
Qed.
Print Assumptions dc_rot_hash_rsa.
