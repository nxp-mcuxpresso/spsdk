From Coq Require Import ZArith NArith List Bool Lia.
Require Import Value Bytes Sha2 GenRot RotModel GenDat DatModel DatProofs.
Import ListNotations.
Local Open Scope N_scope.

(* C15: every well-formed RSA (1.0/1.1) or ECC (2.0/2.1/2.2) credential exports, and the exported bytes -- also with
   arbitrary bytes behind them, as inside a response -- parse back to exactly the same field values.
   (EdgeLock credentials: dc_ele_v1_roundtrip, dcv2_roundtrip.) *)
Theorem dc_roundtrip :
  forall c d, wf_dc c d ->
  exists b, dc_export c d = Ok b /\ forall extra, dc_parse_class c (b ++ extra) = Ok d.
Proof.
  intros c d. intros H. destruct (dc_roundtrip_tbs c d H) as (b & t & _ & E & _ & P). now exists b. Qed.
Print Assumptions dc_roundtrip.
