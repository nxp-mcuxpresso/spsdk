From Coq Require Import ZArith NArith List Bool Lia.
Require Import Value Bytes Sha2 GenRot RotModel GenDat DatModel DatProofs DatCreateProofs.
Import ListNotations.
Local Open Scope N_scope.

(* C15: a well-formed challenge (valid version, known SOCC whose family does not swap the version words, RoT hash of the
   width the family/version prescribes, 32-byte challenge vector) serialises and parses back to the same fields, also with
   trailing bytes. *)
Theorem dac_roundtrip :
  forall a, wf_dac a -> exists b, dac_export a = Ok b /\ forall extra, dac_parse (b ++ extra) = Ok a.
Proof.
  intros a.
  destruct a as [maj mi socc uuid rev rk pin dfl vu ch]. unfold wf_dac.
  cbn [a_major a_minor a_socc a_uuid a_revocation a_rkth a_pinned a_default a_vu a_challenge].
  intros (Hv & Hmaj & Hmi & Hsocc & Huuid & Hrev & Hpin & Hdfl & Hvu & Hch & (s & ele & cntv & sha & Hfind & Hrk)).
  unfold u32_ok in *.
  set (hv := [XI maj; XI mi; XI socc; XB uuid; XI rev]).
  set (hl := dac_hash_len ele sha maj mi) in *.
  set (tv := [XB rk; XI pin; XI dfl; XI vu; XB ch]).
  assert (HV1 : Forall2 fval_ok dac_head_fmt hv) by (unfold dac_head_fmt, hv; repeat constructor; cbn [fval_ok]; assumption).
  assert (HV2 : Forall2 fval_ok (dac_tail_fmt hl) tv) by (unfold dac_tail_fmt, tv; repeat constructor; cbn [fval_ok]; assumption).
  destruct (pack_total _ _ HV1) as (hb & Ehb). destruct (pack_total _ _ HV2) as (tb & Etb).
  pose proof (pack_length _ _ _ Ehb) as Lhb. change (calcsize dac_head_fmt) with 28%nat in Lhb.
  assert (EX : dac_export {| a_major := maj; a_minor := mi; a_socc := socc; a_uuid := uuid; a_revocation := rev; a_rkth := rk;
                             a_pinned := pin; a_default := dfl; a_vu := vu; a_challenge := ch |} = Ok (hb ++ tb)).
  { unfold dac_export, u16, u32. cbn [a_major a_minor a_socc a_uuid a_revocation a_rkth a_pinned a_default a_vu a_challenge].
    unfold hv, dac_head_fmt in Ehb. unfold tv, dac_tail_fmt in Etb. cbn [pack pack1 bind] in Ehb, Etb.
    apply N.ltb_lt in Hmaj, Hmi, Hsocc, Hrev, Hpin, Hdfl, Hvu.
    rewrite Hmaj, Hmi, Hsocc, Hrev in Ehb. rewrite Hpin, Hdfl, Hvu in Etb. cbn [bind] in Ehb, Etb.
    rewrite Hmaj, Hmi, Hsocc, Hrev, Hpin, Hdfl, Hvu. cbn [bind].
    rewrite (pack_s_exact 16 uuid Huuid) in Ehb. rewrite (pack_s_exact hl rk Hrk), (pack_s_exact 32 ch Hch) in Etb.
    assert (Ehb' : hb = le_enc 2 maj ++ le_enc 2 mi ++ le_enc 4 socc ++ uuid ++ le_enc 4 rev ++ []) by congruence.
    assert (Etb' : tb = rk ++ le_enc 4 pin ++ le_enc 4 dfl ++ le_enc 4 vu ++ ch ++ []) by congruence.
    rewrite Ehb', Etb', !app_nil_r. now rewrite <- !app_assoc. }
  exists (hb ++ tb). split; [exact EX|]. intros extra. unfold dac_parse.
  rewrite (unpack_from_at _ _ _ _ [] (tb ++ extra) 0 HV1 Ehb) by (now rewrite <- ?app_assoc).
  cbn [bind]. unfold hv. cbn [nth xi xb]. rewrite Hfind. cbn [N.eqb negb]. fold hl.
  rewrite (unpack_from_at _ _ _ _ hb extra 28 HV2 Etb) by (now rewrite <- ?app_assoc).
  cbn [bind]. unfold tv. cbn [nth xi xb]. rewrite Hv. reflexivity.
Qed.
Print Assumptions dac_roundtrip.
