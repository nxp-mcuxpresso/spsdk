From Coq Require Import ZArith NArith List Bool Lia.
Require Import Value Bytes Sha2 GenRot RotModel GenDat DatModel DatProofs DatEleProofs.
Import ListNotations.
Local Open Scope N_scope.

(* C15: every well-formed EdgeLock container-version-1 credential (RoT meta = flags word + AHAB SRK table of four records of
   one type that passes the table verification, RoT key = the record at the used index, DCK blob of the RoT key blobs length,
   signature of the RoT keys signature size) exports, and the exported bytes -- also with bytes behind them -- parse back to
   exactly the same field values, SRK table and records included.  wf_dc_ele_nontrivial (Proofs/DatEleProofs.v) shows the
   credential create_from_yaml_config builds for four P-256 keys is such a credential. *)
Theorem dc_ele_v1_roundtrip :
  forall d, wf_dc_ele d ->
  exists b t, dc_tbs CEle d = Ok t /\ dc_export CEle d = Ok b /\ b = t ++ d_sig d /\ forall extra, ele_parse (b ++ extra) = Ok d.
Proof.
  intros d.
  destruct d as [maj mi socc uuid meta dck socu vu beacon rot sig]. unfold wf_dc_ele.
  cbn [d_major d_minor d_socc d_uuid d_meta d_dck d_socu d_vu d_beacon d_rot d_sig].
  intros (Hv & Hmaj & Hmi & Hsocc & Huuid & Hsocu & Hvu & Hbeacon &
          (used & cnt & t & keys & rb & kb & -> & Hfl & Ht & Hver & Hkeys & Hnth & Erb & Ekb & Lkb & Pkb & Hsig & Hne)).
  destruct (flags_roundtrip used cnt Hfl) as (fb & Efb & Lfb & Pfb).
  destruct (table_roundtrip t Ht) as (tb & Etb & Ntb & Ptb).
  set (mb := fb ++ tb).
  assert (Emb : rotmeta_export (RMEle used cnt t) = Ok mb) by (cbn [rotmeta_export]; rewrite Efb; cbn [bind]; now rewrite Etb).
  set (hv := [XI maj; XI mi; XI socc; XB uuid; XI socu; XI vu; XI beacon]).
  assert (HV1 : Forall2 fval_ok head_fmt hv) by (now apply head_fields_ok).
  destruct (pack_total _ _ HV1) as (hb & Ehb). pose proof (pack_length _ _ _ Ehb) as Lhb.
  change (calcsize head_fmt) with 36%nat in Lhb.
  set (d0 := {| d_major := maj; d_minor := mi; d_socc := socc; d_uuid := uuid; d_meta := RMEle used cnt t; d_dck := dck;
                d_socu := socu; d_vu := vu; d_beacon := beacon; d_rot := rot; d_sig := sig |}).
  assert (Etbs : dc_tbs CEle d0 = Ok (hb ++ mb ++ kb)).
  { unfold dc_tbs, dc_format, d0. cbn [d_meta]. rewrite Emb. cbn [bind]. unfold dck_blob at 1. cbn [d_dck]. rewrite Ekb. cbn [bind].
    rewrite (dc_fields CEle _ mb kb []) by auto. cbn [bind].
    pose proof (pack_blobs [mb; kb]) as E2. cbn [map concat] in E2. rewrite app_nil_r in E2.
    exact (pack_app head_fmt _ hv _ _ _ Ehb E2). }
  exists ((hb ++ mb ++ kb) ++ sig), (hb ++ mb ++ kb). split; [exact Etbs|]. split; [now apply (dc_export_tbs CEle d0)|].
  split; [reflexivity|]. intros extra.
  set (b := ((hb ++ mb ++ kb) ++ sig) ++ extra).
  assert (Eb : b = hb ++ (fb ++ tb) ++ (kb ++ sig) ++ extra) by (unfold b, mb; now rewrite <- !app_assoc).
  unfold ele_parse. rewrite (unpack_from_at head_fmt hv hb b [] _ 0 HV1 Ehb Eb eq_refl).
  cbn [bind]. unfold hv. cbn [nth xi xb]. rewrite Hv. cbn [negb].
  assert (Emp : ele_meta_parse (skipn 36 b) = Ok (RMEle used cnt t)).
  { rewrite Eb, BytesProofs.skipn_app_exact, <- app_assoc by exact Lhb. unfold ele_meta_parse.
    rewrite BytesProofs.firstn_app_exact, Pfb, BytesProofs.skipn_app_exact by exact Lfb. cbn [bind]. rewrite Ptb. cbn [bind]. now rewrite Hver. }
  rewrite Emp. cbn [bind]. rewrite Hkeys. cbn [bind]. rewrite Hnth, Erb. cbn [bind]. rewrite Emb. cbn [bind].
  assert (HV3 : Forall2 fval_ok [FS (length rb); FS (key_sig_size rot)] [XB kb; XB sig]) by (repeat constructor; assumption).
  pose proof (pack_blobs [kb; sig]) as E3. cbn [map concat] in E3. rewrite Lkb, Hsig, app_nil_r in E3.
  rewrite (unpack_from_at _ _ _ b (hb ++ mb) extra _ HV3 E3); [|unfold b; now rewrite <- !app_assoc|now rewrite app_length, Lhb].
  cbn [bind nth xb]. rewrite Pkb. reflexivity.
Qed.
Print Assumptions dc_ele_v1_roundtrip.
