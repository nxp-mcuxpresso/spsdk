From Coq Require Import ZArith NArith List Bool Lia.
Require Import Value Bytes Sha2 GenRot RotModel GenDat DatModel DatProofs.
Import ListNotations.
Local Open Scope N_scope.

(* C15: the message a response signature covers determines credential bytes, beacon, (ECC protocols) uuid and challenge:
   two (credential, beacon, uuid, challenge) tuples with the same signed message are equal. *)
Theorem dar_binds :
  forall u dcb beacon uuid ch dcb2 beacon2 uuid2 ch2 m,
  length uuid = 16%nat -> length uuid2 = 16%nat -> length ch = 32%nat -> length ch2 = 32%nat ->
  dar_tbs u dcb beacon uuid ch = Ok m -> dar_tbs u dcb2 beacon2 uuid2 ch2 = Ok m ->
  dcb = dcb2 /\ beacon = beacon2 /\ (u = true -> uuid = uuid2) /\ ch = ch2.
Proof.
  intros u dcb beacon uuid ch dcb' beacon' uuid' ch' m HU HU' HC HC'. unfold dar_tbs, dar_common.
  destruct (u32 beacon) as [bb|] eqn:EB; [|discriminate]. destruct (u32 beacon') as [bb'|] eqn:EB'; [|discriminate]. simpl.
  intros H H'; inversion H; subst; inversion H' as [H2]. clear H H'.
  rewrite !(pack_s_exact 16) in H2 by assumption.
  destruct (u32_inv _ _ EB) as (_ & LB & _). destruct (u32_inv _ _ EB') as (_ & LB' & _).
  apply app_inj_tail_len in H2 as [H2 ->]; [|lia].
  destruct u.
  - rewrite !app_assoc in H2. apply app_inj_tail_len in H2 as [H2 ->]; [|lia].
    apply app_inj_tail_len in H2 as [-> H3]; [|lia]. subst bb'.
    repeat split; try reflexivity. now apply (u32_inj _ _ _ EB EB').
  - rewrite !app_nil_r in H2. apply app_inj_tail_len in H2 as [-> H3]; [|lia]. subst bb'.
    repeat split; try reflexivity; [now apply (u32_inj _ _ _ EB EB')|discriminate].
Qed.
Print Assumptions dar_binds.
