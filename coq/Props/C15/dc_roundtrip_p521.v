From Coq Require Import ZArith NArith List Bool Lia.
Require Import Value Bytes Sha2 GenRot RotModel GenDat DatModel DatProofs DatCreateProofs.
Import ListNotations.
Local Open Scope N_scope.

(* C15 (C15-F1, repaired): protocol 2.2 credentials created for 2..4 P-521 RoT keys export and parse back. *)
Theorem dc_roundtrip_p521 :
  forall cnt socc ks rot_id dck uuid socu vu beacon fca sig,
  (2 <= length ks <= 4)%nat -> (N.to_nat rot_id < length ks)%nat -> Forall (ecc_key_wf 521) ks -> ecc_key_wf 521 dck ->
  length uuid = 16%nat -> u32_ok socc -> u32_ok socu -> u32_ok vu -> u32_ok beacon -> length sig = 132%nat ->
  exists d b, dc_create 0 cnt socc ks rot_id dck uuid socu vu beacon fca = Ok (CEcc, d)
              /\ dc_export CEcc (dc_with_sig d sig) = Ok b /\ forall extra, dc_parse_class CEcc (b ++ extra) = Ok (dc_with_sig d sig).
Proof.
  intros cnt socc ks rot_id dck uuid socu vu beacon fca sig HL Hid Hks Hdck Huuid Hsocc Hsocu Hvu Hbeacon Hsig.
  apply (dc_created_roundtrip_ecc cnt socc ks rot_id dck uuid socu vu beacon fca sig 521 2); try assumption; try lia.
  intros ->. cbn [length] in HL. lia.
Qed.
Print Assumptions dc_roundtrip_p521.
