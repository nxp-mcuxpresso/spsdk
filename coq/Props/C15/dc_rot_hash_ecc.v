From Coq Require Import ZArith NArith List Bool Lia.
Require Import Value Bytes Sha2 GenRot RotModel GenDat DatModel DatProofs DatCreateProofs DatHashProofs.
Import ListNotations.
Local Open Scope N_scope.

(* C15: the RoT hash calculate_hash reports for a created ECC credential is C03s debug-credential construction over the same
   key list (RotModel.dc_ecc_hash) for EVERY key list, and for P-256 / P-384 key sets (1..4 points of the curve) it is the
   documented RoT hash of the image tools (rot_spec_v21: the keys own hash for one key, the hash of the table of key hashes
   for several). *)
Theorem dc_rot_hash_ecc :
  forall ele cnt socc ks rot_id dck uuid socu vu beacon fca d sig c,
  dc_create ele cnt socc ks rot_id dck uuid socu vu beacon fca = Ok (CEcc, d) ->
  dc_calc_hash CEcc (dc_with_sig d sig) = dc_ecc_hash ks rot_id
  /\ ((c = 256 \/ c = 384) -> Forall (ecc_key_wf c) ks -> dc_calc_hash CEcc (dc_with_sig d sig) = Ok (rot_spec_v21 ks)).
Proof.
  intros ele cnt socc ks rot_id dck uuid socu vu beacon fca d sig c H. pose proof (dc_rot_hash_ecc_model _ _ _ _ _ _ _ _ _ _ _ _ sig H) as HM. split; [exact HM|].
  intros Hc Hks. rewrite HM.
  destruct (dc_names_rot_key_lemma _ _ _ _ _ _ _ _ _ _ _ _ _ H) as (EN & _ & _ & _ & _ & _ & _ & (hs & items & _ & _ & FV)).
  assert (Hne : ks <> []) by (intros ->; destruct (N.to_nat rot_id); discriminate).
  unfold flags_validate in FV. apply andb_true_iff in FV as [F1 F2]. apply negb_true_iff, N.ltb_ge in F1. apply negb_true_iff, N.ltb_ge in F2.
  unfold nlen in *. apply (dc_ecc_hash_spec c); try assumption; lia.
Qed.
Print Assumptions dc_rot_hash_ecc.
