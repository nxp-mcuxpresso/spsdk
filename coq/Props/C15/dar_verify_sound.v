From Coq Require Import ZArith NArith List Bool Lia.
Require Import Value Bytes Sha2 GenRot RotModel GenDat DatModel DatProofs.
Import ListNotations.
Local Open Scope N_scope.

(* C15: a response built for (credential d, beacon, uuid, challenge ch) and signature sig2, checked by a device that issued
   challenge ch2 and has uuid u2: either the device rejects it (ECC protocols, foreign uuid) or it asks for the credential
   signature and for the DCK signature over a message that equals the signed one iff ch2 = ch (and u2 = uuid). *)
Theorem dar_verify_sound :
  forall c d u beacon uuid ch sig2,
  wf_dc c d -> length uuid = 16%nat -> length ch = 32%nat -> u32_ok beacon -> sig2 <> [] ->
  exists b t r m,
    dc_export c d = Ok b /\ dc_tbs c d = Ok t /\ dar_export u b beacon uuid sig2 = Ok r /\ dar_tbs u b beacon uuid ch = Ok m
    /\ forall u2 ch2, length u2 = 16%nat -> length ch2 = 32%nat ->
       (u = true /\ u2 <> uuid /\ dar_verify c u r u2 ch2 = Err 1)
       \/ exists m2, dar_tbs u b beacon u2 ch2 = Ok m2
                     /\ dar_verify c u r u2 ch2 = Ok (d, beacon, [SigVerify (d_rot d) t (d_sig d); SigVerify (d_dck d) m2 sig2])
                     /\ (m2 = m <-> ch2 = ch /\ (u = true -> u2 = uuid)).
Proof.
  intros c d u beacon uuid ch sig2 Hwf HU HC HB HS. destruct (dc_verify_lemma c d Hwf) as (b & t & Eb & Et & Es & V).
  destruct (u32_ok_enc beacon HB) as [Ebb Dbb]. set (bb := le_enc 4 beacon) in *.
  assert (Ecommon : forall x, length x = 16%nat -> dar_common u b beacon x = Ok (b ++ bb ++ (if u then x else []))).
  { intros x Hx. unfold dar_common. rewrite Ebb. cbn [bind]. now rewrite pack_s_exact. }
  assert (Etbs : forall x y, length x = 16%nat -> dar_tbs u b beacon x y = Ok ((b ++ bb ++ (if u then x else [])) ++ y))
    by (intros x y Hx; unfold dar_tbs; now rewrite Ecommon).
  set (uu := if u then uuid else []). assert (Luu : length uu = (if u then 16 else 0)%nat) by (unfold uu; now destruct u).
  exists b, t, (b ++ bb ++ uu ++ sig2), ((b ++ bb ++ uu) ++ ch). split; [exact Eb|]. split; [exact Et|]. split.
  { unfold dar_export. rewrite Ecommon by assumption. cbn [bind]. destruct sig2; [contradiction|]. now rewrite <- !app_assoc. }
  split; [now apply Etbs|]. intros u' ch' HU' HC'.
  rewrite (dar_verify_eq c u b bb uu sig2 d _ u' ch' V Eb (BytesProofs.le_enc_length _ _) Luu), Dbb.
  destruct (u && negb (eqb_list uu u')) eqn:EQ.
  - left. apply andb_true_iff in EQ as [-> EQ]. repeat split. intros ->. now rewrite BytesProofs.eqb_list_refl in EQ.
  - right. exists ((b ++ bb ++ (if u then u' else [])) ++ ch'). split; [now apply Etbs|].
    assert (Euu : uu = if u then u' else []).
    { unfold uu in *. destruct u; [|reflexivity]. apply negb_false_iff, BytesProofs.eqb_list_spec in EQ. exact EQ. }
    split; [now rewrite Euu|]. rewrite <- Euu. split.
    + intros H. apply app_inj_tail_len in H as [_ ->]; [|lia]. split; [reflexivity|]. intros ->. symmetry. exact Euu.
    + now intros [-> _].
Qed.
Print Assumptions dar_verify_sound.
