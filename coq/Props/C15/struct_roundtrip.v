From Coq Require Import ZArith NArith List Bool Lia.
Require Import Value Bytes Sha2 GenRot RotModel GenDat DatModel DatProofs.
Import ListNotations.
Local Open Scope N_scope.

(* C15: the struct codec every credential/challenge/response layout is built from: unpack_from(fmt, pre ++ pack(fmt, vs) ++ rest, |pre|) = vs
   for all formats and all well-typed values (u16/u32 in range, byte fields of the declared width). *)
Theorem struct_roundtrip :
  forall f vs, Forall2 fval_ok f vs ->
  exists b, pack f vs = Ok b /\ length b = calcsize f /\
            forall pre rest, unpack_from f (pre ++ b ++ rest) (length pre) = Ok vs.
Proof.
  intros f vs HF. destruct (pack_total f vs HF) as (b & Hb). exists b. split; [assumption|]. split; [now apply pack_length in Hb|].
  intros pre rest. now apply (unpack_from_at f vs b _ pre rest).
Qed.
Print Assumptions struct_roundtrip.
