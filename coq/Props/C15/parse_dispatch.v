From Coq Require Import ZArith NArith List Bool Lia.
Require Import Value Bytes Sha2 GenRot RotModel GenDat DatModel DatProofs DatCreateProofs.
Import ListNotations.
Local Open Scope N_scope.

(* C15 (C15-F2, repaired): for every family/revision of the database and every protocol version,
   DebugCredentialCertificate.parse (which sees only the SOCC) selects the class the credential was created with; no class
   is excluded.  (A container-v2 credential is taken by the first step of parse; parse_dispatch_fallback_used in
   Proofs/DatProofs.v shows the container-v1 fallback is exercised by the database.) *)
Theorem parse_dispatch :
  forall fam v, In fam g_family_table -> In v g_versions -> dispatch_agrees fam v = true.
Proof.
  assert (H : forallb (fun fam => forallb (fun v => dispatch_agrees fam v) g_versions) g_family_table = true)
    by (vm_compute; reflexivity).
  intros fam v Hf Hv. rewrite forallb_forall in H. specialize (H fam Hf). rewrite forallb_forall in H. exact (H v Hv).
Qed.
Print Assumptions parse_dispatch.
