From Coq Require Import ZArith NArith List Bool.
Require Import Value Bytes Crc Sha2 Hmac Aes Modes MbiMixinModel GenMbi MbiModel MbiRomModel MbiRomProofs.
Require Import BytesProofs.
Import ListNotations.

(* C02: encrypted load-to-RAM classes (RT5xx/6xx): the exported image passes the ROM model -- header HMAC, certificate
   block, signature over exactly the bytes before it -- and the ROM's reassembly of the ciphertext (encrypted header copy
   behind the certificate block | bytes 56..63 of the header | body | encrypted TrustZone) decrypted by AES-CTR with the IV
   stored behind the header copy is exactly the plaintext image the builder collected (application with IVT ++ TrustZone
   data).  The ROM's image key follows the configured key source r_ks: AES-ECB(master key, 1|0^15 ; 2|0^15) when no key
   store is configured, the user key when the key source is KEYSTORE (with or without embedded key-store data).  Uses the
   CTR involution of CryptoRef. *)
Theorem enc_roundtrip :
  forall (sign : list N -> list N) (c : mbi_class) (x : mbi) (img : list N) (cfg : rom_cfg) (keys : rom_keys)
         (pre post : list N) (sg : nat) (certs table : list (list N)),
    k_enc c = true -> wf_input x -> m_cert x = Some (CertV1 pre post sg) -> cb_v1_ok pre post certs table ->
    rk_rkth keys = sha256 (concat table) -> r_cb cfg = CbV1 -> r_hmac cfg = true -> In 3%Z (r_types cfg) ->
    tz_ok (r_tzsize cfg) x -> ks_wf x -> r_ks cfg = ks_truthy_obj (m_ks x) -> m_hmac x = Some (rk_user keys) ->
    wf_bytes (rk_user keys) -> (forall m, length (sign m) = sg) -> (0 < sg)%nat ->
    export_mbi (real_crypto sign) c x = Ok img ->
    exists raw msg, let s := msg ++ sign msg in
      collect c x = Ok raw /\
      img = firstn 64 s ++ hmac_sha256 (rom_hmac_key (rk_user keys)) (firstn 64 s) ++ ks_bytes x ++ skipn 64 s /\
      rom_hmac_ok (rk_user keys) img = true /\
      rom_mbi cfg keys img =
      Some {| ro_plain := flat raw; ro_msg := msg;
              ro_obl := v1_obl {| c1_il := zlen msg; c1_certs := certs; c1_table := table |} msg (sign msg) |}.
Proof.
  intros sign c x img cfg keys pre post sg certs table K WI MC CBOK RK RCB RH TY TZ KW KN MH WK SL SG E.
  destruct (enc_rom_l sign c x img cfg keys pre post sg certs table K WI MC CBOK RK RCB RH TY TZ KW MH WK SL SG E)
    as (raw & msg & E1 & EI & RHO & RT & RM).
  exists raw, msg. cbv zeta. rewrite (RT KN) in RM. unfold ivt_agree in RM. rewrite !eqb_list_refl in RM. auto.
Qed.
Print Assumptions enc_roundtrip.
