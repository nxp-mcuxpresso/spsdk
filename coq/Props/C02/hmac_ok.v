From Coq Require Import ZArith NArith List Bool.
Require Import Value Bytes Crc Sha2 Hmac Aes Modes MbiMixinModel GenMbi MbiModel MbiRomModel MbiRomProofs.
From Coq Require Import Lia.
Require Import BytesProofs MbiProofs MbiRtProofs MbiKindsProofs.
Import ListNotations.

(* C02: signed load-to-RAM classes with header authentication (RT5xx/6xx): the exported image is the signed image
   s = msg ++ sign msg with HMAC-SHA256(AES-ECB(user key, 0^16), first 64 bytes) and the key store inserted behind the
   64-byte header; the ROM model's HMAC check passes, removing HMAC + key store gives back s, and the signature obligation
   is over exactly msg.  (The constants of KeyStore.derive_hmac_key are regenerated from the source: Gen/GenCrypto.v.) *)
Theorem hmac_ok :
  forall (sign : list N -> list N) (c : mbi_class) (x : mbi) (img : list N) (cfg : rom_cfg) (keys : rom_keys)
         (pre post : list N) (sg : nat) (certs table : list (list N)),
    k_v1h c = true -> wf_input x -> m_cert x = Some (CertV1 pre post sg) -> cb_v1_ok pre post certs table ->
    rk_rkth keys = sha256 (concat table) -> r_cb cfg = CbV1 -> r_hmac cfg = true -> In 1%Z (r_types cfg) ->
    tz_ok (r_tzsize cfg) x -> ks_wf x -> m_hmac x = Some (rk_user keys) ->
    (forall m, length (sign m) = sg) -> (0 < sg)%nat ->
    export_mbi (real_crypto sign) c x = Ok img ->
    exists msg, let s := msg ++ sign msg in
      img = firstn 64 s ++ hmac_sha256 (rom_hmac_key (rk_user keys)) (firstn 64 s) ++ ks_bytes x ++ skipn 64 s /\
      firstn 64 img = firstn 64 s /\ (64 <= length msg)%nat /\
      rom_hmac_ok (rk_user keys) img = true /\
      rom_mbi cfg keys img =
      Some {| ro_plain := msg; ro_msg := msg;
              ro_obl := v1_obl {| c1_il := zlen msg; c1_certs := certs; c1_table := table |} msg (sign msg) |}.
Proof.
  intros sign c x img cfg keys pre post sg certs table K WI MC CBOK RK RCB RH TY TZ KW MH SL SG E. pose proof WI as (_ & _ & HT).
  unfold k_v1h in K.
  apply andb_prop in K as [[[[[[[[K PC]%andb_prop PE]%andb_prop PP]%andb_prop PF]%andb_prop HKS]%andb_prop HHM]%andb_prop HAK]%andb_prop
    CT].
  apply prov_is_eq in PC, PE, PP, PF. apply Z.eqb_eq in CT.
  destruct (export_v1_signed sign c x img pre post sg K PC PE PP HT MC E) as (app' & cbb & fin & V & L & U & CE & FIN & ->).
  destruct (v1_parts c x cfg pre post sg certs table app' cbb K (or_introl CT) WI MC CBOK TZ L U CE)
    as (La & R32 & R36 & T63 & R40 & CB & R20 & LTZ).
  destruct (validate_hmac_key c x V HHM) as (kb & kt & MH' & LK). rewrite MH in MH'. injection MH' as EK. rewrite <- EK in LK. clear kb kt EK.
  cbv zeta in FIN. set (msg := app' ++ cbb ++ tz_export (m_tz x)) in *. pose proof (finalize_hmac_app_len _ c x _ _ fin PF FIN) as AL64.
  destruct (v1_lens c x K HT) as (_ & AL & _).
  assert (La64 : 64 <= length app') by (rewrite AL in AL64; unfold zlen in AL64; lia).
  destruct (hmac_finalize_flat (real_crypto sign) c x (app' :: cbb :: tz_segment x ++ [sign msg]) msg PF AL64) as (fin' & F1 & F2);
    [rewrite flat_v1_signed, !app_length, SL; lia|].
  rewrite F1 in FIN. injection FIN as <-. rewrite F2, flat_v1_signed, (hmac_block_real sign x _ _ _ MH LK).
  fold msg. exists msg. cbv zeta. split; [reflexivity|].
  assert (HH : has_hmac cfg 1 = true) by (unfold has_hmac; now rewrite RH).
  pose proof (rom_mbi_v1 cfg keys 1 app' cbb (tz_export (m_tz x)) (sign msg) (ks_bytes x)
                {| c1_il := zlen msg; c1_certs := certs; c1_table := table |} RCB TY) as RM.
  cbv zeta in RM. rewrite HH in RM. fold msg in RM. destruct RM as (HM & RM); trivial.
  - tauto.
  - unfold min_off. now rewrite HH.
  - now rewrite T63.
  - now rewrite SL.
  - intros _. rewrite (ks_flag_flags c x app') by (trivial; lia). now apply ks_len_ok.
  - rewrite R32, (hz_true c _ _ HKS), (hz_true c _ _ HHM), hmac_img_len, zlen_app, opt_len_ks; cbn [mix_len].
    + rewrite MH. unfold zlen at 4. rewrite SL. change (Z.of_nat HMAC_SZ) with 32%Z. lia.
    + rewrite app_length. unfold msg. rewrite app_length. lia.
    + apply hmac_sha256_length.
  - destruct (HM eq_refl) as (F64 & RHO). split; [exact F64|]. split; [unfold msg; rewrite app_length; lia|]. auto.
Qed.
Print Assumptions hmac_ok.
