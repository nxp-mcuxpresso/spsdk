From Coq Require Import ZArith NArith List Bool.
Require Import Value Bytes Crc Sha2 Hmac Aes Modes MbiMixinModel GenMbi MbiModel MbiRomModel MbiRomProofs.
From Coq Require Import Lia.
Require Import BytesProofs.
Import ListNotations.

(* C02: no byte of an exported CRC image is outside the protected range: the file is exactly
   [bytes before the CRC word] ++ [CRC word] ++ [bytes after it], the ROM model's authenticated message is the first and the
   third part, and the CRC word is the CRC-32/MPEG-2 of that message.  (For signed images the corresponding decompositions
   img = msg ++ signature and img = header ++ HMAC ++ key store ++ rest are conclusions of sig_range_v1 / hmac_ok /
   enc_roundtrip / sig_range_v21, where msg is the message of the ROM's signature obligation.) *)
Theorem coverage_mbi :
  forall (k : crypto) (c : mbi_class) (x : mbi) (img : list N) (cfg : rom_cfg) (keys : rom_keys),
    k_crc c = true -> wf_input x -> In (c_type c) (r_types cfg) -> export_mbi k c x = Ok img ->
    exists r, rom_mbi cfg keys img = Some r /\ ro_msg r = firstn 40 img ++ skipn 44 img /\
      img = firstn 40 img ++ slice img 40 44 ++ skipn 44 img /\
      slice img 40 44 = le_enc 4 (crc CRC32_MPEG2 (ro_msg r)).
Proof.
  intros k c x img cfg keys K WI TY E. destruct (crc_ok_l k c x img cfg keys K WI TY E) as (RC & RM).
  eexists. split; [exact RM|]. cbn [ro_msg]. split; [reflexivity|]. split.
  - rewrite slice_skipn_cat by lia. symmetry. apply firstn_skipn.
  - symmetry. apply eqb_list_spec, RC.
Qed.
Print Assumptions coverage_mbi.
