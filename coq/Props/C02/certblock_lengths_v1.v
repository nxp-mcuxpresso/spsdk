From Coq Require Import ZArith NArith List Bool.
Require Import Value Bytes Crc Sha2 Hmac Aes Modes MbiMixinModel GenMbi MbiModel MbiRomModel MbiRomProofs.
Import ListNotations.

(* C02: the lengths authenticated together with the payload: IVT word 0x20 is the emitted size (signature included) and the
   certificate block header's image_length (word 5 of the block found through IVT word 0x28) is the number of signed bytes;
   the signature size is a parameter (RSA-2048/3072/4096 are not special cases). *)
Theorem certblock_lengths_v1 :
  forall (sign : list N -> list N) (c : mbi_class) (x : mbi) (img : list N) (cfg : rom_cfg) (keys : rom_keys)
         (pre post : list N) (sg : nat) (certs table : list (list N)),
    k_v1 c = true -> wf_input x -> m_cert x = Some (CertV1 pre post sg) -> cb_v1_ok pre post certs table ->
    rk_rkth keys = sha256 (concat table) -> r_cb cfg = CbV1 -> In 4%Z (r_types cfg) -> tz_ok (r_tzsize cfg) x ->
    (forall m, length (sign m) = sg) -> (0 < sg)%nat ->
    export_mbi (real_crypto sign) c x = Ok img ->
    exists msg, img = msg ++ sign msg /\ length (sign msg) = sg /\
      rd32 32 img = zlen img /\ rd32 (natz (rd32 40 img) + 20) img = zlen msg.
Proof.
  intros sign c x img cfg keys pre post sg certs table K WI MC CB RK RCB TY TZ SL SG E.
  destruct (v1_accept_l sign c x img cfg keys pre post sg certs table K WI MC CB RK RCB TY TZ SL SG E) as (msg & A & B & C & _).
  exists msg. auto.
Qed.
Print Assumptions certblock_lengths_v1.
