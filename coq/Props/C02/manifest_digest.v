From Coq Require Import ZArith NArith List Bool.
Require Import Value Bytes Crc Sha2 Hmac Aes Modes MbiMixinModel GenMbi MbiModel MbiRomModel MbiRomProofs.
Import ListNotations.

(* C02: the optional manifest digest: when the class carries a digest manifest and a digest algorithm is set, the bytes
   behind the signature are exactly H(msg) for that algorithm (SHA-256/384/512 of CryptoRef), msg being the signed bytes
   (the data handed to the signature provider); otherwise nothing follows the signature. *)
Theorem manifest_digest :
  forall (sign : list N -> list N) (c : mbi_class) (x : mbi) (img : list N) (cfg : rom_cfg) (keys : rom_keys)
         (body : list N) (sg : nat) (info : cb21_info),
    k_v21 c = true -> wf_input x -> m_cert x = Some (CertV21 body sg) -> cb_v21_ok (rk_rkth keys) body info ->
    r_cb cfg = CbV21 -> r_hmac cfg = false -> r_mcrc cfg = has c MixinManifestCrc -> In (c_type c) (r_types cfg) ->
    tz_ok (r_tzsize cfg) x -> (0 <= m_digest x <= 3)%Z ->
    sg = (2 * klen_of info)%nat -> (forall m, length (sign m) = sg) ->
    export_c02 (real_crypto sign) c x = Ok img ->
    exists msg, img = msg ++ sign msg ++
                      (if has c MixinManifestDigest && negb (m_digest x =? 0)%Z then hash_by (m_digest x) msg else []) /\
      rom_mbi cfg keys img = Some {| ro_plain := msg; ro_msg := msg; ro_obl := v21_obl info msg (sign msg) |}.
Proof. exact v21_accept_l. Qed.
Print Assumptions manifest_digest.
