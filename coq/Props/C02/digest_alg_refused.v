From Coq Require Import ZArith NArith List Bool.
Require Import Value Bytes Crc Sha2 Hmac Aes Modes MbiMixinModel GenMbi MbiModel MbiRomModel MbiRomProofs.
From Coq Require Import Lia.
Import ListNotations.

(* C02: a manifest digest algorithm other than the hash that belongs to the signing key's signature size (64 -> SHA-256,
   96 -> SHA-384, 132 -> SHA-512) is refused with an SPSDK error: no image that the ROM's digest check would reject is
   exported (the repaired former finding). *)
Theorem digest_alg_refused :
  forall (k : crypto) (c : mbi_class) (x : mbi) (cb : cert),
    supported c = true -> validate c x = Ok tt -> has c MixinApp = true ->
    provider c SCollect = Some ExportMixinAppCertBlockManifest ->
    has c MixinManifestDigest = true -> m_cert x = Some cb -> (m_digest x <> 0)%Z ->
    hash_type_of_sig (cert_sig cb) <> Some (m_digest x) ->
    export_c02 k c x = Err E_REJECT.
Proof.
  intros k c x cb S V HA PC HD MC D0 HT. pose proof (validate_app_len c x V HA) as L.
  unfold export_c02, export_mbi, export_image. rewrite S, V. cbn [negb bind]. unfold collect. rewrite PC, MC.
  destruct (m_app x) as [|b t]; [simpl in L; lia|].
  assert (G : digest_guard c x cb = Err E_REJECT).
  { rewrite (digest_guard_unfold c x cb HD D0). rewrite hash_type_of_sig_alg in HT.
    destruct (Z.eqb_spec (sig_alg cb) 0); cbn [orb]; [reflexivity|].
    destruct (Z.eqb_spec (sig_alg cb) (m_digest x)) as [E|]; cbn [negb]; [rewrite E in HT; congruence|reflexivity]. }
  rewrite G. reflexivity.
Qed.
Print Assumptions digest_alg_refused.
