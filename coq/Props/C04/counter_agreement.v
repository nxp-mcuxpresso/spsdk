From Coq Require Import ZArith NArith List Bool.
Require Import Value Bytes GenSb2 Sha2 Aes Modes Hmac KeyWrap Crc Sb2Model Sb2Proofs.
Import ListNotations.
Local Open Scope N_scope.

(* C04: the builder's running counter and the ROM's offset-derived counter agree: in every file the builder returns,
   the boot sections start at a 16-byte aligned offset, they were encrypted with the running counter started at
   nonce[12:16] + offset/16 (SHA-256 digest included in the offset when flagged), and the ROM's section walk, which
   computes every block counter as nonce[12:16] + (file offset)/16, decodes all of them. *)
Theorem counter_agreement :
  forall (E D : list N -> list N -> list N),
  (forall k b, length (E k b) = 16%nat) -> (forall k b, length b = 16%nat -> D k (E k b) = b) ->
  forall x file, wf_sbin x -> build21_gen E true x = Ok file ->
  exists pre bs, file = pre ++ bs /\ (length pre mod 16 = 0)%nat /\
    secs_export (E (x_dek x)) (x_mac x) (x_nonce x) (ctr_of_nonce (x_nonce x) + N.of_nat (length pre / 16)) (x_secs x) = Ok bs /\
    rom_sections (E (x_dek x)) (S (length file)) (x_mac x) (x_nonce x) file (length pre) (length file) = Some (spec_of (x_secs x)).
Proof. exact (fun E D HE HD x file W => counter_agreement_lemma E D HE true x file W (keys_wrap_sbin E D HE HD x W)). Qed.
Print Assumptions counter_agreement.
