From Coq Require Import ZArith NArith List Bool.
Require Import Value Bytes GenSb2 GenSb20 Sha2 Aes Modes Hmac KeyWrap Crc Sb2Model Sb20Model Sb2Proofs Sb2AesProofs Sb20Proofs Sb20AesProofs.
Import ListNotations.
Local Open Scope N_scope.

(* C04, Secure Binary 2.0 main statement (signed, flags 0x08, and unsigned, flags 0x04): for every well-formed input the
   ROM holding the same KEK processes the file BootImageV20.export builds -- key blob unwraps, the header MAC
   authenticates the 96 header bytes, for signed images the certificate section (header encrypted with block counter
   13, its MAC, the MAC of the clear certificate block) is accepted, every boot section MAC verifies, counters come from
   file offsets -- and sees, section for section and command for command, what was given; versions, build number,
   timestamp and signedness read back are the values supplied; the signature obligation is the given signature over
   EVERYTHING before it (file = signed range ++ signature), nothing for unsigned images; the header's first_boot_section_id is the first
   section's id and the ROM, which starts at the section carrying that id, starts with the first one (boot index 0).
   Parametric in the block cipher; rom20_build_aes is the concrete instance. *)
Theorem rom20_build :
  forall (E D : list N -> list N -> list N),
  (forall k b, length (E k b) = 16%nat) -> (forall k b, length b = 16%nat -> D k (E k b) = b) ->
  forall y file, wf_sb20 y -> build20_gen E y = Ok file ->
  exists r, rom20 E D (y_sigsize y) (y_kek y) file = Some r /\
    t_secs r = spec_of (y_secs y) /\ t_signed r = y_signed y /\ t_pv r = y_pv y /\ t_cv r = y_cv y /\
    t_build r = y_build y /\ t_ts r = y_ts y /\ t_sig r = sigpart y /\
    file = firstn (t_signed_len r) file ++ sigpart y /\ length (firstn (t_signed_len r) file) = t_signed_len r /\
    t_boot_index r = 0%nat /\ hdr_first_boot_section_id file = option_map s_uid (hd_error (y_secs y)).
Proof. exact (fun E D HE HD y file W => rom20_build_lemma E D HE y file W (keys_wrap_sb20 E D HE HD y W)). Qed.
Print Assumptions rom20_build.
