From Coq Require Import ZArith NArith List Bool.
Require Import Value Bytes GenSb2 GenSb20 Sha2 Aes Modes Hmac KeyWrap Crc Sb2Model Sb20Model Sb2Proofs Sb2AesProofs Sb20Proofs Sb20AesProofs.
Import ListNotations.
Local Open Scope N_scope.

(* C04, SB 2.0 counter agreement: the boot sections start at a 16-byte aligned offset and were encrypted with the running
   counter nonce[12:16] + offset/16 (the certificate section of a signed image lies in between and its header is
   encrypted with nonce[12:16] + 208/16); the ROM's offset-derived walk decodes all sections. *)
Theorem counter_agreement20 :
  forall (E D : list N -> list N -> list N),
  (forall k b, length (E k b) = 16%nat) -> (forall k b, length b = 16%nat -> D k (E k b) = b) ->
  forall y file, wf_sb20 y -> build20_gen E y = Ok file ->
  exists pre bs, file = pre ++ bs ++ sigpart y /\ (length pre mod 16 = 0)%nat /\
    (y_signed y = true -> exists hp, length hp = 16%nat /\
        slice pre 208 224 = xblock (E (y_dek y)) (y_nonce y) (ctr_of_nonce (y_nonce y) + N.of_nat (208 / 16)) hp) /\
    secs_export (E (y_dek y)) (y_mac y) (y_nonce y) (ctr_of_nonce (y_nonce y) + N.of_nat (length pre / 16)) (y_secs y) = Ok bs /\
    rom_sections (E (y_dek y)) (S (length file)) (y_mac y) (y_nonce y) (pre ++ bs) (length pre) (length pre + length bs)
      = Some (spec_of (y_secs y)).
Proof. exact (fun E D HE HD y file W => counter_agreement20_lemma E D HE y file W (keys_wrap_sb20 E D HE HD y W)). Qed.
Print Assumptions counter_agreement20.
