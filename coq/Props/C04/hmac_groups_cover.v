From Coq Require Import ZArith NArith List Bool.
Require Import Value Bytes GenSb2 Sha2 Aes Modes Hmac KeyWrap Crc Sb2Model Sb2Proofs.
Import ListNotations.
Local Open Scope N_scope.

(* C04: the MAC table of a section: the n ciphertext groups partition the encrypted commands (nothing is left outside
   a MAC), and the ROM's check of the table built by the builder succeeds. *)
Theorem hmac_groups_cover :
  forall mac n per body, (0 < n)%nat ->
  concat (hmac_groups n per body) = body /\ length (hmac_groups n per body) = n /\
  rom_groups_ok mac n per body (concat (map (hmac256 mac) (hmac_groups n per body))) = true.
Proof. intros mac n per body Hn. split; [now apply hmac_groups_concat|]. split; [apply hmac_groups_length| now apply rom_groups_ok_built]. Qed.
Print Assumptions hmac_groups_cover.
