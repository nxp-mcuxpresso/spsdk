From Coq Require Import ZArith NArith List Bool.
Require Import Value Bytes GenSb2 Sha2 Aes Modes Hmac KeyWrap Crc Sb2Model Sb2Proofs.
Import ListNotations.
Local Open Scope N_scope.

(* C04: ImageHeaderV2.parse (export h ++ anything) = h for every header that exports, with BCD product and component
   versions (independent of each other), build number, flags, block counts, timestamp, nonce and padding. *)
Theorem header_roundtrip :
  forall h hb rest, ihdr_export h = Ok hb -> bcd3 (ih_pv h) = true -> bcd3 (ih_cv h) = true ->
  length hb = 96%nat /\ ihdr_parse (hb ++ rest) = Ok h.
Proof. intros h hb rest He Hp Hc. split; [apply (ihdr_export_inv h hb He) | now apply ihdr_parse_export]. Qed.
Print Assumptions header_roundtrip.
