From Coq Require Import ZArith NArith List Bool.
Require Import Value Bytes GenSb2 GenSb20 Sha2 Aes Modes Hmac KeyWrap Crc Sb2Model Sb20Model Sb2Proofs Sb2AesProofs Sb20Proofs Sb20AesProofs.
Import ListNotations.
Local Open Scope N_scope.

(* C04, SB 2.0: the parser statement with the concrete AES, no cipher hypothesis. *)
Theorem spsdk_parse20_build_aes :
  forall y file, wf_sb20 y -> aes_keys_ok20 y -> bcd3 (y_pv y) = true -> bcd3 (y_cv y) = true -> build20 y = Ok file ->
  exists oss, Forall2 sec_obs_rel (y_secs y) oss /\
    spsdk_parse20 true (y_kek y) file =
    Ok (mkParsed20 (y_signed y) (y_pv y) (y_cv y) (y_build y) (y_ts y / 1000000 * 1000000) (y_nonce y) (y_dek y) (y_mac y) oss
                   (length file - length (sigpart y))).
Proof. exact (fun y file W K Hp Hc => spsdk_parse20_build_lemma sbE sbD sbE_length y file W (keys_wrap_sb20_aes y W K) Hp Hc (proj1 K)). Qed.
Print Assumptions spsdk_parse20_build_aes.
