From Coq Require Import ZArith NArith List Bool.
Require Import Value Bytes GenSb2 Sha2 Aes Modes Hmac KeyWrap Crc Sb2Model Sb2Proofs.
Import ListNotations.
Local Open Scope N_scope.

(* C04: the ROM walks ALL sections: as many as were given, with the given ids, in order. *)
Theorem sections_all :
  forall (E D : list N -> list N -> list N),
  (forall k b, length (E k b) = 16%nat) -> (forall k b, length b = 16%nat -> D k (E k b) = b) ->
  forall x file, wf_sbin x -> build21_gen E true x = Ok file ->
  exists r, rom21 E D (x_sigsize x) (x_kek x) file = Some r /\
            length (r_secs r) = length (x_secs x) /\ map fst (r_secs r) = map s_uid (x_secs x).
Proof. intros E D HE HD x file W H. destruct (rom21_build_lemma E D HE x file W (keys_wrap_sbin E D HE HD x W) H) as (r & Hr & Hs & _). exists r. split; [exact Hr|]. rewrite Hs. unfold spec_of. rewrite map_length, map_map. split; reflexivity. Qed.
Print Assumptions sections_all.
