From Coq Require Import ZArith NArith List Bool.
Require Import Value Bytes GenSb2 Sha2 Aes Modes Hmac KeyWrap Crc Sb2Model Sb2Proofs Sb2AesProofs.
Import ListNotations.
Local Open Scope N_scope.

(* C04: SPSDK's own parser recovers the same content -- concrete AES, no cipher hypothesis. *)
Theorem spsdk_parse21_build_aes :
  forall x file, wf_sbin x -> aes_keys_ok x -> bcd3 (x_pv x) = true -> bcd3 (x_cv x) = true -> build21 x = Ok file ->
  exists oss, Forall2 sec_obs_rel (x_secs x) oss /\
    spsdk_parse21 true (x_sigsize x) (x_kek x) file =
    Ok (mkParsed (x_flags x) (x_pv x) (x_cv x) (x_build x) (x_ts x / 1000000 * 1000000) (x_nonce x) (x_dek x) (x_mac x)
                 oss (signed_len_of x) (x_sigsize x)).
Proof. exact (fun x file W K Hp Hc => spsdk_parse21_build_lemma sbE sbD sbE_length x file W (keys_wrap_sbin_aes x W K) Hp Hc (proj1 K)). Qed.
Print Assumptions spsdk_parse21_build_aes.
