From Coq Require Import ZArith NArith List Bool.
Require Import Value Bytes GenSb2 Sha2 Aes Modes Hmac KeyWrap Crc Sb2Model Sb2Proofs.
Import ListNotations.
Local Open Scope N_scope.

(* C04: every byte of a built file is accounted for: file = signed ++ signature ++ sections where signed is the 96-byte
   header, the 32-byte header MAC (an HMAC over MAC entries of the first section), the 80-byte key blob (which
   unwraps to DEK || MAC under the KEK), the certificate block and -- when flagged -- the SHA-256 of all section bytes;
   `signed` has the length rom21_build's signature obligation covers; and the sections region is a run of sections each consisting of
   an encrypted header, its HMAC, one HMAC per ciphertext group and the groups themselves (covered). *)
Theorem coverage21 :
  forall (E D : list N -> list N -> list N),
  (forall k b, length (E k b) = 16%nat) -> (forall k b, length b = 16%nat -> D k (E k b) = b) ->
  forall x file, wf_sbin x -> build21_gen E true x = Ok file ->
  exists hb hm kb cbb bs k,
    let signed := hb ++ hm ++ kb ++ cbb ++ (if has_sha (x_flags x) then sha256 bs else []) in
    file = signed ++ x_sig x ++ bs /\
    length hb = 96%nat /\ length hm = 32%nat /\ length kb = 80%nat /\ length cbb = cb_raw_size (x_cb x) /\
    length signed = signed_len_of x /\ length (x_sig x) = x_sigsize x /\
    kw_unwrap (D (x_kek x)) (firstn 72 kb) = Some (x_dek x ++ x_mac x) /\
    hm = hmac256 (x_mac x) (slice bs 16 (48 + 32 * k)) /\
    covered (x_mac x) bs (length (x_secs x)).
Proof. exact (fun E D HE HD x file W => coverage21_lemma E D HE true x file W (keys_wrap_sbin E D HE HD x W)). Qed.
Print Assumptions coverage21.
