From Coq Require Import ZArith NArith List Bool.
Require Import Value Bytes GenSb2 Sha2 Aes Modes Hmac KeyWrap Crc Sb2Model Sb2Proofs Sb2AesProofs.
Import ListNotations.
Local Open Scope N_scope.

(* C04: the key blob with the concrete AES: for every legal KEK and byte-valued key data of a multiple of 8 bytes,
   RFC 3394 unwrap (wrap data) = data and the blob is 8 bytes longer -- no cipher hypothesis. *)
Theorem keyblob_unwraps_aes :
  forall kek data, aes_key_ok kek = true -> wf_bytes kek -> wf_bytes data -> (length data mod 8 = 0)%nat ->
  length (kw_wrap (sbE kek) data) = (8 + length data)%nat /\ kw_unwrap (sbD kek) (kw_wrap (sbE kek) data) = Some data.
Proof. exact (fun kek data H1 H2 H3 => KW_aes kek data (conj H1 (conj H2 H3))). Qed.
Print Assumptions keyblob_unwraps_aes.
