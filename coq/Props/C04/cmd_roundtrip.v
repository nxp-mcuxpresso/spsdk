From Coq Require Import ZArith NArith List Bool.
Require Import Value Bytes GenSb2 Sha2 Aes Modes Hmac KeyWrap Crc Sb2Model Sb2Proofs.
Import ListNotations.
Local Open Scope N_scope.

(* C04: for every well-formed command of each of the 13 types, parse_command applied to the exported bytes (followed by
   anything) returns exactly the observation (header fields, payload, memory id) of the object that was exported and
   consumes exactly the exported bytes; exports are whole 16-byte blocks. *)
Theorem cmd_roundtrip :
  forall c, wf_cmd c = true ->
  exists b o, cmd_export c = Ok b /\ cmd_obs c = Ok o /\ (16 <= length b)%nat /\ (length b mod 16 = 0)%nat /\
              pcmd_size o = length b /\ forall rest, cmd_parse (b ++ rest) = Ok o.
Proof. intros c W. destruct (cmd_ok c W) as (b & o & H1 & H2 & H3 & H4 & H5 & H6). exists b, o. split; [assumption|]. split; [assumption|]. split; [assumption|]. split; [assumption|]. split; [assumption|]. intros rest. apply H6. Qed.
Print Assumptions cmd_roundtrip.
