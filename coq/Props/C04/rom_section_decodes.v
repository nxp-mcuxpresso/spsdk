From Coq Require Import ZArith NArith List Bool.
Require Import Value Bytes GenSb2 Sha2 Aes Modes Hmac KeyWrap Crc Sb2Model Sb2Proofs.
Import ListNotations.
Local Open Scope N_scope.

(* C04: one boot section.  Whatever the builder's running counter ctr is, if the section lands in the file at a
   16-byte aligned offset off with ctr = nonce counter + off/16, the ROM -- which derives every block counter from the
   file offset -- accepts the header MAC and the MAC table, decrypts, and decodes exactly the commands given. *)
Theorem rom_section_decodes :
  forall (ek : list N -> list N), (forall b, length (ek b) = 16%nat) ->
  forall mac nonce ctr s b,
  forallb wf_cmd (s_cmds s) = true -> sec_export ek mac nonce ctr s = Ok b ->
  (48 <= length b)%nat /\ (length b mod 16 = 0)%nat /\
  forall pre post off,
    length pre = off -> (off mod 16 = 0)%nat -> ctr = ctr_of_nonce nonce + N.of_nat (off / 16) ->
    rom_section ek mac nonce (pre ++ b ++ post) off = Some (s_uid s, map sem (s_cmds s), length b).
Proof. intros ek Hek mac nonce ctr s b W H. destruct (sec_export_rom ek Hek mac nonce ctr s b W H) as (H1 & H2 & _ & H5). auto. Qed.
Print Assumptions rom_section_decodes.
