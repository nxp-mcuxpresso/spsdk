From Coq Require Import ZArith NArith List Bool.
Require Import Value Bytes GenSb2 GenSb20 Sha2 Aes Modes Hmac KeyWrap Crc Sb2Model Sb20Model Sb2Proofs Sb2AesProofs Sb20Proofs Sb20AesProofs.
Import ListNotations.
Local Open Scope N_scope.

(* C04, SB 2.0: SPSDK's own parser recovers the same content: BootImageV20.parse of the built file (signature verdict
   true for signed images) returns signedness, versions, build number, timestamp (whole seconds), nonce, DEK, MAC and ALL
   sections with ids, MAC counts and command observations of what was exported. *)
Theorem spsdk_parse20_build :
  forall (E D : list N -> list N -> list N),
  (forall k b, length (E k b) = 16%nat) -> (forall k b, length b = 16%nat -> D k (E k b) = b) ->
  forall y file, wf_sb20 y -> bcd3 (y_pv y) = true -> bcd3 (y_cv y) = true -> aes_key_ok (y_kek y) = true ->
  build20_gen E y = Ok file ->
  exists oss, Forall2 sec_obs_rel (y_secs y) oss /\
    parse20 E D true (y_kek y) file =
    Ok (mkParsed20 (y_signed y) (y_pv y) (y_cv y) (y_build y) (y_ts y / 1000000 * 1000000) (y_nonce y) (y_dek y) (y_mac y) oss
                   (length file - length (sigpart y))).
Proof. exact (fun E D HE HD y file W => spsdk_parse20_build_lemma E D HE y file W (keys_wrap_sb20 E D HE HD y W)). Qed.
Print Assumptions spsdk_parse20_build.
