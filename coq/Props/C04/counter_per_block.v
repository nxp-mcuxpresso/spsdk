From Coq Require Import ZArith NArith List Bool.
Require Import Value Bytes GenSb2 Sha2 Aes Modes Hmac KeyWrap Crc Sb2Model Sb2Proofs.
Import ListNotations.
Local Open Scope N_scope.

(* C04: the counter of every single block.  A section exported with running counter ctr consists of the encrypted
   header (block 0, counter ctr), its HMAC (blocks 1-2), the MAC table (2 blocks per entry) and the encrypted commands;
   command block j -- which sits 3 + 2*|table| + j blocks after the section start -- is the plaintext block XOR
   E(DEK, nonce[0:12] ++ LE32(ctr + 3 + 2*|table| + j)).  With ctr = nonce[12:16] + (section offset)/16
   (counter_agreement) every block counter is nonce[12:16] + (file offset of the block)/16. *)
Theorem counter_per_block :
  forall (ek : list N -> list N), (forall b, length (ek b) = 16%nat) ->
  forall mac nonce ctr s b,
  forallb wf_cmd (s_cmds s) = true -> sec_export ek mac nonce ctr s = Ok b ->
  exists hplain cd gs,
    cmds_export (s_cmds s) = Ok cd /\ length hplain = 16%nat /\
    b = xblock ek nonce ctr hplain ++ hmac256 mac (xblock ek nonce ctr hplain) ++ concat (map (hmac256 mac) gs) ++ concat gs /\
    length (concat gs) = length cd /\
    forall j, (j < length cd / 16)%nat ->
      nth j (chunks 16 (concat gs)) [] = xblock ek nonce (ctr + N.of_nat (3 + 2 * length gs + j)) (nth j (chunks 16 cd) []).
Proof. exact counter_per_block_lemma. Qed.
Print Assumptions counter_per_block.
