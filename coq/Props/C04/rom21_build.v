From Coq Require Import ZArith NArith List Bool.
Require Import Value Bytes GenSb2 Sha2 Aes Modes Hmac KeyWrap Crc Sb2Model Sb2Proofs.
Import ListNotations.
Local Open Scope N_scope.

(* C04 main statement, all flags (with and without the SHA-256 bit): for every well-formed input, the ROM holding the
   same KEK processes the file BootImageV21.export builds -- key blob unwraps, header MAC, every section MAC, counters
   from file offsets, checksums, CRCs -- and sees, section for section and command for command, what was given; the
   header fields read back are the values supplied; the signature obligation it emits is x_sig over exactly the first
   signed_len_of x bytes (header, header MAC, key blob, certificate block, SHA-256 of the sections when flagged).
   Parametric in the block cipher (any pair with D k (E k b) = b); rom21_build_aes is the concrete instance. *)
Theorem rom21_build :
  forall (E D : list N -> list N -> list N),
  (forall k b, length (E k b) = 16%nat) -> (forall k b, length b = 16%nat -> D k (E k b) = b) ->
  forall x file, wf_sbin x -> build21_gen E true x = Ok file ->
  exists r, rom21 E D (x_sigsize x) (x_kek x) file = Some r /\
     r_secs r = spec_of (x_secs x) /\ r_flags r = x_flags x /\ r_pv r = x_pv x /\ r_cv r = x_cv x /\
     r_build r = x_build x /\ r_ts r = x_ts x /\ r_major r = 2 /\ r_minor r = 1 /\
     r_sig r = x_sig x /\ r_signed_len r = signed_len_of x.
Proof. exact (fun E D HE HD x file W => rom21_build_lemma E D HE x file W (keys_wrap_sbin E D HE HD x W)). Qed.
Print Assumptions rom21_build.
