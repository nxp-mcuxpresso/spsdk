From Coq Require Import ZArith NArith List Bool.
Require Import Value Bytes GenSb2 GenSb20 Sha2 Aes Modes Hmac KeyWrap Crc Sb2Model Sb20Model Sb2Proofs Sb2AesProofs Sb20Proofs Sb20AesProofs.
Import ListNotations.
Local Open Scope N_scope.

(* C04, SB 2.0 coverage: every byte of a built file is the header (96), the HMAC of exactly those 96 bytes (32), the key
   blob (72, unwraps to DEK || MAC) and its 8 padding bytes, for signed images the certificate section (encrypted
   header, its HMAC, the HMAC of the certificate block, the certificate block), the boot sections (covered: encrypted
   header, its HMAC, one HMAC per ciphertext group, the groups), and for signed images the signature, which by rom20_build
   is over everything before it. *)
Theorem coverage20 :
  forall (E D : list N -> list N -> list N),
  (forall k b, length (E k b) = 16%nat) -> (forall k b, length b = 16%nat -> D k (E k b) = b) ->
  forall y file, wf_sb20 y -> build20_gen E y = Ok file ->
  exists hb kb0 csb bs,
    file = hb ++ hmac256 (y_mac y) hb ++ (kb0 ++ y_pad2 y) ++ csb ++ bs ++ sigpart y /\
    length hb = 96%nat /\ length kb0 = 72%nat /\ length (y_pad2 y) = 8%nat /\
    kw_unwrap (D (y_kek y)) kb0 = Some (y_dek y ++ y_mac y) /\
    (if y_signed y
     then exists ench cbb, length ench = 16%nat /\ length cbb = cb_raw_size (y_cb y) /\
                           csb = ench ++ hmac256 (y_mac y) ench ++ hmac256 (y_mac y) cbb ++ cbb
     else csb = []) /\
    covered (y_mac y) bs (length (y_secs y)) /\
    length (sigpart y) = (if y_signed y then y_sigsize y else 0%nat).
Proof. exact (fun E D HE HD y file W => coverage20_lemma E D HE y file W (keys_wrap_sb20 E D HE HD y W)). Qed.
Print Assumptions coverage20.
