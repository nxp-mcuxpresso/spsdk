From Coq Require Import ZArith NArith List Bool.
Require Import Value Bytes GenSb2 Sha2 Aes Modes Hmac KeyWrap Crc Sb2Model Sb2Proofs.
Import ListNotations.
Local Open Scope N_scope.

(* C04: the ROM's command decoder (written from the container format: checksum seeded 0x5A, tag, flags with device id
   in bits 15..8 and group id in bits 7..4, LOAD payload padded to 16 with CRC-32/MPEG-2) sees, for every well-formed
   builder command, exactly the command that was meant (sem), and advances by exactly the exported length. *)
Theorem rom_cmd_decodes :
  forall c, wf_cmd c = true ->
  exists b, cmd_export c = Ok b /\ forall rest, rom_cmd (b ++ rest) = Some (sem c, length b).
Proof. intros c W. destruct (cmd_ok c W) as (b & o & H1 & _ & _ & _ & _ & H6). exists b. split; [assumption|]. intros rest. apply H6. Qed.
Print Assumptions rom_cmd_decodes.
