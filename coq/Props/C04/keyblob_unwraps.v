From Coq Require Import ZArith NArith List Bool.
Require Import Value Bytes GenSb2 Sha2 Aes Modes Hmac KeyWrap Crc Sb2Model Sb2Proofs.
Import ListNotations.
Local Open Scope N_scope.

(* C04: RFC 3394 -- for any keyed block function pair with D (E b) = b on 16-byte blocks, unwrapping the wrapped key
   data returns it (so the ROM holding the same KEK recovers DEK || MAC), and the wrapped blob is 8 bytes longer. *)
Theorem keyblob_unwraps :
  forall (E D : list N -> list N),
  (forall b, length (E b) = 16%nat) -> (forall b, length b = 16%nat -> D (E b) = b) ->
  forall data, (length data mod 8 = 0)%nat ->
  length (kw_wrap E data) = (8 + length data)%nat /\ kw_unwrap D (kw_wrap E data) = Some data.
Proof. exact CryptoProofs.unwrap_wrap_any. Qed.
Print Assumptions keyblob_unwraps.
