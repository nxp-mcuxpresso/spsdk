From Coq Require Import ZArith NArith List Bool.
Require Import Value Bytes GenSb2 Sha2 Aes Modes Hmac KeyWrap Crc Sb2Model Sb2Proofs.
Import ListNotations.
Local Open Scope N_scope.

(* C04, history of finding C04-F2 (repaired in /repo): for the builder as it was BEFORE the repair (build21_old: the
   32-byte digest not counted in image_blocks / first_boot_tag_block) there is a well-formed SHA-flagged input whose
   file the ROM rejects, while it accepts the file of the current builder for the same input.  This is a statement
   about the OLD builder only; it documents that the ROM model is sensitive to these header fields. *)
Theorem rom21_old_builder_sha_refuted :
  exists x file, wf_sbin x /\ has_sha (x_flags x) = true /\ build21_old x = Ok file /\
                 rom21_aes (x_sigsize x) (x_kek x) file = None /\
                 (exists file' r, build21 x = Ok file' /\ rom21_aes (x_sigsize x) (x_kek x) file' = Some r /\
                                  r_secs r = spec_of (x_secs x)).
Proof. exists (demo 32776 demo_secs). apply old_builder_sha_refuted; [apply demo_wf | apply demo_keys_wrap | reflexivity | lazy; reflexivity | lazy; reflexivity]. Qed.
Print Assumptions rom21_old_builder_sha_refuted.
