From Coq Require Import ZArith NArith List Bool.
Require Import Value Bytes GenSb2 GenSb20 Sha2 Aes Modes Hmac KeyWrap Crc Sb2Model Sb20Model Sb2Proofs Sb2AesProofs Sb20Proofs Sb20AesProofs.
Import ListNotations.
Local Open Scope N_scope.

(* C04, SB 2.1: first boot section located by id -- concrete AES, no cipher hypothesis. *)
Theorem rom21_first_boot_section_aes :
  forall x file, wf_sbin x -> aes_keys_ok x -> build21 x = Ok file ->
  exists r, rom21_boot_aes (x_sigsize x) (x_kek x) file = Some (r, 0%nat) /\
     r_secs r = spec_of (x_secs x) /\ r_flags r = x_flags x /\ r_pv r = x_pv x /\ r_cv r = x_cv x /\
     r_build r = x_build x /\ r_ts r = x_ts x /\ r_major r = 2 /\ r_minor r = 1 /\
     r_sig r = x_sig x /\ r_signed_len r = signed_len_of x /\
     hdr_first_boot_section_id file = option_map s_uid (hd_error (x_secs x)).
Proof. exact (fun x file W K => rom21_boot_build_lemma sbE sbD sbE_length x file W (keys_wrap_sbin_aes x W K)). Qed.
Print Assumptions rom21_first_boot_section_aes.
