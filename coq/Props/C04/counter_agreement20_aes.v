From Coq Require Import ZArith NArith List Bool.
Require Import Value Bytes GenSb2 GenSb20 Sha2 Aes Modes Hmac KeyWrap Crc Sb2Model Sb20Model Sb2Proofs Sb2AesProofs Sb20Proofs Sb20AesProofs.
Import ListNotations.
Local Open Scope N_scope.

(* C04, SB 2.0 counter agreement for the concrete AES builder / ROM. *)
Theorem counter_agreement20_aes :
  forall y file, wf_sb20 y -> aes_keys_ok20 y -> build20 y = Ok file ->
  exists pre bs, file = pre ++ bs ++ sigpart y /\ (length pre mod 16 = 0)%nat /\
    (y_signed y = true -> exists hp, length hp = 16%nat /\
        slice pre 208 224 = xblock (sbE (y_dek y)) (y_nonce y) (ctr_of_nonce (y_nonce y) + N.of_nat (208 / 16)) hp) /\
    secs_export (sbE (y_dek y)) (y_mac y) (y_nonce y) (ctr_of_nonce (y_nonce y) + N.of_nat (length pre / 16)) (y_secs y) = Ok bs /\
    rom_sections (sbE (y_dek y)) (S (length file)) (y_mac y) (y_nonce y) (pre ++ bs) (length pre) (length pre + length bs)
      = Some (spec_of (y_secs y)).
Proof. exact (fun y file W K => counter_agreement20_lemma sbE sbD sbE_length y file W (keys_wrap_sb20_aes y W K)). Qed.
Print Assumptions counter_agreement20_aes.
