From Coq Require Import ZArith NArith List Bool.
Require Import Value Bytes GenSb2 GenSb20 Sha2 Aes Modes Hmac KeyWrap Crc Sb2Model Sb20Model Sb2Proofs Sb2AesProofs Sb20Proofs Sb20AesProofs.
Import ListNotations.
Local Open Scope N_scope.

(* C04, SB 2.0 main statement with the concrete CryptoRef AES: no cipher hypothesis (Proofs/CryptoProofs.v). *)
Theorem rom20_build_aes :
  forall y file, wf_sb20 y -> aes_keys_ok20 y -> build20 y = Ok file ->
  exists r, rom20_aes (y_sigsize y) (y_kek y) file = Some r /\
    t_secs r = spec_of (y_secs y) /\ t_signed r = y_signed y /\ t_pv r = y_pv y /\ t_cv r = y_cv y /\
    t_build r = y_build y /\ t_ts r = y_ts y /\ t_sig r = sigpart y /\
    file = firstn (t_signed_len r) file ++ sigpart y /\ length (firstn (t_signed_len r) file) = t_signed_len r /\
    t_boot_index r = 0%nat /\ hdr_first_boot_section_id file = option_map s_uid (hd_error (y_secs y)).
Proof. exact (fun y file W K => rom20_build_lemma sbE sbD sbE_length y file W (keys_wrap_sb20_aes y W K)). Qed.
Print Assumptions rom20_build_aes.
