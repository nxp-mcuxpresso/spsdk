From Coq Require Import ZArith NArith List Bool.
Require Import Value Bytes GenSb2 Sha2 Aes Modes Hmac KeyWrap Crc Sb2Model Sb2Proofs Sb2AesProofs.
Import ListNotations.
Local Open Scope N_scope.

(* C04 main statement with the concrete AES (no cipher hypothesis): for every well-formed input with a legal KEK
   (16/24/32 bytes) and byte-valued KEK / DEK / MAC, the ROM model running CryptoRef AES decodes the file that the model
   of BootImageV21.export (the one compared byte for byte with SPSDK on every run) builds, and sees exactly what was
   given.  AES invertibility comes from Proofs/CryptoProofs.v (aes_dec_enc). *)
Theorem rom21_build_aes :
  forall x file, wf_sbin x -> aes_keys_ok x -> build21 x = Ok file ->
  exists r, rom21_aes (x_sigsize x) (x_kek x) file = Some r /\
     r_secs r = spec_of (x_secs x) /\ r_flags r = x_flags x /\ r_pv r = x_pv x /\ r_cv r = x_cv x /\
     r_build r = x_build x /\ r_ts r = x_ts x /\ r_major r = 2 /\ r_minor r = 1 /\
     r_sig r = x_sig x /\ r_signed_len r = signed_len_of x.
Proof. exact (fun x file W K => rom21_build_lemma sbE sbD sbE_length x file W (keys_wrap_sbin_aes x W K)). Qed.
Print Assumptions rom21_build_aes.
