From Coq Require Import ZArith NArith List Bool.
Require Import Value Bytes GenSb2 Sha2 Aes Modes Hmac KeyWrap Crc Sb2Model Sb2Proofs.
Import ListNotations.
Local Open Scope N_scope.

(* C04: SPSDK's own parser recovers the same content.  For every well-formed input (BCD versions, legal KEK length) the
   parser applied to the built file -- signature verdict true -- returns the flags that were given, product and
   component version, build number, timestamp (whole seconds), nonce, DEK, MAC, and ALL sections: for each given
   section its id, its number of MAC entries and, command for command, the observation of the command object that was
   exported (sec_obs_rel).  Parametric in the cipher; spsdk_parse21_build_aes is the concrete instance. *)
Theorem spsdk_parse21_build :
  forall (E D : list N -> list N -> list N),
  (forall k b, length (E k b) = 16%nat) -> (forall k b, length b = 16%nat -> D k (E k b) = b) ->
  forall x file, wf_sbin x -> bcd3 (x_pv x) = true -> bcd3 (x_cv x) = true -> aes_key_ok (x_kek x) = true ->
  build21_gen E true x = Ok file ->
  exists oss, Forall2 sec_obs_rel (x_secs x) oss /\
    parse21 E D true (x_sigsize x) (x_kek x) file =
    Ok (mkParsed (x_flags x) (x_pv x) (x_cv x) (x_build x) (x_ts x / 1000000 * 1000000) (x_nonce x) (x_dek x) (x_mac x)
                 oss (signed_len_of x) (x_sigsize x)).
Proof. exact (fun E D HE HD x file W => spsdk_parse21_build_lemma E D HE x file W (keys_wrap_sbin E D HE HD x W)). Qed.
Print Assumptions spsdk_parse21_build.
