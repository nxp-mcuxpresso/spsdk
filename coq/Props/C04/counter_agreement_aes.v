From Coq Require Import ZArith NArith List Bool.
Require Import Value Bytes GenSb2 Sha2 Aes Modes Hmac KeyWrap Crc Sb2Model Sb2Proofs Sb2AesProofs.
Import ListNotations.
Local Open Scope N_scope.

(* C04: counter agreement for the concrete AES builder / ROM (no cipher hypothesis). *)
Theorem counter_agreement_aes :
  forall x file, wf_sbin x -> aes_keys_ok x -> build21 x = Ok file ->
  exists pre bs, file = pre ++ bs /\ (length pre mod 16 = 0)%nat /\
    secs_export (sbE (x_dek x)) (x_mac x) (x_nonce x) (ctr_of_nonce (x_nonce x) + N.of_nat (length pre / 16)) (x_secs x) = Ok bs /\
    rom_sections (sbE (x_dek x)) (S (length file)) (x_mac x) (x_nonce x) file (length pre) (length file) = Some (spec_of (x_secs x)).
Proof. exact (fun x file W K => counter_agreement_lemma sbE sbD sbE_length true x file W (keys_wrap_sbin_aes x W K)). Qed.
Print Assumptions counter_agreement_aes.
