From Coq Require Import ZArith NArith List Bool Lia.
Require Import Value Bytes Sha2 Aes Modes HabModel HabProofs.
Import ListNotations.
Local Open Scope Z_scope.

(* C07: for an encrypted image the Decrypt Data block list is exactly the application, and AES-CCM decryption of that
   block of the exported image with the DEK, the nonce and the MAC stored in the CSF restores the (16-byte padded) application. *)
Theorem ccm_restores_app :
  forall c b q, hab_build c = Ok b -> hab_pre c = Ok q -> c_enc c = true -> layout_wf c q -> wf_bytes (h_dek c) ->
  b_enc b = [(h_start c + h_ivt_off c + c_app_off c, hlen (c_app_bin c))] /\
  ccm_decrypt (aes_enc (h_dek c)) (b_nonce b) [] (Z.to_nat (h_mac_len c))
              (hslice (b_image b) (c_app_off c) (c_app_off c + hlen (c_app_bin c)) ++ b_mac b) = Some (c_app_bin c).
Proof.
  intros c b q.
  intros Hb Hq He Wf Hw. pose proof (layout_full_of_build c b q Hb Hq Wf) as W.
  pose proof (hab_pre_inv c q Hq) as (Hf & _). pose proof (enc_implies_auth c Hf He) as Ha.
  destruct (enc_build_facts c b q Hb Hq He W Hw) as (Hl & Hc & Hn & Ht & Hk).
  destruct (auth_build_facts c b q Hb Hq Ha) as (_ & _ & _ & _ & _ & _ & _ & Heb & _). rewrite He in Heb.
  split; [exact Heb|].
  destruct (build_image c b q Hb Hq W (fun _ => Hw)) as (Hi & _). destruct W as (_ & W2 & _).
  rewrite Hi, <- Hl, hslice_mid, Hc by (try apply (hlen_head_shape c); assumption || lia).
  apply CryptoProofs.ccm_dec_enc_l; try assumption. intros; now apply CryptoProofs.aes_enc_length.
Qed.
Print Assumptions ccm_restores_app.
