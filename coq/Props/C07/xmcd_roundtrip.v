From Coq Require Import ZArith NArith List Bool Lia.
Require Import Value Bytes Sha2 Aes Modes HabModel HabProofs.
Import ListNotations.
Local Open Scope Z_scope.

(* C07: SegXMCD.parse -> export is the identity on every XMCD block the 4-byte header can describe: interface 0/1
   (the only values XMCDHeader accepts), instance 0..15, block type 0/1, total size < 4096 (12-bit size field). *)
Theorem xmcd_roundtrip :
  forall iface inst typ cfg, xmcd_wf iface inst typ cfg ->
  bind (xmcd_load (xmcd_bytes iface inst typ cfg)) xmcd_export = Ok (xmcd_bytes iface inst typ cfg).
Proof.
  intros iface inst typ cfg.
 intros H. rewrite xmcd_load_spec by assumption. cbn [bind]. now apply xmcd_export_spec.
Qed.
Print Assumptions xmcd_roundtrip.
