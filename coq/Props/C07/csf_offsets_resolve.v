From Coq Require Import ZArith NArith List Bool Lia.
Require Import Value Bytes Sha2 Aes Modes HabModel HabProofs.
Import ListNotations.
Local Open Scope Z_scope.

(* C07: in the exported CSF every Install Key / Authenticate Data command that references cmd-data (SRK table, certificate,
   signature, MAC) carries, in its location field, the offset at which exactly that object's bytes stand; the objects
   follow the signed header-and-commands part. *)
Theorem csf_offsets_resolve :
  forall c b q, hab_build c = Ok b -> hab_pre c = Ok q -> c_auth c = true ->
  exists cmds raw,
    csf_export_raw (h_ver c) cmds = Ok raw /\ b_csf b = pad_to 8192 raw /\ b_tbs_csf b = csf_base (h_ver c) cmds /\
    (exists t, raw = b_tbs_csf b ++ t) /\
    Forall (fun p => needs_ref (fst p) = true -> forall d, cmd_dat (fst p) = Some d ->
                     u32be_at (cmd_export (fst p) (snd p)) 8 = snd p /\ hslice raw (snd p) (snd p + hlen d) = d)
           (combine cmds (csf_offsets (csf_hlen cmds) cmds)).
Proof.
  intros c b q.
  intros Hb Hq Ha. destruct (auth_build_facts c b q Hb Hq Ha) as (_ & cmds & _ & Hc & Ht & _).
  apply csf_export_inv in Hc as (raw & Er & Hc). exists cmds, raw. destruct (csf_offsets_ok _ _ _ Er) as (Hr & _ & HF).
  split; [exact Er|]. split; [exact Hc|]. split; [exact Ht|]. split; [now rewrite Ht | exact HF].
Qed.
Print Assumptions csf_offsets_resolve.
