From Coq Require Import ZArith NArith List Bool Lia.
Require Import Value Bytes Sha2 Aes Modes HabModel HabProofs HabHistProofs.
Import ListNotations.
Local Open Scope Z_scope.

(* C07 (history): HabContainer.update_csf() can be repeated. The state that survives between calls is the CSF command list
   (block lists, signature / MAC objects); for every k, after k further update_csf() calls with the same signing inputs on the
   object load_from_config returned, export() gives exactly what the first export gave (image, block lists, signed bytes,
   nonce, MAC). *)
Theorem update_csf_repeatable :
  forall c b q k, hab_build c = Ok b -> hab_pre c = Ok q -> c_auth c = true -> layout_wf c q ->
  (c_enc c = true -> wf_bytes (h_dek c)) ->
  exists cmds, hab_updates c q k (q_cmds0 q) = Ok (cmds, b).
Proof.
  intros c b q k.
  intros Hb Hq Ha W Hw. pose proof (layout_full_of_build c b q Hb Hq W) as WF.
  destruct (auth_build_update c b q Hb Hq Ha) as (cmds1 & Eu). exists cmds1.
  pose proof (update_fixpoint c q _ _ _ Hq Ha WF Hw Eu) as Fx.
  destruct k as [|k]; [exact Eu|]. cbn [hab_updates]. rewrite Eu. cbn [bind fst]. now apply updates_fixpoint.
Qed.
Print Assumptions update_csf_repeatable.
