From Coq Require Import ZArith NArith List Bool Lia.
Require Import Value Bytes Sha2 Aes Modes HabModel HabProofs.
Import ListNotations.
Local Open Scope Z_scope.

(* C07: what the two CMS signatures are computed over (the signatures themselves are obligations discharged by the
   independent openssl check): Authenticate CSF signs exactly CSF[0 : header length] of the CSF that stands at the IVT's CSF
   pointer; Authenticate Data signs exactly the concatenation of the listed (address, size) blocks of the exported image. *)
Theorem cms_obligations_ranges :
  forall c b q, hab_build c = Ok b -> hab_pre c = Ok q -> c_auth c = true -> layout_wf c q ->
  (c_enc c = true -> wf_bytes (h_dek c)) -> dcd_sized q ->
  hskip (b_image b) (iv_csf (c_ivt c) - iv_self (c_ivt c)) = b_csf b /\
  hbyte (b_csf b) 0 = 212 /\
  b_tbs_csf b = hslice (b_csf b) 0 (u16be_at (b_csf b) 1) /\
  b_tbs_data b = concat (map (fun blk => hslice (b_image b) (fst blk - c_self c) (fst blk - c_self c + snd blk)) (b_signed b)).
Proof.
  intros c b q.
  intros Hb Hq Ha Wf Hw [D0 D1]. pose proof Wf as (H68 & Hap & _).
  destruct (build_geom c b q Hb Hq H68 Hap) as (_ & G2 & _).
  pose proof (hlen_nonneg (of_opt (q_xm_b q))). pose proof (hlen_nonneg (of_opt (q_dcd_b q))). pose proof (xm_sz_len c q Hq).
  destruct (auth_build_facts c b q Hb Hq Ha) as (_ & cmds & _ & Hc & Ht & _).
  destruct (csf_signed_range _ _ _ Hc) as (R1 & R2 & R3).
  pose proof (pointers_resolve' c b q Hb Hq Wf Hw) as (_ & _ & _ & _ & _ & _ & _ & P). rewrite Ha in P.
  split; [exact (proj1 P)|]. split; [exact R2|]. split; [now rewrite R3, Ht, R1|].
  apply (signed_data_blocks c b q); try assumption; try lia. now apply (layout_full_of_build c b q).
Qed.
Print Assumptions cms_obligations_ranges.
