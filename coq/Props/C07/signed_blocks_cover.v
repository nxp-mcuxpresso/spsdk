From Coq Require Import ZArith NArith List Bool Lia.
Require Import Value Bytes Sha2 Aes Modes HabModel HabProofs.
Import ListNotations.
Local Open Scope Z_scope.

(* C07: for every authenticated (or encrypted) image the builder produces, the blocks written into Authenticate Data (plus
   Decrypt Data for an encrypted image) cover exactly IVT, boot-data slot, DCD, XMCD and the whole application -- no gap;
   and they are pairwise disjoint (for a non-empty application placed at or after IVT+0x44 and a DCD that exports as many
   bytes as it reports). That the segments themselves do not collide follows from the successful build. *)
Theorem signed_blocks_cover :
  forall c b q, hab_build c = Ok b -> hab_pre c = Ok q -> c_auth c = true ->
  (forall p, in_blocks c (b_signed b ++ b_enc b) p <-> content_pos c q p) /\
  (68 <= c_app_off c -> 0 < hlen (h_app c) -> dcd_sized q -> disjoint_blocks (b_signed b ++ b_enc b)).
Proof.
  intros c b q.
  intros Hb Hq Ha. destruct (auth_build_facts c b q Hb Hq Ha) as (_ & _ & _ & _ & _ & _ & -> & -> & _).
  split; [apply blocks_cover|]. intros H68 Hap [D0 D1].
  destruct (build_geom c b q Hb Hq H68 Hap) as (G1 & G2 & _).
  apply blocks_disjoint; try assumption.
  pose proof (xm_sz_len c q Hq). lia.
Qed.
Print Assumptions signed_blocks_cover.
