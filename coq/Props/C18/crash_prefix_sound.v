From Coq Require Import ZArith NArith List Bool.
Require Import Value GenCache CacheModel CacheProofs.
Import ListNotations.
Local Open Scope Z_scope.

(* C18: a process killed at any instant of any reachable state (quick-info or data cache, any number of processes, any
   schedule) releases the lock and leaves the file either untouched or -- if it was between open("wb") and close -- as a
   damaged prefix (a content startup_total covers); the file never stays "open for writing" by a dead process. *)
Theorem crash_prefix_sound :
  forall (w : world) (s : sys) (i : nat) (e : exn) (s' : sys),
  reachable gen_config w s -> step gen_config w s i (ACrash e) = Some s' ->
  procs s' i = Killed /\ (forall j, j <> i -> procs s' j = procs s j) /\
  lock s' <> Some i /\
  (file s' = file s \/ file s = CPartial i /\ file s' = CDamaged e) /\
  file s' <> CPartial i.
Proof. intros w s i e s' Hr. exact (crash_prefix_gen gen_config w s i e s' (reachable_linv gen_config w s (eq_refl true) Hr)). Qed.
Print Assumptions crash_prefix_sound.
