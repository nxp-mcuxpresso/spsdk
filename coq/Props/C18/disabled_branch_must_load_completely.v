From Coq Require Import ZArith NArith List Bool.
Require Import Value GenCache CacheModel CacheProofs.
Import ListNotations.
Local Open Scope Z_scope.

(* C18 (non-vacuity of the complete_load premise; finding C18-F1, repaired): the routines as extracted
   from the source, but with the cache-disabled branch calling get_db() without complete_load, answer differently with
   the cache disabled than with any admissible cache content. *)
Theorem disabled_branch_must_load_completely :
  forall cur, exists c, quick_admissible cur c /\
    fst (quick_start (disabled_not_loaded gen_config) cur c) <> disabled_start (disabled_not_loaded gen_config).
Proof. intros cur. exact (disabled_refuted_gen (disabled_not_loaded gen_config) cur ltac:(vm_compute; reflexivity) (eq_refl false)). Qed.
Print Assumptions disabled_branch_must_load_completely.
