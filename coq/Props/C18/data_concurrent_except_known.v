From Coq Require Import ZArith NArith List Bool.
Require Import Value GenCache CacheModel CacheProofs.
Import ListNotations.
Local Open Scope Z_scope.

(* C18: data cache: whatever the guard around it, the ONLY place where an exception could escape in any schedule is the
   os.remove inside the except handler of DatabaseData.__init__ (FileNotFoundError: another process removed the damaged
   file between exists() and remove()), and only if that os.remove is unguarded in the source. *)
Theorem data_concurrent_except_known :
  forall (w : world) (c : content) (sched : list (nat * action)),
  data_admissible (w_cur w) (w_src w) c -> (forall k, c <> CPartial k) -> sched_ok sched ->
  forall i st e, procs (run gen_config w (init_sys c DStart) sched) i = Fail st e ->
  st = S_HANDLER_RM /\ e = EXN_FileNotFoundError /\ guarded (i_hrm_guard gen_config) EXN_FileNotFoundError = false.
Proof. intros w c sched Ha Hc Hs. exact (proj1 (concurrent_data_gen gen_config w c sched ltac:(vm_compute; reflexivity) Ha Hc Hs)). Qed.
Print Assumptions data_concurrent_except_known.
