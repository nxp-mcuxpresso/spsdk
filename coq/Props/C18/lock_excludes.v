From Coq Require Import ZArith NArith List Bool.
Require Import Value GenCache CacheModel CacheProofs.
Import ListNotations.
Local Open Scope Z_scope.

(* C18: in every reachable state at most one process is inside a FileLock section, and a process about to read the cache
   file sees a complete file: never one that is being rewritten (the "torn" argument of ReadAll is never used). *)
Theorem lock_excludes :
  forall (w : world) (s : sys), reachable gen_config w s ->
  (forall i j, holding (procs s i) = true -> holding (procs s j) = true -> i = j) /\
  (forall i t, reading (procs s i) = true -> observe s i t = file s /\ forall k, file s <> CPartial k).
Proof. intros w s Hr. exact (linv_excludes s (reachable_linv gen_config w s (eq_refl true) Hr)). Qed.
Print Assumptions lock_excludes.
