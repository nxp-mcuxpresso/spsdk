From Coq Require Import ZArith NArith List Bool.
Require Import Value GenCache CacheModel CacheProofs.
Import ListNotations.
Local Open Scope Z_scope.

(* C18: data cache, any number of processes and any schedule: every process that finishes returns the parsed content of
   the config file it asked for, and a cache file with the current fingerprint only ever holds honest records (merging
   with a concurrently written cache included). *)
Theorem data_concurrent_answers_agree :
  forall (w : world) (c : content) (sched : list (nat * action)),
  data_admissible (w_cur w) (w_src w) c -> (forall k, c <> CPartial k) -> sched_ok sched ->
  let s := run gen_config w (init_sys c DStart) sched in
  (forall i a, procs s i = Done a -> a = w_src w (w_key w i)) /\
  data_admissible (w_cur w) (w_src w) (file s).
Proof. intros w c sched Ha Hc Hs. exact (proj2 (concurrent_data_gen gen_config w c sched ltac:(vm_compute; reflexivity) Ha Hc Hs)). Qed.
Print Assumptions data_concurrent_answers_agree.
