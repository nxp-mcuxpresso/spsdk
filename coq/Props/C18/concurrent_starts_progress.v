From Coq Require Import ZArith NArith List Bool.
Require Import Value GenCache CacheModel CacheProofs.
Import ListNotations.
Local Open Scope Z_scope.

(* C18: no deadlock and bounded work: in every reachable state a process that has not finished can take a step itself or
   waits for a lock whose holder can; every step strictly decreases the stepping process' measure and touches no other. *)
Theorem concurrent_starts_progress :
  forall (w : world) (s : sys), reachable gen_config w s ->
  (forall i, final (procs s i) = false ->
     can_move gen_config w s i \/ exists j, j <> i /\ lock s = Some j /\ can_move gen_config w s j) /\
  (forall i a s', step gen_config w s i a = Some s' ->
     (measure w (procs s' i) < measure w (procs s i))%nat /\ forall j, j <> i -> procs s' j = procs s j).
Proof. intros w s Hr. pose proof (reachable_linv gen_config w s (eq_refl true) Hr) as L. exact (conj (fun i => progress_gen gen_config w s i L) (step_measure gen_config w s)). Qed.
Print Assumptions concurrent_starts_progress.
