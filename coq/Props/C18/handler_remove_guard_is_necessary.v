From Coq Require Import ZArith NArith List Bool.
Require Import Value GenCache CacheModel CacheProofs.
Import ListNotations.
Local Open Scope Z_scope.

(* C18 (non-vacuity of the guard premise; finding C18-F2, repaired): the routines as extracted from the
   source, but with the os.remove in the except handler of DatabaseData.__init__ NOT wrapped in a try, have a schedule of
   two processes on a damaged data cache in which the second os.remove raises FileNotFoundError out of the handler. *)
Theorem handler_remove_guard_is_necessary :
  exists c sched, data_admissible (w_cur w0) (w_src w0) c /\ not_open c /\ sched_ok sched /\
    exists i, procs (run (unguard_handler_remove gen_config) w0 (init_sys c DStart) sched) i
              = Fail S_HANDLER_RM EXN_FileNotFoundError.
Proof. apply race_witness; vm_compute; reflexivity. Qed.
Print Assumptions handler_remove_guard_is_necessary.
