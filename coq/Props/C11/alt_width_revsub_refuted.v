From Coq Require Import ZArith NArith List Bool Lia.
Require Import Value Bytes GenMisc MiscModel GenRegs RegsModel RegsProofs.
Import ListNotations.
Local Open Scope Z_scope.

(* finding C11-F3: reversed sub-register order with alternative widths *)
Theorem alt_width_revsub_refuted :
  exists g t s v g', wf_regs_b true g = true /\ t_sreg g t = Some s /\ in_range (s_width s) v /\
                     t_set g t v false = Ok g' /\ t_get g' t false <> Ok v.
Proof.
  exists (ex_alt_group false false true 0), (Top 0%nat). eexists. exists 7. eexists.
  split; [vm_compute; reflexivity|]. split; [reflexivity|]. split; [cbn; split; [apply Z.leb_le|apply Z.ltb_lt]; vm_compute; reflexivity|].
  split; [vm_compute; reflexivity|]. vm_compute. discriminate.
Qed.
Print Assumptions alt_width_revsub_refuted.
