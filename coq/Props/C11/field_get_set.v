From Coq Require Import ZArith NArith List Bool Lia.
Require Import Value Bytes GenMisc MiscModel GenRegs RegsModel RegsProofs.
Import ListNotations.
Local Open Scope Z_scope.

(* g ranges over every state reachable from a well-formed register file g0 by any finite operation sequence. *)
Theorem field_get_set :
  forall g0 ops t k f s v x nopre, wf_regs g0 -> let g := run g0 g0 ops in
  t_sreg g t = Some s -> t_field g t k = Some f -> to_int v = Ok x -> in_range (f_width f) (pre_of f x nopre) ->
  (exists g', step g0 g (OSetField t k v false nopre) = (g', VList []) /\ wf_regs g' /\
              f_get g' t k = Ok (post_of f (pre_of f x nopre))) /\
  (forall name c, v = VStr name -> enum_const (f_enums f) name = Some c -> in_range (f_width f) (pre_of f c false) ->
     exists g', step g0 g (OSetEnum t k (VStr name) false) = (g', VList []) /\ wf_regs g' /\
                f_get g' t k = Ok (post_of f (pre_of f c false))).
Proof. intros g0 ops t k f s v x nopre H0 g Hs Hf Hv Hp; destruct (reachable_wf g0 ops H0) as [Hw _]; split; [destruct (field_get_set_lemma g t k f s x nopre Hw Hs Hf Hp) as (g' & _ & A & B & _ & C & _); exists g'; repeat split; try assumption; exact (A g0 v Hv) | intros name c _ Hc Hpc; exact (step_set_enum_ok g0 g t k f s name c Hw Hs Hf Hc Hpc)]. Qed.
Print Assumptions field_get_set.
