From Coq Require Import ZArith NArith List Bool Lia.
Require Import Value Bytes GenMisc MiscModel GenRegs RegsModel RegsProofs.
Import ListNotations.
Local Open Scope Z_scope.

(* g ranges over every state reachable from a well-formed register file g0 by any finite operation sequence. *)
Theorem group_write_defines_subs :
  forall g0 ops i r s0 tl v x raw, wf_regs g0 -> let g := run g0 g0 ops in
  nth_error (g_regs g) i = Some r -> r_subs r = s0 :: tl -> to_int v = Ok x -> in_range (s_width (r_base r)) x ->
  exists g', step g0 g (OSetReg (Top i) v raw) = (g', VList []) /\ wf_regs g' /\ t_get g' (Top i) raw = Ok x /\
    forall j, (j < length (r_subs r))%nat ->
      t_get g' (Sub i j) raw =
        Ok (getbits (view (s_reverse (r_base r)) raw (s_width (r_base r)) x)
                    (sub_pos (s_width (r_base r)) (1 + Z.of_nat j) (s_width s0) (r_rev_sub r)) (s_width s0)).
Proof. intros g0 ops i r s0 tl v x raw H0 g E Es Hv Hx; destruct (reachable_wf g0 ops H0) as [Hw _]; exact (group_write_lemma g0 g i r s0 tl v x raw Hw E Es Hv Hx). Qed.
Print Assumptions group_write_defines_subs.
