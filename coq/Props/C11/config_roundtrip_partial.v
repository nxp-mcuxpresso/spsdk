From Coq Require Import ZArith NArith List Bool Lia.
Require Import Value Bytes GenMisc MiscModel GenRegs RegsModel RegsProofs.
Import ListNotations.
Local Open Scope Z_scope.

(* PARTIAL: the configuration is taken as numbers (bit-field k -> the value bitfield.get_value() returns); the rendering of
   get_config (enum names, hex strings, hidden/diff filtering) and its re-parsing are differentially tested, not proved.
   g: the object the configuration comes from; g1: any object of the same layout it is loaded into;
   tiles: every bit of the register belongs to some bit-field. *)
Theorem config_roundtrip_partial :
  forall g0 ops ops1 t s V, wf_regs g0 -> let g := run g0 g0 ops in let g1 := run g0 g0 ops1 in
  t_sreg g t = Some s -> tiles (s_fields s) (s_width s) -> t_get g t false = Ok V ->
  (forall k f, t_field g t k = Some f -> f_get g t k = Ok (post_of f (getbits V (f_off f) (f_width f)))) /\
  exists g2, load_entry g1 t (CFields (numeric_cfg 0 (s_fields s) V)) = (g2, Ok tt) /\ wf_regs g2 /\ same_layout g g2 /\
             t_get g2 t false = Ok V /\
             (forall k f, t_field g t k = Some f -> f_get g2 t k = f_get g t k).
Proof. intros g0 ops ops1 t s V H0 g g1 Hs Ht HV; destruct (reachable_wf g0 ops H0) as [Hw Hl]; destruct (reachable_wf g0 ops1 H0) as [Hw1 Hl1]; exact (config_roundtrip_lemma g g1 t s V Hw Hw1 (eq_trans (eq_sym Hl) Hl1) Hs Ht HV). Qed.
Print Assumptions config_roundtrip_partial.
