From Coq Require Import ZArith NArith List Bool Lia.
Require Import Value Bytes GenMisc MiscModel GenRegs RegsModel RegsProofs.
Import ListNotations.
Local Open Scope Z_scope.

(* g ranges over every state reachable from a well-formed register file g0 by any finite operation sequence. *)
Theorem register_rejects :
  forall g0 ops t s v x raw, wf_regs g0 -> let g := run g0 g0 ops in
  t_sreg g t = Some s -> to_int v = Ok x -> ~ in_range (s_width s) x ->
  step g0 g (OSetReg t v raw) = (g, VErr 1%N).
Proof. intros g0 ops t s v x raw H0 g Hs Hv Hx; destruct (reachable_wf g0 ops H0) as [Hw _]; exact (step_set_reg_rejects g0 g t s v x raw Hw Hs Hv Hx). Qed.
Print Assumptions register_rejects.
