From Coq Require Import ZArith NArith List Bool Lia.
Require Import Value Bytes GenMisc MiscModel GenRegs RegsModel RegsProofs.
Import ListNotations.
Local Open Scope Z_scope.

(* g ranges over every state reachable from a well-formed register file g0 by any finite operation sequence. *)
Theorem reg_get_set :
  forall g0 ops t s v x raw, wf_regs g0 -> let g := run g0 g0 ops in
  t_sreg g t = Some s -> to_int v = Ok x -> in_range (s_width s) x ->
  exists g', step g0 g (OSetReg t v raw) = (g', VList []) /\ wf_regs g' /\ same_layout g g' /\
    t_get g' t raw = Ok x /\
    (forall u r', top_of u <> top_of t -> t_get g' u r' = t_get g u r') /\
    (forall i j j' r', t = Sub i j -> j' <> j -> t_get g' (Sub i j') r' = t_get g (Sub i j') r').
Proof. intros g0 ops t s v x raw H0 g Hs Hv Hx; destruct (reachable_wf g0 ops H0) as [Hw _]; exact (step_set_reg_ok g0 g t s v x raw Hw Hs Hv Hx). Qed.
Print Assumptions reg_get_set.
