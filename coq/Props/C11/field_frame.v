From Coq Require Import ZArith NArith List Bool Lia.
Require Import Value Bytes GenMisc MiscModel GenRegs RegsModel RegsProofs.
Import ListNotations.
Local Open Scope Z_scope.

(* g ranges over every state reachable from a well-formed register file g0 by any finite operation sequence. *)
Theorem field_frame :
  forall g0 ops t k f s v x nopre, wf_regs g0 -> let g := run g0 g0 ops in
  t_sreg g t = Some s -> t_field g t k = Some f -> to_int v = Ok x -> in_range (f_width f) (pre_of f x nopre) ->
  exists g', step g0 g (OSetField t k v false nopre) = (g', VList []) /\
    (* disjoint bit-fields of the same register keep their values *)
    (forall k' f', t_field g t k' = Some f' -> fields_disjoint f f' -> f_get g' t k' = f_get g t k') /\
    (* every other top-level register, with its sub-registers and bit-fields, is untouched *)
    (forall u, top_of u <> top_of t -> (forall r', t_get g' u r' = t_get g u r') /\ (forall k', f_get g' u k' = f_get g u k')) /\
    (* sibling sub-registers of the same group are untouched *)
    (forall i j j', t = Sub i j -> j' <> j ->
       (forall r', t_get g' (Sub i j') r' = t_get g (Sub i j') r') /\ (forall k', f_get g' (Sub i j') k' = f_get g (Sub i j') k')).
Proof. intros g0 ops t k f s v x nopre H0 g Hs Hf Hv Hp; destruct (reachable_wf g0 ops H0) as [Hw _]; destruct (field_get_set_lemma g t k f s x nopre Hw Hs Hf Hp) as (g' & _ & A & _ & _ & _ & C & D & E); exists g'; repeat split; try assumption; try exact (A g0 v Hv); try (now apply D); now apply (E i j j'). Qed.
Print Assumptions field_frame.
