From Coq Require Import ZArith NArith List Bool Lia.
Require Import Value Bytes GenMisc MiscModel GenRegs RegsModel RegsProofs.
Import ListNotations.
Local Open Scope Z_scope.

Theorem rejected_write_keeps_state :
  forall init g o k, (forall c, o <> OLoadCfg c) -> snd (step init g o) = VErr k -> fst (step init g o) = g.
Proof.
  intros init g o k.
  intros Hc. destruct o; try (intros _; apply queries_pure_lemma; reflexivity); cbn [step];
    try (unfold vunit; match goal with |- context [match ?r with Ok _ => _ | Err _ => _ end] => destruct r end; cbn; [discriminate|reflexivity]).
  exfalso. now apply (Hc c).
Qed.
Print Assumptions rejected_write_keeps_state.
