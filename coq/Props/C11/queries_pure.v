From Coq Require Import ZArith NArith List Bool Lia.
Require Import Value Bytes GenMisc MiscModel GenRegs RegsModel RegsProofs.
Import ListNotations.
Local Open Scope Z_scope.

Theorem queries_pure :
  forall init g o, is_query o = true -> fst (step init g o) = g.
Proof. exact queries_pure_lemma. Qed.
Print Assumptions queries_pure.
