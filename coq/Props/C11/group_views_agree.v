From Coq Require Import ZArith NArith List Bool Lia.
Require Import Value Bytes GenMisc MiscModel GenRegs RegsModel RegsProofs.
Import ListNotations.
Local Open Scope Z_scope.

(* g ranges over every state reachable from a well-formed register file g0 by any finite operation sequence. *)
Theorem group_views_agree :
  forall g0 ops i r s0 tl raw V, wf_regs g0 -> let g := run g0 g0 ops in
  nth_error (g_regs g) i = Some r -> r_subs r = s0 :: tl -> t_get g (Top i) raw = Ok V ->
  let b := r_base r in
  (* C: the group value with the group's own byte reversal undone *)
  let C := view (s_reverse b) raw (s_width b) V in
  in_range (s_width b) V /\
  forall j s, nth_error (r_subs r) j = Some s ->
    t_get g (Sub i j) raw = Ok (view (s_reverse s) raw (s_width s0) (s_value s)) /\
    getbits C (sub_pos (s_width b) (1 + Z.of_nat j) (s_width s0) (r_rev_sub r)) (s_width s0)
      = view (s_reverse s) raw (s_width s0) (s_value s).
Proof. intros g0 ops i r s0 tl raw V H0 g E Es HV; destruct (reachable_wf g0 ops H0) as [Hw _]; exact (group_views_lemma g i r s0 tl raw V Hw E Es HV). Qed.
Print Assumptions group_views_agree.
