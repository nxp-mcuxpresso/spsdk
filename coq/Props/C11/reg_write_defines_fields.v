From Coq Require Import ZArith NArith List Bool Lia.
Require Import Value Bytes GenMisc MiscModel GenRegs RegsModel RegsProofs.
Import ListNotations.
Local Open Scope Z_scope.

(* g ranges over every state reachable from a well-formed register file g0 by any finite operation sequence. *)
Theorem reg_write_defines_fields :
  forall g0 ops t s v x, wf_regs g0 -> let g := run g0 g0 ops in
  t_sreg g t = Some s -> to_int v = Ok x -> in_range (s_width s) x ->
  exists g', step g0 g (OSetReg t v false) = (g', VList []) /\ wf_regs g' /\
    forall k f, t_field g t k = Some f -> f_get g' t k = Ok (post_of f (getbits x (f_off f) (f_width f))).
Proof. intros g0 ops t s v x H0 g Hs Hv Hx; destruct (reachable_wf g0 ops H0) as [Hw _]; exact (step_set_reg_fields g0 g t s v x Hw Hs Hv Hx). Qed.
Print Assumptions reg_write_defines_fields.
