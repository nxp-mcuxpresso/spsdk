From Coq Require Import ZArith NArith List Bool Lia.
Require Import Value Bytes GenMisc MiscModel GenRegs RegsModel RegsProofs.
Import ListNotations.
Local Open Scope Z_scope.

(* finding C11-F1 (D9): with alternative widths allowed, reg_get_set is false *)
Theorem alt_width_reverse_refuted :
  exists g t s v g', wf_regs_b true g = true /\ t_sreg g t = Some s /\ in_range (s_width s) v /\
                     t_set g t v false = Ok g' /\ t_get g' t false <> Ok v.
Proof.
  exists ex_alt_plain, (Top 0%nat). eexists. exists (2 ^ 256). eexists.
  split; [vm_compute; reflexivity|]. split; [reflexivity|]. split; [cbn; split; [apply Z.leb_le|apply Z.ltb_lt]; vm_compute; reflexivity|].
  split; [vm_compute; reflexivity|]. vm_compute. discriminate.
Qed.
Print Assumptions alt_width_reverse_refuted.
