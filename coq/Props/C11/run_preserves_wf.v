From Coq Require Import ZArith NArith List Bool Lia.
Require Import Value Bytes GenMisc MiscModel GenRegs RegsModel RegsProofs.
Import ListNotations.
Local Open Scope Z_scope.

Theorem run_preserves_wf :
  forall init ops g, wf_regs g -> wf_regs (run init g ops) /\ same_layout g (run init g ops).
Proof. intros init ops g H; exact (run_keeps init ops g H). Qed.
Print Assumptions run_preserves_wf.
