From Coq Require Import ZArith NArith List Bool Lia.
Require Import Value Bytes GenMisc MiscModel GenRegs RegsModel RegsProofs.
Import ListNotations.
Local Open Scope Z_scope.

(* Finding C11-F2 (repaired): a non-reversed group in normal sub-register
   order whose alternative widths are multiples of the sub-register width (wf_alt_group; e.g. mimxrt798s CUST_MK_SK).
   The class is closed under the write, so the statement holds after any number of whole-group writes. *)
Theorem alt_width_group_get_set :
  forall init g i r v raw, nth_error (g_regs g) i = Some r -> wf_alt_group r -> in_range (s_width (r_base r)) v ->
  (exists g' r', step init g (OSetReg (Top i) (VInt v) raw) = (g', VList []) /\ nth_error (g_regs g') i = Some r' /\
                 wf_alt_group r' /\ t_get g' (Top i) raw = Ok v) /\
  (exists r' aw, alt_width (s_width (r_base r)) (s_alt (r_base r)) v = Ok aw /\ reg_set r v raw = Ok r' /\
     length (r_subs r') = length (r_subs r) /\
     (* no stale contents: every sub-register above the selected width reads 0 *)
     forall j s s0, nth_error (r_subs r') j = Some s -> nth_error (r_subs r) 0 = Some s0 ->
                    aw <= Z.of_nat j * s_width s0 -> sreg_get (g_big g) s raw = Ok 0).
Proof. intros init g i r v raw E Hr Hv; split; [exact (alt_group_step_lemma init g i r v raw E Hr Hv) | destruct (alt_group_get_set_lemma (g_big g) r v raw Hr Hv) as (r' & aw & A & B & _ & _ & C & D); exists r', aw; repeat split; assumption]. Qed.
Print Assumptions alt_width_group_get_set.
