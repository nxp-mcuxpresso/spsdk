From Coq Require Import ZArith NArith List Bool Lia.
Require Import Value Bytes GenMisc MiscModel GenRegs RegsModel RegsProofs.
Import ListNotations.
Local Open Scope Z_scope.

(* g ranges over every state reachable from a well-formed register file g0 by any finite operation sequence. *)
Theorem field_rejects :
  forall g0 ops t k f s v raw nopre, wf_regs g0 -> let g := run g0 g0 ops in
  t_sreg g t = Some s -> t_field g t k = Some f ->
  (forall x, to_int v = Ok x -> ~ in_range (f_width f) (pre_of f x nopre) ->
     step g0 g (OSetField t k v raw nopre) = (g, VErr 1%N)) /\
  (forall e, to_int v = Err e -> step g0 g (OSetField t k v raw nopre) = (g, VErr e)).
Proof. intros g0 ops t k f s v raw nopre H0 g Hs Hf; destruct (reachable_wf g0 ops H0) as [Hw _]; split; [intros x Hv Hp; exact (step_set_field_rejects g0 g t k f s v x raw nopre Hw Hs Hf Hv Hp) | intros e Hv; exact (step_set_field_unparsable g0 g t k f v e raw nopre Hf Hv)]. Qed.
Print Assumptions field_rejects.
