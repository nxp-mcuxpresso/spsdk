From Coq Require Import ZArith NArith List Bool Lia.
Require Import Value Bytes GenMisc MiscModel GenRegs RegsModel RegsProofs.
Import ListNotations.
Local Open Scope Z_scope.

(* finding C11-F4: big-endian export of a register with alternative widths does not parse back *)
Theorem alt_width_big_endian_export_refuted :
  exists g0 g b g', wf_regs_b true g0 = true /\ same_layout g0 g /\ wf_regs_b true g = true /\
                    export g = Ok b /\ parse g0 b = Ok g' /\ t_get g' (Top 0) true <> t_get g (Top 0) true.
Proof.
  exists (ex_alt_group true false false 0).
  destruct (t_set (ex_alt_group true false false 0) (Top 0%nat) 7 false) as [g|] eqn:E; [|vm_compute in E; discriminate].
  exists g. vm_compute in E. injection E as <-. eexists. eexists.
  split; [vm_compute; reflexivity|]. split; [vm_compute; reflexivity|]. split; [vm_compute; reflexivity|].
  split; [vm_compute; reflexivity|]. split; [vm_compute; reflexivity|]. vm_compute. discriminate.
Qed.
Print Assumptions alt_width_big_endian_export_refuted.
