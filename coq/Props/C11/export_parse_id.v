From Coq Require Import ZArith NArith List Bool Lia.
Require Import Value Bytes GenMisc MiscModel GenRegs RegsModel RegsProofs.
Import ListNotations.
Local Open Scope Z_scope.

(* g: the exporting object after any history; g1: the parsing object of the same layout after any other history
   (ops1 = [] is the fresh object).  layout_ok: registers in ascending, non-overlapping byte ranges. *)
Theorem export_parse_id :
  forall g0 ops ops1, wf_regs g0 -> layout_ok g0 ->
  let g := run g0 g0 ops in let g1 := run g0 g0 ops1 in
  exists bin g', export g = Ok bin /\ parse g1 bin = Ok g' /\
    forall i r, nth_error (g_regs g) i = Some r ->
      (* every non-hidden register, with all its sub-registers and bit-fields, is restored exactly *)
      (s_hidden (r_base r) = false -> nth_error (g_regs g') i = Some r) /\
      (* hidden (reserved) registers are exported but not parsed: they keep the parsing object's value *)
      (s_hidden (r_base r) = true -> nth_error (g_regs g') i = nth_error (g_regs g1) i).
Proof. intros g0 ops ops1 H0 L0 g g1; destruct (reachable_wf g0 ops H0) as [Hw Hs]; destruct (reachable_wf g0 ops1 H0) as [Hw1 Hs1]; apply export_parse_lemma; [exact Hw | exact Hw1 | exact (eq_trans (eq_sym Hs) Hs1) | exact (layout_ok_same g0 g Hs L0)]. Qed.
Print Assumptions export_parse_id.
