From Coq Require Import ZArith NArith List Bool Lia.
Require Import Value Bytes GenMisc MiscModel GenRegs RegsModel RegsProofs GenAreaFns GenAreas AreaModel AreaProofs.
Import ListNotations.
Local Open Scope Z_scope.

(* C12: for a PFR / IFR area the exported binary has the documented size, the area's own parser (a fresh object of the same
   family / revision) accepts it, and exporting the parsed object gives the same binary again -- for every state g of the
   area whose hidden (reserved) registers hold what a fresh object holds (they are exported but never parsed).
   Registers may overlap (CMAC table, kw47 ROMCFG): the statement is about the bytes. *)
Theorem area_parse_export_id :
  forall A g, wf_area A -> a_sized A = true -> state_of A g -> hidden_agree g (a_regs A) ->
  exists bin g', area_export A g false = Ok bin /\ zlen bin = a_size A /\
                 area_parse A (a_regs A) bin = Ok g' /\ state_of A g' /\ area_export A g' false = Ok bin.
Proof.
  intros A g.
  intros W Hs St Hh. destruct (wa_sized A W Hs) as (Hpos & Hk). destruct (state_fit A g W Hs St) as (Hf & Et).
  destruct (export_parse_export_lemma g (a_regs A) (a_size A) (a_fill A) (proj1 St) (wa_regs A W) (eq_sym (proj2 St)) Hh Hf
              (wa_size A W) (wa_fill A W)) as (bin & g' & Ex & Lb & Pa & Hg' & Hsl' & Ex').
  assert (St' : state_of A g') by (split; [exact Hg'|eapply same_layout_trans; [exact (proj2 St)|exact Hsl']]).
  destruct (area_export_sized A g false W Hs St) as (d & Ed & _ & E & _). rewrite Ex in Ed. injection Ed as <-.
  destruct (area_export_sized A g' false W Hs St') as (d' & Ed' & _ & E' & _). rewrite Ex' in Ed'. injection Ed' as <-.
  exists bin, g'. rewrite Et in Lb. repeat split; try assumption; try apply St'.
  unfold area_parse. replace (a_kind A =? 5) with false by lia. replace (a_kind A =? 6) with false by lia.
  replace (a_kind A =? 4) with false by lia. replace (a_kind A =? 7) with false by lia. exact Pa.
Qed.
Print Assumptions area_parse_export_id.
