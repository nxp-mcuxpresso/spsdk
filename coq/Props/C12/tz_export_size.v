From Coq Require Import ZArith NArith List Bool Lia.
Require Import Value Bytes GenMisc MiscModel GenRegs RegsModel RegsProofs GenAreaFns GenAreas AreaModel AreaProofs.
Import ListNotations.
Local Open Scope Z_scope.

(* C12: the TrustZone preset data has four bytes per preset of the database table, for every customisation. *)
Theorem tz_export_size :
  forall P cu b, tz_export P cu = Ok b -> zlen b = 4 * zlen P.
Proof.
  intros P cu b.
  unfold tz_export. intros H. destruct (tz_words P cu 0) as [ws|] eqn:E; [|discriminate]. cbn [bind] in H.
  destruct (forallb _ ws); [|discriminate]. injection H as <-. unfold zlen. rewrite flat_enc_length, (tz_words_length P cu 0 ws E). lia.
Qed.
Print Assumptions tz_export_size.
