From Coq Require Import ZArith NArith List Bool Lia.
Require Import Value Bytes GenMisc MiscModel GenRegs RegsModel RegsProofs GenAreaFns GenAreas AreaModel AreaProofs.
Import ListNotations.
Local Open Scope Z_scope.

(* C12: export(add_seal=True) is export() with the seal words of the database (seal_start, seal_count) replaced by
   the marker b"SEAL": the marker is there, every other byte is unchanged, the size is unchanged. *)
Theorem area_seal_marks :
  forall A g start count, wf_area A -> a_sized A = true -> state_of A g -> a_seal A = Some (start, count) ->
  exists plain sealed, area_export A g false = Ok plain /\ area_export A g true = Ok sealed /\
    sealed = splice plain (Z.to_nat start) (seal_bytes count) /\
    slice sealed (Z.to_nat start) (Z.to_nat start + length (seal_bytes count)) = seal_bytes count /\
    firstn (Z.to_nat start) sealed = firstn (Z.to_nat start) plain /\
    skipn (Z.to_nat start + length (seal_bytes count)) sealed = skipn (Z.to_nat start + length (seal_bytes count)) plain.
Proof.
  intros A g start count.
  intros W Hs St Es. destruct (area_export_sized A g false W Hs St) as (d & Ed & Ld & E0 & _).
  destruct (area_export_sized A g true W Hs St) as (d' & Ed' & _ & E1 & _). rewrite Ed in Ed'. injection Ed' as <-.
  cbv zeta in E0, E1. rewrite Es in E1. exists d, (splice d (Z.to_nat start) (seal_bytes count)).
  destruct (wa_seal A W start count Es) as (S1 & S2 & S3). pose proof (seal_bytes_length count S2) as Ls.
  assert (Hstart : (Z.to_nat start <= length d)%nat) by (unfold zlen in *; lia).
  repeat split; [exact E0|exact E1|now apply BytesProofs.splice_slice|now apply BytesProofs.firstn_splice|now apply BytesProofs.skipn_splice].
Qed.
Print Assumptions area_seal_marks.
