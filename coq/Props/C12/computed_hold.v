From Coq Require Import ZArith NArith List Bool Lia.
Require Import Value Bytes GenMisc MiscModel GenRegs RegsModel RegsProofs GenAreaFns GenAreas AreaModel AreaProofs.
Import ListNotations.
Local Open Scope Z_scope.

(* C12: computed fields hold in every exported binary.  After load_from_config(cfg) on a fresh area object, for every
   computed field (register i, bit-field k, method m) of the database whose register the configuration gives as a mapping
   that does not name the computed bit-field (needs_compute: what BaseConfigArea.set_config tests), the register value v
   satisfies the documented relation (method 0: bits 16..31 = inverse of bits 0..15; method 1: bits 8..15 = inverse of
   bits 0..7), and the four bytes of the exported binary at the register's offset are exactly v.
   The methods are translated from spsdk/pfr/pfr.py on every run (Gen/GenAreaFns.v). *)
Theorem computed_hold :
  forall A cfg g, wf_area A -> a_sized A = true -> area_load A (a_regs A) cfg = Ok g ->
  state_of A g /\
  forall i k m e, In (i, k, m) (a_computed A) -> cfg_lookup cfg (Top i) None = Some e -> needs_compute e k = true ->
    exists v r, t_get g (Top i) true = Ok v /\ computed_rel m v /\ nth_error (g_regs g) i = Some r /\ s_width (r_base r) = 32 /\
      forall bin, area_export A g false = Ok bin ->
        slice bin (Z.to_nat (s_offset (r_base r))) (Z.to_nat (s_offset (r_base r)) + 4) = enc (g_big g) 4 v.
Proof.
  intros A cfg g.
  intros W Hs L. destruct (wa_sized A W Hs) as (_ & Hk).
  unfold area_load in L. pose proof (load_cfg_wf (plain_cfg cfg) (a_regs A) (wa_regs A W)) as K.
  destruct (load_cfg (a_regs A) (plain_cfg cfg)) as (g1, [u|e1]); [|discriminate]. cbn [fst] in K. destruct K as (Hg1 & Hsl1).
  rewrite Hs in L.
  destruct (recompute_lemma cfg (a_computed A) g1 Hg1) as (g2 & R & Hg2 & Hsl2 & _ & Co).
  { eapply Forall_impl; [|exact (wa_comp A W)]. intros c (C & _). eapply comp_ok_layout; eassumption. }
  { exact (wa_nodup A W). }
  rewrite R in L. cbn [bind] in L. unfold fix_size in L. replace (a_kind A =? 7) with false in L by lia. injection L as <-.
  assert (St : state_of A g2) by (split; [exact Hg2|eapply same_layout_trans; eassumption]).
  split; [exact St|]. intros i k m e Hin Hl Hn.
  destruct (Co i k m e Hin Hl Hn) as (v & G & Rv & Cr).
  pose proof (wa_comp A W) as Hc. rewrite Forall_forall in Hc. destruct (Hc (i, k, m) Hin) as ((s & Es & Ws & _) & Hiso).
  cbn [comp_reg fst] in Es, Hiso.
  destruct St as (_ & Hsl). destruct (same_layout_sreg (a_regs A) g2 (Top i) s Hsl Es) as (s2 & Es2 & Ee).
  pose proof (erase_s_proj s_width (fun _ => eq_refl) Ee) as Ew.
  cbn [t_sreg] in Es2. destruct (nth_error (g_regs g2) i) as [r|] eqn:Er; [|discriminate]. cbn [option_map] in Es2. injection Es2 as <-.
  exists v, r. split; [exact G|]. split; [exact Cr|]. split; [reflexivity|]. split; [congruence|].
  intros bin Ex.
  pose proof (area_value_in_binary_lemma A g2 i r bin W Hs (conj Hg2 Hsl) Er Hiso Ex) as Hb.
  assert (Ew' : s_width (r_base r) = 32) by congruence.
  unfold reg_end in Hb. rewrite Ew' in Hb. change (32 / 8) with 4 in Hb.
  assert (Hoff : 0 <= s_offset (r_base r)).
  { assert (Hf : regs_fit g2 (area_total A)) by (apply (regs_fit_layout (a_regs A)); [exact Hsl|apply W]).
    unfold regs_fit in Hf. rewrite Forall_forall in Hf. destruct (Hf r (nth_error_In _ _ Er)) as (F1 & _). exact F1. }
  replace (Z.to_nat (s_offset (r_base r) + 4)) with (Z.to_nat (s_offset (r_base r)) + 4)%nat in Hb by lia.
  rewrite Hb. f_equal.
  (* the raw value read through the API is the stored one *)
  cbn [t_get] in G. rewrite Er in G. rewrite reg_get_ok in G by exact (wf_regs_nth g2 i r Hg2 Er). rewrite view_raw in G. now injection G.
Qed.
Print Assumptions computed_hold.
