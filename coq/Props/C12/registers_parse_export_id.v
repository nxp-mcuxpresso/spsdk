From Coq Require Import ZArith NArith List Bool Lia.
Require Import Value Bytes GenMisc MiscModel GenRegs RegsModel RegsProofs GenAreaFns GenAreas AreaModel AreaProofs.
Import ListNotations.
Local Open Scope Z_scope.

(* C12: Registers.parse o Registers.export on a register file exported in its automatic size (what SegmentBase.export,
   MemoryConfig.export and the XMCD header / block do), for any well-formed register file g and any receiving object g0 of
   the same layout that agrees on the hidden registers: the parser reads the export and re-exports the same bytes.
   (The tag and length checks of BCA / FCB / FCF.parse and the self-describing XMCD header are exercised by the
   correspondence run, not stated here.) *)
Theorem registers_parse_export_id :
  forall g g0, wf_regs g -> wf_regs g0 -> same_layout g g0 -> hidden_agree g g0 ->
  Forall (fun r => 0 <= s_offset (r_base r)) (g_regs g) ->
  exists bin g', export_with g 0 0%N = Ok bin /\ parse g0 bin = Ok g' /\ export_with g' 0 0%N = Ok bin.
Proof.
  intros g g0.
  intros Hg Hg0 Hsl Hh Ho.
  assert (Hf : regs_fit g 0) by (eapply Forall_impl; [|exact Ho]; intros r H; split; [exact H|now left]).
  destruct (export_parse_export_lemma g g0 0 0%N Hg Hg0 Hsl Hh Hf (Z.le_refl 0) eq_refl) as (bin & g' & Ex & _ & Pa & _ & _ & Ex').
  exists bin, g'. tauto.
Qed.
Print Assumptions registers_parse_export_id.
