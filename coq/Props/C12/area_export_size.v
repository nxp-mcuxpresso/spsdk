From Coq Require Import ZArith NArith List Bool Lia.
Require Import Value Bytes GenMisc MiscModel GenRegs RegsModel RegsProofs GenAreaFns GenAreas AreaModel AreaProofs.
Import ListNotations.
Local Open Scope Z_scope.

(* C12: every export of a PFR / IFR area (CMPA, CFPA, ROMCFG, CMACTABLE), sealed or not, from any state of the area
   (any well-formed register file with the layout of the freshly built one, i.e. any in-range values of all registers,
   sub-registers and bit-fields) succeeds and has exactly the documented BINARY_SIZE.
   wf_area A is decided by wf_area_b and established for the database by all_areas_swept / all_areas_wf. *)
Theorem area_export_size :
  forall A g add_seal, wf_area A -> a_sized A = true -> state_of A g ->
  exists bin, area_export A g add_seal = Ok bin /\ zlen bin = a_size A.
Proof.
  intros A g add_seal.
  intros W Hs St. destruct (area_export_sized A g add_seal W Hs St) as (d & _ & _ & E & L). eexists. split; [exact E|exact L].
Qed.
Print Assumptions area_export_size.
