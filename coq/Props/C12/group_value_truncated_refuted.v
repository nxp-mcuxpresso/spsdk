From Coq Require Import ZArith NArith List Bool Lia.
Require Import Value Bytes GenMisc MiscModel GenRegs RegsModel RegsProofs GenAreaFns GenAreas AreaModel AreaProofs.
Import ListNotations.
Local Open Scope Z_scope.

(* C12, finding C12-F1: "for all in-range values of every register" is refuted by today's database: there is an area with a
   grouped register declared wider than the sub-registers that exist, and writing the in-range value 2^(width-1) to it
   reads back another value. *)
Theorem group_value_truncated_refuted : exists A, In A all_areas /\ truncating_group_b A = true.
Proof.
  assert (H : existsb truncating_group_b all_areas = true) by (vm_compute; reflexivity).
  apply existsb_exists in H. exact H.
Qed.
Print Assumptions group_value_truncated_refuted.
