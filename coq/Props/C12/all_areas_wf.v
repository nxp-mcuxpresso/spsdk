From Coq Require Import ZArith NArith List Bool Lia.
Require Import Value Bytes GenMisc MiscModel GenRegs RegsModel RegsProofs GenAreaFns GenAreas AreaModel AreaProofs.
Import ListNotations.
Local Open Scope Z_scope.

(* C12: consequently the hypotheses of the area theorems hold for every area of the database outside the recorded classes. *)
Theorem all_areas_wf : forall A, In A all_areas -> known_class_b A = false -> wf_area A.
Proof.
  intros A.
  intros Hin Hk. apply wf_area_b_sound. pose proof all_areas_swept_lemma as H. rewrite forallb_forall in H.
  specialize (H A Hin). apply andb_true_iff in H. destruct H as (_ & H). rewrite Hk, orb_false_r in H. exact H.
Qed.
Print Assumptions all_areas_wf.
