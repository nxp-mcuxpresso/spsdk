From Coq Require Import ZArith NArith List Bool Lia.
Require Import Value Bytes GenMisc MiscModel GenRegs RegsModel RegsProofs GenAreaFns GenAreas AreaModel AreaProofs.
Import ListNotations.
Local Open Scope Z_scope.

(* C12: TrustZone.from_binary accepts the exported data, and the customisations it reads back export the same data. *)
Theorem tz_parse_export_id :
  forall P cu b, tz_export P cu = Ok b ->
  exists ws, tz_parse P b = Ok ws /\ tz_export P (tz_customs_of ws) = Ok b.
Proof.
  intros P cu b.
  unfold tz_export. intros H. destruct (tz_words P cu 0) as [ws|] eqn:E; [|discriminate]. cbn [bind] in H.
  destruct (forallb (fun w => (0 <=? w) && (w <? 2 ^ 32)) ws) eqn:Ef; [|discriminate].
  assert (Hb : b = flat_map (fun w => le_enc 4 (Z.to_N w)) ws) by (injection H as <-; reflexivity). clear H.
  pose proof (tz_words_length P cu 0 ws E) as Lw.
  assert (Hr : Forall (fun w => 0 <= w < 2 ^ 32) ws).
  { apply Forall_forall. intros w Hw. rewrite forallb_forall in Ef. specialize (Ef w Hw). lia. }
  assert (Lb : length b = (4 * length ws)%nat) by (rewrite Hb; apply flat_enc_length).
  exists ws. split.
  - unfold tz_parse, zlen. rewrite Lb.
    destruct (Z.gtb_spec (Z.of_nat (length P)) (Z.of_nat (4 * length ws) / 4)) as [G|G]; [Z.div_mod_to_equations; lia|].
    rewrite <- Lw. f_equal. rewrite Hb. rewrite <- (app_nil_r (flat_map _ ws)). now apply tz_unpack_enc.
  - rewrite (tz_words_custom P ws (tz_customs_of ws) 0 Lw).
    + cbn [bind]. rewrite Ef. now rewrite Hb.
    + intros j w Hj. unfold tz_customs_of. rewrite tz_custom_seq. unfold zlen.
      assert (j < length ws)%nat by (apply nth_error_Some; congruence).
      replace ((0 <=? 0 + Z.of_nat j) && (0 + Z.of_nat j <? 0 + Z.of_nat (length ws))) with true by lia.
      replace (Z.to_nat (0 + Z.of_nat j - 0)) with j by lia. f_equal. f_equal. now apply nth_error_nth.
Qed.
Print Assumptions tz_parse_export_id.
