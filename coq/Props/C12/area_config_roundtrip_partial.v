From Coq Require Import ZArith NArith List Bool Lia.
Require Import Value Bytes GenMisc MiscModel GenRegs RegsModel RegsProofs GenAreaFns GenAreas AreaModel AreaProofs.
Import ListNotations.
Local Open Scope Z_scope.

(* C12 (partial: the numeric content of the configuration; the textual layer -- enum names, hex strings, the python
   dictionary with its duplicate keys, YAML -- is modelled, executed against the implementation and checked by oracles,
   not proved): for every well-formed area whose bit-fields tile their registers and every state g of it, loading
     { register without bit-fields: its value;  register with bit-fields: every bit-field -> bitfield.get_value() }
   (values_of g / numeric_config) into a fresh object of the area succeeds and gives every top-level register, hence every
   bit-field, the value it has in g.  wf_area and tiled_regs_b are decided for the database by the sweep (71 of 85 layouts
   today; the check reports the measured number). *)
Theorem area_config_roundtrip_partial :
  forall A g, wf_area A -> tiled_regs_b (a_regs A) = true -> state_of A g ->
  exists g', load_cfg (a_regs A) (numeric_config (a_regs A) (values_of g)) = (g', Ok tt) /\ state_of A g' /\
    forall i, (i < length (g_regs g))%nat -> t_get g' (Top i) false = t_get g (Top i) false.
Proof.
  intros A g.
  intros W Ht (Hg & Hsl).
  assert (Ht' : all_tiled g) by (apply (all_tiled_layout (a_regs A)); [exact Hsl|now apply tiled_regs_b_sound]).
  destruct (config_roundtrip_lemma_area g (a_regs A) Hg (wa_regs A W) (eq_sym Hsl) Ht') as (g' & L & Hg' & Hsl' & Hv).
  exists g'. split; [exact L|]. split; [split; [exact Hg'|eapply same_layout_trans; eassumption]|exact Hv].
Qed.
Print Assumptions area_config_roundtrip_partial.
