From Coq Require Import ZArith NArith List Bool Lia.
Require Import Value Bytes Aes Modes KeyWrap Crc CryptoProofs FlashEncModel FlashEncProofs.
Import ListNotations.
Local Open Scope Z_scope.

(* C13, OTFAD image with the concrete AES of CryptoRef and 16-byte keys (no premise on the cipher left). *)
Theorem otfad_decrypts_aes :
  forall (blobs : list kblob) (swap : bool) (img : list N) (base : Z),
  Forall kb_wf blobs -> blobs_disjoint blobs ->
  (forall k, In k blobs -> length (kb_key k) = 16%nat /\ wf_bytes (kb_key k)) ->
  0 <= base -> base mod 16 = 0 ->
  exists out, otfad_encrypt_image aes_c blobs img base swap = Ok out /\
              (length img <= length out)%nat /\
              firstn (length img) (otfad_hw aes_c (map octx_of_blob blobs) swap base out) = img /\
              (forall i, (i < length img)%nat -> otfad_outside blobs (base + Z.of_nat i) -> nth i out 0%N = nth i img 0%N).
Proof.
  intros blobs swap img base W D HK Hb Hal.
  destruct (otfad_decrypts_l aes_c blobs swap) with (img := img) (base := base) as (out & Ho & R); try assumption.
  - intros k Hin. destruct (HK k Hin) as [Lk Wk]. apply (aes_cipher_laws16 _ Lk Wk).
  - exists out. split; [exact Ho | exact (rt_spec _ _ _ _ _ _ R)].
Qed.
Print Assumptions otfad_decrypts_aes.
