From Coq Require Import ZArith NArith List Bool Lia.
Require Import Value Bytes Aes Modes KeyWrap Crc CryptoProofs FlashEncModel FlashEncProofs.
Import ListNotations.
Local Open Scope Z_scope.

(* C13: the walk  seq_concat (pieces g unit base image)  (IEE; behind the first piece, OTFAD and BEE) for a per-piece
   function g of (absolute address, piece): cutting the image at a multiple of the unit and encrypting the two parts at their own
   addresses gives the same bytes (and the same error, if any) as encrypting it at once. *)
Theorem walk_address_only :
  forall (g : Z -> list N -> res (list N)) (unit q : nat) (base : Z) (x y : list N),
  (0 < unit)%nat -> length x = (q * unit)%nat ->
  seq_concat (pieces g unit base (x ++ y)) =
  match seq_concat (pieces g unit base x) with
  | Ok cx => match seq_concat (pieces g unit (base + zlen x) y) with Ok cy => Ok (cx ++ cy) | Err k => Err k end
  | Err k => Err k
  end.
Proof. intros g unit q base x y. apply walk_address_only_l. Qed.
Print Assumptions walk_address_only.
