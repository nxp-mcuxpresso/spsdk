From Coq Require Import ZArith NArith List Bool Lia.
Require Import Value Bytes Aes Modes KeyWrap Crc CryptoProofs FlashEncModel FlashEncProofs.
Import ListNotations.
Local Open Scope Z_scope.

(* C13, BEE, full statement: for every block function with 16-byte outputs under the engine keys, every list of (optional)
   region headers that BeeProtectRegionBlock.validate accepts with pairwise disjoint FAC regions on the 1 KiB grid,
   every image and every 16-byte aligned base address: BeeNxp.export_image succeeds, the hardware model (per 16-byte
   fetch inside a FAC region: AES-CTR, counter = nonce[0:12] || address >> 4) gives the image back, and bytes outside
   every FAC region are untouched. *)
Theorem bee_decrypts :
  forall (E : cipher) (ohs : list (option bhdr)) (img : list N) (base : Z),
  Forall bh_wf (bee_actives ohs) -> bheaders_disjoint (bee_actives ohs) ->
  (forall h, In h (bee_actives ohs) -> forall x, length x = 16%nat -> length (E (bh_swkey h) x) = 16%nat) ->
  0 <= base -> base mod 16 = 0 ->
  exists out, bee_export_image E ohs img base = Ok out /\
              (length img <= length out)%nat /\
              firstn (length img) (bee_hw E (map bctx_of (bee_actives ohs)) base out) = img /\
              (forall i, (i < length img)%nat -> bee_outside (bee_actives ohs) (base + Z.of_nat i) ->
                         nth i out 0%N = nth i img 0%N).
Proof.
  intros E ohs img base W D HE Hb Hal.
  destruct (bee_decrypts_l E ohs W D HE img base Hb Hal) as (out & Ho & R).
  exists out. split; [exact Ho | exact (rt_spec _ _ _ _ _ _ R)].
Qed.
Print Assumptions bee_decrypts.
