From Coq Require Import ZArith NArith List Bool Lia.
Require Import Value Bytes Aes Modes KeyWrap Crc CryptoProofs FlashEncModel FlashEncProofs.
Import ListNotations.
Local Open Scope Z_scope.

(* C13, BEE: an image cut anywhere on the absolute 1 KiB grid and encrypted in two calls at the two addresses gives the
   bytes of one call, for every base. *)
Theorem bee_address_only :
  forall (E : cipher) (ohs : list (option bhdr)) (base : Z) (x y : list N),
  (base + zlen x) mod 1024 = 0 ->
  bee_export_image E ohs (x ++ y) base =
  match bee_export_image E ohs x base with
  | Ok cx => match bee_export_image E ohs y (base + zlen x) with Ok cy => Ok (cx ++ cy) | Err k => Err k end
  | Err k => Err k
  end.
Proof.
  intros E ohs base x y H. unfold bee_export_image, U1K. apply (grid_address_only_l _ 1024); [lia | exact H].
Qed.
Print Assumptions bee_address_only.
