From Coq Require Import ZArith NArith List Bool Lia.
Require Import Value Bytes Aes Modes KeyWrap Crc CryptoProofs FlashEncModel FlashEncProofs.
Import ListNotations.
Local Open Scope Z_scope.

(* C13, IEE key blob table, crypto layer (PARTIAL: the 96-byte record layout with tag, version and CRC is tied by
   correspondence and by the unwrap oracle, not by this theorem): for every cipher pair that inverts on 16-byte blocks
   under the word-reversed IBKEK1, whenever Iee.encrypt_key_blobs succeeds the table decrypts (AES-XTS, tweak = sector
   number of the key blob address) to exactly the plain table of Iee.get_key_blobs. *)
Theorem iee_keyblob_unwrap_partial :
  forall (E D : cipher) (blobs : list iblob) (kek1 kek2 : list N) (addr : Z) (table : list N),
  (forall x, okb x -> D (word_rev kek1) (E (word_rev kek1) x) = x) -> (forall x, okb x -> okb (E (word_rev kek1) x)) ->
  (forall x, okb x -> okb (E (word_rev kek2) x)) ->
  Forall (fun b => wf_bytes (ib_key1 b) /\ wf_bytes (ib_key2 b)) blobs ->
  iee_encrypt_key_blobs E blobs kek1 kek2 addr = Ok table ->
  exists plain, iee_get_key_blobs blobs = Ok plain /\ length table = length plain /\
                xts_crypt (D (word_rev kek1)) (E (word_rev kek2)) true (le_enc 16 (Z.to_N (addr / 4096))) table = plain.
Proof.
  intros E D blobs kek1 kek2 addr table DE EO1 EO2 Wb H. unfold iee_encrypt_key_blobs in H.
  destruct (iee_get_key_blobs blobs) as [plain|] eqn:Eg; [|discriminate].
  assert (Wp : wf_bytes plain).
  { unfold iee_get_key_blobs in Eg. destruct (res_concat_map ib_plain blobs) as [t|] eqn:Et; [|discriminate].
    assert (plain = align_zero 384 t) by congruence. subst. apply align_zero_wf.
    apply (res_concat_map_wf ib_plain blobs t); [|assumption].
    intros b p Hb Hp. rewrite Forall_forall in Wb. destruct (Wb b Hb). now apply (ib_plain_wf b). }
  unfold MiscModel.reverse_bytes_in_longs in H.
  destruct (Nat.eqb (Nat.modulo (length kek1) 4) 0) eqn:K1; [|discriminate].
  destruct (Nat.eqb (Nat.modulo (length kek2) 4) 0) eqn:K2; [|discriminate].
  destruct (Nat.ltb (length plain) 16) eqn:Lp; [discriminate|]. apply Nat.ltb_ge in Lp.
  assert (R1 : MiscModel.rev_longs_fuel (length kek1) kek1 = word_rev kek1)
    by (unfold word_rev, chunks; now rewrite word_rev_fuel).
  assert (R2 : MiscModel.rev_longs_fuel (length kek2) kek2 = word_rev kek2)
    by (unfold word_rev, chunks; now rewrite word_rev_fuel).
  rewrite R1, R2 in H.
  apply Ok_inj in H as <-.
  assert (Htw : iee_tweak addr = le_enc 16 (Z.to_N (addr / 4096))).
  { unfold iee_tweak. rewrite Z.shiftr_div_pow2 by lia. reflexivity. }
  rewrite Htw.
  assert (Hokt : okb (E (word_rev kek2) (le_enc 16 (Z.to_N (addr / 4096))))) by (apply EO2, (okn_le_enc 16)).
  exists plain. split; [reflexivity|]. split.
  - apply (xts_enc_length (E (word_rev kek1)) EO1); assumption.
  - apply (xts_dec_enc_l (E (word_rev kek1)) (D (word_rev kek1)) DE EO1); assumption.
Qed.
Print Assumptions iee_keyblob_unwrap_partial.
