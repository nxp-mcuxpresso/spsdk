From Coq Require Import ZArith NArith List Bool Lia.
Require Import Value Bytes Aes Modes KeyWrap Crc CryptoProofs FlashEncModel FlashEncProofs.
Import ListNotations.
Local Open Scope Z_scope.

(* C13, IEE, full statement (AES-XTS 256/512, AES-CTR with address binding 128/256 with every initial counter -- the
   32-bit counter word wraps on both sides --, and Bypass = data left as they are): for every cipher pair with the laws
   in ib_cipher_ok (XTS: D o E = id on 16-byte blocks under the data key; CTR: only 16-byte outputs; Bypass: nothing),
   well-formed pairwise disjoint 4 KiB-aligned blobs, every image of bytes and every 4 KiB-aligned data address,
   Iee.encrypt_image succeeds, the hardware model (per 4 KiB sector: tweak = sector number / counter = nonce word +
   address >> 4, keys word-reversed, bypass = identity) holding the blobs' contexts gives the image back, and bytes
   outside every region are untouched. *)
Theorem iee_decrypts :
  forall (E D : cipher) (blobs : list iblob) (img : list N) (base : Z),
  Forall ib_wf blobs -> iblobs_disjoint blobs -> Forall (ib_cipher_ok E D) blobs ->
  wf_bytes img -> 0 <= base -> base mod 4096 = 0 ->
  exists out, iee_encrypt_image E blobs img base = Ok out /\
              (length img <= length out)%nat /\
              firstn (length img) (iee_hw E D (map ictx_of_blob blobs) base out) = img /\
              (forall i, (i < length img)%nat -> iee_outside blobs (base + Z.of_nat i) -> nth i out 0%N = nth i img 0%N).
Proof.
  intros E D blobs img base W Dj CO Wi Hb Hal.
  destruct (iee_decrypts_aligned E D blobs img base W Dj CO Wi Hb Hal) as (out & Ho & R).
  exists out. split; [exact Ho | exact (rt_spec _ _ _ _ _ _ R)].
Qed.
Print Assumptions iee_decrypts.
