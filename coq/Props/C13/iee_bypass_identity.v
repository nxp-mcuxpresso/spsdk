From Coq Require Import ZArith NArith List Bool Lia.
Require Import Value Bytes Aes Modes KeyWrap Crc CryptoProofs FlashEncModel FlashEncProofs.
Import ListNotations.
Local Open Scope Z_scope.

(* C13, IEE bypass mode = data left as they are: an image lying in the region of a single Bypass blob comes out of
   Iee.encrypt_image unchanged, for every block function. *)
Theorem iee_bypass_identity :
  forall (E : cipher) (b : iblob) (img : list N) (base : Z),
  ib_wf b -> ib_mode b = MODE_BYPASS -> 0 <= base -> base mod 4096 = 0 ->
  ib_start b <= base -> base + zlen img <= ib_end b ->
  iee_encrypt_image E [b] img base = Ok img.
Proof.
  intros E b img base Wb Hm Hb Hal Hs He. unfold iee_encrypt_image.
  apply (seq_concat_pieces_id _ U4K (fun a => a mod 4096 = 0) (Nat.lt_0_succ _)); [|assumption|].
  - intros a Ha. now rewrite U4K_Z, <- Z.add_mod_idemp_r, Z_mod_same_full, Z.add_0_r by lia.
  - intros a p Ha Hlo Hhi Hp _. unfold iee_piece. cbn [blob_fold].
    assert (HL : 1 <= zlen p) by (unfold zlen; destruct p; [congruence | cbn [length]; lia]).
    replace (ib_matches b a (a + zlen p)) with true
      by (symmetry; unfold ib_matches, ib_contains; rewrite !andb_true_iff, !Z.leb_le; lia).
    unfold ib_encrypt_image. rewrite (mod4096_16 a) by assumption.
    cbn [negb]. rewrite Hm, Z.eqb_refl. now rewrite skipn_all, app_nil_r.
Qed.
Print Assumptions iee_bypass_identity.
