From Coq Require Import ZArith NArith List Bool Lia.
Require Import Value Bytes Aes Modes KeyWrap Crc CryptoProofs FlashEncModel FlashEncProofs.
Import ListNotations.
Local Open Scope Z_scope.

(* C13, IEE: an image cut at a multiple of 4 KiB and encrypted in two calls at the two addresses gives the bytes of one call. *)
Theorem iee_address_only :
  forall (E : cipher) (blobs : list iblob) (base : Z) (x y : list N) (q : nat),
  length x = (q * 4096)%nat ->
  iee_encrypt_image E blobs (x ++ y) base =
  match iee_encrypt_image E blobs x base with
  | Ok cx => match iee_encrypt_image E blobs y (base + zlen x) with Ok cy => Ok (cx ++ cy) | Err k => Err k end
  | Err k => Err k
  end.
Proof.
  intros E blobs base x y q H. unfold iee_encrypt_image. apply (walk_address_only_l _ U4K q); [apply Nat.lt_0_succ | exact H].
Qed.
Print Assumptions iee_address_only.
