From Coq Require Import ZArith NArith List Bool Lia.
Require Import Value Bytes Aes Modes KeyWrap Crc CryptoProofs FlashEncModel FlashEncProofs.
Import ListNotations.
Local Open Scope Z_scope.

(* C13, BEE region header, crypto layer (PARTIAL: the field layout of the plain PRDB is tied by correspondence and by the
   unwrap oracle, not by this theorem): for every cipher pair that inverts on 16-byte blocks under the SW key and the KIB
   key, whenever BeeRegionHeader.export succeeds the 512-byte header decrypts with the SW key (ECB) to KIB key || KIB IV
   and with those (CBC) to exactly the plain PRDB of BeeProtectRegionBlock.export. *)
Theorem bee_header_unwrap_partial :
  forall (E D : cipher) (h : bhdr) (hdr : list N),
  (forall x, okb x -> D (bh_swkey h) (E (bh_swkey h) x) = x) -> (forall x, okb x -> okb (E (bh_swkey h) x)) ->
  (forall x, okb x -> D (bh_kibkey h) (E (bh_kibkey h) x) = x) -> (forall x, okb x -> okb (E (bh_kibkey h) x)) ->
  wf_bytes (bh_counter h) -> wf_bytes (bh_kibkey h) -> wf_bytes (bh_kibiv h) ->
  bee_header_export E h = Ok hdr ->
  exists prdb, prdb_export h = Ok prdb /\ length hdr = 512%nat /\
               ecb (D (bh_swkey h)) (firstn 32 hdr) = bh_kibkey h ++ bh_kibiv h /\
               cbc_dec (D (bh_kibkey h)) (bh_kibiv h) (firstn 256 (skipn 128 hdr)) = prdb.
Proof.
  intros E D h hdr DE1 EO1 DE2 EO2 Wc Wk Wi H. unfold bee_header_export in H.
  destruct (Nat.eqb (length (bh_kibkey h)) 16) eqn:Lk; [|discriminate]. apply Nat.eqb_eq in Lk.
  destruct (Nat.eqb (length (bh_kibiv h)) 16) eqn:Li; [|discriminate]. apply Nat.eqb_eq in Li. cbn [negb] in H.
  destruct (prdb_export h) as [prdb|] eqn:Ep; [|discriminate].
  destruct (Nat.eqb (length (bh_swkey h)) 16) eqn:Ls; [|discriminate]. cbn [negb] in H.
  apply Ok_inj in H as <-.
  destruct (prdb_export_shape h prdb Wc Ep) as [Lp Wp].
  set (kib := bh_kibkey h ++ bh_kibiv h).
  assert (Lkib : length kib = 32%nat) by (unfold kib; rewrite app_length, Lk, Li; reflexivity).
  assert (Wkib : wf_bytes kib) by (unfold kib; now apply BytesProofs.wf_bytes_app).
  assert (Okiv : okb (bh_kibiv h)) by (split; assumption).
  set (ekib := ecb (E (bh_swkey h)) kib).
  assert (Lek : length ekib = 32%nat).
  { unfold ekib. rewrite (proj1 (ecb_length _ EO1 kib Wkib ltac:(now rewrite Lkib))). exact Lkib. }
  destruct (cbc_enc_length (E (bh_kibkey h)) EO2 (bh_kibiv h) prdb Okiv Wp ltac:(rewrite Lp; reflexivity)) as [Lc Wcb].
  set (eprdb := cbc_enc (E (bh_kibkey h)) (bh_kibiv h) prdb) in *. rewrite Lp in Lc.
  exists prdb. split; [reflexivity|]. split.
  - apply extend_to_length. rewrite app_length, extend_to_length, Lc; lia.
  - unfold extend_to. rewrite Lek. rewrite <- !app_assoc. split.
    + rewrite BytesProofs.firstn_app_exact by assumption. unfold ekib.
      apply (ecb_dec_enc_l (E (bh_swkey h)) (D (bh_swkey h)) DE1 EO1); [assumption | rewrite Lkib; reflexivity].
    + rewrite (app_assoc ekib). rewrite BytesProofs.skipn_app_exact by (rewrite app_length, Lek, BytesProofs.zeros_length; reflexivity).
      rewrite BytesProofs.firstn_app_exact by assumption. unfold eprdb.
      apply (cbc_dec_enc_l (E (bh_kibkey h)) (D (bh_kibkey h)) DE2 EO2); [assumption | assumption | rewrite Lp; reflexivity].
Qed.
Print Assumptions bee_header_unwrap_partial.
