From Coq Require Import ZArith NArith List Bool Lia.
Require Import Value Bytes Aes Modes KeyWrap Crc CryptoProofs FlashEncModel FlashEncProofs.
Import ListNotations.
Local Open Scope Z_scope.

(* C13, OTFAD: the hardware model itself leaves a 16-byte fetch untouched when no valid, decrypting context covers its
   address, for every block function, context list, byte order and data. *)
Theorem otfad_untouched_outside :
  forall (E : cipher) (blobs : list kblob) (swap : bool) (a : Z) (c : list N),
  Forall kb_wf blobs -> blobs_disjoint blobs -> otfad_outside blobs a ->
  otfad_hw_block E (map octx_of_blob blobs) swap a c = c.
Proof.
  intros E blobs swap a c W D HQ. rewrite otfad_hw_block_sel by assumption.
  destruct (find (fun k => kb_covers k a) blobs) as [k|] eqn:Ef; [|reflexivity].
  destruct (find_some _ _ Ef) as [Hin Hc]. now rewrite (HQ k Hin Hc).
Qed.
Print Assumptions otfad_untouched_outside.
