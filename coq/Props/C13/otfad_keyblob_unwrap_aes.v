From Coq Require Import ZArith NArith List Bool Lia.
Require Import Value Bytes Aes Modes KeyWrap Crc CryptoProofs FlashEncModel FlashEncProofs.
Import ListNotations.
Local Open Scope Z_scope.

(* C13, OTFAD key blob with the concrete AES of CryptoRef (no premise on the cipher left): every well-formed blob
   exported under a 16-byte KEK unwraps to its configured key, counter, start address, end unit and flags. *)
Theorem otfad_keyblob_unwrap_aes :
  forall (kek : list N) (k : kblob) (cnt : Z),
  kb_codec_wf k -> length kek = 16%nat -> wf_bytes kek -> In cnt [0; 2; 4; 8; 16] ->
  exists rec c, kb_export aes_c k kek cnt = Ok rec /\ length rec = 64%nat /\ otfad_unwrap aes_d kek cnt rec = Some c /\
                oc_key c = kb_key k /\ oc_ctr c = kb_ctr k /\ oc_w0 c = kb_start k /\
                Z.shiftr (oc_w1 c) 10 = (kb_end k - 1) / 1024 /\
                (forall n, 0 <= n < 3 -> Z.testbit (oc_w1 c) n = Z.testbit (kb_flags k) n).
Proof.
  intros kek k cnt Wc Lk Wk Hc. destruct (aes_cipher_laws16 kek Lk Wk) as (DE & EO & _).
  now apply otfad_keyblob_unwrap_full.
Qed.
Print Assumptions otfad_keyblob_unwrap_aes.
