From Coq Require Import ZArith NArith List Bool Lia.
Require Import Value Bytes Aes Modes KeyWrap Crc CryptoProofs FlashEncModel FlashEncProofs.
Import ListNotations.
Local Open Scope Z_scope.

(* C13, OTFAD, full statement: for every block function E that maps 16-byte blocks to 16-byte blocks under the blob keys
   (AES-CTR needs no invertibility), every list of pairwise disjoint key blobs that KeyBlob accepts (start on the 1 KiB
   grid, end given as exclusive end, as last address or anywhere in the last unit, any flags), every image, byte-swap
   setting and every 16-byte aligned base address: Otfad.encrypt_image succeeds, the hardware model holding the contexts
   of the exported blobs turns the result back into the image (the result may carry up to 15 bytes of zero padding), and
   every byte outside the valid + decrypting regions is the plaintext byte. *)
Theorem otfad_decrypts :
  forall (E : cipher) (blobs : list kblob) (swap : bool) (img : list N) (base : Z),
  (forall k, In k blobs -> forall x, length x = 16%nat -> length (E (kb_key k) x) = 16%nat) ->
  Forall kb_wf blobs -> blobs_disjoint blobs ->
  0 <= base -> base mod 16 = 0 ->
  exists out, otfad_encrypt_image E blobs img base swap = Ok out /\
              (length img <= length out)%nat /\
              firstn (length img) (otfad_hw E (map octx_of_blob blobs) swap base out) = img /\
              (forall i, (i < length img)%nat -> otfad_outside blobs (base + Z.of_nat i) -> nth i out 0%N = nth i img 0%N).
Proof.
  intros E blobs swap img base HE W D Hb Hal.
  destruct (otfad_decrypts_l E blobs swap HE W D img base Hb Hal) as (out & Ho & R).
  exists out. split; [exact Ho | exact (rt_spec _ _ _ _ _ _ R)].
Qed.
Print Assumptions otfad_decrypts.
