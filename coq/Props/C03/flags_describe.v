From Coq Require Import ZArith NArith List Bool Lia.
Require Import Value Bytes Sha2 GenRot RotModel RotProofs.
Import ListNotations.
Local Open Scope N_scope.

(* C03: the flags word of the root key record decodes to its inputs: CA bit, used root index, key count, curve nibble. *)
Theorem flags_describe :
  forall c ca used ks,
  ecc_set c ks -> Forall key_ok ks -> (length ks <= 4)%nat -> (N.to_nat used < length ks)%nat ->
  exists f hs pub k,
    rkr_calc ca used ks = Ok (f, hs, pub) /\ nth_error ks (N.to_nat used) = Some k /\ raw_key k = Ok pub /\
    N.testbit f 31 = ca /\ N.shiftr (N.land f 3840) 8 = used /\ N.shiftr (N.land f 240) 4 = nlen ks /\
    N.land f 15 = (if c =? 256 then 1 else 2).
Proof.
  intros c ca used ks HS HK HL HU. destruct (rkr_calc_ok c ca used ks HS HK HL HU) as (x & y & EN & KO & E).
  eexists _, _, _, _. split; [exact E|]. split; [exact EN|]. split; [now apply raw_key_ecc|].
  assert (Hu : used < 16) by lia. assert (Hn : nlen ks < 16) by (unfold nlen; lia).
  assert (Hb : curve_nibble c < 16 /\ curve_nibble c = (if c =? 256 then 1 else 2)) by (destruct HS as [[-> | ->] _]; split; vm_compute; reflexivity).
  destruct Hb as [Hb Eb]. rewrite <- Eb. apply (flags_decode ca used (nlen ks) (curve_nibble c) Hu Hn Hb).
Qed.
Print Assumptions flags_describe.
