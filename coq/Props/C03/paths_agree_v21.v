From Coq Require Import ZArith NArith List Bool Lia.
Require Import Value Bytes Sha2 GenRot RotModel RotProofs.
Import ListNotations.
Local Open Scope N_scope.

(* C03: cert-block-v2.1 RoT (RoTKTH) -- Rot class / nxpcrypto rot, CertBlockV21.rkth for every used-root index, debug
   credential RoT meta and PFR ROTKH (zero padded to the 384-bit register) return the documented value: the hash
   of X||Y for one key, the hash of the table of such hashes for several, for ALL lists of 1..4 P-256 or P-384 keys
   whose coordinates fit the curve width. *)
Theorem paths_agree_v21 :
  forall (c : N) (ks : list key),
  (c = 256 \/ c = 384) -> Forall (is_ecc c) ks -> Forall key_ok ks -> ks <> [] -> (length ks <= 4)%nat ->
  rot_v21 (map (fun k => (k, SPlain)) ks) = Ok (rot_spec_v21 ks)
  /\ (forall ca used isk fam, (N.to_nat used < length ks)%nat ->
        cb21_rkth {| b_ca := ca; b_used := used; b_keys := ks; b_isk := isk; b_family := fam |} = Ok (rot_spec_v21 ks))
  /\ (forall rot_id, (N.to_nat rot_id < length ks)%nat -> dc_ecc_hash ks rot_id = Ok (rot_spec_v21 ks))
  /\ pfr_rotkh 21 384 ks = Ok (rot_spec_v21 ks ++ zeros (48 - length (rot_spec_v21 ks))).
Proof.
  intros c ks Hc HF HK HN HL. assert (HS : ecc_set c ks) by (now split).
  split; [now apply (rot_v21_plain c)|]. split; [intros; now apply (cb21_rkth_ok c)|].
  split; [intros; now apply (dc_ecc_ok c)|now apply (pfr_v21_ok c)].
Qed.
Print Assumptions paths_agree_v21.
