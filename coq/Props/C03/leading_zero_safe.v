From Coq Require Import ZArith NArith List Bool Lia.
Require Import Value Bytes Sha2 GenRot RotModel RotProofs.
Import ListNotations.
Local Open Scope N_scope.

(* C03: ECC coordinates are written in full curve width whatever their leading bytes (and decode back), RSA modulus and
   exponent are written minimally (no shorter big-endian string decodes to the same number). *)
Theorem leading_zero_safe :
  (forall c x y, x < 2 ^ (8 * N.of_nat (coord_size c)) -> y < 2 ^ (8 * N.of_nat (coord_size c)) ->
     exists r, raw_key (KEcc c x y) = Ok r /\ length r = (2 * coord_size c)%nat /\
               be_dec (firstn (coord_size c) r) = x /\ be_dec (skipn (coord_size c) r) = y)
  /\ (forall n e, exists r, raw_key (KRsa n e) = Ok r /\ r = be_min n ++ be_min e /\
        be_dec (be_min n) = n /\ be_dec (be_min e) = e /\
        (forall w, (w < byte_len n)%nat -> be_dec (be_encf w n) <> n) /\ (forall w, (w < byte_len e)%nat -> be_dec (be_encf w e) <> e)).
Proof.
  split.
  - intros c x y Hx Hy. eexists. split; [apply raw_key_ecc; now split|].
    split; [rewrite app_length, !be_encf_length; lia|].
    rewrite BytesProofs.firstn_app_exact, BytesProofs.skipn_app_exact by apply be_encf_length. now rewrite !be_dec_be_encf.
  - intros n e. eexists. split; [reflexivity|]. split; [reflexivity|].
    split; [apply be_dec_be_min|]. split; [apply be_dec_be_min|]. split; intros w; apply be_min_minimal.
Qed.
Print Assumptions leading_zero_safe.
