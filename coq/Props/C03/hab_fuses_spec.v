From Coq Require Import ZArith NArith List Bool Lia.
Require Import Value Bytes Sha2 GenRot RotModel RotProofs.
Import ListNotations.
Local Open Scope N_scope.

(* C03: HAB SRK fuses = SHA-256 over the SHA-256 digests of the SRK entries; an RSA entry is tag 0xE1, length, 0x21,
   flags (0x80 = CA), modulus/exponent lengths, minimal modulus, minimal exponent; the value depends on the (key, CA flag)
   list only. *)
Theorem hab_fuses_spec :
  (forall n e ca, hab_item (KRsa n e, ca) =
     Ok ([225] ++ be16 (12 + nlen (be_min n) + nlen (be_min e)) ++ [33] ++ [0; 0; 0; if ca then 128 else 0]
         ++ be16 (nlen (be_min n)) ++ be16 (nlen (be_min e)) ++ be_min n ++ be_min e))
  /\ (forall ks items, map_res hab_item ks = Ok items -> hab_fuses ks = Ok (sha256 (concat (map sha256 items))))
  /\ (forall ks ks', map fst ks = map fst ks' -> map snd ks = map snd ks' -> hab_fuses ks = hab_fuses ks').
Proof.
  split; [intros; reflexivity|]. split.
  - intros ks items E. unfold hab_fuses. rewrite E. reflexivity.
  - intros ks ks' E1 E2. assert (ks = ks').
    { revert ks' E1 E2. induction ks as [|[k c] t IH]; intros [|[k' c'] t'] E1 E2; try discriminate; [reflexivity|].
      cbn in E1, E2. inversion E1; inversion E2; subst. f_equal. now apply IH. }
    now subst.
Qed.
Print Assumptions hab_fuses_spec.
