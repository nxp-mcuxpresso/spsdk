From Coq Require Import ZArith NArith List Bool Lia.
Require Import Value Bytes Sha2 GenRot RotModel RotProofs.
Import ListNotations.
Local Open Scope N_scope.

(* C03: cert-block-v1 RoT (RKTH) -- every tool path (Rot class / nxpcrypto rot, CertBlockV1.rkth, PFR ROTKH, debug
   credential RoT meta) returns the documented SHA-256 over four zero-padded SHA-256(modulus || exponent) slots,
   for ALL lists of at most four RSA keys of any size (the debug-credential path needs a three-byte exponent). *)
Theorem paths_agree_v1 :
  forall ks : list key, Forall is_rsa ks -> (length ks <= 4)%nat ->
  rot_v1 (map (fun k => (k, SPlain)) ks) = Ok (rot_spec_v1 ks)
  /\ (exists hs, cb1_rkh_of_keys (map Some ks) = Ok hs /\
        forall mj mn fl bn il certs, cb1_rkth {| c1_major := mj; c1_minor := mn; c1_flags := fl; c1_build := bn;
                                               c1_image_length := il; c1_certs := certs; c1_rkh := hs |} = rot_spec_v1 ks)
  /\ (ks <> [] -> pfr_rotkh 1 256 ks = Ok (rot_spec_v1 ks))
  /\ (Forall rsa_e3 ks -> dc_rsa_hash ks = Ok (rot_spec_v1 ks)).
Proof.
  intros ks HR HL. pose proof (is_rsa_key_ok ks HR) as HK. assert (HV : v1_set ks) by (now left).
  split; [apply rot_v1_plain; assumption|]. split.
  - exists (map rkh_spec ks). split; [apply cb1_rkh_ok; assumption|]. intros. unfold cb1_rkth. cbn [c1_rkh]. now apply rkth_v1_spec.
  - split; [intros HN; apply pfr_v1_ok; assumption|]. intros HE. now apply dc_rsa_ok.
Qed.
Print Assumptions paths_agree_v1.
