From Coq Require Import ZArith NArith List Bool Lia.
Require Import Value Bytes Sha2 GenRot RotModel RotProofs.
Import ListNotations.
Local Open Scope N_scope.

(* C03: for every family of the database, ISK user data accepted by the family check (limit, alignment) can never trigger
   the offset-less heuristic of IskCertificate.parse. *)
Theorem certblock_v21_family_data_safe :
  forall row i, In row g_families ->
  isk_check (Some (fst (snd (snd (snd row))), snd (snd (snd (snd row))))) i = Ok tt ->
  (key_bits (i_key i) = 256 \/ key_bits (i_key i) = 384) ->
  N.land (isk_sig_offset i) g_isk_heur_mask <> g_isk_heur_magic.
Proof.
  intros row i Hin Hc Hk. destruct db_rot_types_known_lemma as [HF _]. rewrite Forall_forall in HF. specialize (HF row Hin).
  destruct row as [nm [rt [cls [lim al]]]]. cbn [fst snd] in *. unfold fam_ok in HF.
  apply andb_true_iff in HF as [HF Hnz]. apply andb_true_iff in HF as [_ Hal]. apply N.eqb_eq in Hal. apply negb_true_iff, N.eqb_neq in Hnz.
  unfold isk_check in Hc. destruct (i_key i) as [|c x y] eqn:EK; [discriminate|].
  destruct (lim <? nlen (i_user_data i)); [discriminate|]. destruct (nlen (i_user_data i) mod al =? 0) eqn:EM; [|discriminate].
  apply N.eqb_eq in EM. unfold isk_sig_offset. rewrite EK. cbn [key_bits] in *.
  change g_isk_heur_mask with (N.ones 16). rewrite N.land_ones. change g_isk_heur_magic with 19779. change (2 ^ 16) with 65536.
  set (L := nlen (i_user_data i)) in *.
  (* 4 | al | L, so the offset 12 + L + 64 (or 96) is a multiple of 4, and 19779 is odd *)
  assert (L4 : L mod 4 = 0).
  { assert (al = 4 * (al / 4)) by (pose proof (N.div_mod al 4); lia). assert (L = al * (L / al)) by (pose proof (N.div_mod L al Hnz); lia).
    rewrite H0, H, <- N.mul_assoc, N.mul_comm. apply N.mod_mul. lia. }
  clear - L4 Hk. destruct Hk as [-> | ->]; vm_compute (N.of_nat _); BytesProofs.dlia.
Qed.
Print Assumptions certblock_v21_family_data_safe.
