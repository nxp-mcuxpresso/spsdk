From Coq Require Import ZArith NArith List Bool Lia.
Require Import Value Bytes Sha2 GenRot RotModel RotProofs.
Import ListNotations.
Local Open Scope N_scope.

(* C03: the RoT value does not depend on which root key signs: any two used-root indices (and ISK / CA settings) give the
   same CertBlockV21.rkth for ANY key list, and CertBlockV1's rkth / fuse words depend on the RKH table only. *)
Theorem independent_of_signer :
  (forall b b', b_keys b = b_keys b' -> (N.to_nat (b_used b) < length (b_keys b))%nat ->
                (N.to_nat (b_used b') < length (b_keys b))%nat -> cb21_rkth b = cb21_rkth b')
  /\ (forall b b', c1_rkh b = c1_rkh b' -> cb1_rkth b = cb1_rkth b' /\ cb1_fuses b = cb1_fuses b').
Proof.
  split.
  - intros [ca u ks isk fam] [ca' u' ks' isk' fam'] E H1 H2. cbn [b_keys b_used] in *. subst ks'.
    now rewrite !cb21_rkth_general.
  - intros b b' E. unfold cb1_fuses, cb1_rkth. rewrite E. split; reflexivity.
Qed.
Print Assumptions independent_of_signer.
