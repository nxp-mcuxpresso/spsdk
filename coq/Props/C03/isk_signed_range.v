From Coq Require Import ZArith NArith List Bool Lia.
Require Import Value Bytes Sha2 GenRot RotModel RotProofs.
Import ListNotations.
Local Open Scope N_scope.

(* C03: the message handed to the signer is exactly root-key record || signature offset, constraints, flags || ISK public
   key || user data, the record ends with the raw public key of the selected root, and the exported block is
   header || that message || the signature. *)
Theorem isk_signed_range :
  forall sign b ex msgs, cb21_export sign b = Ok (ex, msgs) ->
  match (if b_ca b then None else b_isk b) with
  | None => msgs = []
  | Some i =>
      exists f hs rp k pub hdr,
        rkr_calc (b_ca b) (b_used b) (b_keys b) = Ok (f, hs, rp) /\
        nth_error (b_keys b) (N.to_nat (b_used b)) = Some k /\ raw_key k = Ok rp /\
        raw_key (i_key i) = Ok pub /\
        let msg := (le32 f ++ export_v21 hs ++ rp)
                   ++ (le32 (isk_sig_offset i) ++ le32 (i_constraints i) ++ le32 (isk_flags i)) ++ pub ++ i_user_data i in
        msgs = [msg] /\ length hdr = 12%nat /\ ex = hdr ++ msg ++ sign msg
  end.
Proof.
  intros sign b ex msgs.
  unfold cb21_export. destruct (if b_ca b then None else b_isk b) as [i|] eqn:EI.
  - destruct (isk_check (b_family b) i); [|discriminate]. cbn [bind].
    destruct (rkr_calc (b_ca b) (b_used b) (b_keys b)) as [[[f hs] rp]|] eqn:ER; [|discriminate]. cbn [bind].
    destruct (raw_key (i_key i)) as [pub|] eqn:EP; [|discriminate]. cbn [bind].
    unfold isk_tbs, isk_head, rkr_bytes.
    match goal with |- context [sign ?m] => set (msg := m) end.
    destruct (sign msg) as [|s0 st] eqn:ES; [discriminate|].
    intros H. apply ok_pair_inj in H as [Hex Hm].
    destruct (rkr_calc_inv _ _ _ _ _ _ ER) as (_ & k & EN & EK).
    exists f, hs, rp, k, pub.
    exists (g_cb21_magic ++ le16 (snd g_cb21_version) ++ le16 (fst g_cb21_version)
            ++ le32 (g_cb21_hdr_size + nlen (le32 f ++ export_v21 hs ++ rp)
                     + nlen ((le32 (isk_sig_offset i) ++ le32 (i_constraints i) ++ le32 (isk_flags i)) ++ pub ++ i_user_data i ++ s0 :: st))).
    split; [reflexivity|]. split; [exact EN|]. split; [exact EK|]. split; [reflexivity|].
    cbv zeta. fold msg. split; [now rewrite <- Hm|]. split.
    + unfold le16, le32. rewrite !app_length, !BytesProofs.le_enc_length. reflexivity.
    + rewrite ES, <- Hex. unfold msg. rewrite <- !app_assoc. reflexivity.
  - cbn [bind]. destruct (rkr_calc _ _ _); [|discriminate]. cbn [bind]. intros H. injection H as _ <-. reflexivity.
Qed.
Print Assumptions isk_signed_range.
