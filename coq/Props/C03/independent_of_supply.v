From Coq Require Import ZArith NArith List Bool Lia.
Require Import Value Bytes Sha2 GenRot RotModel RotProofs.
Import ListNotations.
Local Open Scope N_scope.

(* C03: for the cert-block RoT types the result depends on the ordered key list only, not on how each key was supplied
   (PEM/DER key or certificate, private key, object = SPlain; CA certificate bytes = SCaBytes; NXP raw bytes = SRaw). *)
Theorem independent_of_supply :
  forall inp inp', Forall supply_ok inp -> Forall supply_ok inp' -> map fst inp = map fst inp' ->
  rot_v1 inp = rot_v1 inp' /\ rot_v1_export inp = rot_v1_export inp' /\ rot_v21 inp = rot_v21 inp' /\ rot_v21_export inp = rot_v21_export inp'.
Proof.
  intros inp inp' H H' E. unfold rot_v1, rot_v1_export, rot_v21, rot_v21_export. rewrite !convert_all_spec by assumption. cbn [bind].
  rewrite !map_map. cbn [fst]. change (fun x : key * supply => fst x) with (@fst key supply). rewrite E. repeat split; reflexivity.
Qed.
Print Assumptions independent_of_supply.
