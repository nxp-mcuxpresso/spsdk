From Coq Require Import ZArith NArith List Bool Lia.
Require Import Value Bytes Sha2 GenRot RotModel RotProofs.
Import ListNotations.
Local Open Scope N_scope.

(* C03: outside the known class (no CA certificate among the inputs) the AHAB SRK hash and table depend on the ordered
   key list only. *)
Theorem ahab_except_known :
  forall c inp inp', Forall no_ca inp -> Forall no_ca inp' -> map fst inp = map fst inp' ->
  rot_ahab c inp = rot_ahab c inp' /\ rot_ahab_export c inp = rot_ahab_export c inp'.
Proof.
  intros c inp inp' H H' E. unfold rot_ahab, rot_ahab_export. rewrite (convert_all_no_ca _ H), (convert_all_no_ca _ H'), E. split; reflexivity.
Qed.
Print Assumptions ahab_except_known.
