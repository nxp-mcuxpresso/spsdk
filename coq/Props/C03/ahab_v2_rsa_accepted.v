From Coq Require Import ZArith NArith List Bool Lia.
Require Import Value Bytes Sha2 GenRot RotModel RotProofs RotBlockProofs.
Import ListNotations.
Local Open Scope N_scope.

(* C03: the AHAB v2 SRK table accepts RSA keys (repaired C03-F5): four RSA-2048 keys give a 64-byte SHA-512 value over a
   table of four 76-byte records. *)
Theorem ahab_v2_rsa_accepted :
  exists h t, rot_ahab ahab2 (map (fun k => (k, SPlain)) (repeat (KRsa (2 ^ 2047 + 1) 65537) 4)) = Ok h /\
              rot_ahab_export ahab2 (map (fun k => (k, SPlain)) (repeat (KRsa (2 ^ 2047 + 1) 65537) 4)) = Ok t /\
              length h = 64%nat /\ length t = (4 + 4 * (12 + 64))%nat.
Proof.
  edestruct (rot_ahab_one_key ahab2 (KRsa (2 ^ 2047 + 1) 65537) SPlain) with (n := 3%nat) as (Et & Eh & Lt); [discriminate|vm_compute; reflexivity..|].
  eexists. eexists. split; [exact Eh|]. split; [exact Et|]. split; [apply hash_length|exact Lt].
Qed.
Print Assumptions ahab_v2_rsa_accepted.
