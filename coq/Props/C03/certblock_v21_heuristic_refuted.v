From Coq Require Import ZArith NArith List Bool Lia.
Require Import Value Bytes Sha2 GenRot RotModel RotProofs.
Import ListNotations.
Local Open Scope N_scope.

(* C03 (known finding C03-F4): without a family limit the heuristic fires: a valid block (P-256 roots, P-256 ISK, 19703
   bytes of user data) is exported but rejected by parse. *)
Theorem certblock_v21_heuristic_refuted :
  N.land (12 + 19703 + 64) g_isk_heur_mask = g_isk_heur_magic /\
  match cb21_export (fun _ => repeat 1 64%nat) heur_block with
  | Ok (ex, _) => match cb21_parse ex with Ok _ => false | Err _ => true end
  | Err _ => false
  end = true.
Proof. split; vm_compute; reflexivity. Qed.
Print Assumptions certblock_v21_heuristic_refuted.
