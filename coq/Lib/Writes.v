(* Lib/Writes.v -- lists addressed by integer positions (zget), and the content of a buffer after a sequence of
   Python bytearray / memoryview slice assignments buf[off : off + len(d)] = d applied in order (written):
   at every position the last assignment that covers it wins.  fold_splice_written ties `written` to `splice`. *)
From Coq Require Import ZArith List Bool Lia.
Require Import Bytes BytesProofs.
Import ListNotations.
Local Open Scope Z_scope.

Definition zget {A} (l : list A) (k : Z) : option A := if k <? 0 then None else nth_error l (Z.to_nat k).

Lemma zget_nat {A} (l : list A) k : 0 <= k -> zget l k = nth_error l (Z.to_nat k).
Proof. intros H. unfold zget. now destruct (Z.ltb_spec k 0); [lia|]. Qed.

Lemma zget_neg {A} (l : list A) k : k < 0 -> zget l k = None.
Proof. intros H. unfold zget. now destruct (Z.ltb_spec k 0); [|lia]. Qed.

Lemma zget_beyond {A} (l : list A) k : zlen l <= k -> zget l k = None.
Proof.
  intros H. unfold zget, zlen in *. destruct (Z.ltb_spec k 0); [reflexivity|]. apply nth_error_None. lia.
Qed.

Lemma zget_inside {A} (l : list A) k : 0 <= k < zlen l -> zget l k <> None.
Proof. intros H. rewrite zget_nat by lia. apply nth_error_Some. unfold zlen in H. lia. Qed.

Lemma zget_ext {A} (l1 l2 : list A) : zlen l1 = zlen l2 -> (forall k, 0 <= k < zlen l1 -> zget l1 k = zget l2 k) -> l1 = l2.
Proof.
  unfold zlen. intros HL H. apply nth_error_ext. intros n. destruct (Nat.lt_ge_cases n (length l1)) as [Hn|Hn].
  - specialize (H (Z.of_nat n) ltac:(lia)). now rewrite !zget_nat, Nat2Z.id in H by lia.
  - transitivity (@None A); [|symmetry]; apply nth_error_None; lia.
Qed.

Lemma zget_app1 {A} (l1 l2 : list A) k : k < zlen l1 -> zget (l1 ++ l2) k = zget l1 k.
Proof. intros H. unfold zget, zlen in *. destruct (Z.ltb_spec k 0); [reflexivity|]. apply nth_error_app1. lia. Qed.

Lemma zget_firstn {A} (l : list A) n k : zget (firstn n l) k = if k <? Z.of_nat n then zget l k else None.
Proof.
  unfold zget. destruct (Z.ltb_spec k 0); [now destruct (k <? Z.of_nat n)|]. rewrite nth_error_firstn.
  destruct (Z.ltb_spec k (Z.of_nat n)), (Nat.ltb_spec (Z.to_nat k) n); (reflexivity || lia).
Qed.

Lemma zget_skipn {A} (l : list A) n j : 0 <= j -> zget (skipn n l) j = zget l (Z.of_nat n + j).
Proof. intros H. rewrite !zget_nat, nth_error_skipn by lia. f_equal. lia. Qed.

Lemma zget_slice {A} (l : list A) a b k : 0 <= a <= b ->
  zget (slice l (Z.to_nat a) (Z.to_nat b)) k = if (0 <=? k) && (k <? b - a) then zget l (a + k) else None.
Proof.
  intros H. destruct (Z.leb_spec 0 k); [|now apply zget_neg]. rewrite !zget_nat, nth_error_slice by lia. cbn [andb].
  destruct (Z.ltb_spec k (b - a)), (Nat.ltb_spec (Z.to_nat k) (Z.to_nat b - Z.to_nat a)); try lia; [f_equal; lia|reflexivity].
Qed.

Lemma zget_splice {A} (buf d : list A) o k : 0 <= o -> o + zlen d <= zlen buf ->
  zget (splice buf (Z.to_nat o) d) k = if (o <=? k) && (k <? o + zlen d) then zget d (k - o) else zget buf k.
Proof.
  unfold zlen. intros Ho Hfit. destruct (Z.ltb_spec k 0) as [Hk|Hk].
  - rewrite !(zget_neg _ k) by lia. now destruct (Z.leb_spec o k); [lia|].
  - rewrite !(zget_nat _ k), nth_error_splice by lia.
    destruct (Z.leb_spec o k), (Nat.leb_spec (Z.to_nat o) (Z.to_nat k)); try lia; cbn [andb]; [|reflexivity].
    destruct (Z.ltb_spec k (o + Z.of_nat (length d))), (Nat.ltb_spec (Z.to_nat k) (Z.to_nat o + length d)); try lia; [|reflexivity].
    rewrite zget_nat by lia. f_equal. lia.
Qed.

Lemma zget_repeat {A} (x : A) n k : 0 <= k < Z.of_nat n -> zget (repeat x n) k = Some x.
Proof. intros H. rewrite zget_nat by lia. apply nth_error_repeat. lia. Qed.

Lemma slice_zget {A} (b x : list A) o : 0 <= o -> o + zlen x <= zlen b ->
  (forall j, 0 <= j < zlen x -> zget b (o + j) = zget x j) -> slice b (Z.to_nat o) (Z.to_nat (o + zlen x)) = x.
Proof.
  intros Ho Hfit H. assert (L : zlen (slice b (Z.to_nat o) (Z.to_nat (o + zlen x))) = zlen x).
  { unfold zlen in *. rewrite slice_length; lia. }
  apply zget_ext; [exact L|]. intros j Hj. rewrite L in Hj. rewrite zget_slice by (unfold zlen; lia).
  destruct (Z.leb_spec 0 j), (Z.ltb_spec j (o + zlen x - o)); try lia. now apply H.
Qed.

(* ------------------------------------------------------------------ a list of writes *)
Definition fits {A} (n : Z) (w : Z * list A) : Prop := 0 <= fst w /\ fst w + zlen (snd w) <= n.
Definition covers {A} (w : Z * list A) (k : Z) : Prop := fst w <= k < fst w + zlen (snd w).

Lemma writes_end_bound {A} (ws : list (Z * list A)) : forall m,
  m <= fold_left (fun m w => Z.max m (fst w + zlen (snd w))) ws m /\
  forall w, In w ws -> fst w + zlen (snd w) <= fold_left (fun m w => Z.max m (fst w + zlen (snd w))) ws m.
Proof.
  induction ws as [|x t IH]; intros m; simpl; [split; [lia|intros ? []]|].
  destruct (IH (Z.max m (fst x + zlen (snd x)))) as [H1 H2]. split; [lia|].
  intros w [<-|Hw]; [lia|auto].
Qed.

(* the content of position k, which held cur, after the writes ws in order *)
Fixpoint written {A} (ws : list (Z * list A)) (k : Z) (cur : option A) : option A :=
  match ws with
  | [] => cur
  | w :: t => written t k (if (fst w <=? k) && (k <? fst w + zlen (snd w)) then zget (snd w) (k - fst w) else cur)
  end.

Lemma written_app {A} (l1 l2 : list (Z * list A)) k cur : written (l1 ++ l2) k cur = written l2 k (written l1 k cur).
Proof. revert cur; induction l1 as [|w t IH]; intros cur; [reflexivity|apply IH]. Qed.

Lemma written_agree {A} (ws : list (Z * list A)) k v :
  (forall x, In x ws -> covers x k -> zget (snd x) (k - fst x) = v) ->
  forall cur, cur = v \/ (exists w, In w ws /\ covers w k) -> written ws k cur = v.
Proof.
  unfold covers. induction ws as [|x t IH]; intros H cur Hc; cbn [written].
  - destruct Hc as [Hc|(w & [] & _)]. exact Hc.
  - apply IH; [intros y Hy; apply H; now right|].
    destruct (Z.leb_spec (fst x) k), (Z.ltb_spec k (fst x + zlen (snd x))); cbn [andb];
      try (left; apply H; [now left|lia]);
      (destruct Hc as [Hc|(w & [<-|Hw] & Hk)]; [now left|lia|right; now exists w]).
Qed.

Lemma written_nocover {A} (ws : list (Z * list A)) k cur : (forall w, In w ws -> ~ covers w k) -> written ws k cur = cur.
Proof. intros H. apply written_agree; [intros x Hx Hc; now destruct (H x Hx)|now left]. Qed.

(* a second list of writes of the same geometry, each holding the same data as the first or, where it covers k, the value F
   that the first list leaves at k: it leaves F there as well *)
Lemma written_again {A} (k : Z) (F : option A) : forall ws ws',
  Forall2 (fun x y => (fst x = fst y /\ length (snd x) = length (snd y)) /\
                      (snd y = snd x \/ (covers x k -> zget (snd y) (k - fst x) = F))) ws ws' ->
  forall a b, written ws k a = F -> b = a \/ b = F -> written ws' k b = F.
Proof.
  unfold covers. induction 1 as [|x y t t' ((G1 & G2) & Hd) Ht IH]; intros a b Ha Hb; cbn [written] in *.
  - destruct Hb; congruence.
  - unfold zlen in *. rewrite <- G1, <- G2. eapply IH; [exact Ha|].
    destruct (Z.leb_spec (fst x) k), (Z.ltb_spec k (fst x + Z.of_nat (length (snd x)))); cbn [andb]; try exact Hb.
    destruct Hd as [->|Hd]; [now left|right; apply Hd; lia].
Qed.

Lemma fold_splice_written {A} (ws : list (Z * list A)) : forall buf, Forall (fits (zlen buf)) ws ->
  let out := fold_left (fun b w => splice b (Z.to_nat (fst w)) (snd w)) ws buf in
  zlen out = zlen buf /\ forall k, zget out k = written ws k (zget buf k).
Proof.
  induction ws as [|w t IH]; intros buf H; cbn [fold_left written]; [split; reflexivity|].
  inversion H as [|? ? (F1 & F2) Ht]; subst.
  assert (L : zlen (splice buf (Z.to_nat (fst w)) (snd w)) = zlen buf) by (unfold zlen in *; rewrite splice_length; lia).
  destruct (IH (splice buf (Z.to_nat (fst w)) (snd w))) as (I1 & I2); [now rewrite L|].
  split; [now rewrite I1|]. intros k. now rewrite I2, zget_splice.
Qed.

Lemma fold_splice_slice {A} (ws : list (Z * list A)) buf w : Forall (fits (zlen buf)) ws -> In w ws ->
  (forall x k, In x ws -> covers x k -> covers w k -> x = w) ->
  slice (fold_left (fun b w => splice b (Z.to_nat (fst w)) (snd w)) ws buf) (Z.to_nat (fst w)) (Z.to_nat (fst w + zlen (snd w)))
  = snd w.
Proof.
  intros Hf Hw Hu. destruct (fold_splice_written ws buf Hf) as (L & Hk). cbv zeta in *.
  destruct (proj1 (Forall_forall _ _) Hf w Hw) as (F1 & F2).
  apply slice_zget; [exact F1|now rewrite L|]. intros j Hj. rewrite Hk.
  assert (Hc : covers w (fst w + j)) by (unfold covers; lia).
  replace j with (fst w + j - fst w) at 2 by lia.
  apply written_agree; [|right; now exists w]. intros x Hx Hcx. rewrite (Hu x _ Hx Hcx Hc). f_equal. lia.
Qed.
