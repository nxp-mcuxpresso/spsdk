(* Lib/BytesProofs.v -- laws of the integer codecs, of cutting, slicing and patching lists, of byte strings and of chunks. *)
From Coq Require Import ZArith NArith List Bool Lia.
Require Import Bytes.
Import ListNotations.
Local Open Scope N_scope.

(* lia knows / and mod by literals only.  dlia first replaces every quotient and remainder (of Z, and of N and nat after
   zify) by its defining equations.  It is a tactic to call where a goal needs it, not a setting of Zify.zify_post_hook:
   that setting is global, reaches every file that imports the one that makes it, and slows every later lia there. *)
Ltac dlia := zify; Z.to_euclidean_division_equations; lia.

(* ------------------------------------------------------------------ integer codecs *)
Lemma le_enc_length w n : length (le_enc w n) = w.
Proof. revert n; induction w as [|w IH]; intros n; simpl; [reflexivity| now rewrite IH]. Qed.

Lemma be_enc_length w n : length (be_enc w n) = w.
Proof. unfold be_enc; now rewrite rev_length, le_enc_length. Qed.

Lemma le_enc_wf w n : wf_bytes (le_enc w n).
Proof.
  revert n; induction w as [|w IH]; intros n; simpl; constructor.
  - unfold wf_byte. apply N.mod_lt. lia.
  - apply IH.
Qed.

Lemma be_enc_wf w n : wf_bytes (be_enc w n).
Proof. unfold be_enc, wf_bytes. apply Forall_rev. apply le_enc_wf. Qed.

Lemma le_dec_enc w n : le_dec (le_enc w n) = n mod 2 ^ (8 * N.of_nat w).
Proof.
  revert n; induction w as [|w IH]; intros n.
  - simpl. now rewrite N.mod_1_r.
  - cbn [le_enc le_dec]. rewrite IH.
    replace (8 * N.of_nat (S w)) with (8 + 8 * N.of_nat w) by lia.
    rewrite N.pow_add_r. change (2 ^ 8) with 256.
    rewrite N.mod_mul_r by (try apply N.pow_nonzero; lia). lia.
Qed.

Lemma le_dec_enc_small w n : n < 2 ^ (8 * N.of_nat w) -> le_dec (le_enc w n) = n.
Proof. intros H. rewrite le_dec_enc. now apply N.mod_small. Qed.

Lemma be_dec_enc w n : be_dec (be_enc w n) = n mod 2 ^ (8 * N.of_nat w).
Proof. unfold be_dec, be_enc. rewrite rev_involutive. apply le_dec_enc. Qed.

Lemma be_dec_enc_small w n : n < 2 ^ (8 * N.of_nat w) -> be_dec (be_enc w n) = n.
Proof. intros H. rewrite be_dec_enc. now apply N.mod_small. Qed.

Lemma le_dec_bound l : wf_bytes l -> le_dec l < 2 ^ (8 * N.of_nat (length l)).
Proof.
  induction l as [|b t IH]; intros H.
  - simpl. lia.
  - inversion H as [|? ? Hb Ht]; subst. specialize (IH Ht).
    cbn [le_dec length].
    replace (8 * N.of_nat (S (length t))) with (8 + 8 * N.of_nat (length t)) by lia.
    rewrite N.pow_add_r. change (2 ^ 8) with 256. unfold wf_byte in Hb. nia.
Qed.

Lemma le_enc_dec l : wf_bytes l -> le_enc (length l) (le_dec l) = l.
Proof.
  induction l as [|b t IH]; intros H; [reflexivity|].
  inversion H as [|? ? Hb Ht]; subst. unfold wf_byte in Hb.
  cbn [le_dec length le_enc].
  assert (E1 : (b + 256 * le_dec t) mod 256 = b).
  { rewrite N.mul_comm, N.mod_add by lia. now apply N.mod_small. }
  assert (E2 : (b + 256 * le_dec t) / 256 = le_dec t).
  { rewrite N.mul_comm, N.div_add by lia. rewrite N.div_small by assumption. lia. }
  rewrite E1, E2, IH by assumption. reflexivity.
Qed.

Lemma be_enc_dec l : wf_bytes l -> be_enc (length l) (be_dec l) = l.
Proof.
  intros H. unfold be_enc, be_dec.
  rewrite <- (rev_length l). rewrite le_enc_dec.
  - apply rev_involutive.
  - unfold wf_bytes. now apply Forall_rev.
Qed.

Lemma le_enc_2 v : le_enc 2 v = [v mod 256; (v / 256) mod 256].
Proof. reflexivity. Qed.

Lemma le_dec_pair v : v < 65536 -> le_dec [v mod 256; (v / 256) mod 256] = v.
Proof. intros H. rewrite <- le_enc_2. now apply le_dec_enc_small. Qed.

Lemma be_enc_cons w n :
  be_enc (S w) n = ((n / 256 ^ N.of_nat w) mod 256) :: be_enc w (n mod 256 ^ N.of_nat w).
Proof.
  assert (snoc : forall w n, be_enc (S w) n = be_enc w (n / 256) ++ [n mod 256]) by reflexivity.
  revert n. induction w as [|w IH]; intros n.
  - cbn. rewrite N.div_1_r. reflexivity.
  - rewrite snoc, IH, (snoc w). cbn [app]. rewrite Nat2N.inj_succ, N.pow_succ_r'.
    assert (HP : 0 < 256 ^ N.of_nat w) by (apply N.neq_0_lt_0, N.pow_nonzero; discriminate). set (P := 256 ^ N.of_nat w) in *.
    assert (HA : n mod 256 < 256) by (apply N.mod_lt; lia).
    rewrite N.div_div, (N.mod_mul_r n 256 P) by lia.
    rewrite <- (N.div_unique (n mod 256 + 256 * ((n / 256) mod P)) 256 ((n / 256) mod P) (n mod 256)) by lia.
    rewrite <- (N.mod_unique (n mod 256 + 256 * ((n / 256) mod P)) 256 ((n / 256) mod P) (n mod 256)) by lia. reflexivity.
Qed.

Lemma pow256_pow2 w : 256 ^ N.of_nat w = 2 ^ (8 * N.of_nat w).
Proof. rewrite N.pow_mul_r. reflexivity. Qed.

Lemma zlen_be_enc w n : (0 <= w)%Z -> zlen (be_enc (Z.to_nat w) n) = w.
Proof. intros H. unfold zlen. rewrite be_enc_length. now apply Z2Nat.id. Qed.

(* ------------------------------------------------------------------ lists: cutting a concatenation *)
Lemma firstn_app_exact {A} (a b : list A) n : length a = n -> firstn n (a ++ b) = a.
Proof. intros <-. rewrite firstn_app, Nat.sub_diag, firstn_all. apply app_nil_r. Qed.

Lemma skipn_app_exact {A} (a b : list A) n : length a = n -> skipn n (a ++ b) = b.
Proof. intros <-. rewrite skipn_app, Nat.sub_diag, skipn_all. reflexivity. Qed.

Lemma skipn_add {A} (l : list A) a b : skipn (a + b) l = skipn b (skipn a l).
Proof.
  revert l; induction a as [|a IH]; intros l; [reflexivity|].
  destruct l; [now rewrite !skipn_nil | apply IH].
Qed.

Lemma skipn_app_exact2 {A} (a b c : list A) n m : length a = n -> length b = m -> skipn (n + m) (a ++ b ++ c) = c.
Proof. intros Ha Hb. now rewrite skipn_add, (skipn_app_exact _ _ _ Ha), (skipn_app_exact _ _ _ Hb). Qed.

Lemma firstn_app_le {A} (a b : list A) n : (n <= length a)%nat -> firstn n (a ++ b) = firstn n a.
Proof. intros H. rewrite firstn_app. replace (n - length a)%nat with 0%nat by lia. apply app_nil_r. Qed.

Lemma skipn_app_le {A} (a b : list A) n : (n <= length a)%nat -> skipn n (a ++ b) = skipn n a ++ b.
Proof. intros H. rewrite skipn_app. now replace (n - length a)%nat with 0%nat by lia. Qed.

Lemma skipn_app_ge {A} (a b : list A) n : (length a <= n)%nat -> skipn n (a ++ b) = skipn (n - length a) b.
Proof. intros H. rewrite skipn_app. now rewrite skipn_all2 by lia. Qed.

Lemma skipn_repeat {A} (x : A) n m : skipn n (repeat x m) = repeat x (m - n).
Proof.
  revert m; induction n as [|n IH]; intros m; [now rewrite Nat.sub_0_r|].
  destruct m; [reflexivity | apply IH].
Qed.

Lemma firstn_repeat {A} (x : A) n m : firstn n (repeat x m) = repeat x (Nat.min n m).
Proof.
  revert m; induction n as [|n IH]; intros [|m]; simpl; try reflexivity. now rewrite IH.
Qed.

Lemma map_repeat {A B} (f : A -> B) x n : map f (repeat x n) = repeat (f x) n.
Proof. induction n as [|n IH]; [reflexivity|]. cbn [repeat map]. now rewrite IH. Qed.

Lemma fold_left_ext {A B} (f g : A -> B -> A) (l : list B) :
  (forall a b, f a b = g a b) -> forall a, fold_left f l a = fold_left g l a.
Proof. intros H. induction l as [|b l IH]; intros a; [reflexivity|]. cbn [fold_left]. rewrite H. apply IH. Qed.

Lemma skipn_app_more {A} (a b : list A) n k : length a = n -> skipn (n + k) (a ++ b) = skipn k b.
Proof. intros H. now rewrite skipn_add, skipn_app_exact. Qed.

Lemma skipn_cons_inv {A} (l : list A) off c t d :
  skipn off l = c :: t -> nth off l d = c /\ skipn (S off) l = t /\ (off < length l)%nat.
Proof.
  revert off. induction l as [|a l IH]; intros off H.
  - destruct off; discriminate.
  - destruct off as [|off].
    + cbn in H. injection H as -> ->. cbn. repeat split. lia.
    + cbn [skipn] in H. apply IH in H. destruct H as (H1 & H2 & H3).
      cbn [nth length]. split; [exact H1|]. split; [exact H2|lia].
Qed.

Lemma skipn_nil_inv {A} (l : list A) off : skipn off l = [] -> (length l <= off)%nat.
Proof.
  intros H. apply (f_equal (@length A)) in H. rewrite skipn_length in H. cbn in H. lia.
Qed.

Lemma Forall2_nth {A B} (R : A -> B -> Prop) l l' : length l = length l' ->
  (forall i x y, nth_error l i = Some x -> nth_error l' i = Some y -> R x y) -> Forall2 R l l'.
Proof.
  revert l'; induction l as [|x t IH]; intros [|y t'] Hl H; try discriminate; constructor.
  - apply (H 0%nat); reflexivity.
  - apply IH; [cbn in Hl; lia|]. intros i a b Ha Hb. apply (H (S i)); assumption.
Qed.

Lemma in_combine_fst {A B} (a : list A) (b : list B) x :
  List.length b = List.length a -> In x a -> exists y, In (x, y) (combine a b).
Proof.
  revert b; induction a as [|x0 a IH]; intros [|y0 b] Hl Hin; try discriminate; [contradiction|].
  destruct Hin as [->|Hin]; [exists y0; now left|].
  destruct (IH b (eq_add_S _ _ Hl) Hin) as [y Hy]. exists y. now right.
Qed.

Lemma map_fst_combine {A B} (a : list A) (b : list B) : List.length b = List.length a -> map fst (combine a b) = a.
Proof.
  revert b; induction a as [|x a IH]; intros b H; [reflexivity|].
  destruct b as [|y b]; [discriminate|]. cbn. f_equal. apply IH. cbn in H. lia.
Qed.

Lemma map_snd_combine {A B} (a : list A) (b : list B) : List.length b = List.length a -> map snd (combine a b) = b.
Proof.
  revert b; induction a as [|x a IH]; intros b H; [destruct b; [reflexivity|discriminate]|].
  destruct b as [|y b]; [discriminate|]. cbn. f_equal. apply IH. cbn in H. lia.
Qed.

(* ------------------------------------------------------------------ slices *)
Lemma slice_length {A} (l : list A) a b :
  (b <= length l)%nat -> length (slice l a b) = (b - a)%nat.
Proof. intros H. unfold slice. rewrite firstn_length, skipn_length. lia. Qed.

Lemma slice_0 {A} (l : list A) j : slice l 0 j = firstn j l.
Proof. unfold slice. simpl. now rewrite Nat.sub_0_r. Qed.

Lemma slice_all {A} (l : list A) i : slice l i (length l) = skipn i l.
Proof. unfold slice. rewrite <- (skipn_length i l). apply firstn_all. Qed.

Lemma slice_app_l {A} (a b : list A) i j : (j <= length a)%nat -> slice (a ++ b) i j = slice a i j.
Proof.
  intros H. unfold slice. rewrite skipn_app, firstn_app, skipn_length.
  replace (j - i - (length a - i))%nat with 0%nat by lia. apply app_nil_r.
Qed.

Lemma slice_app_r {A} (a b : list A) i j :
  (length a <= i)%nat -> slice (a ++ b) i j = slice b (i - length a) (j - length a).
Proof. intros H. unfold slice. rewrite skipn_app, skipn_all2 by lia. simpl. f_equal. lia. Qed.

Lemma slice_app_mid {A} (pre x post : list A) i j :
  length pre = i -> (i + length x = j)%nat -> slice (pre ++ x ++ post) i j = x.
Proof.
  intros Hi Hj. unfold slice. rewrite (skipn_app_exact _ _ _ Hi). apply firstn_app_exact. lia.
Qed.

Lemma slice_skipn_cat {A} (l : list A) i j : (i <= j)%nat -> slice l i j ++ skipn j l = skipn i l.
Proof. intros H. unfold slice. replace j with (i + (j - i))%nat at 2 by lia. rewrite skipn_add. apply firstn_skipn. Qed.

Lemma firstn_slice_cat {A} (l : list A) i j : (i <= j)%nat -> firstn i l ++ slice l i j = firstn j l.
Proof.
  intros H. rewrite <- (firstn_skipn i (firstn j l)), firstn_firstn, Nat.min_l by exact H. f_equal.
  unfold slice. revert l j H. induction i as [|i IH]; intros l j H; [now rewrite Nat.sub_0_r|].
  destruct j as [|j]; [lia|]. destruct l as [|x l]; [now rewrite firstn_nil|]. apply IH. lia.
Qed.

Lemma slice_cat {A} (l : list A) i j k : (i <= j)%nat -> (j <= k)%nat -> slice l i j ++ slice l j k = slice l i k.
Proof.
  intros H1 H2. unfold slice at 1 3. rewrite <- (firstn_slice_cat (skipn i l) (j - i) (k - i)) by lia. f_equal.
  unfold slice. rewrite <- skipn_add. f_equal; [|f_equal]; lia.
Qed.

Lemma slice_firstn {A} (l : list A) a b n : (b <= n)%nat -> slice (firstn n l) a b = slice l a b.
Proof.
  intros H. unfold slice. rewrite skipn_firstn_comm, firstn_firstn. f_equal. lia.
Qed.

(* ------------------------------------------------------------------ slice assignment, and the elements of cut and patched lists *)
Lemma splice_length {A} (buf d : list A) off :
  (off + length d <= length buf)%nat -> length (splice buf off d) = length buf.
Proof.
  intros H. unfold splice. rewrite !app_length, firstn_length, skipn_length. lia.
Qed.

Lemma splice_slice {A} (buf d : list A) off :
  (off <= length buf)%nat -> slice (splice buf off d) off (off + length d) = d.
Proof.
  intros H. unfold slice, splice.
  replace (off + length d - off)%nat with (length d) by lia.
  rewrite skipn_app, firstn_length.
  replace (Nat.min off (length buf)) with off by lia.
  rewrite skipn_all2 by (rewrite firstn_length; lia).
  replace (off - off)%nat with 0%nat by lia. simpl.
  rewrite firstn_app. rewrite Nat.sub_diag. simpl. rewrite app_nil_r. apply firstn_all.
Qed.

Lemma firstn_splice {A} (buf d : list A) off : (off <= length buf)%nat -> firstn off (splice buf off d) = firstn off buf.
Proof. intros H. unfold splice. apply firstn_app_exact. rewrite firstn_length. lia. Qed.

Lemma skipn_splice {A} (buf d : list A) off :
  (off <= length buf)%nat -> skipn (off + length d) (splice buf off d) = skipn (off + length d) buf.
Proof.
  intros H. unfold splice. rewrite app_assoc. apply skipn_app_exact. rewrite app_length, firstn_length. lia.
Qed.

Lemma nth_error_firstn {A} (l : list A) m n : nth_error (firstn m l) n = if (n <? m)%nat then nth_error l n else None.
Proof.
  destruct (Nat.ltb_spec n m) as [H|H]; [|apply nth_error_None; rewrite firstn_length; lia].
  revert l n H; induction m as [|m IH]; intros [|x l] [|n] H; simpl; try reflexivity; try lia. apply IH. lia.
Qed.

Lemma nth_error_skipn {A} (l : list A) m n : nth_error (skipn m l) n = nth_error l (m + n).
Proof. revert l; induction m as [|m IH]; intros [|x l]; simpl; try reflexivity; [now destruct n | apply IH]. Qed.

Lemma nth_error_slice {A} (l : list A) a b n :
  nth_error (slice l a b) n = if (n <? b - a)%nat then nth_error l (a + n) else None.
Proof. unfold slice. rewrite nth_error_firstn, nth_error_skipn. reflexivity. Qed.

Lemma nth_error_splice {A} (buf d : list A) off n : (off + length d <= length buf)%nat ->
  nth_error (splice buf off d) n =
  if ((off <=? n) && (n <? off + length d))%nat then nth_error d (n - off) else nth_error buf n.
Proof.
  intros H. unfold splice.
  destruct (Nat.leb_spec off n) as [H1|H1]; simpl.
  - rewrite nth_error_app2; rewrite firstn_length, Nat.min_l by lia; [|exact H1].
    destruct (Nat.ltb_spec n (off + length d)) as [H2|H2]; [apply nth_error_app1; lia|].
    rewrite nth_error_app2, nth_error_skipn by lia. f_equal. lia.
  - rewrite nth_error_app1 by (rewrite firstn_length; lia). rewrite nth_error_firstn.
    now destruct (Nat.ltb_spec n off); [|lia].
Qed.

Lemma nth_error_ext {A} (l1 l2 : list A) : (forall n, nth_error l1 n = nth_error l2 n) -> l1 = l2.
Proof.
  revert l2; induction l1 as [|x l1 IH]; intros [|y l2] H; try reflexivity; try (specialize (H 0%nat); discriminate).
  f_equal; [specialize (H 0%nat); now injection H | apply IH; intros n; exact (H (S n))].
Qed.

(* ------------------------------------------------------------------ lengths as N and Z; byte strings *)
Lemma nlen_app {A} (a b : list A) : nlen (a ++ b) = nlen a + nlen b.
Proof. unfold nlen. rewrite app_length. lia. Qed.

Lemma nlen_to_nat {A} (l : list A) : N.to_nat (nlen l) = length l.
Proof. unfold nlen. lia. Qed.

Lemma nlen_cons {A} (x : A) l : nlen (x :: l) = 1 + nlen l.
Proof. unfold nlen. simpl length. lia. Qed.

Lemma nlen_0 {A} (l : list A) : nlen l = 0 -> l = [].
Proof. destruct l; [reflexivity|]. rewrite nlen_cons. lia. Qed.

Lemma zlen_app {A} (a b : list A) : (zlen (a ++ b) = zlen a + zlen b)%Z.
Proof. unfold zlen. rewrite app_length. lia. Qed.

Lemma zlen_nonneg {A} (a : list A) : (0 <= zlen a)%Z.
Proof. unfold zlen. lia. Qed.

Lemma zlen_nil_iff {A} (a : list A) : zlen a = 0%Z <-> a = [].
Proof. destruct a; unfold zlen; simpl; split; intros H; try reflexivity; try discriminate; lia. Qed.

Lemma zeros_length n : length (zeros n) = n.
Proof. apply repeat_length. Qed.

Lemma wf_zeros n : wf_bytes (zeros n).
Proof. apply Forall_forall. intros x Hx. apply repeat_spec in Hx as ->. reflexivity. Qed.

Lemma wf_bytesb_spec l : wf_bytesb l = true <-> wf_bytes l.
Proof.
  unfold wf_bytesb, wf_bytes. rewrite forallb_forall, Forall_forall.
  unfold wf_byteb, wf_byte. split; intros H x Hx; specialize (H x Hx); now apply N.ltb_lt.
Qed.

Lemma wf_bytes_app a b : wf_bytes a -> wf_bytes b -> wf_bytes (a ++ b).
Proof. intros. apply Forall_app. now split. Qed.

Lemma wf_bytes_firstn n a : wf_bytes a -> wf_bytes (firstn n a).
Proof.
  unfold wf_bytes. revert a; induction n as [|n IH]; intros a H; simpl; [constructor|].
  destruct a; [constructor|]. inversion H; subst. constructor; auto.
Qed.

Lemma wf_bytes_skipn n a : wf_bytes a -> wf_bytes (skipn n a).
Proof.
  unfold wf_bytes. revert a; induction n as [|n IH]; intros a H; simpl; [assumption|].
  destruct a; [constructor|]. inversion H; subst. auto.
Qed.

Lemma wf_bytes_concat bs : Forall wf_bytes bs -> wf_bytes (concat bs).
Proof. induction 1; simpl; [constructor | now apply wf_bytes_app]. Qed.

Lemma eqb_list_spec a b : eqb_list a b = true <-> a = b.
Proof.
  revert b; induction a as [|x a IH]; intros [|y b]; simpl; split; intros H; try discriminate; try reflexivity.
  - apply andb_true_iff in H as [H1 H2]. apply N.eqb_eq in H1. apply IH in H2. now subst.
  - inversion H; subst. rewrite N.eqb_refl. simpl. now apply IH.
Qed.

Lemma eqb_list_refl a : eqb_list a a = true.
Proof. now apply eqb_list_spec. Qed.

(* ------------------------------------------------------------------ bitwise bounds and bit sizes *)
Lemma lt_pow2_shiftr a n : a < 2 ^ n <-> N.shiftr a n = 0.
Proof. rewrite N.shiftr_div_pow2. symmetry. apply N.div_small_iff, N.pow_nonzero. lia. Qed.

Lemma lxor_lt_pow2 a b n : a < 2 ^ n -> b < 2 ^ n -> N.lxor a b < 2 ^ n.
Proof. rewrite !lt_pow2_shiftr, N.shiftr_lxor. now intros -> ->. Qed.

Lemma lor_lt_pow2 a b n : a < 2 ^ n -> b < 2 ^ n -> N.lor a b < 2 ^ n.
Proof. rewrite !lt_pow2_shiftr, N.shiftr_lor. now intros -> ->. Qed.

Lemma lxor_byte a b : a < 256 -> b < 256 -> N.lxor a b < 256.
Proof. apply (lxor_lt_pow2 a b 8). Qed.

Lemma N_size_le_iff n k : N.size n <= k <-> n < 2 ^ k.
Proof.
  destruct (N.eq_dec n 0) as [->|Hn].
  - split; intros _; [apply N.neq_0_lt_0, N.pow_nonzero; discriminate | apply N.le_0_l].
  - rewrite N.size_log2, N.le_succ_l by assumption. symmetry. apply N.log2_lt_pow2. lia.
Qed.

Lemma N_size_gt_iff n k : k < N.size n <-> 2 ^ k <= n.
Proof. rewrite N.lt_nge, (N.le_ngt (2 ^ k)), N_size_le_iff. reflexivity. Qed.

Local Open Scope Z_scope.
Lemma N_testbit_high x n i : (x < 2 ^ n)%N -> (n <= i)%N -> N.testbit x i = false.
Proof.
  intros Hx Hi. destruct (N.eq_dec x 0) as [->|Hnz]; [apply N.bits_0|].
  apply N.bits_above_log2.
  apply N.log2_lt_pow2 in Hx; lia.
Qed.

Lemma Z_log2_size x : 0 < x -> Z.log2 x + 1 = Z.of_N (N.size (Z.to_N x)).
Proof.
  intros Hx. destruct x as [|p|p]; try lia.
  destruct p as [p|p|]; cbn [Z.log2 Z.to_N N.size Pos.size Z.of_N]; lia.
Qed.

Lemma lor_high_low hi lo : 0 <= lo < 256 -> Z.lor (hi * 256) lo = hi * 256 + lo.
Proof.
  intros H. assert (D : Z.land (hi * 256) lo = 0).
  { apply Z.bits_inj'. intros n Hn. rewrite Z.land_spec, Z.bits_0.
    destruct (Z.lt_ge_cases n 8).
    - change 256 with (2 ^ 8). now rewrite Z.mul_pow2_bits_low.
    - rewrite <- (Z.mod_small lo (2 ^ 8)), Z.mod_pow2_bits_high by lia. apply andb_false_r. }
  now rewrite <- Z.lxor_lor, <- Z.add_nocarry_lxor.
Qed.

Lemma pow2_N2Z n : Z.of_N (2 ^ N.of_nat n) = 2 ^ Z.of_nat n.
Proof. rewrite N2Z.inj_pow, nat_N_Z. reflexivity. Qed.

Lemma lt_pow_to_N x bits : 0 <= bits -> 0 <= x -> x < 2 ^ bits ->
  (Z.to_N x < 2 ^ N.of_nat (Z.to_nat bits))%N.
Proof.
  intros Hb Hx H. apply N2Z.inj_lt. rewrite pow2_N2Z, Z2N.id, Z2Nat.id by lia. exact H.
Qed.
Lemma pow_N_Z k : (2 ^ (8 * N.of_nat k))%N = Z.to_N (2 ^ (8 * Z.of_nat k)).
Proof.
  replace (8 * N.of_nat k)%N with (Z.to_N (8 * Z.of_nat k)) by lia.
  change 2%N with (Z.to_N 2). rewrite <- Z2N.inj_pow by lia. reflexivity.
Qed.

Local Close Scope Z_scope.

(* ------------------------------------------------------------------ xor of byte strings *)
Lemma xor_bytes_length_min a b : length (xor_bytes a b) = Nat.min (length a) (length b).
Proof. unfold xor_bytes. now rewrite map_length, combine_length. Qed.

Lemma xor_bytes_length a b : length a = length b -> length (xor_bytes a b) = length a.
Proof. intros H. rewrite xor_bytes_length_min. lia. Qed.

Lemma xor_bytes_cancel a b : (length a <= length b)%nat -> xor_bytes (xor_bytes a b) b = a.
Proof.
  revert b; induction a as [|x a IH]; intros [|y b] H; simpl in *; try reflexivity; try lia.
  unfold xor_bytes in *. simpl. f_equal.
  - rewrite N.lxor_assoc, N.lxor_nilpotent, N.lxor_0_r. reflexivity.
  - apply IH. lia.
Qed.

Lemma xor_bytes_involutive a b : length a = length b -> xor_bytes (xor_bytes a b) b = a.
Proof. intros H. apply xor_bytes_cancel. lia. Qed.

Lemma xor_bytes_wf a b : wf_bytes a -> wf_bytes b -> wf_bytes (xor_bytes a b).
Proof.
  unfold wf_bytes. revert b; induction a as [|x a IH]; intros [|y b] Ha Hb; simpl; try constructor.
  - inversion Ha; inversion Hb; subst. now apply lxor_byte.
  - inversion Ha; inversion Hb; subst. now apply IH.
Qed.

(* ------------------------------------------------------------------ chunks *)
Lemma mod_mult_exists n k : (0 < k)%nat -> Nat.modulo n k = 0%nat -> exists q, n = (q * k)%nat.
Proof. intros Hk H. exists (Nat.div n k). pose proof (Nat.div_mod n k). lia. Qed.

Lemma chunks_fuel_app {A} (k : nat) (b : list A) (rest : list A) fuel :
  (0 < k)%nat -> length b = k ->
  chunks_fuel (S fuel) k (b ++ rest) = b :: chunks_fuel fuel k rest.
Proof.
  intros Hk Hb. cbn [chunks_fuel]. destruct (b ++ rest) eqn:E.
  - destruct b; simpl in *; [lia | discriminate].
  - now rewrite <- E, (firstn_app_exact _ _ _ Hb), (skipn_app_exact _ _ _ Hb).
Qed.

Lemma chunks_fuel_enough {A} (k : nat) (l : list A) f1 f2 :
  (0 < k)%nat -> (length l <= f1)%nat -> (length l <= f2)%nat -> chunks_fuel f1 k l = chunks_fuel f2 k l.
Proof.
  intros Hk. revert l f2. induction f1 as [|f1 IH]; intros l f2 H1 H2.
  - destruct l; simpl in *; [|lia]. destruct f2; reflexivity.
  - destruct f2 as [|f2].
    + destruct l; simpl in *; [reflexivity | lia].
    + cbn [chunks_fuel]. destruct l as [|a l]; [reflexivity|].
      f_equal. apply IH; rewrite skipn_length; cbn [length] in *; lia.
Qed.

(* the unfolding equation of chunks and its induction principle: no fuel beyond this point *)
Lemma chunks_eq {A} (k : nat) (l : list A) :
  (0 < k)%nat -> l <> [] -> chunks k l = firstn k l :: chunks k (skipn k l).
Proof.
  intros Hk Hl. unfold chunks. destruct l as [|a l]; [congruence|]. cbn [length chunks_fuel].
  f_equal. apply chunks_fuel_enough; rewrite ?skipn_length; cbn [length]; lia.
Qed.

Lemma chunks_ind {A} (k : nat) (P : list A -> list (list A) -> Prop) :
  (0 < k)%nat -> P [] [] ->
  (forall l, l <> [] -> P (skipn k l) (chunks k (skipn k l)) -> P l (firstn k l :: chunks k (skipn k l))) ->
  forall l, P l (chunks k l).
Proof.
  intros Hk P0 PS l. remember (length l) as n eqn:Hn. revert l Hn.
  induction n as [n IH] using lt_wf_ind. intros l Hn.
  destruct l as [|a l]; [exact P0|]. rewrite (chunks_eq k (a :: l) Hk) by discriminate.
  apply PS; [discriminate|]. apply (IH (length (skipn k (a :: l)))); [|reflexivity].
  rewrite skipn_length. cbn [length] in *. lia.
Qed.

Lemma concat_chunks {A} (k : nat) (l : list A) : (0 < k)%nat -> concat (chunks k l) = l.
Proof.
  intros Hk. revert l. apply (chunks_ind k (fun l cs => concat cs = l) Hk); [reflexivity|].
  intros l' _ IH. cbn [concat]. rewrite IH. apply firstn_skipn.
Qed.

Lemma chunks_cons {A} (k : nat) (b rest : list A) :
  (0 < k)%nat -> length b = k -> chunks k (b ++ rest) = b :: chunks k rest.
Proof.
  intros Hk Hb. assert (Hne : b ++ rest <> []) by (destruct b; [simpl in Hb; lia | discriminate]).
  rewrite (chunks_eq k _ Hk Hne). now rewrite (firstn_app_exact _ _ _ Hb), (skipn_app_exact _ _ _ Hb).
Qed.

Lemma chunks_concat {A} (k : nat) (bs : list (list A)) :
  (0 < k)%nat -> Forall (fun b => length b = k) bs -> chunks k (concat bs) = bs.
Proof.
  intros Hk H. induction H as [|b bs Hb _ IH]; [reflexivity|].
  simpl. rewrite chunks_cons by assumption. now rewrite IH.
Qed.

Lemma chunks_app {A} (k q : nat) : forall x y : list A,
  (0 < k)%nat -> length x = (q * k)%nat -> chunks k (x ++ y) = chunks k x ++ chunks k y.
Proof.
  induction q as [|q IH]; intros x y Hk Hx.
  - destruct x; [reflexivity | simpl in Hx; lia].
  - assert (Hf : length (firstn k x) = k) by (rewrite firstn_length; simpl in Hx; lia).
    rewrite <- (firstn_skipn k x), <- app_assoc, (chunks_cons k _ _ Hk Hf), (chunks_cons k _ _ Hk Hf).
    cbn [app]. f_equal. apply IH; [assumption|]. rewrite skipn_length. simpl in Hx. lia.
Qed.

Lemma chunks_full {A} (k : nat) (l : list A) q :
  (0 < k)%nat -> length l = (q * k)%nat -> Forall (fun b => length b = k) (chunks k l).
Proof.
  intros Hk. revert l. induction q as [|q IH]; intros l Hl.
  - destruct l; [constructor | simpl in Hl; lia].
  - rewrite <- (firstn_skipn k l).
    assert (Hf : length (firstn k l) = k) by (rewrite firstn_length; simpl in Hl; lia).
    rewrite chunks_cons by assumption. constructor; [assumption|].
    apply IH. rewrite skipn_length. simpl in Hl. lia.
Qed.

Lemma chunks_length {A} (k : nat) (l : list A) : (0 < k)%nat -> length (chunks k l) = ((length l + k - 1) / k)%nat.
Proof.
  intros Hk. revert l. apply (chunks_ind k (fun l cs => length cs = ((length l + k - 1) / k)%nat) Hk).
  - symmetry. apply Nat.div_small. simpl. lia.
  - intros l Hl IH. cbn [length]. rewrite IH, skipn_length. destruct (Nat.le_gt_cases (length l) k) as [Hle|Hgt].
    + replace (length l - k)%nat with 0%nat by lia. rewrite (Nat.div_small (0 + k - 1)) by lia.
      destruct l as [|x t]; [congruence|]. cbn [length] in *. apply (Nat.div_unique _ k 1 (length t)); lia.
    + replace (length l + k - 1)%nat with ((length l - k + k - 1) + 1 * k)%nat by lia. rewrite Nat.div_add by lia. lia.
Qed.

Lemma concat_length_uniform {A} (k : nat) (bs : list (list A)) :
  Forall (fun b => length b = k) bs -> length (concat bs) = (k * length bs)%nat.
Proof. induction 1 as [|b bs Hb _ IH]; simpl; [lia|]. rewrite app_length, IH, Hb. lia. Qed.

Lemma wf_chunks_fuel k l fuel : wf_bytes l -> Forall wf_bytes (chunks_fuel fuel k l).
Proof.
  revert l. induction fuel as [|f IH]; intros l H; simpl; [constructor|].
  destruct l as [|a l]; [constructor|]. constructor.
  - now apply wf_bytes_firstn.
  - apply IH. now apply wf_bytes_skipn.
Qed.

Lemma wf_chunks k l : wf_bytes l -> Forall wf_bytes (chunks k l).
Proof. apply wf_chunks_fuel. Qed.

Fixpoint chunked {A} (k : nat) (bs : list (list A)) : Prop :=
  match bs with
  | [] => True
  | b :: t => match t with
              | [] => (0 < length b <= k)%nat
              | _ => length b = k /\ chunked k t
              end
  end.

Lemma chunked_chunks {A} k (l : list A) : (0 < k)%nat -> chunked k (chunks k l).
Proof.
  intros Hk. revert l. apply (chunks_ind k (fun _ cs => chunked k cs) Hk); [exact I|].
  intros l' Hl IH. cbn [chunked]. rewrite firstn_length.
  destruct (chunks k (skipn k l')) eqn:Ec.
  - destruct l'; [congruence | cbn [length]; lia].
  - split; [|exact IH]. destruct (Nat.le_gt_cases k (length l')); [lia|].
    rewrite skipn_all2 in Ec by lia. discriminate.
Qed.

Lemma chunks_concat_chunked {A} k (bs : list (list A)) : (0 < k)%nat -> chunked k bs -> chunks k (concat bs) = bs.
Proof.
  intros Hk. induction bs as [|b bs IH]; intros H; [reflexivity|].
  cbn [chunked] in H. destruct bs as [|b' bs'].
  - simpl. rewrite app_nil_r. assert (Hne : b <> []) by (destruct b; [simpl in H; lia | discriminate]).
    rewrite (chunks_eq k b Hk Hne), firstn_all2, skipn_all2 by lia. reflexivity.
  - destruct H as [Hb Ht]. cbn [concat]. rewrite chunks_cons by assumption. f_equal. now apply IH.
Qed.

Lemma chunked_same_shape {A} k (bs cs : list (list A)) :
  Forall2 (fun a b => length a = length b) bs cs -> chunked k bs -> chunked k cs.
Proof.
  induction 1 as [|b c bs cs Hbc HF IH]; intros H; [exact I|].
  cbn [chunked] in *. destruct HF as [|b' c' bs' cs' Hb' HF'].
  - lia.
  - destruct H as [H1 H2]. split; [lia|]. apply IH. exact H2.
Qed.

Lemma chunked_le {A} k (bs : list (list A)) : chunked k bs -> Forall (fun b => (length b <= k)%nat) bs.
Proof.
  induction bs as [|b bs IH]; intros H; constructor; cbn [chunked] in H; destruct bs.
  - lia.
  - lia.
  - constructor.
  - apply IH. tauto.
Qed.

Lemma concat_length_same_shape {A} (bs cs : list (list A)) :
  Forall2 (fun a b => length a = length b) bs cs -> length (concat cs) = length (concat bs).
Proof. induction 1 as [|a b l l' Hab _ IH]; [reflexivity|]. simpl. rewrite !app_length. lia. Qed.

(* ------------------------------------------------------------------ messages as fields in front of a rest *)
(* cat [f1; ..; fn] rest is f1 ++ .. ++ fn ++ rest by computation *)
Fixpoint cat {A} (fs : list (list A)) (rest : list A) : list A :=
  match fs with [] => rest | f :: t => f ++ cat t rest end.

Lemma cat_concat {A} (fs : list (list A)) rest : cat fs rest = concat fs ++ rest.
Proof. induction fs as [|f t IH]; [reflexivity|]. cbn [cat concat]. now rewrite IH, app_assoc. Qed.

Lemma skipn_cat {A} (fs : list (list A)) rest o : length (concat fs) = o -> skipn o (cat fs rest) = rest.
Proof. intros H. rewrite cat_concat. now apply skipn_app_exact. Qed.

Lemma field_cat {A} (fs : list (list A)) rest : forall i f o w,
  nth_error fs i = Some f -> length (concat (firstn i fs)) = o -> length f = w -> firstn w (skipn o (cat fs rest)) = f.
Proof.
  induction fs as [|g fs IH]; intros [|i] f o w Hi Ho Hw; cbn [nth_error firstn concat cat] in *; try discriminate.
  - injection Hi as ->. subst o. now apply firstn_app_exact.
  - rewrite app_length in Ho. subst o. rewrite skipn_add, skipn_app_exact by reflexivity. now apply (IH i).
Qed.

(* ------------------------------------------------------------------ pieces written at increasing offsets into a filled buffer *)
Lemma splice_fill {A} (x : A) pre d g m : (g + length d <= m)%nat ->
  splice (pre ++ repeat x m) (length pre + g) d = (pre ++ repeat x g ++ d) ++ repeat x (m - g - length d).
Proof.
  intros H. unfold splice.
  rewrite firstn_app_2, firstn_repeat, <- Nat.add_assoc, skipn_add, (skipn_app_exact pre), skipn_repeat by reflexivity.
  rewrite Nat.min_l, <- !app_assoc by lia. do 4 f_equal. lia.
Qed.

Section FillLayout.
  Context {A : Type} (x : A).
  Local Open Scope Z_scope.
  Implicit Types (pos : Z) (l : list (Z * list A)).

  (* what lies between [pos] and the end of the last piece once the pieces (offset, data) of [l] are written over fill [x] *)
  Fixpoint fill_layout pos l : list A :=
    match l with [] => [] | (o, d) :: t => repeat x (Z.to_nat (o - pos)) ++ d ++ fill_layout (o + zlen d) t end.
  Fixpoint fill_chain pos l : Prop :=
    match l with [] => True | (o, d) :: t => pos <= o /\ fill_chain (o + zlen d) t end.
  Fixpoint fill_end pos l : Z :=
    match l with [] => pos | (o, d) :: t => fill_end (o + zlen d) t end.

  Lemma fill_chain_weaken pos pos' l : pos' <= pos -> fill_chain pos l -> fill_chain pos' l.
  Proof. destruct l as [|[o d] t]; [trivial|]. intros H [H1 H2]. split; [lia | exact H2]. Qed.

  Lemma fill_end_ge l : forall pos, fill_chain pos l -> pos <= fill_end pos l.
  Proof.
    induction l as [|[o d] t IH]; intros pos H; [apply Z.le_refl|]. destruct H as [H1 H2].
    specialize (IH _ H2). pose proof (zlen_nonneg d). cbn [fill_end]. lia.
  Qed.

  Lemma fill_chain_app l1 l2 : forall pos, fill_chain pos (l1 ++ l2) <-> fill_chain pos l1 /\ fill_chain (fill_end pos l1) l2.
  Proof. induction l1 as [|[o d] t IH]; intros pos; cbn [app fill_chain fill_end]; [tauto|]. rewrite IH. tauto. Qed.

  Lemma fill_end_app l1 l2 : forall pos, fill_end pos (l1 ++ l2) = fill_end (fill_end pos l1) l2.
  Proof. induction l1 as [|[o d] t IH]; intros pos; [reflexivity | apply IH]. Qed.

  Lemma fill_layout_app l1 l2 : forall pos, fill_layout pos (l1 ++ l2) = fill_layout pos l1 ++ fill_layout (fill_end pos l1) l2.
  Proof.
    induction l1 as [|[o d] t IH]; intros pos; [reflexivity|]. cbn [app fill_layout fill_end]. now rewrite IH, <- !app_assoc.
  Qed.

  Lemma fill_layout_length l : forall pos, fill_chain pos l -> zlen (fill_layout pos l) = fill_end pos l - pos.
  Proof.
    induction l as [|[o d] t IH]; intros pos H; cbn [fill_layout fill_end]; [now rewrite Z.sub_diag|].
    destruct H as [H1 H2]. rewrite !zlen_app, (IH _ H2). unfold zlen at 1. rewrite repeat_length. lia.
  Qed.

  Theorem write_layout l : forall pre tot, fill_chain (zlen pre) l -> fill_end (zlen pre) l <= tot ->
    fold_left (fun b s => splice b (Z.to_nat (fst s)) (snd s)) l (pre ++ repeat x (Z.to_nat (tot - zlen pre)))
    = pre ++ fill_layout (zlen pre) l ++ repeat x (Z.to_nat (tot - fill_end (zlen pre) l)).
  Proof.
    induction l as [|[o d] t IH]; intros pre tot Hc He; [reflexivity|].
    destruct Hc as [Hc1 Hc2]. cbn [fill_end] in He. pose proof (fill_end_ge _ _ Hc2) as Hge.
    cbn [fold_left fill_layout fill_end fst snd].
    replace (Z.to_nat o) with (length pre + Z.to_nat (o - zlen pre))%nat by (unfold zlen in *; lia).
    rewrite splice_fill by (unfold zlen in *; lia).
    set (pre' := pre ++ repeat x (Z.to_nat (o - zlen pre)) ++ d).
    assert (Hl : zlen pre' = o + zlen d) by (unfold pre'; rewrite !zlen_app; unfold zlen at 2; rewrite repeat_length; lia).
    replace (Z.to_nat (tot - zlen pre) - Z.to_nat (o - zlen pre) - length d)%nat with (Z.to_nat (tot - zlen pre'))
      by (rewrite Hl; unfold zlen in *; lia).
    rewrite IH by (rewrite Hl; assumption). rewrite Hl. unfold pre'. now rewrite <- !app_assoc.
  Qed.

  Corollary write_layout_0 l tot : fill_chain 0 l -> fill_end 0 l <= tot ->
    fold_left (fun b s => splice b (Z.to_nat (fst s)) (snd s)) l (repeat x (Z.to_nat tot))
    = fill_layout 0 l ++ repeat x (Z.to_nat (tot - fill_end 0 l)).
  Proof. intros Hc He. rewrite <- (Z.sub_0_r tot) at 1. exact (write_layout l [] tot Hc He). Qed.
End FillLayout.
