(* MiscBlkProofs.v -- C20: SecBootBlckSize (spsdk/sbfile/misc.py) cipher-block helpers. *)
From Coq Require Import ZArith NArith List Bool Lia.
Require Import Value Bytes BytesProofs GenMisc MiscModel MiscExtModel MiscBlkModel MiscProofs MiscPatternProofs.
Import ListNotations.
Local Open Scope Z_scope.

Lemma sbb_is_aligned_mod s : sbb_is_aligned s = true <-> s mod 16 = 0.
Proof. unfold sbb_is_aligned, BLOCK_SIZE. lia. Qed.

Lemma sbb_is_aligned_iff s : sbb_is_aligned s = true <-> exists k, s = BLOCK_SIZE * k.
Proof.
  rewrite sbb_is_aligned_mod. unfold BLOCK_SIZE. split.
  - intros H. exists (s / 16). dlia.
  - intros [k ->]. dlia.
Qed.

(* align: smallest block-aligned size not below the input; negative sizes rejected (never accepted with another meaning) *)
Lemma sbb_align_least_l n :
  (0 <= n -> exists r, sbb_align n = Ok r /\ n <= r < n + BLOCK_SIZE /\ sbb_is_aligned r = true /\
                       (forall m, n <= m -> sbb_is_aligned m = true -> r <= m)) /\
  (n < 0 -> sbb_align n = Err 1%N).
Proof.
  unfold sbb_align, BLOCK_SIZE. split.
  - intros Hn. destruct (align_ok n 16 Hn ltac:(lia)) as (r & H1 & H2 & H3 & H4).
    exists r. split; [exact H1|]. split; [lia|]. split; [now apply sbb_is_aligned_mod|].
    intros m Hm Ha. apply (align_least n 16 r m Hn ltac:(lia) H1 Hm). now apply sbb_is_aligned_mod.
  - intros Hn. apply py_align_err. auto.
Qed.

(* to_num_blocks: accepted exactly on multiples of the block size, and then the exact quotient *)
Lemma sbb_to_num_blocks_iff_l s k : sbb_to_num_blocks s = Ok k <-> s = BLOCK_SIZE * k.
Proof.
  unfold sbb_to_num_blocks. destruct (sbb_is_aligned s) eqn:E; cbn [negb].
  - apply sbb_is_aligned_mod in E. unfold BLOCK_SIZE. split; [intros H; injection H as <-|intros ->; f_equal]; dlia.
  - split; [discriminate|]. intros ->. unfold sbb_is_aligned, BLOCK_SIZE in E. dlia.
Qed.

