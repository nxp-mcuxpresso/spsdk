(* Proofs/MiscBcdCtorProofs.v -- C20: what BcdVersion3 accepts, stated on the nibbles.  The constructor accepts exactly
   triples of valid BCD components; a version text whose components are written as 1..4 hex digits is accepted exactly
   when every digit is decimal (so a hex letter in ANY position -- leading, inner, last -- is rejected with Err 1). *)
From Coq Require Import ZArith NArith List Bool Lia.
Require Import Value Bytes BytesProofs GenMisc MiscModel MiscExtModel MiscProofs MiscBcdProofs.
Import ListNotations.
Local Open Scope Z_scope.

Lemma bcd_new_iff_l x y z :
  (bcd_valid x /\ bcd_valid y /\ bcd_valid z -> bcd_new x y z = Ok (x, y, z)) /\
  (~ (bcd_valid x /\ bcd_valid y /\ bcd_valid z) -> bcd_new x y z = Err 1%N) /\
  (forall v, bcd_new x y z = Ok v -> v = (x, y, z) /\ bcd_valid x /\ bcd_valid y /\ bcd_valid z).
Proof.
  unfold bcd_new.
  destruct (bcd_check x) eqn:Ex, (bcd_check y) eqn:Ey, (bcd_check z) eqn:Ez;
    (split; [intros (A & B & C); apply bcd_check_valid in A, B, C; congruence
            |split; [intros Hn; try reflexivity; exfalso; apply Hn; repeat split; apply bcd_check_valid; assumption
                    |intros w Hw; try discriminate; injection Hw as <-;
                     repeat split; try reflexivity; apply bcd_check_valid; assumption]]).
Qed.

(* a valid component is at most 4 nibbles, all decimal: stated with div/mod, independent of the model's bit operations *)
Lemma bcd_valid_nibbles v : bcd_valid v <->
  (0 <= v < 16 ^ 4 /\ v mod 16 <= 9 /\ (v / 16) mod 16 <= 9 /\ (v / 256) mod 16 <= 9 /\ (v / 4096) mod 16 <= 9).
Proof.
  unfold bcd_valid. change (16 ^ 4) with 65536. split.
  - intros (d3 & d2 & d1 & d0 & H3 & H2 & H1 & H0 & ->). dlia.
  - intros (Hr & H0 & H1 & H2 & H3).
    exists ((v / 4096) mod 16), ((v / 256) mod 16), ((v / 16) mod 16), (v mod 16). dlia.
Qed.

Lemma to_version_is_from_str s : bcd_to_version s = bcd_from_str s.
Proof.
  unfold bcd_to_version. destruct (bcd_from_str s) as [[[x y] z]|e] eqn:E; [|reflexivity].
  destruct (bcd_from_str_accepts_only_l s x y z E) as (Hx & Hy & Hz & _).
  now apply (proj1 (bcd_new_iff_l x y z)).
Qed.

(* texts made of hex digits (hex_ch is the hexdigit of MiscBcdProofs) *)
Definition hex_ch (c : N) : Prop := (48 <= c <= 57)%N \/ (65 <= c <= 70)%N \/ (97 <= c <= 102)%N.
Definition hex_str (a : list N) : Prop := (1 <= length a <= 4)%nat /\ Forall hex_ch a.

Lemma hex_str_nodot a : hex_str a -> nodot a.
Proof. intros [_ Hf]. now apply hexdigit_nodot. Qed.

(* among texts of hex digits the documented ones are those without a letter *)
Lemma hex_str_dec a : hex_str a -> dec_str a <-> forallb is_digit a = true.
Proof. intros [Hl _]. rewrite forallb_is_digit. unfold dec_str. tauto. Qed.

(* a letter in any component, at any position, rejects the whole text *)
Lemma bcd_from_hex_dotted a b c : hex_str a -> hex_str b -> hex_str c ->
  bcd_from_str (dotted a b c) =
    if forallb is_digit a && forallb is_digit b && forallb is_digit c
    then Ok (bcd_read a, bcd_read b, bcd_read c) else Err 1%N.
Proof.
  intros Ha Hb Hc. rewrite bcd_from_dotted by now apply hex_str_nodot.
  rewrite (bcd_num_from_hex a), (bcd_num_from_hex b), (bcd_num_from_hex c) by (apply Ha || apply Hb || apply Hc).
  now destruct (forallb is_digit a), (forallb is_digit b), (forallb is_digit c).
Qed.

Lemma bcd_from_str_hex_components_l a b c : hex_str a -> hex_str b -> hex_str c ->
  ((exists v, bcd_from_str (dotted a b c) = Ok v) <-> (dec_str a /\ dec_str b /\ dec_str c)) /\
  (~ (dec_str a /\ dec_str b /\ dec_str c) -> bcd_from_str (dotted a b c) = Err 1%N).
Proof.
  intros Ha Hb Hc. rewrite bcd_from_hex_dotted, (hex_str_dec a), (hex_str_dec b), (hex_str_dec c) by assumption.
  rewrite <- !andb_true_iff, andb_assoc. destruct (_ && _ && _).
  - split; [split; [reflexivity|intros _; eexists; reflexivity]|intros H; now destruct H].
  - split; [split; [intros [v H]|]; discriminate|reflexivity].
Qed.

(* the hypotheses are satisfiable; a letter in last, inner and second position *)
Example hex_ex1 : hex_str [49; 65]%N /\ ~ dec_str [49; 65]%N.                          (* "1A" *)
Proof. split; [split; [cbn; lia|repeat constructor; unfold hex_ch; lia]|]. intros [_ H]. inversion H as [|? ? _ H']. inversion H' as [|? ? X _]. lia. Qed.
Example hex_ex2 : bcd_from_str [49; 65; 46; 48; 46; 48]%N = Err 1%N                     (* "1A.0.0" *)
               /\ bcd_from_str [49; 46; 50; 98; 46; 51]%N = Err 1%N                     (* "1.2b.3" *)
               /\ bcd_from_str [57; 70; 57; 57; 46; 48; 46; 48]%N = Err 1%N             (* "9F99.0.0" *)
               /\ bcd_new 0x1A 0 0 = Err 1%N /\ bcd_new 0x9999 0x9999 0x9999 = Ok (0x9999, 0x9999, 0x9999).
Proof. vm_compute. repeat split; reflexivity. Qed.

Print Assumptions bcd_new_iff_l.
Print Assumptions bcd_valid_nibbles.
Print Assumptions bcd_from_str_hex_components_l.
Print Assumptions to_version_is_from_str.
