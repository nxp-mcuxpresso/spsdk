(* Proofs/HabProofs.v -- C07: the HAB image of Model/HabModel.v.
   In order: the byte-string vocabulary (over Lib/BytesProofs.v) and the reads of a TLV header; the XMCD, IVT and boot-data
   codecs; CSF export (cmd-data offsets, the signed range); BinaryImage placement of a chain of segments; inversion of
   hab_build; the geometry a successful build implies (build_geom); the exported image as one concatenation (build_image),
   from which follow the parse round trip, the IVT pointers, the decryption of the application, the block lists and the
   signed ranges (the theorems Props/C07 names); last, witnesses that the hypotheses can be met. *)
From Coq Require Import ZArith NArith List Bool Lia.
Require Import Value Bytes BytesProofs Sha2 Aes Modes CryptoProofs HabModel.
Import ListNotations.
Local Open Scope Z_scope.
(* hlen is Bytes.zlen and hslice / hskip are slice / skipn at Z positions: the list algebra is that of Lib/BytesProofs.v *)
Lemma hlen_app {A} (l1 l2 : list A) : hlen (l1 ++ l2) = hlen l1 + hlen l2.
Proof. exact (zlen_app l1 l2). Qed.
Lemma hlen_nonneg {A} (l : list A) : 0 <= hlen l.
Proof. exact (zlen_nonneg l). Qed.
Lemma hlen_cons {A} (x : A) l : hlen (x :: l) = 1 + hlen l.
Proof. exact (hlen_app [x] l). Qed.
Lemma hlen_nil {A} : hlen (@nil A) = 0.
Proof. reflexivity. Qed.
Lemma hlen_hzeros n : 0 <= n -> hlen (hzeros n) = n.
Proof. intros. unfold hlen, hzeros. rewrite repeat_length. lia. Qed.
Lemma hlen_hle w x : hlen (hle w x) = Z.of_nat w.
Proof. unfold hlen, hle. now rewrite le_enc_length. Qed.
Lemma hlen_hbe w x : hlen (hbe w x) = Z.of_nat w.
Proof. unfold hlen, hbe. now rewrite be_enc_length. Qed.
Lemma hlen_hdr t l p : hlen (hdr t l p) = 4.
Proof. unfold hdr. now rewrite !hlen_app, !hlen_hbe. Qed.

Lemma hslice_mid {A} (pre mid post : list A) a b :
  hlen pre = a -> hlen mid = b - a -> hslice (pre ++ mid ++ post) a b = mid.
Proof. unfold hlen, hslice. intros Ha Hb. apply slice_app_mid; lia. Qed.

Lemma hslice_pre {A} (mid post : list A) b : hlen mid = b -> hslice (mid ++ post) 0 b = mid.
Proof. intros. apply (hslice_mid [] mid post 0 b); [reflexivity | lia]. Qed.

Lemma hslice_end {A} (pre mid : list A) a b : hlen pre = a -> hlen mid = b - a -> hslice (pre ++ mid) a b = mid.
Proof. intros. rewrite <- (app_nil_r mid) at 1. now apply hslice_mid. Qed.

Lemma hskip_app {A} (pre post : list A) a : hlen pre = a -> hskip (pre ++ post) a = post.
Proof. unfold hlen, hskip. intros Ha. apply skipn_app_exact. lia. Qed.

Lemma hskip_0 {A} (l : list A) : hskip l 0 = l.
Proof. reflexivity. Qed.

Lemma pow8 (w : nat) : Z.of_N (2 ^ (8 * N.of_nat w)) = 2 ^ (8 * Z.of_nat w).
Proof. rewrite N2Z.inj_pow, N2Z.inj_mul, nat_N_Z. reflexivity. Qed.

Lemma fits_spec w x : fits w x = true <-> 0 <= x < 2 ^ (8 * Z.of_nat w).
Proof. unfold fits. rewrite andb_true_iff, Z.leb_le, Z.ltb_lt. tauto. Qed.

Lemma fits1 x : 0 <= x < 256 -> fits 1 x = true.
Proof. intros. now apply fits_spec. Qed.
Lemma fits2 x : 0 <= x < 65536 -> fits 2 x = true.
Proof. intros. now apply fits_spec. Qed.

Lemma fits_N w x : fits w x = true -> (Z.to_N x < 2 ^ (8 * N.of_nat w))%N /\ Z.of_N (Z.to_N x) = x.
Proof.
  rewrite fits_spec. intros [H0 H1]. split; [|now apply Z2N.id]. apply N2Z.inj_lt. now rewrite pow8, Z2N.id.
Qed.

Lemma hdec_le_hle w x : fits w x = true -> hdec_le (hle w x) = x.
Proof. intros H. destruct (fits_N w x H) as [Hl He]. unfold hdec_le, hle. now rewrite le_dec_enc_small. Qed.

Lemma hdec_be_hbe w x : fits w x = true -> hdec_be (hbe w x) = x.
Proof. intros H. destruct (fits_N w x H) as [Hl He]. unfold hdec_be, hbe. now rewrite be_dec_enc_small. Qed.

(* a w-byte field read back where it was written: u16be_at / u32be_at / u64be_at are the cases w = 2, 4, 8 *)
Lemma be_at_mid w pre x post a : hlen pre = a -> fits w x = true ->
  hdec_be (hslice (pre ++ hbe w x ++ post) a (a + Z.of_nat w)) = x.
Proof. intros Ha Hx. rewrite hslice_mid; [now apply hdec_be_hbe | assumption | rewrite hlen_hbe; lia]. Qed.

Lemma u32be_at_mid pre x post a : hlen pre = a -> fits 4 x = true -> u32be_at (pre ++ hbe 4 x ++ post) a = x.
Proof. exact (be_at_mid 4 pre x post a). Qed.

Lemma u16be_at_mid pre x post a : hlen pre = a -> fits 2 x = true -> u16be_at (pre ++ hbe 2 x ++ post) a = x.
Proof. exact (be_at_mid 2 pre x post a). Qed.

Lemma u32le_at_mid pre x post a : hlen pre = a -> fits 4 x = true -> u32le_at (pre ++ hle 4 x ++ post) a = x.
Proof. intros Ha Hx. unfold u32le_at. rewrite (hslice_mid pre (hle 4 x) post a (a + 4)); [now apply hdec_le_hle | assumption | rewrite hlen_hle; lia]. Qed.

Lemma hbyte_cons_mid pre (n : N) post a : hlen pre = a -> hbyte (pre ++ n :: post) a = Z.of_N n.
Proof.
  intros Ha. unfold hbyte. unfold hlen in Ha. assert (E : Z.to_nat a = length pre) by lia.
  rewrite E, app_nth2, Nat.sub_diag by lia. reflexivity.
Qed.

Lemma hbe1_eq x : fits 1 x = true -> hbe 1 x = [Z.to_N x].
Proof.
  rewrite fits_spec. intros H. unfold hbe, be_enc. cbn [le_enc rev app].
  f_equal. apply N.mod_small. apply N2Z.inj_lt. rewrite Z2N.id by lia. change (Z.of_N 256) with 256. cbn in H. lia.
Qed.

Lemma hbyte_mid pre x post a : hlen pre = a -> fits 1 x = true -> hbyte (pre ++ hbe 1 x ++ post) a = x.
Proof.
  intros Ha Hx. rewrite hbe1_eq by assumption. cbn [app]. rewrite hbyte_cons_mid by assumption.
  apply Z2N.id. apply fits_spec in Hx. lia.
Qed.

Lemma have_true l off n : off + n <= hlen l -> have l off n = true.
Proof. intros. unfold have. now apply Z.leb_le. Qed.

Lemma have_app_l x r off n : off + n <= hlen x -> have (x ++ r) off n = true.
Proof. intros. apply have_true. rewrite hlen_app. pose proof (hlen_nonneg r). lia. Qed.

Lemma hdr_tag t L p r : fits 1 t = true -> hbyte (hdr t L p ++ r) 0 = t.
Proof. intros F. unfold hdr. rewrite <- !app_assoc. apply (hbyte_mid [] t); [reflexivity | assumption]. Qed.
Lemma hdr_len t L p r : fits 2 L = true -> u16be_at (hdr t L p ++ r) 1 = L.
Proof. intros F. unfold hdr. rewrite <- !app_assoc. apply (u16be_at_mid (hbe 1 t)); [apply hlen_hbe | assumption]. Qed.
Lemma hdr_par t L p r : fits 1 p = true -> hbyte (hdr t L p ++ r) 3 = p.
Proof.
  intros F. unfold hdr. rewrite <- !app_assoc. rewrite (app_assoc (hbe 1 t)). apply hbyte_mid; [|assumption].
  now rewrite hlen_app, !hlen_hbe.
Qed.

(* what parse_command / SegDCD.parse / SegCSF.parse read of a header (header.py Header) before looking further *)
Lemma hdr_reads T L P body : fits 1 T = true -> fits 2 L = true -> fits 1 P = true ->
  have (hdr T L P ++ body) 0 1 = true /\ have (hdr T L P ++ body) 0 4 = true /\
  hbyte (hdr T L P ++ body) 0 = T /\ u16be_at (hdr T L P ++ body) 1 = L /\ hbyte (hdr T L P ++ body) 3 = P.
Proof.
  intros FT FL FP. rewrite !have_app_l by (rewrite hlen_hdr; lia). now rewrite hdr_tag, hdr_len, hdr_par.
Qed.

(* specification of SegXMCD's bytes: the XMCD header as the boot ROM reads it:
   size[7:0], type<<4 | size[11:8], interface<<4 | instance, 0xC0 *)
Definition xmcd_bytes (iface inst typ : Z) (cfg : list N) : list N :=
  let bs := 4 + hlen cfg in
  [Z.to_N (bs mod 256); Z.to_N (typ * 16 + bs / 256); Z.to_N (iface * 16 + inst); 192%N] ++ cfg.
Definition xmcd_wf (iface inst typ : Z) (cfg : list N) : Prop :=
  0 <= iface <= 1 /\ 0 <= inst <= 15 /\ 0 <= typ <= 1 /\ hlen cfg < 4092.

Lemma hbyte_0 (a : N) l : hbyte (a :: l) 0 = Z.of_N a. Proof. reflexivity. Qed.
Lemma hbyte_1 (a b : N) l : hbyte (a :: b :: l) 1 = Z.of_N b. Proof. reflexivity. Qed.
Lemma hbyte_2 (a b c : N) l : hbyte (a :: b :: c :: l) 2 = Z.of_N c. Proof. reflexivity. Qed.
Lemma hbyte_3 (a b c d : N) l : hbyte (a :: b :: c :: d :: l) 3 = Z.of_N d. Proof. reflexivity. Qed.

Lemma nibbles a b : 0 <= b < 16 -> hi4 (a * 16 + b) = a mod 16 /\ lo4 (a * 16 + b) = b.
Proof. intros H. unfold hi4, lo4. split; dlia. Qed.

Lemma size12 bs : 0 <= bs < 4096 -> 0 <= bs / 256 < 16 /\ 0 <= bs mod 256 < 256.
Proof. intros. dlia. Qed.

Lemma xmcd_hdr_parse_spec iface inst typ cfg rest : xmcd_wf iface inst typ cfg ->
  xmcd_hdr_parse (xmcd_bytes iface inst typ cfg ++ rest) = Ok (Some (iface, inst, typ, 4 + hlen cfg)).
Proof.
  intros (Hi & Hn & Ht & Hc). pose proof (hlen_nonneg cfg) as Hc0.
  unfold xmcd_hdr_parse, xmcd_bytes. set (bs := 4 + hlen cfg).
  rewrite <- app_assoc, have_app_l by (change (0 + 4 <= 4); lia). cbn [negb app].
  rewrite hbyte_3, hbyte_2, hbyte_1, hbyte_0.
  change (hi4 (Z.of_N 192)) with 12. change (lo4 (Z.of_N 192)) with 0. cbn [Z.eqb Pos.eqb negb].
  pose proof (size12 bs ltac:(unfold bs; lia)) as Hq.
  rewrite !Z2N.id by lia.
  destruct (nibbles iface inst ltac:(lia)) as [-> ->]. destruct (nibbles typ (bs / 256) (proj1 Hq)) as [-> ->].
  rewrite !Z.mod_small by lia. rewrite Z.mul_comm, <- Z.div_mod by lia.
  replace (iface <=? 1) with true by lia. replace (typ <=? 1) with true by lia. reflexivity.
Qed.

Lemma xmcd_load_spec iface inst typ cfg : xmcd_wf iface inst typ cfg ->
  xmcd_load (xmcd_bytes iface inst typ cfg) = Ok {| xm_if := iface; xm_inst := inst; xm_type := typ; xm_cfg := cfg |}.
Proof.
  intros W. unfold xmcd_load. rewrite <- (app_nil_r (xmcd_bytes iface inst typ cfg)) at 1.
  rewrite xmcd_hdr_parse_spec by assumption. cbn [bind]. unfold xmcd_bytes.
  rewrite hlen_app. change (hlen [_; _; _; _]) with 4. rewrite Z.eqb_refl. cbn [negb]. do 2 f_equal.
  apply hslice_end; [reflexivity | lia].
Qed.

Lemma xmcd_export_spec iface inst typ cfg : xmcd_wf iface inst typ cfg ->
  xmcd_export {| xm_if := iface; xm_inst := inst; xm_type := typ; xm_cfg := cfg |} = Ok (xmcd_bytes iface inst typ cfg).
Proof.
  intros (Hi & Hn & Ht & Hc). pose proof (hlen_nonneg cfg) as Hc0.
  unfold xmcd_export, xmcd_size, xmcd_bytes. cbn [xm_if xm_inst xm_type xm_cfg].
  set (bs := 4 + hlen cfg). pose proof (size12 bs ltac:(unfold bs; lia)) as Hq.
  unfold all_fit. cbn [forallb]. rewrite !fits1 by lia. cbn [andb]. now rewrite !hbe1_eq by (apply fits1; lia).
Qed.

Example xmcd_wf_nonvacuous : xmcd_wf 1 15 1 (repeat 7%N 60).
Proof. unfold xmcd_wf. cbn. lia. Qed.

Lemma ok_inj {A} (a b : A) : Ok a = Ok b -> a = b.
Proof. now inversion 1. Qed.

Lemma u32le_at_field l off x : hslice l off (off + 4) = hle 4 x -> fits 4 x = true -> u32le_at l off = x.
Proof. unfold u32le_at. intros ->. apply hdec_le_hle. Qed.

Lemma ivt_parse_export i b rest : ivt_export i = Ok b -> iv_bdt i = iv_self i + 32 ->
  ivt_parse (b ++ rest) = Ok i /\ hlen b = 32.
Proof.
  destruct i as [v a d bd s cs]. unfold ivt_export, ivt_words. cbn [iv_ver iv_app iv_dcd iv_bdt iv_self iv_csf].
  intros H Hb.
  destruct (ivt_valid _ 0) eqn:Ev; cbn [negb] in H; [|discriminate].
  destruct (all_fit 4 [a; 0; d; bd; s; cs; 0] && fits 1 v) eqn:Ef; cbn [negb] in H; [|discriminate].
  apply ok_inj in H; subst b. cbn [all_fit forallb] in Ef. rewrite !andb_true_iff in Ef.
  destruct Ef as ((Fa & _ & Fd & Fb & Fs & Fc & _) & Fv).
  assert (L : hlen (hdr 209 32 v ++ concat (map (hle 4) [a; 0; d; bd; s; cs; 0])) = 32) by reflexivity.
  split; [|exact L]. unfold ivt_parse.
  (* the header fields by the TLV lemmas, each word by its position in the literal byte list *)
  rewrite (u32le_at_field _ 4 a), (u32le_at_field _ 12 d), (u32le_at_field _ 16 bd), (u32le_at_field _ 20 s),
    (u32le_at_field _ 24 cs) by (reflexivity || assumption).
  rewrite !have_app_l by now rewrite L. rewrite <- app_assoc.
  rewrite hdr_tag, hdr_len, hdr_par by (reflexivity || assumption).
  change (209 =? 209) with true. change (32 <? 4) with false. cbn [negb iv_bdt iv_self].
  (* lia without the boolean hypotheses, on which it would split cases *)
  replace (bd - s - 32) with 0 by (clear - Hb; lia). now rewrite Ev.
Qed.

Lemma bdt_parse_export st ln b rest : bdt_export st ln 0 = Ok b ->
  bdt_parse (b ++ rest) = Ok (st, ln, 0) /\ hlen b = 12.
Proof.
  unfold bdt_export. intros H. destruct (all_fit 4 [st; ln; 0]) eqn:Ef; [|discriminate]. apply ok_inj in H; subst b.
  cbn [all_fit forallb] in Ef. rewrite !andb_true_iff in Ef. destruct Ef as (Fs & Fl & _).
  split; [|reflexivity]. unfold bdt_parse.
  rewrite have_app_l by (change (0 + 12 <= 12); lia). cbn [negb].
  rewrite (u32le_at_field _ 8 0), (u32le_at_field _ 0 st), (u32le_at_field _ 4 ln) by (reflexivity || assumption).
  reflexivity.
Qed.

(* a DCD object is stable when parsing its own export gives it back (proved for specification-encoded DCDs: dcd_roundtrip) *)
Definition dcd_stable (x : dcd) : Prop := forall rest, dcd_parse (dcd_export x ++ rest) = Ok x.

(* It is so whenever each command object parses back from its own bytes, reports their number as its size, and has a DCD tag:
   the loop of SegDCD.parse then walks the export command by command. *)
Definition cmd_ok (c : pcmd) : Prop :=
  (forall rest, cmd_parse (pc_bytes c ++ rest) = Ok c) /\ pc_size c = hlen (pc_bytes c) /\ 4 <= pc_size c /\
  existsb (Z.eqb (pc_tag c)) dcd_tags = true.
Definition cmds_len (cs : list pcmd) : Z := fold_right (fun c a => pc_size c + a) 0 cs.

Lemma cmds_ok_facts cs : Forall cmd_ok cs ->
  hlen (concat (map pc_bytes cs)) = cmds_len cs /\ 4 * hlen cs <= cmds_len cs /\
  forallb (fun c => existsb (Z.eqb (pc_tag c)) dcd_tags) cs = true.
Proof.
  induction 1 as [|c t (_ & S & G & T) _ (I1 & I2 & I3)]; [now repeat split|].
  cbn [map concat cmds_len fold_right forallb]. fold (cmds_len t). rewrite hlen_app, hlen_cons, I1, I3, T, <- S. repeat split; lia.
Qed.

Lemma cmds_parse_ok cs : forall fuel pre post idx, Forall cmd_ok cs -> hlen pre = idx -> (length cs < fuel)%nat ->
  cmds_parse fuel (pre ++ concat (map pc_bytes cs) ++ post) idx (idx + cmds_len cs) = Ok cs.
Proof.
  induction cs as [|c t IH]; intros fuel pre post idx HF Hp Hf; (destruct fuel as [|fuel]; [cbn in Hf; lia|]).
  - cbn [cmds_parse cmds_len fold_right]. now replace (idx <? idx + 0) with false by lia.
  - apply Forall_cons_iff in HF as [(Pc & Sc & Gc & _) HF']. destruct (cmds_ok_facts t HF') as (_ & Gt & _). pose proof (hlen_nonneg t).
    cbn [cmds_parse cmds_len fold_right map concat]. fold (cmds_len t).
    replace (idx <? idx + (pc_size c + cmds_len t)) with true by lia.
    rewrite <- app_assoc, (hskip_app pre), Pc by assumption. cbn [bind].
    rewrite (app_assoc pre), Z.add_assoc, IH; [reflexivity | assumption | rewrite hlen_app; lia | cbn [length] in Hf; lia].
Qed.

Theorem dcd_stable_of_cmds x : fits 1 (dc_par x) = true -> Forall cmd_ok (dc_cmds x) -> dcd_size x < 65536 -> dcd_stable x.
Proof.
  intros Fv HF HL rest. destruct (cmds_ok_facts _ HF) as (E & G & T). pose proof (hlen_nonneg (dc_cmds x)) as Hn.
  change (dcd_size x) with (4 + cmds_len (dc_cmds x)) in HL. unfold dcd_export, dcd_parse. rewrite <- app_assoc.
  change (dcd_size x) with (4 + cmds_len (dc_cmds x)).
  destruct (hdr_reads 210 (4 + cmds_len (dc_cmds x)) (dc_par x) (concat (map pc_bytes (dc_cmds x)) ++ rest)) as (_ & -> & -> & -> & ->);
    [reflexivity | apply fits2; lia | assumption |].
  cbn [negb Z.eqb Pos.eqb]. replace (4 + cmds_len (dc_cmds x) <? 4) with false by lia.
  rewrite (cmds_parse_ok _ _ (hdr 210 (4 + cmds_len (dc_cmds x)) (dc_par x)) rest 4 HF (hlen_hdr _ _ _)).
  - cbn [bind]. rewrite T. now destruct x.
  - assert (Hl : hlen (hdr 210 (4 + cmds_len (dc_cmds x)) (dc_par x) ++ concat (map pc_bytes (dc_cmds x)) ++ rest)
                 = 4 + cmds_len (dc_cmds x) + hlen rest) by (rewrite !hlen_app, hlen_hdr, E; lia).
    pose proof (hlen_nonneg rest). unfold hlen in *. cbn [length]. lia.
Qed.

Lemma hlen_blocks_bytes bl : hlen (blocks_bytes bl) = 8 * hlen bl.
Proof.
  induction bl as [|b t IH]; [reflexivity|]. unfold blocks_bytes in *. cbn [map concat].
  rewrite !hlen_app, !hlen_hbe, IH, hlen_cons. lia.
Qed.

Lemma hlen_cmd_export c loc : hlen (cmd_export c loc) = cmd_size c.
Proof.
  destruct c; cbn [cmd_export cmd_size]; rewrite ?hlen_app, ?hlen_hdr, ?hlen_hbe, ?hlen_blocks_bytes, ?hlen_cons, ?hlen_nil; try lia.
  destruct (need_uid eng feat); rewrite ?hlen_hbe, ?hlen_nil; lia.
Qed.

Lemma cmd_size_pos c : 0 <= cmd_size c.
Proof. destruct c; cbn [cmd_size]; try lia. pose proof (hlen_nonneg blocks); lia. destruct (need_uid eng feat); lia. Qed.

Lemma csf_hlen_ge l : 4 <= csf_hlen l.
Proof. unfold csf_hlen. induction l as [|c t IH]; cbn [fold_right]; [lia|]. pose proof (cmd_size_pos c). lia. Qed.

Lemma hlen_cmds_export l : forall offs, length offs = length l ->
  hlen (concat (map (fun p => cmd_export (fst p) (snd p)) (combine l offs))) = fold_right (fun c a => cmd_size c + a) 0 l.
Proof.
  induction l as [|c t IH]; intros [|o offs] H; cbn in H; try discriminate; [reflexivity|].
  cbn [combine map concat fold_right fst snd]. rewrite hlen_app, hlen_cmd_export, IH by lia. reflexivity.
Qed.

Lemma csf_offsets_length l : forall cur, length (csf_offsets cur l) = length l.
Proof.
  induction l as [|c t IH]; intros cur; [reflexivity|]. cbn [csf_offsets].
  destruct (needs_ref c); [destruct (cmd_dat c)|]; cbn [length]; now rewrite IH.
Qed.

Lemma hlen_csf_base ver l : hlen (csf_base ver l) = csf_hlen l.
Proof.
  unfold csf_base, csf_hlen. rewrite hlen_app, hlen_hdr, hlen_cmds_export by apply csf_offsets_length. reflexivity.
Qed.

(* SegCSF.export only appends to the base: the cmd-data sections follow header + commands *)
Lemma csf_data_ok l : forall acc r, csf_data acc l = Ok r ->
  (exists t, r = acc ++ t) /\
  Forall (fun p => needs_ref (fst p) = true -> forall d, cmd_dat (fst p) = Some d -> hslice r (snd p) (snd p + hlen d) = d) l.
Proof.
  induction l as [|[c off] t IH]; intros acc r H; cbn [csf_data] in H.
  - apply ok_inj in H. subst r. split; [exists []; now rewrite app_nil_r | constructor].
  - destruct (needs_ref c) eqn:En.
    + destruct (cmd_dat c) as [d|] eqn:Ed.
      * destruct (off <? hlen acc) eqn:Eo; [discriminate|].
        destruct (IH _ _ H) as [(t' & Hr) HF]. split.
        -- exists (hzeros (off - hlen acc) ++ d ++ t'). rewrite Hr. now rewrite <- !app_assoc.
        -- constructor; [|exact HF]. cbn [fst snd]. intros _ d' Hd'. assert (d' = d) by congruence. subst d'.
           rewrite Hr. rewrite <- !app_assoc. rewrite (app_assoc acc). apply hslice_mid; [|lia].
           pose proof (hlen_nonneg acc). rewrite hlen_app, hlen_hzeros by lia. lia.
      * destruct (IH _ _ H) as [Hr HF]. split; [exact Hr|]. constructor; [|exact HF].
        intros _ d Hd. cbn [fst] in Hd. congruence.
    + destruct (IH _ _ H) as [Hr HF]. split; [exact Hr|]. constructor; [|exact HF]. intros Hn'. cbn [fst] in Hn'. congruence.
Qed.

(* Install Key and Authenticate Data carry the cmd-data location in the same place: after the header and four one-byte fields *)
Lemma u32be_loc c loc : needs_ref c = true -> fits 4 loc = true -> u32be_at (cmd_export c loc) 8 = loc.
Proof.
  intros Hn F.
  assert (E : forall t L p a b c d post,
             u32be_at (hdr t L p ++ hbe 1 a ++ hbe 1 b ++ hbe 1 c ++ hbe 1 d ++ hbe 4 loc ++ post) 8 = loc).
  { intros. rewrite !app_assoc, <- (app_assoc _ (hbe 4 loc)). apply u32be_at_mid; [|assumption].
    now rewrite !hlen_app, hlen_hdr, !hlen_hbe. }
  destruct c; try discriminate; cbn [cmd_export]; [rewrite <- (app_nil_r (hbe 4 loc))|]; apply E.
Qed.

(* every command that references cmd-data carries the offset at which SegCSF.export put exactly that data *)
Theorem csf_offsets_ok ver l raw : csf_export_raw ver l = Ok raw ->
  (exists t, raw = csf_base ver l ++ t) /\ fits 2 (csf_hlen l) = true /\
  Forall (fun p => needs_ref (fst p) = true -> forall d, cmd_dat (fst p) = Some d ->
                   u32be_at (cmd_export (fst p) (snd p)) 8 = snd p /\
                   hslice raw (snd p) (snd p + hlen d) = d)
         (combine l (csf_offsets (csf_hlen l) l)).
Proof.
  unfold csf_export_raw. intros H.
  destruct (forallb _ (combine l (csf_offsets (csf_hlen l) l))) eqn:Ep; cbn [negb] in H; [|discriminate].
  destruct (fits 2 (csf_hlen l)) eqn:E2; cbn [negb] in H; [|discriminate].
  destruct (csf_data_ok _ _ _ H) as [Hr HF]. split; [exact Hr|]. split; [reflexivity|].
  rewrite forallb_forall in Ep. rewrite Forall_forall in *. intros [c off] Hin Hn d Hd. cbn [fst snd] in *.
  split; [|exact (HF _ Hin Hn d Hd)]. apply u32be_loc; [exact Hn|].
  specialize (Ep _ Hin). cbn [fst snd] in Ep. destruct c; try discriminate; cbn [cmd_packs] in Ep; [exact Ep|].
  apply andb_prop in Ep as [Ep _]. now apply andb_prop in Ep.
Qed.

Lemma csf_export_inv ver l csf : csf_export ver l = Ok csf -> exists raw, csf_export_raw ver l = Ok raw /\ csf = pad_to 8192 raw.
Proof.
  unfold csf_export. destruct (csf_export_raw ver l) as [raw|]; cbn [res_map]; [|discriminate].
  intros H. apply ok_inj in H. now exists raw.
Qed.

(* the bytes signed by Authenticate CSF are exactly the first <header length> bytes of the exported CSF *)
Lemma csf_signed_range ver l csf : csf_export ver l = Ok csf ->
  hslice csf 0 (hlen (csf_base ver l)) = csf_base ver l /\ hbyte csf 0 = 212 /\ u16be_at csf 1 = hlen (csf_base ver l).
Proof.
  intros H. apply csf_export_inv in H as (raw & Er & ->).
  destruct (csf_offsets_ok ver l raw Er) as ((t & ->) & F2 & _). unfold pad_to. rewrite <- app_assoc.
  split; [now apply hslice_pre|]. rewrite hlen_csf_base. unfold csf_base. rewrite <- !app_assoc.
  split; [now apply hdr_tag | now apply hdr_len].
Qed.

Lemma csf_export_pos ver l csf : csf_export ver l = Ok csf -> 0 < hlen csf.
Proof.
  intros H. apply csf_export_inv in H as (raw & Er & ->). destruct (csf_offsets_ok ver l raw Er) as [(t & ->) _].
  unfold pad_to. rewrite !hlen_app, hlen_csf_base. pose proof (csf_hlen_ge l). pose proof (hlen_nonneg t).
  match goal with |- context[hlen (hzeros ?z)] => pose proof (hlen_nonneg (hzeros z)) end. lia.
Qed.

(* BinaryImage.export (place) writes the segments, sorted by offset, into a zero buffer. For segments at increasing
   offsets that do not overlap (fill_chain) the result is their concatenation with zero gaps: fill_layout / write_layout of
   Lib/BytesProofs.v. *)
Lemma hzeros_add a b : 0 <= a -> 0 <= b -> hzeros (a + b) = hzeros a ++ hzeros b.
Proof. intros. unfold hzeros. now rewrite Z2Nat.inj_add, repeat_app. Qed.

Lemma ins_seg_app s l1 l2 : Forall (fun c => fst c <= fst s) l1 -> ins_seg s (l1 ++ l2) = l1 ++ ins_seg s l2.
Proof.
  induction 1 as [|c t Hc _ IH]; [reflexivity|]. cbn [app ins_seg]. replace (fst s <? fst c) with false by lia. now rewrite IH.
Qed.

Lemma sort_segs_snoc l s : sort_segs (l ++ [s]) = ins_seg s (sort_segs l).
Proof. unfold sort_segs. now rewrite fold_left_app. Qed.

Lemma chain_before (l1 : list seg) : forall pos o d l2, fill_chain pos (l1 ++ (o, d) :: l2) -> Forall (fun c : seg => fst c <= o) l1.
Proof.
  induction l1 as [|[o1 d1] t IH]; intros pos o d l2 H; constructor; destruct H as [_ H]; [|exact (IH _ _ _ _ H)].
  apply fill_chain_app in H as [Ht [Ho _]]. apply fill_end_ge in Ht. pose proof (zlen_nonneg d1). cbn [fst]. lia.
Qed.

Lemma sort_segs_chain (l : list seg) : forall pos, fill_chain pos l -> sort_segs l = l.
Proof.
  induction l as [|[o d] l IH] using rev_ind; intros pos H; [reflexivity|].
  rewrite sort_segs_snoc, (IH pos) by (apply fill_chain_app in H; tauto).
  rewrite <- (app_nil_r l) at 1. now rewrite ins_seg_app by exact (chain_before _ _ _ _ _ H).
Qed.

Lemma segs_len_chain (l : list seg) : forall pos, 0 <= pos -> fill_chain pos l -> Z.max pos (segs_len l) = fill_end pos l /\ 0 <= segs_len l.
Proof.
  induction l as [|[o d] t IH]; intros pos Hp H; cbn [segs_len fold_right fill_end fst snd]; [lia|].
  destruct H as [H1 H2]. pose proof (zlen_nonneg d). fold (segs_len t). change (hlen d) with (zlen d).
  destruct (IH (o + zlen d)) as [<- ?]; [lia | assumption | lia].
Qed.

Lemma place_chain (l : list seg) : fill_chain 0 l -> place l = fill_layout 0%N 0 l.
Proof.
  intros H. unfold place, hzeros, write_seg, seg. rewrite (sort_segs_chain l 0 H).
  pose proof (segs_len_chain l 0 (Z.le_refl 0) H) as [E E0]. pose proof (fill_end_ge l 0 H).
  rewrite (write_layout_0 0%N l (segs_len l) H) by lia. replace (segs_len l - fill_end 0 l) with 0 by lia. apply app_nil_r.
Qed.

(* the list HabContainer hands over has the CSF before the application: sorting exchanges the last two *)
Lemma sort_segs_swap_last (pre : list seg) (a b : seg) pos : fill_chain pos (pre ++ [a; b]) -> fst a < fst b ->
  sort_segs (pre ++ [b; a]) = pre ++ [a; b].
Proof.
  destruct a as [oa da], b as [ob db]. cbn [fst]. intros H Hlt.
  change (pre ++ [(ob, db); (oa, da)]) with (pre ++ [(ob, db)] ++ [(oa, da)]). rewrite app_assoc, sort_segs_snoc.
  rewrite (sort_segs_chain _ pos).
  - rewrite ins_seg_app by exact (chain_before _ _ _ _ _ H). cbn [ins_seg fst]. now replace (oa <? ob) with true by lia.
  - apply fill_chain_app in H as (H1 & H2 & _). apply fill_chain_app. cbn [fill_chain]. split; [exact H1 | lia].
Qed.

Lemma place_swap_last (pre : list seg) (a b : seg) : fill_chain 0 (pre ++ [a; b]) -> fst a < fst b -> place (pre ++ [b; a]) = place (pre ++ [a; b]).
Proof.
  intros H Hlt. unfold place. rewrite (sort_segs_swap_last pre a b 0 H Hlt), (sort_segs_chain _ 0 H).
  do 2 f_equal. unfold segs_len. rewrite !fold_right_app. f_equal. cbn [fold_right]. lia.
Qed.

(* the segments every image begins with (IVT, boot data, the optional object at 0x40), followed by the next piece *)
Definition head_segs (i b : list N) (dxo : option (list N)) : list seg := [(0, i); (32, b)] ++ opt_seg 64 dxo.

Lemma head_segs_layout i b dxo o d (t : list seg) :
  hlen i = 32 -> hlen b = 12 -> 64 + hlen (of_opt dxo) <= o -> fill_chain (o + hlen d) t ->
  fill_chain 0 (head_segs i b dxo ++ (o, d) :: t) /\
  fill_layout 0%N 0 (head_segs i b dxo ++ (o, d) :: t)
  = i ++ b ++ hzeros 20 ++ of_opt dxo ++ hzeros (o - 64 - hlen (of_opt dxo)) ++ d ++ fill_layout 0%N (o + hlen d) t.
Proof.
  intros Hi Hb Ho Ht. unfold head_segs. cbn [app fill_chain fill_layout]. change (@zlen) with (@hlen). rewrite Hi, Hb.
  change (repeat 0%N (Z.to_nat (0 - 0))) with (@nil N). change (repeat 0%N (Z.to_nat (32 - (0 + 32)))) with (@nil N).
  change (32 + 12) with 44. cbn [app].
  destruct dxo as [dx|]; cbn [opt_seg of_opt app fill_chain fill_layout] in *; change (@zlen) with (@hlen);
    change (repeat 0%N (Z.to_nat ?z)) with (hzeros z).
  - split; [repeat split; first [assumption | lia]|]. change (64 - 44) with 20. now replace (o - (64 + hlen dx)) with (o - 64 - hlen dx) by lia.
  - change (hlen (@nil N)) with 0 in *. split; [repeat split; first [assumption | lia]|].
    replace (o - 44) with (20 + (o - 64 - 0)) by lia. now rewrite hzeros_add, <- app_assoc by lia.
Qed.

Lemma bind_ok {A B} (r : res A) (f : A -> res B) b : bind r f = Ok b -> exists a, r = Ok a /\ f a = Ok b.
Proof. destruct r; cbn; [eauto | discriminate]. Qed.

Lemma hab_pre_inv c q : hab_pre c = Ok q ->
  in_list (h_flags c) [0; 8; 12] = true /\ 0 <= h_ivt_off c <= h_ils c /\ 0 <= h_start c /\
  (match h_dcd c with None => q_dcd q = None | Some d => exists x, dcd_parse d = Ok x /\ q_dcd q = Some x end) /\
  (match h_xmcd c with None => q_xm q = None /\ q_xm_b q = None
                     | Some d => exists x xb, xmcd_load d = Ok x /\ q_xm q = Some x /\ xmcd_export x = Ok xb /\ q_xm_b q = Some xb end) /\
  ivt_export (c_ivt c) = Ok (q_ivt_b q) /\ bdt_export (h_start c) (c_bdt_len c) 0 = Ok (q_bdt_b q) /\
  (c_auth c = false -> q_cmds0 q = []).
Proof.
  unfold hab_pre. intros H.
  destruct (in_list (h_flags c) [0; 8; 12]) eqn:Ef; [|discriminate]. cbn [negb] in H.
  destruct ((h_ivt_off c <? 0) || (h_ils c <? h_ivt_off c) || (h_start c <? 0)) eqn:Eg; [discriminate|].
  apply bind_ok in H as (dcd & Hd & H). apply bind_ok in H as (xm & Hx & H). apply bind_ok in H as (cmds0 & Hc & H).
  apply bind_ok in H as (ivt_b & Hi & H). apply bind_ok in H as (bdt_b & Hb & H). apply bind_ok in H as (xm_b & Hxb & H).
  inversion H; subst q; clear H. cbn [q_dcd q_xm q_cmds0 q_ivt_b q_bdt_b q_xm_b].
  repeat split; try lia; try assumption.
  - destruct (h_dcd c); [|now inversion Hd]. destruct (dcd_parse l) eqn:E; cbn in Hd; [|discriminate]. inversion Hd. eauto.
  - destruct (h_xmcd c).
    + destruct (xmcd_load l) eqn:E; cbn in Hx; [|discriminate]. inversion Hx; subst xm.
      destruct (xmcd_export a) eqn:E2; cbn in Hxb; [|discriminate]. inversion Hxb. eauto 6.
    + inversion Hx; subst xm. inversion Hxb. split; reflexivity.
  - intros Ha. rewrite Ha in Hc. now inversion Hc.
Qed.

Lemma xmcd_export_len x xb : xmcd_export x = Ok xb -> hlen xb = xmcd_size x.
Proof.
  unfold xmcd_export. destruct (all_fit 1 _); [|discriminate]. intros H. apply ok_inj in H. subst xb.
  rewrite !hlen_app, !hlen_hbe. change (hlen [192%N]) with 1. unfold xmcd_size. lia.
Qed.

Lemma pre_xm c q : hab_pre c = Ok q ->
  match q_xm q with None => q_xm_b q = None | Some x => exists xb, q_xm_b q = Some xb /\ xmcd_export x = Ok xb end.
Proof.
  intros Hq. apply hab_pre_inv in Hq as (_ & _ & _ & _ & Hx & _). destruct (h_xmcd c).
  - destruct Hx as (x & xb & _ & -> & E & ->). now exists xb.
  - destruct Hx as [-> ->]. reflexivity.
Qed.

Lemma pre_ivt_bdt c q : hab_pre c = Ok q ->
  (forall rest, ivt_parse (q_ivt_b q ++ rest) = Ok (c_ivt c)) /\ (forall rest, bdt_parse (q_bdt_b q ++ rest) = Ok (h_start c, c_bdt_len c, 0)).
Proof.
  intros Hq. apply hab_pre_inv in Hq as (_ & _ & _ & _ & _ & Hi & Hb & _).
  split; intros rest; [exact (proj1 (ivt_parse_export _ _ rest Hi eq_refl)) | exact (proj1 (bdt_parse_export _ _ _ rest Hb))].
Qed.

Lemma pre_lens c q : hab_pre c = Ok q -> hlen (q_ivt_b q) = 32 /\ hlen (q_bdt_b q) = 12 /\ (q_xm q = None -> q_xm_b q = None).
Proof.
  intros Hq. pose proof (pre_xm c q Hq) as Hx. apply hab_pre_inv in Hq as (_ & _ & _ & _ & _ & Hi & Hb & _).
  split; [exact (proj2 (ivt_parse_export _ _ [] Hi eq_refl))|]. split; [exact (proj2 (bdt_parse_export _ _ _ [] Hb))|].
  intros E. now rewrite E in Hx.
Qed.

Lemma hab_update_inv c q cmds r : hab_update c q cmds = Ok r ->
  exists csf0 cmds1 app_fin eb nonce mac cmds2 cmds3 csf_b,
    csf_export (h_ver c) cmds = Ok csf0 /\
    (if c_enc c then hab_encrypt c cmds (padded_image c q csf0) = Ok (cmds1, app_fin, nonce, mac) /\ eb = enc_blocks c
     else cmds1 = cmds /\ app_fin = c_app_bin c /\ eb = [] /\ nonce = [] /\ mac = []) /\
    upd_auth 1 (set_blocks (signed_blocks c q) (Some (sigimg (h_ver c) (h_sig_data c)))) cmds1 = Some cmds2 /\
    existsb (fun b => hlen (padded_image c q csf0) <? fst b - h_start c + snd b) (signed_blocks c q) = false /\
    upd_auth 0 (set_blocks [] (Some (sigimg (h_ver c) (h_sig_csf c)))) cmds2 = Some cmds3 /\
    csf_export (h_ver c) cmds3 = Ok csf_b /\
    segs_ok [] (all_segs c q csf0 (c_app_bin c)) = true /\
    segs_ok [] (all_segs c q csf_b app_fin) = true /\
    r = (cmds3, mk_built c q (place (all_segs c q csf_b app_fin)) (signed_blocks c q) eb
                 (tbs_of c (padded_image c q csf0) (signed_blocks c q)) (csf_base (h_ver c) cmds3) csf_b app_fin nonce mac).
Proof.
  unfold hab_update. intros H. apply bind_ok in H as (csf0 & H0 & H).
  destruct (segs_ok [] (all_segs c q csf0 (c_app_bin c))) eqn:Es0; cbn [negb] in H; [|discriminate].
  apply bind_ok in H as (e & He & H).
  destruct e as [[[[cmds1 app_fin] eb] nonce] mac].
  destruct (upd_auth 1 _ cmds1) as [cmds2|] eqn:E2; [|discriminate].
  destruct (existsb _ (signed_blocks c q)) eqn:Ex; [discriminate|].
  destruct (upd_auth 0 _ cmds2) as [cmds3|] eqn:E3; [|discriminate].
  apply bind_ok in H as (csf_b & Hc & H).
  destruct (segs_ok [] (all_segs c q csf_b app_fin)) eqn:Es1; cbn [negb] in H; [|discriminate].
  inversion H; subst r; clear H.
  exists csf0, cmds1, app_fin, eb, nonce, mac, cmds2, cmds3, csf_b.
  repeat split; try assumption.
  destruct (c_enc c).
  - destruct (hab_encrypt c cmds (padded_image c q csf0)) as [[[[a1 a2] a3] a4]|] eqn:Ee; cbn in He; [|discriminate].
    inversion He; subst. split; reflexivity.
  - inversion He; subst. repeat split; reflexivity.
Qed.

Lemma plain_build c b q : hab_build c = Ok b -> hab_pre c = Ok q -> c_auth c = false ->
  segs_ok [] (base_segs q ++ [(c_app_off c, c_app_bin c)]) = true /\
  b = mk_built c q (place (base_segs q ++ [(c_app_off c, c_app_bin c)])) [] [] [] [] [] (c_app_bin c) [] [].
Proof.
  unfold hab_build. intros Hb Hq Ha. rewrite Hq, Ha in Hb. cbn [bind negb] in Hb.
  destruct (segs_ok [] _); cbn [negb] in Hb; [|discriminate]. apply ok_inj in Hb. now split.
Qed.

Lemma auth_build_update c b q : hab_build c = Ok b -> hab_pre c = Ok q -> c_auth c = true ->
  exists cmds, hab_update c q (q_cmds0 q) = Ok (cmds, b).
Proof.
  unfold hab_build, hab_finish. intros Hb Hq Ha. rewrite Hq, Ha in Hb. cbn [bind negb] in Hb.
  destruct (hab_update c q (q_cmds0 q)) as [[cmds b1]|]; [|discriminate]. apply ok_inj in Hb. cbn [snd] in Hb. subst b1. now exists cmds.
Qed.

(* what the fields of an authenticated build are; csf0 is the CSF exported before signing, cmds3 the final command list *)
Lemma auth_build_facts c b q : hab_build c = Ok b -> hab_pre c = Ok q -> c_auth c = true -> exists csf0 cmds3,
  csf_export (h_ver c) (q_cmds0 q) = Ok csf0 /\ csf_export (h_ver c) cmds3 = Ok (b_csf b) /\
  b_tbs_csf b = csf_base (h_ver c) cmds3 /\
  b_image b = place (all_segs c q (b_csf b) (b_app b)) /\ b_signed b = signed_blocks c q /\
  b_enc b = (if c_enc c then enc_blocks c else []) /\
  b_tbs_data b = tbs_of c (padded_image c q csf0) (signed_blocks c q) /\
  segs_ok [] (all_segs c q csf0 (c_app_bin c)) = true /\
  (if c_enc c then exists cmds1, hab_encrypt c (q_cmds0 q) (padded_image c q csf0) = Ok (cmds1, b_app b, b_nonce b, b_mac b)
   else b_app b = c_app_bin c).
Proof.
  intros Hb Hq Ha. destruct (auth_build_update c b q Hb Hq Ha) as (cmds & Hu).
  apply hab_update_inv in Hu as (csf0 & cmds1 & app_fin & eb & nonce & mac & cmds2 & cmds3 & csf_b & H0 & H1 & _ & _ & _ & H5 & H6 & _ & Hr).
  injection Hr as -> ->. exists csf0, cmds3. cbn [mk_built b_csf b_tbs_csf b_image b_app b_signed b_enc b_tbs_data b_nonce b_mac].
  destruct (c_enc c); [destruct H1 as [He ->] | destruct H1 as (-> & -> & -> & -> & ->)]; repeat split; eauto.
Qed.

Lemma halign_ge n a : 0 < a -> 0 <= n -> n <= halign n a < n + a.
Proof. intros. unfold halign. dlia. Qed.

Lemma hlen_pad_to a l : 0 < a -> hlen (pad_to a l) = halign (hlen l) a.
Proof.
  intros Ha. unfold pad_to. pose proof (hlen_nonneg l). pose proof (halign_ge (hlen l) a Ha H).
  rewrite hlen_app, hlen_hzeros by lia. lia.
Qed.

Lemma csf_after_app c : 0 <= h_ivt_off c <= h_ils c -> c_app_off c < c_csf_off c.
Proof.
  intros H. unfold c_csf_off, c_app_off, align_off. pose proof (hlen_nonneg (h_app c)) as Hn. dlia.
Qed.

Lemma app_bin_pos c : 0 < hlen (h_app c) -> 0 < hlen (c_app_bin c).
Proof.
  intros H. unfold c_app_bin. destruct (c_auth c); [|assumption]. rewrite hlen_pad_to by lia.
  pose proof (halign_ge (hlen (h_app c)) 16). lia.
Qed.

(* DCD and XMCD bytes at IVT+0x40 (at most one of them under layout_full) *)
Definition q_dx (q : pre) : option (list N) := match q_dcd_b q with Some d => Some d | None => q_xm_b q end.

Definition layout_full (c : hcfg) (q : pre) : Prop :=
  (q_dcd q = None \/ q_xm q = None) /\
  64 + hlen (of_opt (q_dx q)) <= c_app_off c /\ 68 <= c_app_off c /\
  (c_auth c = true -> c_app_off c + hlen (c_app_bin c) <= c_csf_off c /\ c_app_off c < c_csf_off c) /\
  (forall x, q_dcd q = Some x -> hi4 (dc_par x) <> 12 /\ fits 1 (dc_par x) = true /\ fits 2 (dcd_size x) = true /\ dcd_stable x) /\
  (forall x, q_xm q = Some x -> xmcd_wf (xm_if x) (xm_inst x) (xm_type x) (xm_cfg x)).

(* C07 layout hypotheses: the application is non-empty and starts at or after IVT+0x44 (so the XMCD probe at 0x40 reads
   padding), the DCD/XMCD objects are well formed. That DCD, XMCD, application and CSF do not collide is not assumed:
   a successful build implies it (build_geom). *)
Definition layout_wf (c : hcfg) (q : pre) : Prop :=
  68 <= c_app_off c /\ 0 < hlen (h_app c) /\
  (forall x, q_dcd q = Some x -> hi4 (dc_par x) <> 12 /\ fits 1 (dc_par x) = true /\ fits 2 (dcd_size x) = true /\ dcd_stable x) /\
  (forall x, q_xm q = Some x -> xmcd_wf (xm_if x) (xm_inst x) (xm_type x) (xm_cfg x)).

Lemma hlen_dcd_export x : 4 <= hlen (dcd_export x).
Proof. unfold dcd_export. rewrite hlen_app, hlen_hdr. pose proof (hlen_nonneg (concat (map pc_bytes (dc_cmds x)))). lia. Qed.

(* HabContainer.image_info checks each segment against the ranges of those before it *)
Definition seg_rng (s : seg) : Z * Z := (fst s, fst s + hlen (snd s)).

Lemma segs_ok_app l1 : forall occ l2, segs_ok occ (l1 ++ l2) = segs_ok occ l1 && segs_ok (occ ++ map seg_rng l1) l2.
Proof.
  induction l1 as [|s t IH]; intros occ l2; cbn [app segs_ok map]; [now rewrite app_nil_r|].
  now rewrite IH, <- app_assoc, andb_assoc.
Qed.

Lemma segs_ok_one occ o d : segs_ok occ [(o, d)] = true -> 0 < hlen d -> ovl_any occ o (o + hlen d) = false.
Proof. cbn [segs_ok fst snd]. intros H Hd. destruct (ovl_any occ o (o + hlen d)); [|reflexivity]. exfalso. lia. Qed.

Lemma ovl_opt off x o e : ovl_any (map seg_rng (opt_seg off x)) o e = false -> forall d, x = Some d -> e <= off \/ off + hlen d <= o.
Proof. intros H d ->. cbn in H. lia. Qed.

Lemma segs_ok_geom ivt_b bdt_b dcdo xmo csfo ap app_off csf_off :
  hlen ivt_b = 32 -> hlen bdt_b = 12 -> 0 < hlen ap -> 68 <= app_off ->
  (forall d, dcdo = Some d -> 0 < hlen d) -> (forall d, xmo = Some d -> 0 < hlen d) ->
  (forall d, csfo = Some d -> 0 < hlen d /\ app_off < csf_off) ->
  segs_ok [] ([(0, ivt_b); (32, bdt_b)] ++ opt_seg 64 dcdo ++ opt_seg 64 xmo ++ opt_seg csf_off csfo ++ [(app_off, ap)]) = true ->
  (dcdo = None \/ xmo = None) /\ 64 + hlen (of_opt dcdo) + hlen (of_opt xmo) <= app_off /\
  (forall d, csfo = Some d -> app_off + hlen ap <= csf_off).
Proof.
  intros Hi Hb Ha H68 Hd Hx Hc H. rewrite !segs_ok_app, !andb_true_iff in H. destruct H as (_ & _ & HX & _ & HA).
  (* the application, checked last, overlaps none of the optional segments before it *)
  apply segs_ok_one in HA; [|exact Ha]. unfold ovl_any in HA. rewrite !existsb_app, !orb_false_iff in HA.
  destruct HA as (((_ & AD) & AX) & AC).
  pose proof (ovl_opt _ _ _ _ AD) as PD. pose proof (ovl_opt _ _ _ _ AX) as PX. pose proof (ovl_opt _ _ _ _ AC) as PC.
  (* an XMCD is checked against the DCD: both start at 0x40 *)
  assert (One : dcdo = None \/ xmo = None).
  { destruct xmo as [x|]; [|now right]. destruct dcdo as [d|]; [exfalso|now left].
    apply segs_ok_one in HX; [|exact (Hx x eq_refl)]. unfold ovl_any in HX. rewrite existsb_app in HX. apply orb_false_iff in HX as [_ HX].
    specialize (Hd d eq_refl). specialize (Hx x eq_refl). destruct (ovl_opt _ _ _ _ HX d eq_refl); lia. }
  split; [exact One|]. split.
  - destruct dcdo as [d|], xmo as [x|]; cbn [of_opt]; change (hlen (@nil N)) with 0;
      try specialize (PD _ eq_refl); try specialize (PX _ eq_refl); destruct One; try discriminate; lia.
  - intros d E. destruct (Hc d E). destruct (PC d E); lia.
Qed.

Lemma dcd_b_pos q d : q_dcd_b q = Some d -> 0 < hlen d.
Proof.
  unfold q_dcd_b. destruct (q_dcd q) as [x|]; [|discriminate]. intros [= <-]. pose proof (hlen_dcd_export x). lia.
Qed.

Lemma xm_b_pos c q d : hab_pre c = Ok q -> q_xm_b q = Some d -> 0 < hlen d.
Proof.
  intros Hq E. pose proof (pre_xm c q Hq) as Hx. destruct (q_xm q) as [x|]; [|congruence].
  destruct Hx as (xb & E' & L). rewrite E' in E. injection E as <-. rewrite (xmcd_export_len _ _ L). unfold xmcd_size. pose proof (hlen_nonneg (xm_cfg x)). lia.
Qed.

(* what the overlap refusal of HabContainer.image_info enforces on a build that succeeds *)
Theorem build_geom c b q : hab_build c = Ok b -> hab_pre c = Ok q -> 68 <= c_app_off c -> 0 < hlen (h_app c) ->
  (q_dcd q = None \/ q_xm q = None) /\
  64 + hlen (of_opt (q_dcd_b q)) + hlen (of_opt (q_xm_b q)) <= c_app_off c /\
  hlen (of_opt (q_dx q)) = hlen (of_opt (q_dcd_b q)) + hlen (of_opt (q_xm_b q)) /\
  (c_auth c = true -> c_app_off c + hlen (c_app_bin c) <= c_csf_off c /\ c_app_off c < c_csf_off c).
Proof.
  intros Hb Hq H68 Hap. destruct (pre_lens c q Hq) as (Li & Lb & _). pose proof (pre_xm c q Hq) as Hxm.
  pose proof (hab_pre_inv c q Hq) as (_ & Hg & _). pose proof (csf_after_app c Hg) as Hca.
  (* the overlap check of the application, with or without a CSF before it in the list *)
  assert (G : exists csfo, (forall d, csfo = Some d -> 0 < hlen d /\ c_app_off c < c_csf_off c) /\ (c_auth c = true -> csfo <> None) /\
              segs_ok [] ([(0, q_ivt_b q); (32, q_bdt_b q)] ++ opt_seg 64 (q_dcd_b q) ++ opt_seg 64 (q_xm_b q)
                          ++ opt_seg (c_csf_off c) csfo ++ [(c_app_off c, c_app_bin c)]) = true).
  { destruct (c_auth c) eqn:Ha.
    - destruct (auth_build_facts c b q Hb Hq Ha) as (csf0 & _ & H0 & _ & _ & _ & _ & _ & _ & Hso & _).
      exists (Some csf0). split; [intros d [= <-]; split; [exact (csf_export_pos _ _ _ H0) | exact Hca]|]. split; [discriminate|].
      unfold all_segs, base_segs in Hso. now rewrite <- !app_assoc in Hso.
    - destruct (plain_build c b q Hb Hq Ha) as [Hso _]. exists None. split; [discriminate|]. split; [discriminate|].
      unfold base_segs in Hso. now rewrite <- !app_assoc in Hso. }
  destruct G as (csfo & Hc & Hne & Hso).
  destruct (segs_ok_geom _ _ _ _ _ _ _ _ Li Lb (app_bin_pos c Hap) H68 (dcd_b_pos q) (fun d => xm_b_pos c q d Hq) Hc Hso) as (G1 & G2 & G3).
  split; [|split; [exact G2 | split]].
  - (* the bytes are there exactly when the objects are *)
    unfold q_dcd_b in G1. destruct (q_dcd q); [|now left]. destruct (q_xm q); [|now right].
    destruct Hxm as (xb & E & _). destruct G1 as [G1 | G1]; [discriminate G1 | congruence].
  - unfold q_dx. destruct G1 as [E | E]; rewrite E; [reflexivity|]. destruct (q_dcd_b q); cbn [of_opt]; change (hlen (@nil N)) with 0; lia.
  - intros Ha. split; [|exact Hca]. destruct csfo as [cs|]; [exact (G3 cs eq_refl) | now destruct (Hne Ha)].
Qed.

Lemma layout_full_of_build c b q : hab_build c = Ok b -> hab_pre c = Ok q -> layout_wf c q -> layout_full c q.
Proof.
  intros Hb Hq (H68 & Hap & Hd & Hx). destruct (build_geom c b q Hb Hq H68 Hap) as (G1 & G2 & G3 & G4).
  unfold layout_full. split; [exact G1|]. split; [lia|]. split; [exact H68|]. split; [exact G4|]. split; assumption.
Qed.

Lemma base_segs_dx q : (q_dcd q = None \/ q_xm q = None) -> (q_xm q = None -> q_xm_b q = None) ->
  base_segs q = head_segs (q_ivt_b q) (q_bdt_b q) (q_dx q).
Proof.
  intros H Hx. unfold base_segs, head_segs, q_dx, q_dcd_b. destruct H as [H | H].
  - rewrite H. reflexivity.
  - rewrite (Hx H). destruct (q_dcd q); cbn [option_map opt_seg]; now rewrite ?app_nil_r.
Qed.

(* every image begins with 64 bytes (IVT, boot data, padding), the object at 0x40 and zeros up to the application *)
Definition head64 (q : pre) : list N := q_ivt_b q ++ q_bdt_b q ++ hzeros 20.
Definition head_shape (q : pre) (app_off : Z) : list N :=
  head64 q ++ of_opt (q_dx q) ++ hzeros (app_off - 64 - hlen (of_opt (q_dx q))).

Lemma hlen_head64 c q : hab_pre c = Ok q -> hlen (head64 q) = 64.
Proof. intros Hq. destruct (pre_lens c q Hq) as (Li & Lb & _). unfold head64. now rewrite !hlen_app, Li, Lb, hlen_hzeros. Qed.

Lemma hlen_head_shape c q o : hab_pre c = Ok q -> 64 + hlen (of_opt (q_dx q)) <= o -> hlen (head_shape q o) = o.
Proof.
  intros Hq H. unfold head_shape. pose proof (hlen_nonneg (of_opt (q_dx q))).
  rewrite !hlen_app, (hlen_head64 c), hlen_hzeros by (assumption || lia). lia.
Qed.

Definition gap_tail (c : hcfg) (b : built) : list N :=
  if c_auth c then hzeros (c_csf_off c - c_app_off c - hlen (b_app b)) else [].

Lemma plain_place c q ap : hab_pre c = Ok q -> layout_full c q ->
  place (base_segs q ++ [(c_app_off c, ap)]) = head_shape q (c_app_off c) ++ ap.
Proof.
  intros Hq (W1 & W2 & _). destruct (pre_lens c q Hq) as (Li & Lb & Lx). rewrite base_segs_dx by assumption.
  destruct (head_segs_layout _ _ (q_dx q) (c_app_off c) ap [] Li Lb W2 I) as [Hc Hl].
  (* by exact, not rewrite: list literals stand at type Z * list N where the model says seg *)
  etransitivity; [exact (eq_trans (place_chain _ Hc) Hl)|].
  unfold head_shape, head64. cbn [fill_layout]. now rewrite <- !app_assoc, app_nil_r.
Qed.

Lemma auth_place c q csf ap : hab_pre c = Ok q -> c_auth c = true -> layout_full c q -> hlen ap = hlen (c_app_bin c) ->
  place (all_segs c q csf ap) = head_shape q (c_app_off c) ++ ap ++ hzeros (c_csf_off c - c_app_off c - hlen ap) ++ csf.
Proof.
  intros Hq Ha (W1 & W2 & _ & W4 & _) Hl. destruct (pre_lens c q Hq) as (Li & Lb & Lx). destruct (W4 Ha) as [G1 G2].
  unfold all_segs. rewrite base_segs_dx by assumption.
  destruct (head_segs_layout _ _ (q_dx q) (c_app_off c) ap [(c_csf_off c, csf)] Li Lb W2) as [Hc Hlay]; [split; [lia | exact I]|].
  etransitivity; [exact (eq_trans (place_swap_last _ (c_app_off c, ap) (c_csf_off c, csf) Hc G2) (eq_trans (place_chain _ Hc) Hlay))|].
  unfold head_shape, head64. cbn [fill_layout]. change (repeat 0%N (Z.to_nat ?z)) with (hzeros z).
  replace (c_csf_off c - (c_app_off c + hlen ap)) with (c_csf_off c - c_app_off c - hlen ap) by lia.
  now rewrite <- !app_assoc, app_nil_r.
Qed.

(* export_padding() up to the CSF, with the application still in plain text *)
Lemma padded_image_eq c q csf0 : hab_pre c = Ok q -> c_auth c = true -> layout_full c q ->
  padded_image c q csf0 = hzeros (h_ivt_off c) ++ head_shape q (c_app_off c) ++ c_app_bin c
                          ++ hzeros (c_csf_off c - c_app_off c - hlen (c_app_bin c)).
Proof.
  intros Hq Ha W. unfold padded_image. rewrite (auth_place c q csf0 (c_app_bin c)) by (try assumption; reflexivity).
  destruct W as (_ & W2 & _ & W4 & _). destruct (W4 Ha) as [G1 _]. pose proof (hab_pre_inv c q Hq) as (_ & Hg & _).
  rewrite !app_assoc. apply firstn_app_exact.
  enough (hlen (((hzeros (h_ivt_off c) ++ head_shape q (c_app_off c)) ++ c_app_bin c)
                ++ hzeros (c_csf_off c - c_app_off c - hlen (c_app_bin c))) = h_ivt_off c + c_csf_off c) by (unfold hlen in *; lia).
  rewrite !hlen_app, (hlen_head_shape c), !hlen_hzeros by (assumption || lia). lia.
Qed.

Lemma padded_app_slice c q csf0 : hab_pre c = Ok q -> c_auth c = true -> layout_full c q ->
  hslice (padded_image c q csf0) (h_ivt_off c + c_app_off c) (h_ivt_off c + c_app_off c + hlen (c_app_bin c)) = c_app_bin c.
Proof.
  intros Hq Ha W. rewrite padded_image_eq by assumption. destruct W as (_ & W2 & _). pose proof (hab_pre_inv c q Hq) as (_ & Hg & _).
  rewrite app_assoc. apply hslice_mid; [|lia]. rewrite hlen_app, hlen_hzeros, (hlen_head_shape c) by (assumption || lia). reflexivity.
Qed.

Lemma ccm_encrypt_length E nonce t p : (forall b, length b = 16%nat -> length (E b) = 16%nat) ->
  (length nonce <= 14)%nat -> (t <= 16)%nat -> length (ccm_encrypt E nonce [] t p) = (length p + t)%nat.
Proof.
  intros HE Hn Ht. unfold ccm_encrypt. rewrite app_length, ccm_crypt_length, ccm_tag_length by assumption. reflexivity.
Qed.

Lemma enc_implies_auth c : in_list (h_flags c) [0; 8; 12] = true -> c_enc c = true -> c_auth c = true.
Proof.
  unfold in_list, c_enc, c_auth. cbn [existsb]. rewrite !orb_true_iff, !Z.eqb_eq.
  intros [-> | [-> | [-> | [=]]]]; (reflexivity || discriminate).
Qed.

Lemma hab_encrypt_facts c cmds img cmds1 ct nonce mac :
  hab_encrypt c cmds img = Ok (cmds1, ct, nonce, mac) -> wf_bytes (h_dek c) ->
  ct ++ mac = ccm_encrypt (aes_enc (h_dek c)) nonce [] (Z.to_nat (h_mac_len c))
                          (hslice img (h_ivt_off c + c_app_off c) (h_ivt_off c + c_app_off c + hlen (c_app_bin c))) /\
  length ct = length (hslice img (h_ivt_off c + c_app_off c) (h_ivt_off c + c_app_off c + hlen (c_app_bin c))) /\
  (length nonce <= 14)%nat /\ (Z.to_nat (h_mac_len c) <= 16)%nat /\ aes_key_ok (h_dek c) = true.
Proof.
  unfold hab_encrypt. intros H Hw.
  set (plain := hslice img (h_ivt_off c + c_app_off c) (h_ivt_off c + c_app_off c + hlen (c_app_bin c))) in *.
  set (nonce0 := match h_nonce c with Some n => n | None => rng_bytes (aead_nonce_len (hlen img)) end) in *.
  destruct (Z.leb 7 (hlen nonce0) && Z.leb (hlen nonce0) 13 && ccm_tag_ok (h_mac_len c)
            && ccm_len_ok nonce0 (length plain) && aes_key_ok (h_dek c)) eqn:Ec; cbn [negb] in H; [|discriminate].
  rewrite !andb_true_iff in Ec. destruct Ec as ((((_ & En) & Et) & _) & Ek).
  destruct (upd_auth 2 _ cmds); [|discriminate]. apply ok_inj in H. inversion H; subst; clear H.
  assert (Hn : (length nonce0 <= 14)%nat) by (unfold hlen in En; lia).
  assert (Ht : (Z.to_nat (h_mac_len c) <= 16)%nat) by (unfold ccm_tag_ok in Et; lia).
  assert (HE : forall b, length b = 16%nat -> length (aes_enc (h_dek c) b) = 16%nat)
    by (intros; now apply aes_enc_length).
  repeat split; try assumption.
  - now rewrite firstn_skipn.
  - rewrite firstn_length, ccm_encrypt_length by assumption. lia.
Qed.

(* CsfHabSegment.encrypt reads the (padded) application out of the padded image and puts the ciphertext in its place *)
Lemma enc_build_facts c b q : hab_build c = Ok b -> hab_pre c = Ok q -> c_enc c = true -> layout_full c q -> wf_bytes (h_dek c) ->
  hlen (b_app b) = hlen (c_app_bin c) /\
  b_app b ++ b_mac b = ccm_encrypt (aes_enc (h_dek c)) (b_nonce b) [] (Z.to_nat (h_mac_len c)) (c_app_bin c) /\
  (length (b_nonce b) <= 14)%nat /\ (Z.to_nat (h_mac_len c) <= 16)%nat /\ aes_key_ok (h_dek c) = true.
Proof.
  intros Hb Hq He W Hw. pose proof (hab_pre_inv c q Hq) as (Hf & _). pose proof (enc_implies_auth c Hf He) as Ha.
  destruct (auth_build_facts c b q Hb Hq Ha) as (csf0 & _ & _ & _ & _ & _ & _ & _ & _ & _ & Henc).
  rewrite He in Henc. destruct Henc as (cmds1 & Henc).
  pose proof (hab_encrypt_facts c _ _ _ _ _ _ Henc Hw) as (F1 & F2 & F3).
  rewrite padded_app_slice in F1, F2 by assumption. split; [unfold hlen; lia|]. now split.
Qed.

(* the exported image: head, application, and for an authenticated image zeros up to the CSF, then the CSF *)
Theorem build_image c b q : hab_build c = Ok b -> hab_pre c = Ok q -> layout_full c q -> (c_enc c = true -> wf_bytes (h_dek c)) ->
  b_image b = head_shape q (c_app_off c) ++ b_app b ++ gap_tail c b ++ (if c_auth c then b_csf b else []) /\
  hlen (b_app b) = hlen (c_app_bin c) /\ (c_enc c = false -> b_app b = c_app_bin c).
Proof.
  intros Hb Hq W Hw. unfold gap_tail. destruct (c_auth c) eqn:Ha.
  - destruct (auth_build_facts c b q Hb Hq Ha) as (csf0 & _ & _ & _ & _ & Hi & _ & _ & _ & _ & Happ).
    assert (Hl : hlen (b_app b) = hlen (c_app_bin c)).
    { destruct (c_enc c) eqn:He; [exact (proj1 (enc_build_facts c b q Hb Hq He W (Hw eq_refl))) | now rewrite Happ]. }
    rewrite Hi, auth_place by assumption. repeat split; [exact Hl|]. intros He. now rewrite He in Happ.
  - destruct (plain_build c b q Hb Hq Ha) as [_ ->]. cbn [mk_built b_image b_app].
    rewrite plain_place by assumption. cbn [app]. now rewrite app_nil_r.
Qed.

Lemma hskip_shape_64 c q o rest : hab_pre c = Ok q ->
  hskip (head_shape q o ++ rest) 64 = of_opt (q_dx q) ++ hzeros (o - 64 - hlen (of_opt (q_dx q))) ++ rest.
Proof. intros Hq. unfold head_shape. rewrite <- !app_assoc. apply hskip_app. exact (hlen_head64 c q Hq). Qed.

Lemma head_slices c q o rest : hab_pre c = Ok q ->
  hslice (head_shape q o ++ rest) 0 32 = q_ivt_b q /\ hslice (head_shape q o ++ rest) 32 (32 + 12) = q_bdt_b q /\
  (forall d, q_dcd_b q = Some d -> hslice (head_shape q o ++ rest) 64 (64 + hlen d) = d).
Proof.
  intros Hq. destruct (pre_lens c q Hq) as (Li & Lb & _). unfold head_shape. split; [|split].
  - unfold head64. rewrite <- !app_assoc. now apply hslice_pre.
  - unfold head64. rewrite <- !app_assoc. apply hslice_mid; [assumption | lia].
  - intros d E. unfold q_dx. rewrite E. cbn [of_opt]. rewrite <- !app_assoc. apply hslice_mid; [exact (hlen_head64 c q Hq) | lia].
Qed.

Lemma shape_parse_ivt_bdt c q o rest : hab_pre c = Ok q ->
  parse_ivt_bdt (head_shape q o ++ rest) = Ok (c_ivt c, (h_start c, c_bdt_len c, 0)).
Proof.
  intros Hq. destruct (pre_ivt_bdt c q Hq) as [Pi Pb]. destruct (pre_lens c q Hq) as (Li & _).
  unfold parse_ivt_bdt, head_shape, head64. rewrite <- !app_assoc, Pi. cbn [bind].
  replace (iv_bdt (c_ivt c) - iv_self (c_ivt c)) with 32 by (cbn [c_ivt iv_bdt iv_self]; lia).
  now rewrite (hskip_app (q_ivt_b q)), Pb.
Qed.

Lemma shape_parse_dcd c q rest : hab_pre c = Ok q -> layout_full c q ->
  parse_dcd (head_shape q (c_app_off c) ++ rest) (c_ivt c) = Ok (q_dcd_b q).
Proof.
  intros Hq (_ & _ & _ & _ & W5 & _). pose proof (hab_pre_inv c q Hq) as (_ & Hg & Hs & Hd & _).
  unfold parse_dcd, c_ivt. cbn [iv_dcd iv_self]. unfold q_dcd_b.
  destruct (h_dcd c) as [d|]; [|now rewrite Hd].
  destruct Hd as (x & _ & Ex). rewrite Ex. cbn [option_map].
  unfold c_self. replace (h_start c + h_ivt_off c + 64 =? 0) with false by lia.
  replace (h_start c + h_ivt_off c + 64 - (h_start c + h_ivt_off c)) with 64 by lia.
  rewrite (hskip_shape_64 c) by assumption. unfold q_dx, q_dcd_b. rewrite Ex. cbn [option_map of_opt].
  destruct (W5 x Ex) as (_ & _ & _ & St). now rewrite St.
Qed.

Lemma hzeros_4 n : 4 <= n -> hzeros n = 0%N :: 0%N :: 0%N :: 0%N :: hzeros (n - 4).
Proof.
  intros H. unfold hzeros. replace (Z.to_nat n) with (4 + Z.to_nat (n - 4))%nat by lia. reflexivity.
Qed.

(* the XMCD probe at 0x40: an XMCD block is read back; anything whose fourth byte does not carry the tag 0xC is none *)
Lemma parse_xmcd_block h iface inst typ cfg rest : hlen h = 64 -> xmcd_wf iface inst typ cfg ->
  parse_xmcd (h ++ xmcd_bytes iface inst typ cfg ++ rest) = Ok (Some (xmcd_bytes iface inst typ cfg)).
Proof.
  intros Hh W. unfold parse_xmcd. rewrite (hskip_app h), xmcd_hdr_parse_spec by assumption. cbn [bind].
  replace (68 + (4 + hlen cfg) - 4) with (68 + hlen cfg) by lia. unfold xmcd_bytes.
  rewrite <- app_assoc, (app_assoc h), hslice_mid by (rewrite ?hlen_app, ?Hh; (reflexivity || lia)).
  now rewrite xmcd_export_spec.
Qed.

Lemma parse_xmcd_none h l : hlen h = 64 -> 4 <= hlen l -> hi4 (hbyte l 3) <> 12 -> parse_xmcd (h ++ l) = Ok None.
Proof.
  intros Hh Hl Ht. unfold parse_xmcd, xmcd_hdr_parse. rewrite (hskip_app h), have_true by (assumption || lia). cbn [negb].
  now replace (hi4 (hbyte l 3) =? 12) with false by lia.
Qed.

Lemma shape_parse_xmcd c q rest : hab_pre c = Ok q -> layout_full c q ->
  parse_xmcd (head_shape q (c_app_off c) ++ rest) = Ok (q_xm_b q).
Proof.
  intros Hq (W1 & _ & W3 & _ & W5 & W6). pose proof (pre_xm c q Hq) as Hx. pose proof (hlen_head64 c q Hq) as L64.
  unfold head_shape, q_dx, q_dcd_b. rewrite <- !app_assoc. destruct (q_dcd q) as [x|] eqn:Ed; cbn [option_map].
  - (* a DCD: its version byte is not an XMCD tag *)
    assert (Exm : q_xm q = None) by (destruct W1; congruence). rewrite Exm in Hx. rewrite Hx.
    destruct (W5 x eq_refl) as (Hv & Fv & _). cbn [of_opt]. apply parse_xmcd_none; [exact L64 | |].
    + rewrite hlen_app. pose proof (hlen_dcd_export x).
      pose proof (hlen_nonneg (hzeros (c_app_off c - 64 - hlen (dcd_export x)) ++ rest)). lia.
    + unfold dcd_export. now rewrite <- app_assoc, hdr_par.
  - destruct (q_xm q) as [x|] eqn:Ex.
    + destruct Hx as (xb & -> & Exp). pose proof (W6 x eq_refl) as Hwf. destruct x as [iface inst typ cfg].
      rewrite xmcd_export_spec in Exp by exact Hwf. injection Exp as <-. cbn [of_opt]. now apply parse_xmcd_block.
    + (* zero padding *)
      rewrite Hx. cbn [of_opt]. rewrite hlen_nil, hzeros_4 by lia. cbn [app]. apply parse_xmcd_none; [exact L64 | | now rewrite hbyte_3].
      unfold hlen. cbn [length]. lia.
Qed.

(* The round trip of everything HabContainer.parse reads apart from the CSF contents. *)
Theorem layout_roundtrip' c b q : hab_build c = Ok b -> hab_pre c = Ok q -> layout_wf c q ->
  (c_enc c = true -> wf_bytes (h_dek c)) ->
  find_app_off (b_image b) (c_entry c) known_offsets = Ok (c_app_off c) ->
  parse_ivt_bdt (b_image b) = Ok (c_ivt c, (h_start c, c_bdt_len c, 0)) /\
  parse_dcd (b_image b) (c_ivt c) = Ok (q_dcd_b q) /\
  parse_xmcd (b_image b) = Ok (q_xm_b q) /\
  parse_app (b_image b) (c_ivt c) = Ok (c_app_off c, b_app b ++ gap_tail c b) /\
  (c_enc c = false -> b_app b = c_app_bin c).
Proof.
  intros Hb Hq Wf Hw Hp. pose proof (layout_full_of_build c b q Hb Hq Wf) as W.
  destruct (build_image c b q Hb Hq W Hw) as (Hi & Hl & Hpl).
  split; [rewrite Hi; now apply shape_parse_ivt_bdt|].
  split; [rewrite Hi; now apply shape_parse_dcd|].
  split; [rewrite Hi; now apply shape_parse_xmcd|].
  split; [|assumption].
  (* the application and the gap after it are what stands between the head and the CSF (or the end) *)
  unfold parse_app. change (iv_app (c_ivt c)) with (c_entry c). rewrite Hp. cbn [bind]. do 2 f_equal.
  rewrite Hi, (app_assoc (b_app b)). destruct W as (_ & W2 & W3 & W4 & _). pose proof (hab_pre_inv c q Hq) as (_ & Hg & Hs & _).
  apply hslice_mid; [now apply (hlen_head_shape c)|].
  rewrite !hlen_app, (hlen_head_shape c) by assumption. unfold gap_tail, c_ivt. cbn [iv_csf iv_self]. unfold c_self.
  destruct (c_auth c).
  - destruct (W4 eq_refl) as [G1 G2]. replace (0 <? h_start c + h_ivt_off c + c_csf_off c) with true by lia.
    rewrite hlen_hzeros by lia. lia.
  - change (hlen (@nil N)) with 0. cbn [Z.ltb Z.compare]. lia.
Qed.

(* hypotheses of layout_roundtrip' are satisfiable: a plain image whose application starts with a vector table *)
Definition c_ex : hcfg :=
  {| h_flags := 0; h_start := 4096; h_ivt_off := 1024; h_ils := 4096; h_entry := None;
     h_app := [0; 0; 2; 32; 1; 32; 0; 0; 9; 9]%N; h_dcd := None; h_xmcd := None;
     h_ver := 66; h_engine := 0; h_secs := []; h_dek := []; h_mac_len := 16; h_nonce := None; h_sig_data := []; h_sig_csf := [] |}.

Example layout_roundtrip_nonvacuous :
  exists b q, hab_build c_ex = Ok b /\ hab_pre c_ex = Ok q /\ layout_full c_ex q /\
              find_app_off (b_image b) (c_entry c_ex) known_offsets = Ok (c_app_off c_ex).
Proof.
  (* one evaluation of the build; that the configuration has neither DCD nor XMCD is read off hab_pre *)
  assert (G : match hab_build c_ex with Ok b => find_app_off (b_image b) (c_entry c_ex) known_offsets | Err k => Err k end
              = Ok (c_app_off c_ex)) by (vm_compute; reflexivity).
  destruct (hab_build c_ex) as [b|] eqn:Eb; [|discriminate G].
  unfold hab_build in Eb. apply bind_ok in Eb as (q & Eq & Eb). exists b, q.
  split; [reflexivity|]. split; [exact Eq|]. split; [|exact G].
  pose proof (hab_pre_inv c_ex q Eq) as (_ & _ & _ & F1 & (F2 & F3) & _). cbn in F1.
  unfold layout_full, q_dx, q_dcd_b. rewrite F1, F2, F3. cbn. repeat split; try lia; try (now left); intros; discriminate.
Qed.

(* IVT pointers and boot-data length are the real positions and sizes *)
Theorem pointers_resolve' c b q : hab_build c = Ok b -> hab_pre c = Ok q -> layout_wf c q ->
  (c_enc c = true -> wf_bytes (h_dek c)) ->
  iv_self (c_ivt c) = h_start c + h_ivt_off c /\
  hslice (b_image b) 0 32 = q_ivt_b q /\ ivt_parse (q_ivt_b q) = Ok (c_ivt c) /\
  hslice (b_image b) (iv_bdt (c_ivt c) - iv_self (c_ivt c)) (iv_bdt (c_ivt c) - iv_self (c_ivt c) + 12) = q_bdt_b q /\
  bdt_parse (q_bdt_b q) = Ok (h_start c, c_bdt_len c, 0) /\
  (match q_dcd_b q with
   | Some d => hslice (b_image b) (iv_dcd (c_ivt c) - iv_self (c_ivt c)) (iv_dcd (c_ivt c) - iv_self (c_ivt c) + hlen d) = d
   | None => iv_dcd (c_ivt c) = 0
   end) /\
  hslice (b_image b) (c_app_off c) (c_app_off c + hlen (b_app b)) = b_app b /\
  (if c_auth c
   then hskip (b_image b) (iv_csf (c_ivt c) - iv_self (c_ivt c)) = b_csf b /\
        (hlen (b_csf b) = 8192 -> c_bdt_len c = h_ivt_off c + hlen (b_image b) + (if c_enc c then 512 else 0))
   else iv_csf (c_ivt c) = 0 /\ c_bdt_len c = h_ivt_off c + hlen (b_image b)).
Proof.
  intros Hb Hq Wf Hw. pose proof (layout_full_of_build c b q Hb Hq Wf) as W.
  destruct (build_image c b q Hb Hq W Hw) as (Hi & Hl & Hpl). destruct W as (_ & W2 & W3 & W4 & _).
  pose proof (hab_pre_inv c q Hq) as (Hf & Hg & Hs & Hd & _). destruct (pre_ivt_bdt c q Hq) as [Pi Pb].
  pose proof (hlen_head_shape c q _ Hq W2) as Lh. rewrite Hi.
  destruct (head_slices c q (c_app_off c) (b_app b ++ gap_tail c b ++ (if c_auth c then b_csf b else [])) Hq) as (S0 & S32 & S64).
  split; [reflexivity|]. split; [exact S0|]. split; [rewrite <- (app_nil_r (q_ivt_b q)); apply Pi|].
  split. { replace (iv_bdt (c_ivt c) - iv_self (c_ivt c)) with 32 by (cbn [c_ivt iv_bdt iv_self]; lia). exact S32. }
  split; [rewrite <- (app_nil_r (q_bdt_b q)); apply Pb|].
  split.
  { unfold c_ivt. cbn [iv_dcd iv_self]. specialize (S64 (of_opt (q_dcd_b q))). unfold q_dcd_b in *.
    destruct (h_dcd c) as [d|]; [|now rewrite Hd]. destruct Hd as (x & _ & Ex). rewrite Ex in *. cbn [option_map of_opt] in *.
    replace (c_self c + 64 - c_self c) with 64 by lia. now apply S64. }
  split. { apply hslice_mid; [exact Lh | lia]. }
  unfold c_ivt. cbn [iv_csf iv_self]. unfold c_bdt_len. rewrite !hlen_app, Lh. unfold gap_tail.
  destruct (c_auth c) eqn:Ha.
  - destruct (W4 eq_refl) as [G1 G2]. replace (c_self c + c_csf_off c - c_self c) with (c_csf_off c) by lia.
    rewrite hlen_hzeros by lia. split; [|intros L8; rewrite L8; lia].
    rewrite !app_assoc. apply hskip_app. rewrite !hlen_app, Lh, hlen_hzeros by lia. lia.
  - split; [reflexivity|]. change (hlen (@nil N)) with 0.
    assert (He : c_enc c = false) by (destruct (c_enc c) eqn:He; [rewrite (enc_implies_auth c Hf He) in Ha; discriminate | reflexivity]).
    rewrite He, Hl. lia.
Qed.

Definition in_rng (p o s : Z) : Prop := o <= p < o + s.
(* offsets (from the IVT) of the bytes the property wants authenticated: IVT, boot-data slot, DCD, XMCD, application *)
Definition content_pos (c : hcfg) (q : pre) (p : Z) : Prop :=
  in_rng p 0 32 \/ in_rng p 32 32 \/
  (exists x, q_dcd q = Some x /\ in_rng p 64 (dcd_size x)) \/
  (exists x, q_xm q = Some x /\ in_rng p 64 (xmcd_size x)) \/
  in_rng p (c_app_off c) (hlen (c_app_bin c)).
(* p (offset from the IVT) lies in one of the listed (address, size) blocks *)
Definition in_blocks (c : hcfg) (bl : list (Z * Z)) (p : Z) : Prop :=
  exists b, In b bl /\ in_rng (c_self c + p) (fst b) (snd b).
Fixpoint disjoint_blocks (bl : list (Z * Z)) : Prop :=
  match bl with
  | [] => True
  | a :: t => Forall (fun b => fst a + snd a <= fst b \/ fst b + snd b <= fst a) t /\ disjoint_blocks t
  end.

Definition q_xm_sz (q : pre) : Z := match q_xm q with Some x => xmcd_size x | None => 0 end.

Definition opt_blk {X} (c : hcfg) (sz : X -> Z) (o : option X) : list (Z * Z) :=
  match o with Some x => [blk c 64 (sz x)] | None => [] end.

(* signed and encrypted blocks together are the same four pieces whether or not the image is encrypted:
   the application block only moves from one list to the other *)
Lemma all_blocks_eq c q : signed_blocks c q ++ (if c_enc c then enc_blocks c else [])
  = [blk c 0 64] ++ opt_blk c dcd_size (q_dcd q) ++ opt_blk c xmcd_size (q_xm q) ++ [blk c (c_app_off c) (hlen (c_app_bin c))].
Proof.
  unfold signed_blocks, enc_blocks, q_dcd_sz, opt_blk. rewrite <- !app_assoc.
  destruct (q_dcd q), (c_enc c); now rewrite ?app_nil_r.
Qed.

Lemma in_blocks_app c l1 l2 p : in_blocks c (l1 ++ l2) p <-> in_blocks c l1 p \/ in_blocks c l2 p.
Proof.
  unfold in_blocks. split.
  - intros (b & Hin & Hr). apply in_app_or in Hin as [Hin | Hin]; eauto.
  - intros [(b & Hin & Hr) | (b & Hin & Hr)]; exists b; (split; [apply in_or_app; tauto | exact Hr]).
Qed.

Lemma in_blocks_one c off sz p : in_blocks c [blk c off sz] p <-> in_rng p off sz.
Proof.
  unfold in_blocks, blk, in_rng, c_self. split.
  - intros (b & [<- | []] & Hr). cbn [fst snd] in Hr. lia.
  - intros H. eexists. split; [now left | cbn [fst snd]; lia].
Qed.

Lemma in_blocks_opt {X} c (sz : X -> Z) o p : in_blocks c (opt_blk c sz o) p <-> exists x, o = Some x /\ in_rng p 64 (sz x).
Proof.
  destruct o as [x|]; cbn [opt_blk].
  - rewrite in_blocks_one. split; [eauto | now intros (x' & [= <-] & H)].
  - split; [now intros (b & [] & _) | now intros (x & [=] & _)].
Qed.

Lemma blocks_cover c q :
  forall p, in_blocks c (signed_blocks c q ++ (if c_enc c then enc_blocks c else [])) p <-> content_pos c q p.
Proof.
  intros p. rewrite all_blocks_eq, !in_blocks_app, !in_blocks_one, !in_blocks_opt. unfold content_pos.
  assert (H : in_rng p 0 64 <-> in_rng p 0 32 \/ in_rng p 32 32) by (unfold in_rng; lia). tauto.
Qed.

Fixpoint blk_chain (pos : Z) (bl : list (Z * Z)) : Prop :=
  match bl with [] => True | b :: t => pos <= fst b /\ 0 <= snd b /\ blk_chain (fst b + snd b) t end.

Lemma blk_chain_disjoint bl : forall pos, blk_chain pos bl -> Forall (fun b => pos <= fst b) bl /\ disjoint_blocks bl.
Proof.
  induction bl as [|a t IH]; intros pos H; [now split|]. destruct H as (H1 & H2 & H3). destruct (IH _ H3) as [F D].
  split; [constructor; [exact H1|] | split; [|exact D]]; refine (Forall_impl _ _ F); cbn beta; intros; lia.
Qed.

Lemma blocks_disjoint c q : (q_dcd q = None \/ q_xm q = None) -> 0 <= q_dcd_sz q ->
  64 + q_dcd_sz q + q_xm_sz q <= c_app_off c ->
  disjoint_blocks (signed_blocks c q ++ (if c_enc c then enc_blocks c else [])).
Proof.
  intros Hone H0 H1. rewrite all_blocks_eq. apply (blk_chain_disjoint _ (c_self c)).
  pose proof (hlen_nonneg (c_app_bin c)) as Hn. unfold q_dcd_sz, q_xm_sz, xmcd_size, blk, c_self in *.
  destruct Hone as [E | E]; rewrite E in *; [destruct (q_xm q) as [y|]; try pose proof (hlen_nonneg (xm_cfg y)) | destruct (q_dcd q)];
    cbn [opt_blk blk app blk_chain fst snd]; lia.
Qed.

Lemma hslice_shift {A} (z l : list A) k a b : hlen z = k -> 0 <= a -> hslice (z ++ l) (k + a) (k + b) = hslice l a b.
Proof.
  unfold hlen, hslice. intros Hk Ha. rewrite slice_app_r by lia. f_equal; lia.
Qed.

Lemma hslice_app_l {A} (x y : list A) a b : b <= hlen x -> hslice (x ++ y) a b = hslice x a b.
Proof. unfold hlen, hslice. intros Hb. apply slice_app_l. lia. Qed.

(* blocks that lie inside a common part Qx read the same from the padded image and from the exported one *)
Lemma slices_agree (Qx R R2 hz : list N) k self start blocks : hlen hz = k -> self = start + k ->
  Forall (fun blk : Z * Z => 0 <= fst blk - self /\ fst blk - self + snd blk <= hlen Qx) blocks ->
  concat (map (fun b => hslice (hz ++ Qx ++ R) (fst b - start) (fst b - start + snd b)) blocks)
  = concat (map (fun b => hslice (Qx ++ R2) (fst b - self) (fst b - self + snd b)) blocks).
Proof.
  intros Hk Hs HF. induction HF as [|blk t [H1 H2] _ IH]; [reflexivity|]. cbn [map concat]. f_equal; [|exact IH].
  replace (fst blk - start) with (k + (fst blk - self)) by lia.
  replace (k + (fst blk - self) + snd blk) with (k + (fst blk - self + snd blk)) by lia.
  rewrite hslice_shift by assumption. now rewrite !hslice_app_l by assumption.
Qed.

Lemma signed_blocks_bounds c q bound : 0 <= q_dcd_sz q -> 64 + q_dcd_sz q <= c_app_off c -> 64 + q_xm_sz q <= c_app_off c ->
  64 <= c_app_off c <= bound -> (c_enc c = false -> c_app_off c + hlen (c_app_bin c) <= bound) ->
  Forall (fun blk : Z * Z => 0 <= fst blk - c_self c /\ fst blk - c_self c + snd blk <= bound) (signed_blocks c q).
Proof.
  intros H0 H1 Hx H2 H3. unfold signed_blocks, blk, q_xm_sz, xmcd_size in *. fold (c_self c). pose proof (hlen_nonneg (c_app_bin c)).
  repeat (apply Forall_app; split).
  - constructor; [cbn [fst snd]; lia | constructor].
  - destruct (q_dcd q); constructor; [cbn [fst snd]; lia | constructor].
  - destruct (q_xm q) as [y|]; constructor; [pose proof (hlen_nonneg (xm_cfg y)); cbn [fst snd]; lia | constructor].
  - destruct (c_enc c); constructor; [specialize (H3 eq_refl); cbn [fst snd]; lia | constructor].
Qed.

(* the bytes handed to cms_sign for Authenticate Data are the listed blocks of the exported image *)
Theorem signed_data_blocks c b q : hab_build c = Ok b -> hab_pre c = Ok q -> c_auth c = true -> layout_full c q ->
  (c_enc c = true -> wf_bytes (h_dek c)) -> 0 <= q_dcd_sz q -> 64 + q_dcd_sz q <= c_app_off c -> 64 + q_xm_sz q <= c_app_off c ->
  b_tbs_data b = concat (map (fun blk => hslice (b_image b) (fst blk - c_self c) (fst blk - c_self c + snd blk)) (b_signed b)).
Proof.
  intros Hb Hq Ha W Hw D0 D1 DX.
  destruct (build_image c b q Hb Hq W Hw) as (Hi & Hl & Hpl).
  destruct (auth_build_facts c b q Hb Hq Ha) as (csf0 & _ & _ & _ & _ & _ & Es & _ & Et & _).
  rewrite Et, Es, Hi. unfold tbs_of. rewrite padded_image_eq by assumption.
  destruct W as (_ & W2 & W3 & W4 & _). destruct (W4 Ha) as [G1 _]. pose proof (hab_pre_inv c q Hq) as (_ & Hg & _).
  pose proof (hlen_head_shape c q _ Hq W2) as Lh.
  destruct (c_enc c) eqn:He.
  - (* encrypted: the signed blocks lie before the application *)
    apply (slices_agree _ _ _ _ (h_ivt_off c) (c_self c) (h_start c)); [apply hlen_hzeros; lia | reflexivity|].
    rewrite Lh. apply signed_blocks_bounds; try assumption; [lia | rewrite He; discriminate].
  - (* signed only: they lie before the end of the application, which is not changed *)
    rewrite (Hpl eq_refl), !(app_assoc (head_shape q (c_app_off c))).
    apply (slices_agree _ _ _ _ (h_ivt_off c) (c_self c) (h_start c)); [apply hlen_hzeros; lia | reflexivity|].
    rewrite hlen_app, Lh. apply signed_blocks_bounds; try assumption; [pose proof (hlen_nonneg (c_app_bin c)) | intros _]; lia.
Qed.

(* the claimed DCD size (sum of the command objects' sizes) is what is exported; holds for every specification-encoded DCD *)
Definition dcd_sized (q : pre) : Prop := 0 <= q_dcd_sz q <= hlen (of_opt (q_dcd_b q)).

Lemma xm_sz_len c q : hab_pre c = Ok q -> q_xm_sz q = hlen (of_opt (q_xm_b q)).
Proof.
  intros Hq. pose proof (pre_xm c q Hq) as Hx. unfold q_xm_sz. destruct (q_xm q); [destruct Hx as (xb & -> & E); rewrite <- (xmcd_export_len _ _ E) | rewrite Hx]; reflexivity.
Qed.

(* dcd_stable can be met: a DCD with one Write Data command (one address/value pair) followed by a NOP *)
Definition dcd_ex : dcd :=
  {| dc_par := 65;
     dc_cmds := [ {| pc_tag := 204; pc_size := 12; pc_bytes := [204; 0; 12; 4; 64; 15; 192; 104; 255; 255; 255; 254]%N;
                     pc_par := 4; pc_loc := -1; pc_fmt := 0; pc_fields := [1074774120; 4294967294] |};
                  {| pc_tag := 192; pc_size := 4; pc_bytes := [192; 0; 4; 0]%N; pc_par := 0; pc_loc := -1; pc_fmt := 0;
                     pc_fields := [] |} ] |}.

Example dcd_stable_nonvacuous : dcd_stable dcd_ex /\ hi4 (dc_par dcd_ex) <> 12 /\ fits 1 (dc_par dcd_ex) = true /\ fits 2 (dcd_size dcd_ex) = true.
Proof.
  split; [|split; [cbv; lia | split; reflexivity]].
  apply dcd_stable_of_cmds; [reflexivity | | reflexivity].
  (* evaluation of parse_command stops at the length tests (the input ends in an unknown rest): the tag dispatch is
     evaluated first, so that only the tests on the path taken are left to discharge *)
  constructor; [|constructor; [|constructor]]; (split; [intros rest; cbn [pc_bytes] | repeat split; (reflexivity || (cbn; lia))]).
  - unfold cmd_parse. cbn [app]. rewrite hbyte_0, hbyte_3. change (Z.of_N 204) with 204. change (Z.of_N 4) with 4.
    unfold u16be_at.
    match goal with |- context[hslice ?D 1 (1 + 2)] => change (hslice D 1 (1 + 2)) with [0%N; 12%N] end.
    change (hdec_be [0%N; 12%N]) with 12. change (Z.land 4 7) with 4.
    cbn [existsb Z.eqb Pos.eqb orb negb Z.ltb Z.compare Pos.compare Pos.compare_cont].
    rewrite !have_true by (rewrite !hlen_cons; pose proof (hlen_nonneg rest); lia). cbn [negb].
    cbn [length pairs_be]. change (4 <? 12) with true. cbn iota.
    rewrite have_true by (rewrite !hlen_cons; pose proof (hlen_nonneg rest); lia). cbn [negb].
    change (4 + 8 <? 12) with false. cbn iota. cbn [bind].
    unfold u32be_at.
    match goal with |- context[hslice ?D 4 (4 + 4)] => change (hslice D 4 (4 + 4)) with [64; 15; 192; 104]%N end.
    match goal with |- context[hslice ?D (4 + 4) (4 + 4 + 4)] => change (hslice D (4 + 4) (4 + 4 + 4)) with [255; 255; 255; 254]%N end.
    reflexivity.
  - unfold cmd_parse. cbn [app]. rewrite hbyte_0, hbyte_3. change (Z.of_N 192) with 192.
    unfold u16be_at.
    match goal with |- context[hslice ?D 1 (1 + 2)] => change (hslice D 1 (1 + 2)) with [0%N; 4%N] end.
    change (hdec_be [0%N; 4%N]) with 4.
    cbn [existsb Z.eqb Pos.eqb orb negb Z.ltb Z.compare Pos.compare Pos.compare_cont].
    now rewrite !have_true by (rewrite !hlen_cons; pose proof (hlen_nonneg rest); lia).
Qed.

Definition cw_xmcd : hcfg :=
  {| h_flags := 8; h_start := 4096; h_ivt_off := 1024; h_ils := 4096; h_entry := Some 8193;
     h_app := [0; 0; 2; 32; 1; 32; 0; 0]%N; h_dcd := None; h_xmcd := Some (xmcd_bytes 1 3 0 [1; 2; 3; 4]%N);
     h_ver := 66; h_engine := 0; h_secs := [SInsSrk 0 [215; 0; 4; 64]%N; SAuthCsf; SAuthData 0 0 0];
     h_dek := []; h_mac_len := 16; h_nonce := None; h_sig_data := [1%N]; h_sig_csf := [2%N] |}.

(* non-vacuity: an authenticated image with an XMCD (SEMC, instance 3) builds, and its blocks include the XMCD *)
Example cw_xmcd_blocks :
  match hab_build cw_xmcd with Ok b => b_signed b ++ b_enc b | Err _ => [] end = [(5120, 64); (5184, 8); (8192, 16)].
Proof. vm_compute. reflexivity. Qed.

Example layout_wf_nonvacuous :
  exists b q, hab_build c_ex = Ok b /\ hab_pre c_ex = Ok q /\ layout_wf c_ex q /\
              find_app_off (b_image b) (c_entry c_ex) known_offsets = Ok (c_app_off c_ex).
Proof.
  destruct layout_roundtrip_nonvacuous as (b & q & Hb & Hq & (_ & _ & W3 & _ & W5 & W6) & Hp).
  exists b, q. split; [exact Hb|]. split; [exact Hq|]. split; [|exact Hp].
  unfold layout_wf. split; [exact W3|]. split; [reflexivity|]. split; assumption.
Qed.
