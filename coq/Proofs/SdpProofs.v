(* Proofs/SdpProofs.v -- C10 lemmas about Model/SdpModel.v (the SDP host over its serial and HID protocols). *)
From Coq Require Import ZArith NArith List Bool Lia.
Require Import Value Bytes BytesProofs GenMboot MbootModel MbootProofs SdpModel.
Import ListNotations.
Local Open Scope N_scope.

Section SdpGeneric.
  Variable E : Type.
  Variable I : sdp_iface E.
  Variable ce : bool.

  (* _read_data only returns when `length` bytes have arrived, and returns exactly `length` bytes: whatever the device
     sends, however the link splits the delivery *)
  Lemma sdp_read_loop_complete length : forall fuel data s v s',
    sdp_read_loop E I fuel length data s = (ROk v, s') -> nlen v = length.
  Proof.
    induction fuel as [|f IH]; intros data s v s' H; [discriminate|].
    cbn [sdp_read_loop] in H. destruct (length <=? nlen data) eqn:EL.
    - injection H as <- <-. apply nlen_firstnN. now apply N.leb_le.
    - unfold mbind at 1 in H. destruct (guarded E _ s) as [[r|x] s1]; [|discriminate].
      destruct (negb (sr_hab r)); [eapply IH; exact H|].
      unfold mbind at 1, mlift in H. destruct (sr_value r) as [v0|x]; [|discriminate].
      unfold mbind in H. cbn in H. destruct (v0 =? SDPRV_LOCKED); cbn in H; eapply IH; exact H.
  Qed.

  Lemma sdp_read_complete fuel a d s v s' :
    sdp_api E I ce fuel (Call 1 a d) s = (ROk (AVBytes v), s') -> nlen v = nth 1 a 0.
  Proof.
    unfold sdp_api. unfold mbind at 1. destruct (sdp_process_cmd E I _ _ _ _ _ s) as [[[]|x] s1]; [|discriminate].
    unfold mbind. destruct (sdp_read_loop E I fuel (nth 1 a 0) [] s1) as [[v0|x] s2] eqn:L; [|discriminate].
    intros H. injection H as <- <-. eapply sdp_read_loop_complete; exact L.
  Qed.

  (* lifting an interface operation, and reading a response word, touch the environment only *)
  Lemma sd_lift_inv {A} (m : M E A) s r s' : sd_lift E m s = (r, s') ->
    m (sd_env E s) = (r, sd_env E s') /\ sd_status E s' = sd_status E s /\ sd_hab E s' = sd_hab E s /\ sd_cmd E s' = sd_cmd E s.
  Proof. unfold sd_lift. destruct (m (sd_env E s)) as [r0 e1]. intros H. injection H as <- <-. auto. Qed.
  Lemma read_word_inv len s r s' : read_word E I len s = (r, s') ->
    (exists r0, si_read I len (sd_env E s) = (r0, sd_env E s')) /\
    sd_status E s' = sd_status E s /\ sd_hab E s' = sd_hab E s /\ sd_cmd E s' = sd_cmd E s.
  Proof.
    unfold read_word, mbind, mlift. destruct (sd_lift E (si_read I len) s) as [[rr|x] s1] eqn:L;
      apply sd_lift_inv in L; destruct L as (L & F); [destruct (sr_value rr)|]; intros H; injection H as _ <-; eauto.
  Qed.

End SdpGeneric.

Section SdpSerialProofs.
  Variable D : Type.
  Variable recv : D -> list N -> D * list N.
  Variable ce : bool.
  Notation SI := (sdp_serial_iface D recv).
  Definition senv_of (s : sdps (ssenv D)) : senv D := ss_env D (sd_env _ s).

  Lemma ss_read_inv len e r e' : ss_read D len e = (ROk r, e') ->
    sr_hab r = ss_expect D e /\ sr_raw r <> [] /\ eaten D (ss_env D e) (ss_env D e') (sr_raw r) /\
    nlen (sr_raw r) <= (match len with Some l => if l =? 0 then 4 else l | None => 4 end) /\
    wrote D (ss_env D e) (ss_env D e') [].
  Proof.
    unfold ss_read, ss_lift. set (n := match len with Some l => if l =? 0 then 4 else l | None => 4 end).
    destruct (sread D n (ss_env D e)) as [[raw|x] e1] eqn:R; [|discriminate].
    intros H. injection H as <- <-. cbn [sr_hab sr_raw ss_env].
    apply sread_took in R. destruct R as (Hne & Hraw & Hea & _ & W & _).
    repeat split; try assumption. subst raw. apply nlen_firstnN_le.
  Qed.

  (* the receive loop on the serial link: the value is the data collected so far followed by exactly the bytes taken from
     the device, in order -- however the link split them into reads -- and nothing is written meanwhile *)
  Lemma sdp_read_loop_serial length : forall fuel data s v s', nlen data <= length ->
    sdp_read_loop _ SI fuel length data s = (ROk v, s') ->
    exists bs, eaten D (senv_of s) (senv_of s') bs /\ v = data ++ bs /\ wrote D (senv_of s) (senv_of s') [].
  Proof.
    induction fuel as [|f IH]; intros data s v s' Hd H; [discriminate|].
    cbn [sdp_read_loop] in H. destruct (length <=? nlen data) eqn:EL.
    - apply N.leb_le in EL. injection H as <- <-. exists []. split; [apply eaten_refl|]. split; [|apply wrote_refl].
      rewrite app_nil_r. apply firstnN_ge. exact Hd.
    - apply N.leb_gt in EL. unfold mbind at 1 in H. unfold guarded at 1 in H. unfold sd_lift, sd_set_env in H.
      cbn [sd_env si_expect si_read sdp_serial_iface sd_status sd_hab sd_cmd] in H.
      match type of H with context [ss_read D ?l ?e] => destruct (ss_read D l e) as [[r|x] e1] eqn:R end.
      2:{ destruct x; discriminate. }
      apply ss_read_inv in R. destruct R as (Hh & Hne & Hea & Hlen & Hw). cbn [ss_expect ss_env] in *.
      rewrite Hh in H. cbn [negb] in H.
      apply IH in H.
      + destruct H as (bs & Hb & Hv & Hw2). exists (sr_raw r ++ bs). unfold senv_of in *. cbn [sd_env] in *.
        split; [eapply eaten_trans; eauto|]. split; [rewrite Hv; now rewrite app_assoc|].
        apply (wrote_trans D _ _ _ [] [] Hw Hw2).
      + rewrite nlen_app. replace (if N.min (length - nlen data) 64 =? 0 then 4 else N.min (length - nlen data) 64)
          with (N.min (length - nlen data) 64) in Hlen by (destruct (N.min (length - nlen data) 64 =? 0) eqn:E; [apply N.eqb_eq in E; lia|reflexivity]).
        lia.
  Qed.

  (* SDP_READ_EXACT: a successful SDP.read over the serial link returns exactly the requested number of bytes, and they
     are exactly the bytes the device sent after the 4-byte HAB word: consumed input = HAB word ++ value *)
  Lemma sdp_read_exact_serial fuel a d s v s' :
    sdp_api _ SI ce fuel (Call 1 a d) s = (ROk (AVBytes v), s') ->
    exists hab, nlen hab = 4 /\ eaten D (senv_of s) (senv_of s') (hab ++ v) /\ nlen v = nth 1 a 0.
  Proof.
    intros H. pose proof (sdp_read_complete _ _ _ _ _ _ _ _ _ H) as Hn.
    unfold sdp_api in H. unfold mbind at 1 in H.
    destruct (sdp_process_cmd _ SI _ _ _ _ _ s) as [[[]|x] s1] eqn:P; [|discriminate].
    unfold mbind in H. destruct (sdp_read_loop _ SI fuel (nth 1 a 0) [] s1) as [[v0|x] s2] eqn:L; [|discriminate].
    injection H as <- <-. apply sdp_read_loop_serial in L; [|apply N.le_0_l].
    destruct L as (bs & Hb & Hv & _). cbn [app] in Hv. subst bs.
    (* the command exchange consumed exactly the HAB word *)
    unfold sdp_process_cmd in P. unfold mbind at 1, sd_put_status at 1 in P. cbv beta iota in P.
    unfold mbind at 1 in P. unfold guarded at 1 in P.
    match type of P with context [match ?m ?s0 with _ => _ end] => destruct (m s0) as [[rv|x] t1] eqn:G end.
    2:{ destruct x; discriminate. }
    assert (He : exists hab, nlen hab = 4 /\ eaten D (senv_of s) (senv_of t1) hab).
    { unfold mbind at 1, mlift in G. destruct (sdp_pkt _ _ _ _ _) as [b|x]; [|discriminate].
      unfold mbind at 1 in G. unfold sd_lift at 1 in G. cbn [sd_env si_write_command sdp_serial_iface] in G.
      unfold ss_send, ss_lift in G. cbn [ss_env] in G.
      destruct (swrite D recv b (ss_env D (sd_env _ s))) as [rw e1] eqn:W. apply swrite_inv in W. destruct W as (-> & Hw).
      unfold sd_set_env in G. cbn [sd_env sd_status sd_hab sd_cmd] in G.
      unfold read_word, mbind, sd_lift, mlift in G. cbn [sd_env si_read sdp_serial_iface] in G.
      match type of G with context [ss_read D None ?e] => destruct (ss_read D None e) as [[r|x] e2] eqn:R; [|discriminate] end.
      apply ss_read_inv in R. destruct R as (_ & _ & Hea & Hlen & _). cbn [ss_env] in *.
      unfold sr_value in G. destruct (nlen (sr_raw r) <? 4) eqn:E4; [discriminate|]. apply N.ltb_ge in E4.
      injection G as _ <-. exists (sr_raw r). split; [lia|]. unfold senv_of. cbn [sd_env sd_set_env].
      apply (eaten_trans D _ _ _ [] _ Hw Hea). }
    destruct He as (hab & Hl & Hea).
    assert (Hs1 : senv_of s1 = senv_of t1).
    { destruct (sr_hab (fst rv)); [|injection P as <-; reflexivity].
      unfold mbind, sd_put_hab in P. destruct (negb (snd rv =? SDPRV_UNLOCKED)); injection P as <-; reflexivity. }
    exists hab. split; [exact Hl|]. split; [|exact Hn]. rewrite Hs1 in Hb. eapply eaten_trans; eauto.
  Qed.

  (* m puts on the line, in order, a prefix of ws; all of ws when it returns a value *)
  Definition writes {A} (m : M (sdps (ssenv D)) A) (ws : list (list N)) : Prop :=
    forall s r s', m s = (r, s') ->
    exists ws', wrote D (senv_of s) (senv_of s') ws' /\ (exists t, ws = ws' ++ t) /\ (forall a, r = ROk a -> ws' = ws).
  Lemma writes_pure {A} (m : M (sdps (ssenv D)) A) : (forall s, senv_of (snd (m s)) = senv_of s) -> writes m [].
  Proof.
    intros Hm s r s' H. exists []. pose proof (Hm s) as E. rewrite H in E. cbn [snd] in E.
    split; [unfold wrote; rewrite E; reflexivity|]. split; [exists []; reflexivity|reflexivity].
  Qed.
  Lemma writes_bind {A B} (m : M (sdps (ssenv D)) A) (f : A -> M (sdps (ssenv D)) B) a b :
    writes m a -> (forall x, writes (f x) b) -> writes (mbind m f) (a ++ b).
  Proof.
    intros Hm Hf s r s' H. unfold mbind in H. destruct (m s) as [[x|e] s1] eqn:E; destruct (Hm _ _ _ E) as (w1 & W1 & (t1 & T1) & K1).
    - rewrite (K1 x eq_refl) in W1. destruct (Hf x _ _ _ H) as (w2 & W2 & (t2 & T2) & K2). exists (a ++ w2).
      split; [exact (wrote_trans D _ _ _ _ _ W1 W2)|]. split; [exists t2; rewrite T2, app_assoc; reflexivity|].
      intros y Hy. rewrite (K2 y Hy). reflexivity.
    - injection H as <- <-. exists w1. split; [exact W1|]. split; [exists (t1 ++ b); rewrite T1, app_assoc; reflexivity|discriminate].
  Qed.
  Lemma writes_value {A B} (x : A) (f : A -> M (sdps (ssenv D)) B) ws : writes (f x) ws -> writes (y <- mlift (ROk x);; f y) ws.
  Proof. intros H. exact H. Qed.
  Lemma writes_guarded {A} (m : M (sdps (ssenv D)) A) ws : writes m ws -> writes (guarded _ m) ws.
  Proof.
    intros Hm s r s' H. unfold guarded in H. destruct (m s) as [r0 s1] eqn:E. destruct (Hm _ _ _ E) as (w & W & T & K).
    exists w. destruct r0 as [a|x]; [injection H as <- <-; auto|].
    assert (s' = s1 /\ forall a, r <> ROk a) as [-> Hr] by (destruct x; injection H as <- <-; split; try reflexivity; discriminate).
    split; [exact W|]. split; [exact T|]. intros a Ha. destruct (Hr a Ha).
  Qed.
  Lemma writes_send b : writes (sd_lift _ (ss_send D recv b)) [b].
  Proof.
    intros s r s' H. unfold sd_lift, ss_send, ss_lift, swrite in H. cbn [ss_env se_dev se_in se_out se_cons sd_env] in H.
    destruct (recv _ b) as [d1 r1]. injection H as <- <-. exists [b]. split; [reflexivity|]. split; [exists []; reflexivity|reflexivity].
  Qed.
  Lemma writes_read_word len : writes (read_word _ SI len) [].
  Proof.
    intros s r s' H. apply read_word_inv in H. destruct H as ((r0 & R) & _). cbn [si_read sdp_serial_iface] in R.
    exists []. split; [|split; [exists []; reflexivity|reflexivity]]. unfold senv_of. unfold ss_read, ss_lift in R.
    destruct (sread D _ (ss_env D (sd_env _ s))) as [[raw|x] e1] eqn:Rd; apply sread_took in Rd; injection R as _ <-; cbn [ss_env].
    - destruct Rd as (_ & _ & Rd). exact (took_wrote D _ _ _ Rd).
    - destruct Rd as [_ ->]. apply wrote_refl.
  Qed.

  (* WRITE ONCE, IN ORDER: whatever the device answers, write_file / write_dcd / write_csf put on the serial line the
     16-byte command and then the data -- each once, in this order, nothing else; both when the call returns *)
  Lemma sdp_send_data_writes_all tag address data b :
    sdp_pkt tag address 0 (nlen data) 0 = ROk b -> writes (sdp_send_data _ SI ce tag address data) [b; data].
  Proof.
    intros Hb. unfold sdp_send_data. rewrite Hb.
    apply (writes_bind _ _ [] [b; data]); [apply writes_pure; reflexivity|]. intros _.
    apply (writes_bind _ _ [b; data] []); [|intros ok; destruct (negb ok && ce); apply writes_pure; reflexivity].
    apply writes_guarded, writes_value.
    apply (writes_bind _ _ [b] [data]); [apply writes_send|]. intros _.
    apply (writes_bind _ _ [data] []); [apply writes_send|]. intros _.
    apply (writes_bind _ _ [] []); [apply writes_read_word|]. intros hv.
    apply (writes_bind _ _ [] []); [apply writes_pure; reflexivity|]. intros _.
    apply (writes_bind _ _ [] []); [apply writes_read_word|]. intros cv.
    apply (writes_bind _ _ [] []); [apply writes_pure; reflexivity|]. intros _.
    repeat (destruct (_ && _); [apply (writes_bind _ _ [] []); [apply writes_pure; reflexivity|intros; apply writes_pure; reflexivity]|]).
    apply writes_pure; reflexivity.
  Qed.
End SdpSerialProofs.

Definition sdp_pad (rid size : N) (ch : list N) : list N := rid :: ch ++ repeat 0 (N.to_nat (size - nlen ch)).
Lemma sh_frames_chunks rid size : forall fuel data,
  sh_frames fuel rid size data = map (sdp_pad rid size) (chunks_fuelN fuel size data).
Proof.
  induction fuel as [|f IH]; intros data; [reflexivity|]. cbn [sh_frames chunks_fuelN].
  destruct data as [|x t]; [reflexivity|]. cbn [map]. now rewrite IH.
Qed.
