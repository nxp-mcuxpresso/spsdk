(* C04, Secure Binary 2.0 with the CryptoRef AES: the premise on the keys, and a concrete signed / unsigned input that
   meets every premise. *)
From Coq Require Import ZArith NArith List Bool Lia.
Require Import Value Bytes BytesProofs GenSb2 GenSb20 Sha2 Aes Modes Hmac KeyWrap Crc Sb2Model Sb20Model.
Require Import Sb2Proofs Sb2AesProofs Sb20Proofs.
Import ListNotations.
Local Open Scope N_scope.

Definition aes_keys_ok20 (y : sb20in) : Prop :=
  aes_key_ok (y_kek y) = true /\ wf_bytes (y_kek y) /\ wf_bytes (y_dek y) /\ wf_bytes (y_mac y).

Lemma keys_wrap_sb20_aes y : wf_sb20 y -> aes_keys_ok20 y -> keys_wrap sbE sbD (y_kek y) (y_dek y) (y_mac y).
Proof. intros (_ & Ld & Lm & _) (Hk & Wk & Wd & Wm). now apply keys_wrap_aes. Qed.

Definition rom20_concl (r : rom20_out) (y : sb20in) (file : list N) : Prop :=
  t_secs r = spec_of (y_secs y) /\ t_signed r = y_signed y /\ t_pv r = y_pv y /\ t_cv r = y_cv y /\
  t_build r = y_build y /\ t_ts r = y_ts y /\ t_sig r = sigpart y /\
  file = firstn (t_signed_len r) file ++ sigpart y /\ length (firstn (t_signed_len r) file) = t_signed_len r /\
    t_boot_index r = 0%nat /\ hdr_first_boot_section_id file = option_map s_uid (hd_error (y_secs y)).

Definition demo20 (signed : bool) : sb20in :=
  mkSb20 signed (map N.of_nat (seq 0 32)) (repeat 160 32) (repeat 11 32) (map N.of_nat (seq 0 16)) (zeros 8) (zeros 8)
         633315200000000 (1, 2, 3) (4, 5, 6) 7 demo_secs (mkCb 0 [[48; 130; 1; 2]] (zeros 128)) 16 (repeat 170 16).

Lemma demo20_wf signed : wf_sb20 (demo20 signed) /\ aes_keys_ok20 (demo20 signed).
Proof.
  split.
  - unfold wf_sb20, demo20, demo_secs, secs_wf, ver_ok. cbn [y_secs y_dek y_mac y_pad2 y_sig y_sigsize y_signed y_pv y_cv fst snd].
    repeat split; try reflexivity; repeat constructor.
  - unfold aes_keys_ok20, demo20. cbn [y_kek y_dek y_mac]. split; [reflexivity|].
    repeat split; apply wf_bytesb_spec; reflexivity.
Qed.

Example demo20_rom_accepts :
  forall signed, exists file r p,
    build20 (demo20 signed) = Ok file /\ rom20_aes 16 (y_kek (demo20 signed)) file = Some r /\
    t_secs r = spec_of demo_secs /\ t_signed r = signed /\
    spsdk_parse20 true (y_kek (demo20 signed)) file = Ok p /\ length (q_secs p) = 2%nat /\ q_signed p = signed.
Proof.
  intros signed. destruct (demo20_wf signed) as [W K].
  assert (Hb : exists file, build20 (demo20 signed) = Ok file) by (apply is_ok_Ok; destruct signed; lazy; reflexivity).
  destruct Hb as [file Hb].
  destruct (rom20_build_lemma sbE sbD sbE_length _ file W (keys_wrap_sb20_aes _ W K) Hb) as (r & Hr & Hsecs & Hsigned & _).
  destruct (spsdk_parse20_build_lemma sbE sbD sbE_length _ file W (keys_wrap_sb20_aes _ W K) eq_refl eq_refl (proj1 K) Hb)
    as (oss & Hrel & Hp).
  exists file, r. eexists. split; [exact Hb|]. split; [exact Hr|]. split; [exact Hsecs|]. split; [exact Hsigned|].
  split; [exact Hp|]. split; [symmetry; exact (Forall2_len _ _ _ Hrel) | reflexivity].
Qed.
