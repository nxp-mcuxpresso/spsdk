(* C04, Secure Binary 2.1.  Model/Sb2Model.v holds the builder (commands, sections, BootImageV21.export), SPSDK's own parser
   and a boot-ROM reader written from the container format.  Proved here: what the parser and the ROM read back from
   everything the builder returns -- per command, per command stream, per section, per image -- for any block cipher with
   the key-wrap law keys_wrap, and then for the CryptoRef AES. *)
From Coq Require Import ZArith NArith List Bool Lia ZifyNat ZifyN.
Require Import Value Bytes BytesProofs GenSb2 Sha2 Aes Modes Hmac KeyWrap Crc Sb2Model.
Require CryptoProofs.
Import ListNotations.
Local Open Scope N_scope.

Lemma fit_length w l : length (fit w l) = w.
Proof. unfold fit. rewrite firstn_length, app_length, zeros_length. lia. Qed.

Lemma fit_exact w l : length l = w -> fit w l = l.
Proof. intros H. unfold fit. now apply firstn_app_exact. Qed.

Lemma fit_firstn w l : (w <= length l)%nat -> fit w l = firstn w l.
Proof.
  intros H. unfold fit. rewrite firstn_app. replace (w - length l)%nat with 0%nat by lia.
  simpl. apply app_nil_r.
Qed.

Definition fld_ok (f : bool * nat) (x : fld) : Prop :=
  match x with
  | FI v => fst f = false /\ v < 2 ^ (8 * N.of_nat (snd f))
  | FB b => fst f = true
  end.
Definition canon (f : bool * nat) (x : fld) : fld :=
  match x with FI v => FI v | FB b => FB (fit (snd f) b) end.
Fixpoint canons (fmt : list (bool * nat)) (xs : list fld) : list fld :=
  match fmt, xs with
  | f :: fm, x :: xt => canon f x :: canons fm xt
  | _, _ => []
  end.

Lemma pack1_length f x : length (pack1 f x) = snd f.
Proof. destruct x; simpl; [apply le_enc_length | apply fit_length]. Qed.

Lemma pack_length fmt : forall xs, length fmt = length xs -> length (pack fmt xs) = fmt_size fmt.
Proof.
  induction fmt as [|f fm IH]; intros [|x xt] H; simpl in *; try discriminate; try reflexivity.
  rewrite app_length, pack1_length, IH by lia. reflexivity.
Qed.

Lemma unpack_pack fmt : forall xs rest,
  Forall2 fld_ok fmt xs -> unpack fmt (pack fmt xs ++ rest) = canons fmt xs.
Proof.
  induction fmt as [|[isb w] fm IH]; intros xs rest H; inversion H as [|f x fm' xt Hx Ht]; subst; simpl.
  - reflexivity.
  - rewrite <- app_assoc.
    rewrite (firstn_app_exact (pack1 (isb, w) x) _ w (pack1_length _ _)).
    rewrite (skipn_app_exact (pack1 (isb, w) x) _ w (pack1_length _ _)).
    rewrite IH by assumption. f_equal.
    destruct x as [v|b]; simpl in *.
    + destruct Hx as [-> Hv]. simpl. now rewrite le_dec_enc_small.
    + rewrite Hx. reflexivity.
Qed.

Lemma pack_fits_ok fmt : forall xs,
  length fmt = length xs -> pack_fits fmt xs = true ->
  Forall2 (fun f x => match x with FI _ => fst f = false | FB _ => fst f = true end) fmt xs ->
  Forall2 fld_ok fmt xs.
Proof.
  induction fmt as [|f fm IH]; intros [|x xt] HL HF HK; simpl in *; try discriminate; constructor.
  - inversion HK; subst. apply andb_true_iff in HF as [HF _]. destruct x; simpl in *; [|assumption].
    split; [assumption| now apply N.ltb_lt].
  - inversion HK; subst. apply andb_true_iff in HF as [_ HF]. apply IH; [lia|assumption|assumption].
Qed.

Lemma hdr_crc_lt h : hdr_crc h < 256.
Proof. unfold hdr_crc. apply N.mod_lt. discriminate. Qed.

Lemma hdr_export_length h : length (hdr_export h) = 16%nat.
Proof. unfold hdr_export, hdr_raw. rewrite pack_length; reflexivity. Qed.

(* the header fields read back, whatever value below 256 stands in the checksum byte *)
Lemma hdr_unpack crc h rest :
  crc < 256 -> hdr_fits h = true ->
  unpack cmdhdr_format (hdr_raw crc h ++ rest) =
  [FI crc; FI (h_tag h); FI (h_flags h); FI (h_addr h); FI (h_count h); FI (h_data h)].
Proof.
  intros Hc Hf. unfold hdr_raw. rewrite unpack_pack; [reflexivity|].
  apply pack_fits_ok; [reflexivity | | unfold cmdhdr_format, hdr_flds; repeat constructor].
  unfold hdr_fits, hdr_flds, cmdhdr_format in *. cbn [pack_fits fld_fits snd] in *.
  apply andb_true_iff in Hf as [_ Hf]. apply andb_true_iff. split; [now apply N.ltb_lt | exact Hf].
Qed.

Lemma hdr_parse_export h rest : hdr_fits h = true -> hdr_parse (hdr_export h ++ rest) = Ok h.
Proof.
  intros Hf. unfold hdr_parse.
  assert (HL : Nat.ltb (length (hdr_export h ++ rest)) HDR_SIZE = false).
  { apply Nat.ltb_ge. rewrite app_length, hdr_export_length. change HDR_SIZE with 16%nat. lia. }
  rewrite HL. unfold hdr_export. rewrite hdr_unpack by (try apply hdr_crc_lt; assumption).
  destruct h as [t f a c d]. cbn [h_tag h_flags h_addr h_count h_data]. now rewrite N.eqb_refl.
Qed.

(* the bytes after the checksum byte do not depend on it *)
Lemma hdr_raw_tail crc h : skipn 1 (hdr_raw crc h) = skipn 1 (hdr_raw 0 h).
Proof. unfold hdr_raw, cmdhdr_format, hdr_flds. cbn [pack pack1 snd le_enc]. reflexivity. Qed.

Lemma rom_hdr_export h rest : hdr_fits h = true -> rom_hdr (hdr_export h ++ rest) = Some h.
Proof.
  intros Hf. unfold rom_hdr.
  assert (HL : Nat.ltb (length (hdr_export h ++ rest)) 16 = false).
  { apply Nat.ltb_ge. rewrite app_length, hdr_export_length. lia. }
  rewrite HL. change rom_cmdhdr_layout with cmdhdr_format.
  unfold hdr_export at 1. rewrite hdr_unpack by (try apply hdr_crc_lt; assumption).
  assert (E : firstn 15 (skipn 1 (hdr_export h ++ rest)) = skipn 1 (hdr_raw 0 h)).
  { replace (skipn 1 (hdr_export h ++ rest)) with (skipn 1 (hdr_export h) ++ rest)
      by (rewrite skipn_app, hdr_export_length; reflexivity).
    rewrite firstn_app_exact.
    - apply hdr_raw_tail.
    - rewrite skipn_length, hdr_export_length. reflexivity. }
  rewrite E. change 90 with cmdhdr_checksum_seed. fold (hdr_crc h).
  change (skipn 1 (hdr_raw 0 h)) with (skipn cmdhdr_checksum_first (hdr_raw 0 h)).
  fold (hdr_crc h). rewrite N.eqb_refl. destruct h; reflexivity.
Qed.

Lemma bits_above a k n : a < 2 ^ k -> k <= n -> N.testbit a n = false.
Proof.
  intros Ha Hn. destruct (N.eq_dec a 0) as [->|Hz]; [apply N.bits_0|].
  apply N.bits_above_log2. apply N.log2_lt_pow2 in Ha; lia.
Qed.

Lemma lt_pow2_bits a k : (forall n, k <= n -> N.testbit a n = false) -> a < 2 ^ k.
Proof.
  intros H. replace a with (a mod 2 ^ k); [apply N.mod_lt, N.pow_nonzero; discriminate|].
  apply N.bits_inj. intros n. destruct (N.lt_ge_cases n k) as [L|G].
  - now apply N.mod_pow2_bits_low.
  - now rewrite N.mod_pow2_bits_high, H.
Qed.

Lemma shiftl_bit a s n : N.testbit (N.shiftl a s) n = (s <=? n) && N.testbit a (n - s).
Proof. destruct (N.leb_spec s n) as [L|G]; [now apply N.shiftl_spec_high' | now apply N.shiftl_spec_low]. Qed.

Lemma land_ones_small a k : a < 2 ^ k -> N.land a (N.ones k) = a.
Proof. intros H. rewrite N.land_ones. now apply N.mod_small. Qed.

Section Below.
Variables a b k : N.
Lemma land_lt_r : b < 2 ^ k -> N.land a b < 2 ^ k.
Proof.
  intros Hb. apply lt_pow2_bits. intros n Hn. rewrite N.land_spec, (bits_above b k n) by assumption. apply andb_false_r.
Qed.
Lemma ldiff_lt : a < 2 ^ k -> N.ldiff a b < 2 ^ k.
Proof. intros Ha. apply lt_pow2_bits. intros n Hn. now rewrite N.ldiff_spec, (bits_above a k n). Qed.
Lemma shiftr_lt s : a < 2 ^ k -> N.shiftr a s < 2 ^ k.
Proof.
  intros Ha. apply lt_pow2_bits. intros n Hn. rewrite N.shiftr_spec', (bits_above a k (n + s)); [reflexivity|assumption|lia].
Qed.
End Below.

Lemma set_field_bit f mask sh v n :
  N.testbit (set_field f mask sh v) n = if N.testbit mask n then (sh <=? n) && N.testbit v (n - sh) else N.testbit f n.
Proof.
  unfold set_field. rewrite N.lor_spec, N.ldiff_spec, N.land_spec, shiftl_bit.
  destruct (N.testbit mask n), (N.testbit f n), (sh <=? n), (N.testbit v (n - sh)); reflexivity.
Qed.

Lemma or_field_bit f mask sh v n :
  N.testbit (or_field f mask sh v) n = N.testbit f n || N.testbit mask n && ((sh <=? n) && N.testbit v (n - sh)).
Proof.
  unfold or_field. rewrite !N.lor_spec, N.ldiff_spec, N.land_spec, shiftl_bit.
  destruct (N.testbit mask n), (N.testbit f n), (sh <=? n), (N.testbit v (n - sh)); reflexivity.
Qed.

Lemma or_memid_bit f m n :
  N.testbit (or_memid f m) n =
  N.testbit f n || N.testbit 65280 n && ((8 <=? n) && (N.testbit m (n - 8) && N.testbit 255 (n - 8)))
                || N.testbit 240 n && ((4 <=? n) && (N.testbit m (n - 4 + 8) && N.testbit 3840 (n - 4 + 8))).
Proof.
  unfold or_memid, dev_of, grp_of. rewrite !or_field_bit, !N.shiftr_spec', !N.land_spec, N.add_0_r. reflexivity.
Qed.

Lemma set_field_lt f mask sh v k : f < 2 ^ k -> mask < 2 ^ k -> set_field f mask sh v < 2 ^ k.
Proof. intros Hf Hm. unfold set_field. apply lor_lt_pow2; [now apply ldiff_lt | now apply land_lt_r]. Qed.

Lemma or_memid_lt f m : f < 2 ^ 16 -> or_memid f m < 2 ^ 16.
Proof.
  intros Hf. unfold or_memid, or_field.
  repeat first [assumption | apply lor_lt_pow2 | apply ldiff_lt | apply land_lt_r; reflexivity].
Qed.

Fixpoint upto (fuel : nat) (i : N) : list N :=
  match fuel with O => [] | S f => i :: upto f (i + 1) end.

Lemma upto_all fuel (P : N -> Prop) : forall i, Forall P (upto fuel i) -> forall x, i <= x -> x < i + N.of_nat fuel -> P x.
Proof.
  induction fuel as [|f IH]; intros i H x H1 H2; [lia|].
  inversion H as [|? ? Hi Ht]; subst. destruct (N.eq_dec i x) as [->|Hne]; [exact Hi|]. apply (IH (i + 1)); [exact Ht|lia|lia].
Qed.

Lemma below16_all (P : N -> Prop) : Forall P (upto 16 0) -> forall n, n < 16 -> P n.
Proof. intros H n Hn. apply (upto_all 16 P 0 H); lia. Qed.

Lemma eq_bits16 a b : a < 2 ^ 16 -> b < 2 ^ 16 -> (forall n, n < 16 -> N.testbit a n = N.testbit b n) -> a = b.
Proof.
  intros Ha Hb H. apply N.bits_inj. intros n. destruct (N.lt_ge_cases n 16) as [L|G]; [now apply H|].
  now rewrite (bits_above a 16 n), (bits_above b 16 n).
Qed.

#[local] Hint Rewrite N.lor_spec N.land_spec N.ldiff_spec shiftl_bit N.shiftr_spec' set_field_bit or_memid_bit : bits.

(* Both sides of each packing fact are assembled from the bits of the arguments by constant masks and shifts and stay
   below 2^16.  [below16] bounds a side by its outermost mask; [bitwise16] expresses bit n of either side by bits of the
   arguments and compares at each of the 16 positions, where the masks evaluate and a case split on the few argument
   bits that are left closes the goal. *)
Ltac below16 :=
  repeat first [apply or_memid_lt | apply set_field_lt | apply lor_lt_pow2 | apply land_lt_r | apply shiftr_lt | reflexivity].
Ltac bit_cases := repeat match goal with |- context [N.testbit ?x ?j] => destruct (N.testbit x j) end; reflexivity.
Ltac bitwise16 :=
  apply eq_bits16; [below16 | below16 | intros n Hn; autorewrite with bits; revert n Hn; apply below16_all;
                                        cbn [upto]; repeat constructor; cbn; bit_cases].

Lemma memid_facts f m : f < 16 -> m < 4096 ->
  let fl := or_memid f m in
  fl < 65536 /\ memid_of_flags fl = m /\ or_memid fl m = fl /\ fdev fl = N.land m 255 /\
  fgrp fl = N.land (N.shiftr m 8) 15 /\ flow fl = f.
Proof.
  intros Hf Hm. cbv zeta.
  rewrite <- (land_ones_small f 4 Hf), <- (land_ones_small m 12 Hm). change (N.ones 4) with 15. change (N.ones 12) with 4095.
  unfold memid_of_flags, fdev, fgrp, flow. cbv zeta. change 65536 with (2 ^ 16).
  split; [below16|]. repeat split; bitwise16.
Qed.

Lemma prog_facts i f m : i < 2 -> f < 256 -> m < 256 ->
  let fl := set_field (N.lor i f) ROM_MEM_DEVICE_ID_MASK ROM_MEM_DEVICE_ID_SHIFT m in
  fl < 65536 /\ N.shiftr (N.land fl ROM_MEM_DEVICE_ID_MASK) ROM_MEM_DEVICE_ID_SHIFT = m /\
  set_field (N.lor i fl) ROM_MEM_DEVICE_ID_MASK ROM_MEM_DEVICE_ID_SHIFT m = fl /\ fdev fl = m /\ N.land fl 255 = N.lor f i.
Proof.
  intros Hi Hf Hm. cbv zeta.
  rewrite <- (land_ones_small i 1 Hi), <- (land_ones_small f 8 Hf), <- (land_ones_small m 8 Hm).
  change (N.ones 1) with 1. change (N.ones 8) with 255.
  unfold fdev, ROM_MEM_DEVICE_ID_MASK, ROM_MEM_DEVICE_ID_SHIFT. change 65536 with (2 ^ 16).
  split; [below16|]. repeat split; bitwise16.
Qed.

Lemma crc_bits_lt n r : crc_bits (S n) 32 (crc_poly CRC32_MPEG2) r < 2 ^ 32.
Proof.
  revert r. induction n as [|n IH]; intros r.
  - cbn [crc_bits]. destruct (N.testbit r (32 - 1)).
    + apply lxor_lt_pow2; [|reflexivity]. rewrite N.land_ones. apply N.mod_lt. discriminate.
    + rewrite N.land_ones. apply N.mod_lt. discriminate.
  - change (crc_bits (S (S n)) 32 (crc_poly CRC32_MPEG2) r) with
      (crc_bits (S n) 32 (crc_poly CRC32_MPEG2)
         (if N.testbit r (32 - 1) then N.lxor (N.land (N.shiftl r 1) (N.ones 32)) (crc_poly CRC32_MPEG2)
          else N.land (N.shiftl r 1) (N.ones 32))).
    apply IH.
Qed.

Lemma crc32_mpeg_lt l : crc32_mpeg l < U32.
Proof.
  unfold crc32_mpeg, crc, crc_finish. cbn [crc_refout crc_xorout crc_init crc_width CRC32_MPEG2].
  rewrite N.lxor_0_r. unfold crc_update.
  assert (G : forall l r, r < 2 ^ 32 -> fold_left (crc_byte CRC32_MPEG2) l r < 2 ^ 32).
  { clear l. induction l as [|b t IH]; intros r Hr; [exact Hr|].
    cbn [fold_left]. apply IH. unfold crc_byte. cbn [crc_refin crc_width crc_poly CRC32_MPEG2].
    apply (crc_bits_lt 7). }
  apply G. reflexivity.
Qed.

Lemma hdr_fits_iff h :
  hdr_fits h = true <-> h_tag h < 256 /\ h_flags h < 65536 /\ h_addr h < U32 /\ h_count h < U32 /\ h_data h < U32.
Proof.
  unfold hdr_fits, hdr_flds, cmdhdr_format. cbn [pack_fits fld_fits snd].
  change (2 ^ (8 * N.of_nat 1)) with 256. change (2 ^ (8 * N.of_nat 2)) with 65536. change (2 ^ (8 * N.of_nat 4)) with U32.
  rewrite !andb_true_iff, !N.ltb_lt. intuition; reflexivity.
Qed.

Lemma hdr_export_head h : exists tl, hdr_export h = hdr_crc h mod 256 :: h_tag h mod 256 :: tl.
Proof. unfold hdr_export, hdr_raw, cmdhdr_format, hdr_flds. cbn [pack pack1 snd le_enc app]. eexists. reflexivity. Qed.

Lemma cmd_parse_hdr h k rest :
  hdr_fits h = true -> assoc (h_tag h) cmd_class_table = Some k ->
  cmd_parse (hdr_export h ++ rest) = parse_class k h (hdr_export h ++ rest).
Proof.
  intros Hf Hk. pose proof (hdr_parse_export h rest Hf) as HP.
  destruct (hdr_export_head h) as [tl E]. unfold cmd_parse. rewrite E in *. cbn [app].
  apply hdr_fits_iff in Hf as (Ht & _). rewrite (N.mod_small _ _ Ht), Hk.
  cbn [app] in HP. rewrite (N.mod_small _ _ Ht) in HP. rewrite HP. reflexivity.
Qed.

Ltac split_wf H :=
  repeat match type of H with
         | _ && _ = true => let H2 := fresh "W" in apply andb_true_iff in H as [H H2]
         end.

Ltac ltb_hyps :=
  repeat match goal with
         | H : (_ <? _) = true |- _ => apply N.ltb_lt in H
         | H : addr_ok _ = true |- _ => unfold addr_ok in H
         | H : (_ =? _) = true |- _ => apply N.eqb_eq in H
         end.

Lemma fits_intro t f a c d :
  t < 256 -> f < 65536 -> a < U32 -> c < U32 -> d < U32 -> hdr_fits (mkHdr t f a c d) = true.
Proof. intros. apply hdr_fits_iff. cbn. auto. Qed.

Definition is8 (w2 : N) : N := if w2 =? 0 then 0 else 1.
Lemma is8_lt w : is8 w < 2. Proof. unfold is8. destruct (w =? 0); reflexivity. Qed.

Lemma mem_In x l : mem x l = true -> In x l.
Proof. unfold mem. rewrite existsb_exists. intros (y & Hy & E). apply N.eqb_eq in E. now subst. Qed.

Definition fill_w (p : N) : N := if p <? 256 then p * 16843009 else if p <? 65536 then p * 65537 else p.
Definition fill_l (l : N) : N := if l =? 0 then 4 else l.

Lemma fill_word_ok p : p < U32 -> fill_word p = Ok (fill_w p).
Proof.
  intros H. unfold fill_word, fill_w. destruct (p <? 256); [reflexivity|]. destruct (p <? 65536); [reflexivity|].
  apply N.ltb_lt in H. rewrite H. reflexivity.
Qed.

Lemma fill_w_lt p : p < U32 -> fill_w p < U32.
Proof.
  intros H. unfold fill_w. unfold U32 in *.
  destruct (p <? 256) eqn:E1; [apply N.ltb_lt in E1; lia|].
  destruct (p <? 65536) eqn:E2; [apply N.ltb_lt in E2; lia|]. exact H.
Qed.

Lemma fill_w_idem p : p < U32 -> fill_w (fill_w p) = fill_w p.
Proof.
  intros H. unfold fill_w at 2 3. 
  destruct (p <? 256) eqn:E1.
  - apply N.ltb_lt in E1. destruct (N.eq_dec p 0) as [->|Hp]; [reflexivity|].
    unfold fill_w. replace (p * 16843009 <? 256) with false by (symmetry; apply N.ltb_ge; lia).
    replace (p * 16843009 <? 65536) with false by (symmetry; apply N.ltb_ge; lia). reflexivity.
  - apply N.ltb_ge in E1. destruct (p <? 65536) eqn:E2.
    + unfold fill_w. replace (p * 65537 <? 256) with false by (symmetry; apply N.ltb_ge; lia).
      replace (p * 65537 <? 65536) with false by (symmetry; apply N.ltb_ge; lia). reflexivity.
    + unfold fill_w. rewrite E2. replace (p <? 256) with false by (symmetry; apply N.ltb_ge; lia). reflexivity.
Qed.

Lemma align16_ge n : (n <= align16 n)%nat.
Proof. unfold align16. lia. Qed.
Lemma align16_mod n : (align16 n mod 16 = 0)%nat.
Proof. unfold align16. apply Nat.mod_mul. discriminate. Qed.
Lemma align16_mult n : (n mod 16 = 0)%nat -> align16 n = n.
Proof. unfold align16. lia. Qed.

Lemma load_data_length d pad : length (load_data d pad) = align16 (length d).
Proof. unfold load_data. rewrite app_length, fit_length. pose proof (align16_ge (length d)). lia. Qed.

(* A well-formed command is exported as its header followed by its payload (LOAD only).  What the builder puts into the
   header, that it fits the container fields, and what SPSDK's parser and the ROM's decoder make of the bytes are four
   facts about that header, each by cases on the command. *)
Definition hdr_of (c : cmd) : hdr :=
  match c with
  | CNop => mkHdr TAG_NOP 0 0 0 0
  | CTag => mkHdr TAG_TAG 0 0 0 0
  | CReset => mkHdr TAG_RESET 0 0 0 0
  | CLoad a m d pad => mkHdr TAG_LOAD (or_memid 0 m) a (nlen (load_data d pad)) (crc32_mpeg (load_data d pad))
  | CFill a p l => mkHdr TAG_FILL 0 a (fill_l l) (fill_w p)
  | CJump a g None => mkHdr TAG_JUMP 0 a 0 g
  | CJump a g (Some s) => mkHdr TAG_JUMP 2 a s g
  | CCall a g => mkHdr TAG_CALL 0 a 0 g
  | CErase a l f m => mkHdr TAG_ERASE (or_memid f m) a l 0
  | CMemEnable a s m => mkHdr TAG_MEM_ENABLE (or_memid 0 m) a s 0
  | CProg a m w1 w2 f => mkHdr TAG_PROG (set_field (N.lor (is8 w2) f) ROM_MEM_DEVICE_ID_MASK ROM_MEM_DEVICE_ID_SHIFT m) a w1 w2
  | CVerCheck t v => mkHdr TAG_FW_VERSION_CHECK 0 t v 0
  | CKsRestore a c => mkHdr TAG_WR_KEYSTORE_TO_NV (set_field 0 KS_DEVICE_ID_MASK KS_DEVICE_ID_SHIFT c) a KS_COUNT 0
  | CKsBackup a c => mkHdr TAG_WR_KEYSTORE_FROM_NV (set_field 0 KS_DEVICE_ID_MASK KS_DEVICE_ID_SHIFT c) a KS_COUNT 0
  end.
Definition payload_of (c : cmd) : list N := match c with CLoad _ _ d pad => load_data d pad | _ => [] end.

Lemma fill_l_ok l : l mod 4 =? 0 = true -> fill_l l mod 4 =? 0 = true.
Proof. unfold fill_l. destruct (l =? 0); [reflexivity | auto]. Qed.

Lemma cmd_build_wf c : wf_cmd c = true -> cmd_build c = Ok (hdr_of c, payload_of c).
Proof.
  destruct c as [ | | |a m d pad|a p l|a g [s|]|a g|a l f m|a s m|a m w1 w2 f|t v|a c|a c];
    cbn [wf_cmd cmd_build hdr_of payload_of]; intros W; split_wf W;
    try (fold (fill_l l); rewrite (fill_l_ok l W0), (fill_word_ok p) by now apply N.ltb_lt);
    rewrite ?W, ?W0, ?W1, ?W2, ?W3; reflexivity.
Qed.

Lemma cmd_obs_wf c : wf_cmd c = true ->
  cmd_obs c = Ok (hdr_of c, (if h_tag (hdr_of c) =? TAG_FILL then be_enc 4 (h_data (hdr_of c)) else payload_of c), cmd_aux c).
Proof. intros W. unfold cmd_obs. now rewrite cmd_build_wf. Qed.

Lemma hdr_of_fits c : wf_cmd c = true -> hdr_fits (hdr_of c) = true.
Proof.
  destruct c as [ | | |a m d pad|a p l|a g [s|]|a g|a l f m|a s m|a m w1 w2 f|t v|a c|a c];
    cbn [wf_cmd hdr_of]; intros W; split_wf W; ltb_hyps; apply fits_intro; try assumption; try reflexivity.
  - apply (memid_facts 0 m); [reflexivity | assumption].
  - unfold nlen. now rewrite load_data_length.
  - apply crc32_mpeg_lt.
  - unfold fill_l. destruct (l =? 0); [reflexivity | assumption].
  - now apply fill_w_lt.
  - now apply (memid_facts f m).
  - apply (memid_facts 0 m); [reflexivity | assumption].
  - apply (prog_facts (is8 w2) f m); [apply is8_lt | assumption..].
  - apply mem_In in W. cbn in W. destruct W as [<-|[<-|[]]]; reflexivity.
  - apply (prog_facts 0 0 c); [reflexivity..| assumption].
  - apply (prog_facts 0 0 c); [reflexivity..| assumption].
Qed.

Lemma cmd_parse_wf c rest : wf_cmd c = true ->
  cmd_parse (hdr_export (hdr_of c) ++ payload_of c ++ rest) = cmd_obs c.
Proof.
  intros W. pose proof (hdr_of_fits c W) as Hf. rewrite (cmd_obs_wf c W).
  destruct c as [ | | |a m d pad|a p l|a g [s|]|a g|a l f m|a s m|a m w1 w2 f|t v|a c|a c];
    cbn [hdr_of payload_of cmd_aux app] in *;
    (erewrite cmd_parse_hdr by (exact Hf || reflexivity)); cbn [wf_cmd] in W; split_wf W; ltb_hyps;
    unfold parse_class; cbn [h_tag h_flags h_addr h_count h_data]; cbv zeta; try reflexivity.
  - (* LOAD: the parser takes the padded data back and checks its CRC *)
    set (dd := load_data d pad) in *.
    assert (HLm : (length dd mod 16 = 0)%nat) by (unfold dd; rewrite load_data_length; apply align16_mod).
    change HDR_SIZE with 16%nat. rewrite (skipn_app_exact _ _ 16 (hdr_export_length _)).
    replace (N.to_nat (N.min ((nlen dd + 15) / 16 * 16) (nlen (hdr_export (mkHdr TAG_LOAD (or_memid 0 m) a (nlen dd) (crc32_mpeg dd)) ++ dd ++ rest))))
      with (length dd) by (unfold nlen; rewrite !app_length, hdr_export_length; lia).
    rewrite (firstn_app_exact dd rest _ eq_refl), N.eqb_refl. cbn [negb].
    unfold aligned16. rewrite HLm. cbn [Nat.eqb negb].
    destruct (memid_facts 0 m eq_refl W3) as (_ & -> & _). reflexivity.
  - assert (Hl0 : fill_l l =? 0 = false) by (unfold fill_l; destruct (l =? 0) eqn:E; [reflexivity | exact E]).
    rewrite Hl0, (fill_l_ok l) by now apply N.eqb_eq.
    rewrite (fill_word_ok _ (fill_w_lt p W2)), fill_w_idem by assumption. reflexivity.
  - destruct (memid_facts f m W1 W0) as (_ & -> & -> & _). reflexivity.
  - destruct (memid_facts 0 m eq_refl W0) as (_ & -> & _). reflexivity.
  - destruct (prog_facts (is8 w2) f m (is8_lt w2) W0 W3) as (_ & F3 & F2 & _). fold (is8 w2). rewrite F3, F2. reflexivity.
  - rewrite W. reflexivity.
  - destruct (prog_facts 0 0 c eq_refl eq_refl W1) as (_ & F1 & _).
    change (N.shiftr (N.land (set_field 0 KS_DEVICE_ID_MASK KS_DEVICE_ID_SHIFT c) KS_DEVICE_ID_MASK) KS_DEVICE_ID_SHIFT = c) in F1.
    rewrite F1, W0. reflexivity.
  - destruct (prog_facts 0 0 c eq_refl eq_refl W1) as (_ & F1 & _).
    change (N.shiftr (N.land (set_field 0 KS_DEVICE_ID_MASK KS_DEVICE_ID_SHIFT c) KS_DEVICE_ID_MASK) KS_DEVICE_ID_SHIFT = c) in F1.
    rewrite F1, W0. reflexivity.
Qed.

Lemma rom_cmd_wf c rest : wf_cmd c = true ->
  rom_cmd (hdr_export (hdr_of c) ++ payload_of c ++ rest) = Some (sem c, (16 + length (payload_of c))%nat).
Proof.
  intros W. pose proof (hdr_of_fits c W) as Hf.
  destruct c as [ | | |a m d pad|a p l|a g [s|]|a g|a l f m|a s m|a m w1 w2 f|t v|a c|a c];
    cbn [hdr_of payload_of app length] in *; unfold rom_cmd; rewrite rom_hdr_export by exact Hf;
    cbn [wf_cmd] in W; split_wf W; ltb_hyps; cbn [h_tag h_flags h_addr h_count h_data]; cbv zeta; cbn [sem]; try reflexivity.
  - (* LOAD: the ROM reads count bytes rounded up to whole blocks and checks the CRC over all of them *)
    set (dd := load_data d pad) in *.
    assert (HLm : (length dd mod 16 = 0)%nat) by (unfold dd; rewrite load_data_length; apply align16_mod).
    rewrite (skipn_app_exact _ _ 16 (hdr_export_length _)).
    replace (nlen (hdr_export (mkHdr TAG_LOAD (or_memid 0 m) a (nlen dd) (crc32_mpeg dd)) ++ dd ++ rest) <? nlen dd) with false
      by (symmetry; apply N.ltb_ge; unfold nlen; rewrite !app_length; lia).
    unfold nlen. rewrite Nat2N.id.
    replace ((length dd + 15) / 16 * 16)%nat with (length dd) by lia.
    rewrite (firstn_app_exact dd rest _ eq_refl), Nat.eqb_refl. cbn [negb].
    fold (crc32_mpeg dd). rewrite N.eqb_refl, firstn_all. cbn [negb].
    destruct (memid_facts 0 m eq_refl W3) as (_ & _ & _ & -> & -> & _). reflexivity.
  - destruct (memid_facts f m W1 W0) as (_ & _ & _ & -> & -> & -> ). reflexivity.
  - destruct (memid_facts 0 m eq_refl W0) as (_ & _ & _ & -> & -> & _). reflexivity.
  - destruct (prog_facts (is8 w2) f m (is8_lt w2) W0 W3) as (_ & _ & _ & F1 & F0). fold (is8 w2). rewrite F1, F0. reflexivity.
  - destruct (prog_facts 0 0 c eq_refl eq_refl W1) as (_ & _ & _ & F0 & _).
    change (fdev (set_field 0 KS_DEVICE_ID_MASK KS_DEVICE_ID_SHIFT c) = c) in F0. rewrite F0. reflexivity.
  - destruct (prog_facts 0 0 c eq_refl eq_refl W1) as (_ & _ & _ & F0 & _).
    change (fdev (set_field 0 KS_DEVICE_ID_MASK KS_DEVICE_ID_SHIFT c) = c) in F0. rewrite F0. reflexivity.
Qed.

Definition cmd_good (c : cmd) (b : list N) (o : pcmd) : Prop :=
  cmd_export c = Ok b /\ cmd_obs c = Ok o /\ (16 <= length b)%nat /\ (length b mod 16 = 0)%nat /\
  pcmd_size o = length b /\
  forall rest, cmd_parse (b ++ rest) = Ok o /\ rom_cmd (b ++ rest) = Some (sem c, length b).

Lemma payload_aligned c : wf_cmd c = true -> (length (payload_of c) mod 16 = 0)%nat.
Proof. destruct c; try reflexivity. intros _. cbn [payload_of]. rewrite load_data_length. apply align16_mod. Qed.

Lemma cmd_ok c : wf_cmd c = true -> exists b o, cmd_good c b o.
Proof.
  intros W. pose proof (payload_aligned c W) as Hp.
  exists (hdr_export (hdr_of c) ++ payload_of c). eexists. unfold cmd_good.
  split; [unfold cmd_export; rewrite (cmd_build_wf c W), (hdr_of_fits c W); reflexivity|].
  split; [exact (cmd_obs_wf c W)|]. rewrite app_length, hdr_export_length.
  split; [lia|]. split; [lia|]. split.
  - unfold pcmd_size. destruct c as [ | | |a m d pad| | ? ? [?|]| | | | | | | ]; try reflexivity. cbn [hdr_of h_tag payload_of]. rewrite N.eqb_refl.
    change HDR_SIZE with 16%nat. cbn [payload_of] in Hp. change (TAG_LOAD =? TAG_FILL) with false. cbv iota.
    now rewrite align16_mult.
  - intros rest. rewrite <- app_assoc. split; [rewrite (cmd_parse_wf c rest W); exact (cmd_obs_wf c W) | exact (rom_cmd_wf c rest W)].
Qed.

Lemma cmds_parse_step f d p :
  d <> [] -> cmd_parse d = Ok p ->
  cmds_parse (S f) d = match cmds_parse f (skipn (pcmd_size p) d) with Err e => Err e | Ok r => Ok (p :: r) end.
Proof. intros Hd Hp. destruct d; [contradiction|]. cbn [cmds_parse]. rewrite Hp. reflexivity. Qed.

Lemma rom_cmds_step f d c n :
  d <> [] -> rom_cmd d = Some (c, n) ->
  rom_cmds (S f) d = match rom_cmds f (skipn n d) with None => None | Some r => Some (c :: r) end.
Proof. intros Hd Hp. destruct d; [contradiction|]. cbn [rom_cmds]. rewrite Hp. reflexivity. Qed.

Lemma nonempty_len {A} (l : list A) : (0 < length l)%nat -> l <> [].
Proof. destruct l; simpl; [lia|discriminate]. Qed.

Lemma cmds_stream cs : forallb wf_cmd cs = true ->
  exists bs os, cmds_export cs = Ok bs /\ (length bs mod 16 = 0)%nat /\ (16 * length cs <= length bs)%nat /\
    Forall2 (fun c o => cmd_obs c = Ok o) cs os /\
    forall fuel, (length cs < fuel)%nat -> cmds_parse fuel bs = Ok os /\ rom_cmds fuel bs = Some (map sem cs).
Proof.
  induction cs as [|c t IH]; intros W.
  - exists [], []. repeat split; try constructor.
    + destruct fuel; [lia|reflexivity].
    + destruct fuel; [simpl in *; lia|reflexivity].
  - cbn [forallb] in W. apply andb_true_iff in W as [Wc Wt].
    destruct (cmd_ok c Wc) as (b & o & He & Ho & Hl16 & Hm & Hs & Hr).
    destruct (IH Wt) as (bs & os & Hes & Hms & Hls & Hos & Hrs).
    exists (b ++ bs), (o :: os). split; [|split; [|split; [|split]]].
    + cbn [cmds_export]. rewrite He, Hes. reflexivity.
    + rewrite app_length. rewrite Nat.add_mod by discriminate. rewrite Hm, Hms. reflexivity.
    + rewrite app_length. cbn [length]. lia.
    + constructor; assumption.
    + intros fuel Hfuel. destruct fuel as [|f]; [lia|]. cbn [length] in Hfuel.
      assert (Hne : b ++ bs <> []) by (apply nonempty_len; rewrite app_length; lia).
      destruct (Hr bs) as [Hp1 Hr1]. destruct (Hrs f ltac:(lia)) as [Hp2 Hr2]. split.
      * rewrite (cmds_parse_step f _ o Hne Hp1). rewrite Hs, (skipn_app_exact b bs _ eq_refl), Hp2. reflexivity.
      * rewrite (rom_cmds_step f _ _ _ Hne Hr1). rewrite (skipn_app_exact b bs _ eq_refl), Hr2. reflexivity.
Qed.

Definition blocksK (k : nat) (bs : list (list N)) : Prop := Forall (fun b => length b = k) bs.

Lemma chunks_blocksK_of k (l : list N) : (0 < k)%nat -> (length l mod k = 0)%nat -> blocksK k (chunks k l).
Proof. intros Hk H. destruct (mod_mult_exists _ k Hk H) as [q Hq]. exact (chunks_full k l q Hk Hq). Qed.

Lemma chunks_count k (l : list N) : (0 < k)%nat -> (length l mod k = 0)%nat -> length (chunks k l) = (length l / k)%nat.
Proof.
  intros Hk H. pose proof (concat_length_uniform k _ (chunks_blocksK_of k l Hk H)) as E.
  rewrite concat_chunks in E by assumption. rewrite E, Nat.mul_comm, Nat.div_mul by lia. reflexivity.
Qed.

Lemma sha256_length m : length (sha256 m) = 32%nat.
Proof.
  unfold sha256, sha2. destruct (sha2_blocks cfg256 H256 (pad cfg256 m)) as [[[[[[[a b] c] d] e] f] g] h].
  unfold digest_bytes. cbn [map concat wbytes cfg256]. rewrite firstn_length, !app_length, !be_enc_length. reflexivity.
Qed.

Lemma hmac256_length k m : length (hmac256 k m) = 32%nat.
Proof. unfold hmac256, hmac_sha256, hmac_gen. apply sha256_length. Qed.

Lemma skipn_firstn_len {A} (l : list A) p : skipn (length (firstn p l)) l = skipn p l.
Proof.
  rewrite firstn_length. destruct (Nat.le_gt_cases p (length l)).
  - now rewrite Nat.min_l.
  - rewrite Nat.min_r by lia. rewrite skipn_all. symmetry. apply skipn_all2. lia.
Qed.

Lemma hmac_groups_SS n per c : hmac_groups (S (S n)) per c = firstn per c :: hmac_groups (S n) per (skipn per c).
Proof. reflexivity. Qed.

Lemma hmac_groups_length n per c : length (hmac_groups n per c) = n.
Proof.
  revert c. induction n as [|n IH]; intros c; [reflexivity|].
  destruct n as [|n']; [reflexivity|].
  rewrite hmac_groups_SS.
  cbn [length]. now rewrite IH.
Qed.

Lemma hmac_groups_concat n per c : (0 < n)%nat -> concat (hmac_groups n per c) = c.
Proof.
  revert c. induction n as [|n IH]; intros c Hn; [lia|].
  destruct n as [|n']; [cbn; apply app_nil_r|].
  rewrite hmac_groups_SS.
  cbn [concat]. rewrite IH by lia. apply firstn_skipn.
Qed.

Lemma table_length mac gs : length (concat (map (hmac256 mac) gs)) = (32 * length gs)%nat.
Proof.
  induction gs as [|g t IH]; [reflexivity|]. cbn [map concat length]. rewrite app_length, hmac256_length, IH. lia.
Qed.

Lemma rom_groups_ok_built mac per : forall n body,
  (0 < n)%nat -> rom_groups_ok mac n per body (concat (map (hmac256 mac) (hmac_groups n per body))) = true.
Proof.
  induction n as [|n IH]; intros body Hn; [lia|].
  destruct n as [|n'].
  - cbn [hmac_groups map concat rom_groups_ok]. rewrite app_nil_r.
    rewrite firstn_all2 by (rewrite hmac256_length; lia).
    rewrite eqb_list_refl, skipn_all. reflexivity.
  - rewrite hmac_groups_SS.
    cbn [map concat].
    change (rom_groups_ok mac (S (S n')) per body ?t) with
      (eqb_list (firstn 32 t) (hmac256 mac (firstn per body)) &&
       rom_groups_ok mac (S n') per (skipn (length (firstn per body)) body) (skipn 32 t)).
    cbn [rom_groups_ok].
    rewrite (firstn_app_exact _ _ 32 (hmac256_length _ _)), (skipn_app_exact _ _ 32 (hmac256_length _ _)).
    rewrite eqb_list_refl, skipn_firstn_len. cbn [andb]. apply IH. lia.
Qed.

(* a run of n sections, each = encrypted header (16) ++ HMAC(header) ++ [HMAC(g) | g in groups] ++ concat groups *)
Inductive covered (mac : list N) : list N -> nat -> Prop :=
| cov_nil : covered mac [] 0
| cov_sec ench gs rest n :
    length ench = 16%nat -> gs <> [] -> covered mac rest n ->
    covered mac (ench ++ hmac256 mac ench ++ concat (map (hmac256 mac) gs) ++ concat gs ++ rest) (S n).

Lemma check_groups_SS mac n' per rem d t :
  check_groups mac (S (S n')) per rem d t =
  eqb_list (hmac256 mac (firstn per d)) (firstn 32 t) && check_groups mac (S n') per (rem - per) (skipn per d) (skipn 32 t).
Proof. reflexivity. Qed.

Lemma check_groups_built mac per : forall n body rest,
  (0 < n)%nat -> ((n - 1) * per <= length body)%nat ->
  check_groups mac n per (length body) (body ++ rest) (concat (map (hmac256 mac) (hmac_groups n per body))) = true.
Proof.
  induction n as [|n IH]; intros body rest Hn Hlen; [lia|].
  destruct n as [|n'].
  - cbn [hmac_groups map concat check_groups Nat.eqb]. rewrite app_nil_r.
    rewrite (firstn_app_exact body rest _ eq_refl).
    rewrite firstn_all2 by (rewrite hmac256_length; lia). rewrite eqb_list_refl. reflexivity.
  - rewrite hmac_groups_SS.
    cbn [map concat].
    rewrite check_groups_SS.
    assert (Hper : (per <= length body)%nat) by nia.
    rewrite firstn_app. replace (per - length body)%nat with 0%nat by lia. change (firstn 0 rest) with (@nil N). rewrite app_nil_r.
    rewrite (firstn_app_exact _ _ 32 (hmac256_length _ _)), (skipn_app_exact _ _ 32 (hmac256_length _ _)).
    rewrite eqb_list_refl. cbn [andb].
    rewrite skipn_app. replace (per - length body)%nat with 0%nat by lia. change (skipn 0 rest) with rest.
    replace (length body - per)%nat with (length (skipn per body)) by (rewrite skipn_length; reflexivity).
    apply IH; [lia|]. rewrite skipn_length. nia.
Qed.

Definition sec_obs_rel (s : section) (so : N * N * list pcmd) : Prop :=
  exists cd os, cmds_export (s_cmds s) = Ok cd /\ Forall2 (fun c o => cmd_obs c = Ok o) (s_cmds s) os /\
                so = (s_uid s, N.of_nat (sec_hmac_count (s_hmac s) (length cd)), os).

(* where the four parts of a section lie in a file *)
Lemma sec_slices {A} (pre e h t b post : list A) off :
  length pre = off -> length e = 16%nat -> length h = 32%nat ->
  let f := pre ++ (e ++ h ++ t ++ b) ++ post in
  slice f off (off + 16) = e /\ slice f (off + 16) (off + 48) = h /\
  slice f (off + 48) (off + 48 + length t) = t /\
  slice f (off + 48 + length t) (off + 48 + length t + length b) = b /\
  skipn (off + 48 + length t) f = b ++ post /\
  length f = (off + (48 + length t + length b) + length post)%nat.
Proof.
  intros Hp He Hh f. unfold f. rewrite <- !app_assoc. repeat split.
  - apply slice_app_mid; lia.
  - rewrite (app_assoc pre e). apply slice_app_mid; rewrite ?app_length; lia.
  - rewrite (app_assoc pre e), (app_assoc (pre ++ e)). apply slice_app_mid; rewrite ?app_length; lia.
  - rewrite (app_assoc pre e), (app_assoc (pre ++ e)), (app_assoc ((pre ++ e) ++ h)).
    apply slice_app_mid; rewrite ?app_length; lia.
  - rewrite (app_assoc pre e), (app_assoc (pre ++ e)), (app_assoc ((pre ++ e) ++ h)).
    apply skipn_app_exact. rewrite !app_length. lia.
  - rewrite !app_length. lia.
Qed.

Section KeyedProofs.
Variable ek : list N -> list N.
Hypothesis ek_len : forall b, length (ek b) = 16%nat.

Lemma xblock_length nonce c b : length b = 16%nat -> length (xblock ek nonce c b) = 16%nat.
Proof. intros H. unfold xblock. rewrite xor_bytes_length; [assumption| now rewrite ek_len]. Qed.

Lemma xblock_invol nonce c b : length b = 16%nat -> xblock ek nonce c (xblock ek nonce c b) = b.
Proof. intros H. unfold xblock. apply xor_bytes_involutive. now rewrite ek_len. Qed.

(* a header encrypted in place with its block counter reads back, for the ROM and for SPSDK's parser *)
Lemma rom_hdr_sealed nonce c h :
  hdr_fits h = true -> rom_hdr (xblock ek nonce c (xblock ek nonce c (hdr_export h))) = Some h.
Proof.
  intros Hf. rewrite xblock_invol by apply hdr_export_length. rewrite <- (app_nil_r (hdr_export h)). now apply rom_hdr_export.
Qed.

Lemma hdr_parse_sealed nonce c h :
  hdr_fits h = true -> hdr_parse (xblock ek nonce c (xblock ek nonce c (hdr_export h))) = Ok h.
Proof.
  intros Hf. rewrite xblock_invol by apply hdr_export_length. rewrite <- (app_nil_r (hdr_export h)). now apply hdr_parse_export.
Qed.

Lemma xblocks_blocks16 nonce : forall bs c, blocksK 16 bs -> blocksK 16 (xblocks ek nonce c bs).
Proof.
  induction bs as [|b t IH]; intros c H; [constructor|]. inversion H; subst.
  cbn [xblocks]. constructor; [now apply xblock_length| now apply IH].
Qed.

Lemma xblocks_invol nonce : forall bs c, blocksK 16 bs -> xblocks ek nonce c (xblocks ek nonce c bs) = bs.
Proof.
  induction bs as [|b t IH]; intros c H; [reflexivity|]. inversion H; subst.
  cbn [xblocks]. rewrite xblock_invol by assumption. now rewrite IH.
Qed.

Lemma xblocks_length nonce : forall bs c, length (xblocks ek nonce c bs) = length bs.
Proof. induction bs as [|b t IH]; intros c; [reflexivity|]. cbn [xblocks length]. now rewrite IH. Qed.

Lemma body_roundtrip nonce c cd :
  (length cd mod 16 = 0)%nat ->
  concat (xblocks ek nonce c (chunks 16 (concat (xblocks ek nonce c (chunks 16 cd))))) = cd.
Proof.
  intros H. rewrite chunks_concat by (lia || apply xblocks_blocks16, chunks_blocksK_of; (lia || exact H)).
  rewrite xblocks_invol by (apply chunks_blocksK_of; (lia || exact H)). apply concat_chunks. lia.
Qed.

Lemma body_length nonce c cd :
  (length cd mod 16 = 0)%nat -> length (concat (xblocks ek nonce c (chunks 16 cd))) = length cd.
Proof.
  intros H. rewrite (concat_length_uniform 16) by (apply xblocks_blocks16, chunks_blocksK_of; (lia || exact H)).
  rewrite xblocks_length, chunks_count by (lia || assumption). lia.
Qed.

Lemma pad16z_mult l : (length l mod 16 = 0)%nat -> pad16z l = l.
Proof. intros H. unfold pad16z. rewrite align16_mult by assumption. rewrite Nat.sub_diag. apply app_nil_r. Qed.

Lemma sec_hmac_count_bounds req raw :
  (16 <= raw)%nat -> (raw mod 16 = 0)%nat ->
  (1 <= sec_hmac_count req raw <= raw / 16)%nat.
Proof.
  intros H1 H2. unfold sec_hmac_count.
  replace (Nat.eqb raw 0) with false by (symmetry; apply Nat.eqb_neq; lia).
  replace ((raw + 15) / 16)%nat with (raw / 16)%nat by lia.
  assert (Hr : (1 <= (if (req =? 0)%N then 1 else N.to_nat req))%nat).
  { destruct (req =? 0)%N eqn:E; [lia|]. apply N.eqb_neq in E. lia. }
  destruct (Nat.leb _ _) eqn:E.
  - apply Nat.leb_le in E. lia.
  - lia.
Qed.

Lemma slice_at {A} (pre x post : list A) a : length pre = a -> slice (pre ++ x ++ post) a (a + length x) = x.
Proof. intros H. now apply slice_app_mid. Qed.

Definition sec_hdr (s : section) (cd : list N) : hdr :=
  mkHdr TAG_TAG (N.lor SECT_BOOTABLE SECT_LAST_SECT) (s_uid s) (N.of_nat (length cd / 16))
        (N.of_nat (sec_hmac_count (s_hmac s) (length cd))).

Lemma sec_export_inv mac nonce ctr s b :
  forallb wf_cmd (s_cmds s) = true -> sec_export ek mac nonce ctr s = Ok b ->
  exists cd os,
    cmds_export (s_cmds s) = Ok cd /\ (16 <= length cd)%nat /\ (length cd mod 16 = 0)%nat /\
    Forall2 (fun c o => cmd_obs c = Ok o) (s_cmds s) os /\
    cmds_parse (S (length cd)) cd = Ok os /\ rom_cmds (S (length cd)) cd = Some (map sem (s_cmds s)) /\
    let hc := sec_hmac_count (s_hmac s) (length cd) in
    let count := (length cd / 16)%nat in
    let ench := xblock ek nonce ctr (hdr_export (sec_hdr s cd)) in
    let body := concat (xblocks ek nonce (ctr + N.of_nat (3 + 2 * hc)) (chunks 16 cd)) in
    let table := concat (map (hmac256 mac) (hmac_groups hc (count / hc * 16) body)) in
    (1 <= hc <= count)%nat /\ hdr_fits (sec_hdr s cd) = true /\ ctr + N.of_nat (3 + 2 * hc + count) <= U32 /\
    b = ench ++ hmac256 mac ench ++ table ++ body /\
    length ench = 16%nat /\ length table = (32 * hc)%nat /\ length body = (16 * count)%nat.
Proof.
  intros W H. unfold sec_export in H.
  destruct (cmds_stream _ W) as (cd & os & Hcd & Hcdm & Hcdl & Hos & Hfuel).
  destruct (s_cmds s) as [|c0 ct] eqn:Ecs; [discriminate|]. rewrite <- Ecs in *. rewrite Hcd in H.
  assert (Hcd16 : (16 <= length cd)%nat) by (rewrite Ecs in Hcdl; cbn [length] in Hcdl; lia).
  rewrite (pad16z_mult cd Hcdm) in H. fold (sec_hdr s cd) in H.
  destruct (hdr_fits (sec_hdr s cd)) eqn:Hf; [|discriminate]. cbn [negb] in H.
  destruct (U32 <? _) eqn:Hov in H; [discriminate|]. apply N.ltb_ge in Hov.
  injection H as <-.
  destruct (Hfuel (S (length cd)) ltac:(lia)) as [Hp Hr].
  destruct (sec_hmac_count_bounds (s_hmac s) (length cd) Hcd16 Hcdm) as [Hhc1 Hhc2].
  exists cd, os. cbv zeta.
  split; [exact Hcd|]. split; [exact Hcd16|]. split; [exact Hcdm|]. split; [exact Hos|]. split; [exact Hp|]. split; [exact Hr|].
  split; [split; assumption|]. split; [exact Hf|]. split; [exact Hov|]. split.
  { repeat f_equal; lia. }
  split; [apply xblock_length, hdr_export_length|]. split.
  - rewrite table_length, hmac_groups_length. reflexivity.
  - rewrite body_length by assumption. lia.
Qed.

Ltac sec_parts Hinv cd :=
  cbv zeta in Hinv;
  set (hc := sec_hmac_count (s_hmac _) (length cd)) in *; set (count := (length cd / 16)%nat) in *;
  set (h := sec_hdr _ cd) in *;
  set (ench := xblock ek _ _ (hdr_export h)) in *;
  set (body := concat (xblocks ek _ (_ + N.of_nat (3 + 2 * hc)) (chunks 16 cd))) in *;
  set (table := concat (map (hmac256 _) (hmac_groups hc (count / hc * 16) body))) in *.

Lemma sec_export_rom mac nonce ctr s b :
  forallb wf_cmd (s_cmds s) = true -> sec_export ek mac nonce ctr s = Ok b ->
  (48 <= length b)%nat /\ (length b mod 16 = 0)%nat /\ ctr + N.of_nat (length b / 16) <= U32 /\
  forall pre post off,
    length pre = off -> (off mod 16 = 0)%nat -> ctr = ctr_of_nonce nonce + N.of_nat (off / 16) ->
    rom_section ek mac nonce (pre ++ b ++ post) off = Some (s_uid s, map sem (s_cmds s), length b).
Proof.
  intros W H. destruct (sec_export_inv mac nonce ctr s b W H) as (cd & os & Hcd & Hcd16 & Hcdm & _ & _ & Hrom & Hinv).
  sec_parts Hinv cd. destruct Hinv as ((Hhc1 & Hhc2) & Hf & Hov & -> & Lench & Ltab & Lbody).
  assert (Hplain : concat (xblocks ek nonce (ctr + N.of_nat (3 + 2 * hc)) (chunks 16 body)) = cd)
    by (unfold body; apply body_roundtrip; assumption).
  clear Hcdm.
  assert (Lb : length (ench ++ hmac256 mac ench ++ table ++ body) = (48 + 32 * hc + 16 * count)%nat)
    by (rewrite !app_length, Lench, hmac256_length, Ltab, Lbody; lia).
  split; [rewrite Lb; lia|]. split; [rewrite Lb; lia|]. split.
  { rewrite Lb. replace ((48 + 32 * hc + 16 * count) / 16)%nat with (3 + 2 * hc + count)%nat by lia. exact Hov. }
  intros pre post off Hpre Hoff Hctr. destruct (mod_mult_exists _ 16 ltac:(lia) Hoff) as [qo Hqo]. clear Hoff.
  destruct (sec_slices pre ench (hmac256 mac ench) table body post off Hpre Lench (hmac256_length _ _))
    as (S1 & S2 & S3 & S4 & _ & Lfile).
  rewrite Ltab in S3, S4, Lfile. rewrite Lbody in S4, Lfile.
  set (file := pre ++ (ench ++ hmac256 mac ench ++ table ++ body) ++ post) in *.
  unfold rom_section. rewrite <- Hctr. rewrite S1, S2, Lench. cbn [Nat.eqb negb].
  rewrite eqb_list_refl. cbn [negb].
  replace (ctr <? U32) with true by (symmetry; apply N.ltb_lt; lia). cbn [negb].
  unfold ench at 1. rewrite rom_hdr_sealed by assumption.
  cbn [h_count h_data h_tag h_addr h sec_hdr]. fold hc count.
  replace (nlen file <? N.of_nat count * 16) with false by (symmetry; apply N.ltb_ge; unfold nlen; rewrite Lfile; lia).
  replace (N.of_nat count <? N.of_nat hc) with false by (symmetry; apply N.ltb_ge; lia).
  cbn [orb]. rewrite !Nat2N.id. change (TAG_TAG =? 1) with true. cbn [negb].
  replace (Nat.eqb hc 0) with false by (symmetry; apply Nat.eqb_neq; lia).
  replace (Nat.ltb count hc) with false by (symmetry; apply Nat.ltb_ge; lia). cbn [orb].
  rewrite S3, S4, Lbody, Nat.eqb_refl. cbn [negb].
  unfold table at 1. rewrite rom_groups_ok_built by lia. cbn [negb].
  replace (ctr + N.of_nat (3 + 2 * hc + count) <=? U32) with true by (symmetry; apply N.leb_le; lia). cbn [negb].
  replace (ctr_of_nonce nonce + N.of_nat ((off + 48 + 32 * hc) / 16)) with (ctr + N.of_nat (3 + 2 * hc)) by lia.
  rewrite !Hplain, Hrom, Lb. reflexivity.
Qed.

Lemma sec_export_head mac nonce ctr s b :
  forallb wf_cmd (s_cmds s) = true -> sec_export ek mac nonce ctr s = Ok b ->
  exists cd h, cmds_export (s_cmds s) = Ok cd /\ rom_hdr (xblock ek nonce ctr (firstn 16 b)) = Some h /\
               h_data h = N.of_nat (sec_hmac_count (s_hmac s) (length cd)) /\
               length b = sec_size (sec_hmac_count (s_hmac s) (length cd)) (length cd).
Proof.
  intros W H. destruct (sec_export_inv mac nonce ctr s b W H) as (cd & os & Hcd & _ & Hcdm & _ & _ & _ & Hinv).
  sec_parts Hinv cd. destruct Hinv as (_ & Hf & _ & -> & Lench & Ltab & Lbody).
  exists cd, h. split; [exact Hcd|]. split; [|split; [reflexivity|]].
  - rewrite (firstn_app_exact ench _ 16 Lench). now apply rom_hdr_sealed.
  - rewrite !app_length, Lench, hmac256_length, Ltab, Lbody. unfold sec_size. fold hc. lia.
Qed.

Definition secs_wf (ss : list section) : Prop := Forall (fun s => forallb wf_cmd (s_cmds s) = true) ss.
Definition spec_of (ss : list section) : list (N * list rcmd) := map (fun s => (s_uid s, map sem (s_cmds s))) ss.

Lemma xblocks_nth nonce : forall bs c j d,
  (j < length bs)%nat -> nth j (xblocks ek nonce c bs) d = xblock ek nonce (c + N.of_nat j) (nth j bs d).
Proof.
  induction bs as [|b t IH]; intros c j d Hj; [cbn in Hj; lia|].
  destruct j as [|j].
  - cbn [nth xblocks N.of_nat]. now rewrite N.add_0_r.
  - cbn [nth xblocks]. rewrite IH by (cbn [length] in Hj; lia). f_equal. lia.
Qed.

Lemma secs_export_cons mac nonce ctr s t bs :
  secs_export ek mac nonce ctr (s :: t) = Ok bs ->
  exists b r, sec_export ek mac nonce ctr s = Ok b /\
              secs_export ek mac nonce (ctr + N.of_nat (length b / 16)) t = Ok r /\ bs = b ++ r.
Proof.
  cbn [secs_export]. destruct (sec_export ek mac nonce ctr s) as [b|] eqn:Eb; [|discriminate].
  destruct (secs_export ek mac nonce _ t) as [r|] eqn:Er; [|discriminate]. intros H. injection H as <-. exists b, r. auto.
Qed.

Lemma secs_export_rom mac nonce : forall ss ctr bs,
  secs_wf ss -> secs_export ek mac nonce ctr ss = Ok bs ->
  (length bs mod 16 = 0)%nat /\ (48 * length ss <= length bs)%nat /\
  forall pre post off fuel,
    length pre = off -> (off mod 16 = 0)%nat -> ctr = ctr_of_nonce nonce + N.of_nat (off / 16) ->
    (length ss < fuel)%nat ->
    rom_sections ek fuel mac nonce (pre ++ bs ++ post) off (off + length bs) = Some (spec_of ss).
Proof.
  induction ss as [|s t IH]; intros ctr bs W H.
  - cbn [secs_export] in H. injection H as <-. split; [reflexivity|]. split; [cbn; lia|].
    intros pre post off fuel Hpre Hoff Hctr Hfuel. destruct fuel as [|f]; [lia|].
    cbn [rom_sections length]. rewrite Nat.add_0_r. rewrite Nat.leb_refl, Nat.eqb_refl. reflexivity.
  - inversion W as [|? ? Ws Wt]; subst. destruct (secs_export_cons _ _ _ _ _ _ H) as (b & r & Eb & Er & ->).
    destruct (sec_export_rom mac nonce ctr s b Ws Eb) as (Hb48 & Hbm & Hbov & Hbrom).
    destruct (IH _ _ Wt Er) as (Hrm & Hrl & Hrrom).
    split; [|split].
    + rewrite app_length. lia.
    + rewrite app_length. cbn [length]. lia.
    + intros pre post off fuel Hpre Hoff Hctr Hfuel. destruct fuel as [|f]; [lia|].
      cbn [rom_sections]. rewrite app_length.
      replace (Nat.leb (off + (length b + length r)) off) with false by (symmetry; apply Nat.leb_gt; lia).
      rewrite <- app_assoc. rewrite (Hbrom pre (r ++ post) off Hpre Hoff Hctr).
      rewrite (app_assoc pre b).
      replace (off + (length b + length r))%nat with ((off + length b) + length r)%nat by lia.
      rewrite (Hrrom (pre ++ b) post (off + length b)%nat f); [reflexivity| rewrite app_length; lia | lia | lia |].
      cbn [length] in Hfuel. lia.
Qed.

(* the ROM's walk over the sections of a file: they start at a block boundary |pre| and the walk is bounded to their end *)
Lemma rom_walk_built mac nonce ss bs pre post fuel :
  secs_wf ss -> (length pre mod 16 = 0)%nat ->
  secs_export ek mac nonce (ctr_of_nonce nonce + N.of_nat (length pre / 16)) ss = Ok bs -> (length ss < fuel)%nat ->
  rom_sections ek fuel mac nonce (firstn (length pre + length bs) (pre ++ bs ++ post)) (length pre) (length pre + length bs)
  = Some (spec_of ss).
Proof.
  intros W Hal H Hfuel. destruct (secs_export_rom mac nonce ss _ bs W H) as (_ & _ & Hrom).
  rewrite app_assoc, firstn_app_exact by (rewrite app_length; reflexivity). rewrite <- (app_nil_r bs) at 1.
  now apply Hrom.
Qed.

Lemma secs_raw_size_ok mac nonce : forall ss ctr bs ssz,
  secs_wf ss -> secs_export ek mac nonce ctr ss = Ok bs -> secs_raw_size ss = Ok ssz -> ssz = length bs.
Proof.
  induction ss as [|s t IH]; intros ctr bs ssz W H R.
  - cbn in H, R. injection H as <-. injection R as <-. reflexivity.
  - inversion W as [|? ? Ws Wt]; subst. destruct (secs_export_cons _ _ _ _ _ _ H) as (b & r & Eb & Er & ->).
    cbn [secs_raw_size] in R.
    destruct (sec_export_inv mac nonce ctr s b Ws Eb) as (cd & os & Hcd & _ & Hcdm & _ & _ & _ & Hinv).
    cbv zeta in Hinv. destruct Hinv as (_ & _ & _ & -> & Lench & Ltab & Lbody).
    rewrite Hcd in R. destruct (secs_raw_size t) as [rt|] eqn:Ert; [|discriminate]. injection R as <-.
    rewrite (IH _ _ _ Wt Er eq_refl). rewrite !app_length, Lench, hmac256_length, Ltab, Lbody. f_equal.
    rewrite align16_mult; unfold sec_size; lia.
Qed.

Lemma sec_export_shape mac nonce ctr s b :
  forallb wf_cmd (s_cmds s) = true -> sec_export ek mac nonce ctr s = Ok b ->
  exists hplain cd gs,
    cmds_export (s_cmds s) = Ok cd /\ length hplain = 16%nat /\ gs <> [] /\ (length cd mod 16 = 0)%nat /\
    length gs = sec_hmac_count (s_hmac s) (length cd) /\
    concat gs = concat (xblocks ek nonce (ctr + N.of_nat (3 + 2 * length gs)) (chunks 16 cd)) /\
    b = xblock ek nonce ctr hplain ++ hmac256 mac (xblock ek nonce ctr hplain) ++ concat (map (hmac256 mac) gs) ++ concat gs.
Proof.
  intros W H. destruct (sec_export_inv mac nonce ctr s b W H) as (cd & os & Hcd & _ & Hcdm & _ & _ & _ & Hinv).
  sec_parts Hinv cd. destruct Hinv as ((Hhc1 & Hhc2) & _ & _ & -> & _).
  exists (hdr_export h), cd, (hmac_groups hc (count / hc * 16) body).
  rewrite hmac_groups_length, hmac_groups_concat by lia.
  split; [exact Hcd|]. split; [apply hdr_export_length|]. split.
  { intros Hnil. apply (f_equal (@length _)) in Hnil. rewrite hmac_groups_length in Hnil. cbn in Hnil. lia. }
  repeat split. exact Hcdm.
Qed.

Lemma secs_export_covered mac nonce : forall ss ctr bs,
  secs_wf ss -> secs_export ek mac nonce ctr ss = Ok bs -> covered mac bs (length ss).
Proof.
  induction ss as [|s t IH]; intros ctr bs W H.
  - cbn in H. injection H as <-. constructor.
  - inversion W as [|? ? Ws Wt]; subst. destruct (secs_export_cons _ _ _ _ _ _ H) as (b & r & Eb & Er & ->).
    destruct (sec_export_shape mac nonce ctr s b Ws Eb) as (hp & cd & gs & _ & Lhp & Hgs & _ & _ & _ & ->).
    rewrite <- !app_assoc. cbn [length]. constructor.
    + apply xblock_length; assumption.
    + exact Hgs.
    + eapply IH; eassumption.
Qed.

Lemma counter_per_block_lemma mac nonce ctr s b :
  forallb wf_cmd (s_cmds s) = true -> sec_export ek mac nonce ctr s = Ok b ->
  exists hplain cd gs,
    cmds_export (s_cmds s) = Ok cd /\ length hplain = 16%nat /\
    b = xblock ek nonce ctr hplain ++ hmac256 mac (xblock ek nonce ctr hplain) ++ concat (map (hmac256 mac) gs) ++ concat gs /\
    length (concat gs) = length cd /\
    forall j, (j < length cd / 16)%nat ->
      nth j (chunks 16 (concat gs)) [] = xblock ek nonce (ctr + N.of_nat (3 + 2 * length gs + j)) (nth j (chunks 16 cd) []).
Proof.
  intros W H. destruct (sec_export_shape mac nonce ctr s b W H) as (hp & cd & gs & Hcd & Lhp & _ & Hcdm & _ & Hgs & Hb).
  exists hp, cd, gs. split; [exact Hcd|]. split; [exact Lhp|]. split; [exact Hb|]. split.
  - rewrite Hgs. now apply body_length.
  - intros j Hj. rewrite Hgs. rewrite chunks_concat by (lia || apply xblocks_blocks16, chunks_blocksK_of; (lia || exact Hcdm)).
    rewrite (xblocks_nth nonce) by (rewrite chunks_count by (lia || assumption); exact Hj).
    f_equal. lia.
Qed.

Lemma sec_export_parse mac nonce ctr s b :
  forallb wf_cmd (s_cmds s) = true -> sec_export ek mac nonce ctr s = Ok b ->
  exists os cd, cmds_export (s_cmds s) = Ok cd /\ Forall2 (fun c o => cmd_obs c = Ok o) (s_cmds s) os /\
  forall pre post off, length pre = off ->
    sec_parse ek mac nonce ctr (pre ++ b ++ post) off =
    Ok (s_uid s, N.of_nat (sec_hmac_count (s_hmac s) (length cd)), os, length b).
Proof.
  intros W H. destruct (sec_export_inv mac nonce ctr s b W H) as (cd & os & Hcd & Hcd16 & Hcdm & Hos & Hp & _ & Hinv).
  sec_parts Hinv cd. destruct Hinv as ((Hhc1 & Hhc2) & Hf & Hov & -> & Lench & Ltab & Lbody).
  exists os, cd. split; [exact Hcd|]. split; [exact Hos|].
  assert (Hplain : concat (xblocks ek nonce (ctr + N.of_nat (3 + 2 * hc)) (chunks 16 body)) = cd)
    by (unfold body; apply body_roundtrip; assumption).
  clear Hcdm.
  assert (Lb : length (ench ++ hmac256 mac ench ++ table ++ body) = (48 + 32 * hc + 16 * count)%nat)
    by (rewrite !app_length, Lench, hmac256_length, Ltab, Lbody; lia).
  intros pre post off Hpre.
  destruct (sec_slices pre ench (hmac256 mac ench) table body post off Hpre Lench (hmac256_length _ _))
    as (S1 & S2 & S3 & S4 & S5 & Lfile).
  rewrite Ltab in S3, S4, S5, Lfile. rewrite Lbody in S4, Lfile.
  set (file := pre ++ (ench ++ hmac256 mac ench ++ table ++ body) ++ post) in *.
  unfold sec_parse. rewrite S1, S2, eqb_list_refl. cbn [negb].
  replace (U32 <=? ctr) with false by (symmetry; apply N.leb_gt; lia).
  unfold ench at 1. rewrite hdr_parse_sealed by assumption.
  cbn [h_count h_data h_tag h_addr h sec_hdr]. fold hc count.
  replace (nlen file <? N.of_nat hc) with false by (symmetry; apply N.ltb_ge; unfold nlen; rewrite Lfile; lia).
  replace (nlen file <? N.of_nat count) with false by (symmetry; apply N.ltb_ge; unfold nlen; rewrite Lfile; lia).
  cbn [orb]. rewrite !Nat2N.id.
  replace (Nat.eqb hc 0) with false by (symmetry; apply Nat.eqb_neq; lia).
  replace (count * 16)%nat with (16 * count)%nat by lia.
  rewrite S3, S4, S5. rewrite <- Lbody.
  unfold table at 1. rewrite check_groups_built by (try lia; rewrite Lbody; nia). cbn [negb].
  rewrite Lbody.
  replace (negb (Nat.eqb (16 * count) 0) && (U32 <? ctr + 1 + (N.of_nat hc + 1) * 2 + N.of_nat ((16 * count + 15) / 16)))
    with false by (symmetry; apply andb_false_iff; right; apply N.ltb_ge; lia).
  replace (ctr + 1 + (N.of_nat hc + 1) * 2) with (ctr + N.of_nat (3 + 2 * hc)) by lia.
  rewrite !Hplain, Hp, Lb. reflexivity.
Qed.

Lemma secs_export_parse mac nonce : forall ss ctr bs,
  secs_wf ss -> secs_export ek mac nonce ctr ss = Ok bs ->
  exists oss, Forall2 sec_obs_rel ss oss /\
  forall pre post off fuel, length pre = off -> (length ss < fuel)%nat ->
    secs_parse fuel ek mac nonce ctr (pre ++ bs ++ post) off (off + length bs) = Ok oss.
Proof.
  induction ss as [|s t IH]; intros ctr bs W H.
  - cbn [secs_export] in H. injection H as <-. exists []. split; [constructor|].
    intros pre post off fuel Hpre Hfuel. destruct fuel as [|f]; [lia|].
    cbn [secs_parse length]. rewrite Nat.add_0_r, Nat.leb_refl. reflexivity.
  - inversion W as [|? ? Ws Wt]; subst. destruct (secs_export_cons _ _ _ _ _ _ H) as (b & r & Eb & Er & ->).
    destruct (sec_export_rom mac nonce ctr s b Ws Eb) as (Hb48 & _).
    destruct (sec_export_parse mac nonce ctr s b Ws Eb) as (os & cd & Hcd & Hos & Hparse).
    destruct (IH _ _ Wt Er) as (oss & Hrel & Hrest).
    exists ((s_uid s, N.of_nat (sec_hmac_count (s_hmac s) (length cd)), os) :: oss). split.
    + constructor; [exists cd, os; auto | exact Hrel].
    + intros pre post off fuel Hpre Hfuel. destruct fuel as [|f]; [lia|].
      cbn [secs_parse]. rewrite app_length.
      replace (Nat.leb (off + (length b + length r)) off) with false by (symmetry; apply Nat.leb_gt; lia).
      rewrite <- app_assoc. rewrite (Hparse pre (r ++ post) off Hpre).
      rewrite (app_assoc pre b).
      replace (off + (length b + length r))%nat with ((off + length b) + length r)%nat by lia.
      rewrite (Hrest (pre ++ b) post (off + length b)%nat f); [reflexivity| rewrite app_length; lia | cbn [length] in Hfuel; lia].
Qed.

End KeyedProofs.

Lemma ihdr_kinds h :
  Forall2 (fun f x => match x with FI _ => fst f = false | FB _ => fst f = true end) imghdr_format (ihdr_flds h).
Proof. destruct h as [? ? ? ? ? ? ? ? ? ? ? ? ? ? [[? ?] ?] [[? ?] ?] ?]. unfold imghdr_format, ihdr_flds, ver_flds. cbn [app ih_pv ih_cv]. repeat constructor. Qed.

Lemma ihdr_pack_length h : length (pack imghdr_format (ihdr_flds h)) = 96%nat.
Proof.
  rewrite pack_length; [reflexivity|].
  destruct h as [? ? ? ? ? ? ? ? ? ? ? ? ? ? [[? ?] ?] [[? ?] ?] ?]. reflexivity.
Qed.

Lemma ihdr_export_inv h hb : ihdr_export h = Ok hb ->
  length (ih_nonce h) = 16%nat /\ length (ih_pad h) = 8%nat /\ pack_fits imghdr_format (ihdr_flds h) = true /\
  hb = pack imghdr_format (ihdr_flds h) /\ length hb = 96%nat.
Proof.
  unfold ihdr_export. destruct (Nat.eqb (length (ih_nonce h)) 16) eqn:E1; [|discriminate].
  destruct (Nat.eqb (length (ih_pad h)) 8) eqn:E2; [|discriminate].
  destruct (pack_fits imghdr_format (ihdr_flds h)) eqn:E3; [|discriminate]. intros H.
  change (Ok (pack imghdr_format (ihdr_flds h)) = Ok hb) in H. injection H as H. subst hb.
  apply Nat.eqb_eq in E1, E2. pose proof (ihdr_pack_length h) as HL. auto.
Qed.

Lemma ihdr_unpack h hb rest : ihdr_export h = Ok hb ->
  unpack imghdr_format (hb ++ rest) =
  [FB (ih_nonce h); FB (firstn 4 (ih_pad h)); FB IMG_SIGNATURE1; FI (ih_major h); FI (ih_minor h); FI (ih_flags h);
   FI (ih_image_blocks h); FI (ih_first_boot_tag_block h); FI (ih_first_boot_section_id h); FI (ih_cert_off h);
   FI (ih_header_blocks h); FI (ih_key_blob_block h); FI (ih_key_blob_block_count h); FI (ih_max_mac h);
   FB IMG_SIGNATURE2; FI (ih_ts h);
   FI (swap16 (fst (fst (ih_pv h)))); FI 0; FI (swap16 (snd (fst (ih_pv h)))); FI 0; FI (swap16 (snd (ih_pv h))); FI 0;
   FI (swap16 (fst (fst (ih_cv h)))); FI 0; FI (swap16 (snd (fst (ih_cv h)))); FI 0; FI (swap16 (snd (ih_cv h))); FI 0;
   FI (ih_build h); FB (skipn 4 (ih_pad h))].
Proof.
  intros H. destruct (ihdr_export_inv h hb H) as (Hn & Hp & Hfit & -> & _).
  rewrite unpack_pack by (apply pack_fits_ok; [|assumption|apply ihdr_kinds];
                          destruct h as [? ? ? ? ? ? ? ? ? ? ? ? ? ? [[? ?] ?] [[? ?] ?] ?]; reflexivity).
  destruct h as [nonce pad x1 x2 x3 x4 x5 x6 x7 x8 x9 x10 x11 x12 [[p0 p1] p2] [[c0 c1] c2] x13].
  cbn [ih_nonce ih_pad ih_pv ih_cv] in *.
  unfold imghdr_format, ihdr_flds, ver_flds.
  cbn [app canons canon snd fst ih_nonce ih_pad ih_major ih_minor ih_flags ih_image_blocks ih_first_boot_tag_block
       ih_first_boot_section_id ih_cert_off ih_header_blocks ih_key_blob_block ih_key_blob_block_count ih_max_mac ih_ts
       ih_pv ih_cv ih_build].
  rewrite (fit_exact 16 nonce Hn), (fit_firstn 4 pad) by lia.
  rewrite (fit_exact 4 (skipn 4 pad)) by (rewrite skipn_length; lia).
  reflexivity.
Qed.

Lemma testbit15 f : N.testbit f 15 = negb (N.land f 32768 =? 0).
Proof.
  destruct (N.testbit f 15) eqn:E.
  - destruct (N.land f 32768 =? 0) eqn:E2; [|reflexivity]. apply N.eqb_eq in E2.
    assert (H : N.testbit (N.land f 32768) 15 = false) by (rewrite E2; apply N.bits_0).
    rewrite N.land_spec, E in H. discriminate H.
  - destruct (N.land f 32768 =? 0) eqn:E2; [reflexivity|]. apply N.eqb_neq in E2. exfalso. apply E2.
    apply N.bits_inj_0. intros n. rewrite N.land_spec. change 32768 with (2 ^ 15). rewrite N.pow2_bits_eqb.
    destruct (N.eqb_spec 15 n) as [<-|Hn]; [now rewrite E| apply andb_false_r].
Qed.

Lemma bswap_swap16 v : v < 65536 -> bswap (swap16 v) = v.
Proof. intros H. unfold bswap, swap16. lia. Qed.

Lemma slice_app_shift {A} (pre l : list A) a b : length pre = a -> slice (pre ++ l) (a + b) (a + b + 0) = [] .
Proof. intros. unfold slice. replace (a + b + 0 - (a + b))%nat with 0%nat by lia. reflexivity. Qed.

Lemma slice_past {A} (pre l : list A) n a b : length pre = n -> slice (pre ++ l) (n + a) (n + b) = slice l a b.
Proof.
  intros H. unfold slice. rewrite skipn_app. rewrite skipn_all2 by lia.
  replace (n + a - length pre)%nat with a by lia. replace (n + b - (n + a))%nat with (b - a)%nat by lia. reflexivity.
Qed.

Definition ver_ok (v : N * N * N) : Prop := fst (fst v) < 65536 /\ snd (fst v) < 65536 /\ snd v < 65536.

Lemma bswap_ver v : ver_ok v ->
  (bswap (swap16 (fst (fst v))), bswap (swap16 (snd (fst v))), bswap (swap16 (snd v))) = v.
Proof. destruct v as [[a b] c]. intros (Ha & Hb & Hc). cbn [fst snd] in *. now rewrite !bswap_swap16. Qed.

Definition wf_sbin (x : sbin) : Prop :=
  secs_wf (x_secs x) /\ length (x_dek x) = 32%nat /\ length (x_mac x) = 32%nat /\
  length (x_sig x) = x_sigsize x /\ ver_ok (x_pv x) /\ ver_ok (x_cv x).

Lemma cb_export_inv cb build il cbb : cb_export cb build il = Ok cbb ->
  length cbb = cb_raw_size cb /\
  exists tl, cbb = pack certhdr_format [FB CERT_SIGNATURE; FI 1; FI 0; FI (N.of_nat CERTHDR_SIZE); FI (cb_flags cb); FI build; FI il;
                                         FI (nlen (cb_certs cb)); FI (N.of_nat (cb_table_len cb))] ++ tl /\
  pack_fits certhdr_format [FB CERT_SIGNATURE; FI 1; FI 0; FI (N.of_nat CERTHDR_SIZE); FI (cb_flags cb); FI build; FI il;
                            FI (nlen (cb_certs cb)); FI (N.of_nat (cb_table_len cb))] = true.
Proof.
  unfold cb_export. set (flds := [FB CERT_SIGNATURE; _; _; _; _; _; _; _; _]).
  destruct (pack_fits certhdr_format flds) eqn:Ef; [|discriminate]. cbn [negb].
  set (d := pad16z _). destruct (Nat.eqb (length d) (cb_raw_size cb)) eqn:El; [|discriminate].
  intros H. injection H as <-. apply Nat.eqb_eq in El. split; [assumption|].
  eexists. split; [|reflexivity]. unfold d, pad16z. rewrite <- !app_assoc. reflexivity.
Qed.

Lemma cb_export_unpack cb build il cbb rest : cb_export cb build il = Ok cbb ->
  unpack certhdr_format (cbb ++ rest) =
  [FB CERT_SIGNATURE; FI 1; FI 0; FI (N.of_nat CERTHDR_SIZE); FI (cb_flags cb); FI build; FI il; FI (nlen (cb_certs cb));
   FI (N.of_nat (cb_table_len cb))].
Proof.
  intros Ecb. destruct (cb_export_inv _ _ _ _ Ecb) as (_ & tl & -> & F). rewrite <- app_assoc, unpack_pack; [reflexivity|].
  apply pack_fits_ok; [reflexivity | exact F | repeat constructor].
Qed.

Lemma cb_parse_size_export cb build il cbb rest :
  cb_export cb build il = Ok cbb -> cb_parse_size (cbb ++ rest) = Ok (cb_raw_size cb).
Proof.
  intros Ecb. destruct (cb_export_inv _ _ _ _ Ecb) as (Lcbb & _).
  assert (Hctl : (cb_table_len cb + 160 <= cb_raw_size cb)%nat).
  { unfold cb_raw_size. pose proof (align16_ge (CERTHDR_SIZE + cb_table_len cb + 128)). change CERTHDR_SIZE with 32%nat in *. lia. }
  unfold cb_parse_size.
  replace (Nat.ltb (length (cbb ++ rest)) CERTHDR_SIZE) with false
    by (symmetry; apply Nat.ltb_ge; rewrite app_length, Lcbb; change CERTHDR_SIZE with 32%nat; lia).
  rewrite (cb_export_unpack _ _ _ _ rest Ecb). cbv beta iota. rewrite eqb_list_refl, N.eqb_refl. cbn [negb].
  replace (nlen (cbb ++ rest) <? N.of_nat (cb_table_len cb) + 128) with false
    by (symmetry; apply N.ltb_ge; unfold nlen; rewrite app_length, Lcbb; lia).
  rewrite Nat2N.id. reflexivity.
Qed.

Ltac step_none tac :=
  match goal with
  | |- context [if ?c then None else _] => let Hc := fresh "Hc" in assert (Hc : c = false) by tac; rewrite Hc; clear Hc
  end.

Definition bcd3 (v : N * N * N) : bool := bcd_ok (fst (fst v)) && bcd_ok (snd (fst v)) && bcd_ok (snd v).

Lemma swap16_invol v : v < 65536 -> swap16 (swap16 v) = v.
Proof. intros H. unfold swap16. lia. Qed.

Lemma bcd_ok_lt v : bcd_ok v = true -> v < 65536.
Proof. unfold bcd_ok. rewrite !andb_true_iff. intros ((((H & _) & _) & _) & _). apply N.leb_le in H. lia. Qed.

Lemma ihdr_parse_export h hb rest :
  ihdr_export h = Ok hb -> bcd3 (ih_pv h) = true -> bcd3 (ih_cv h) = true -> ihdr_parse (hb ++ rest) = Ok h.
Proof.
  intros He Hp Hc. destruct (ihdr_export_inv h hb He) as (Hn & Hpad & _ & _ & Lhb).
  unfold ihdr_parse.
  replace (Nat.ltb (length (hb ++ rest)) IHDR_SIZE) with false
    by (symmetry; apply Nat.ltb_ge; rewrite app_length, Lhb; change IHDR_SIZE with 96%nat; lia).
  rewrite (ihdr_unpack h hb rest He). cbv beta iota.
  rewrite !eqb_list_refl. cbn [negb].
  unfold bcd3 in Hp, Hc. apply andb_true_iff in Hp as [Hp P3]. apply andb_true_iff in Hp as [P1 P2].
  apply andb_true_iff in Hc as [Hc C3]. apply andb_true_iff in Hc as [C1 C2].
  rewrite !swap16_invol by (apply bcd_ok_lt; assumption).
  rewrite P1, P2, P3, C1, C2, C3. cbn [andb negb]. rewrite firstn_skipn.
  destruct h as [nonce pad x1 x2 x3 x4 x5 x6 x7 x8 x9 x10 x11 x12 [[p0 p1] p2] [[c0 c1] c2] x13]. reflexivity.
Qed.

(* the first 208 bytes of every image: header, header MAC, key blob *)
Lemma front208 {A} (hb hm kb rest : list A) :
  length hb = 96%nat -> length hm = 32%nat -> length kb = 80%nat ->
  let f := hb ++ hm ++ kb ++ rest in
  slice f 0 96 = hb /\ slice f 96 128 = hm /\ slice f 128 208 = kb /\ slice f 128 200 = firstn 72 kb /\
  skipn 208 f = rest.
Proof.
  intros Lhb Lhm Lkb f. unfold f. repeat split.
  - apply (slice_app_mid [] hb); [reflexivity | exact Lhb].
  - apply slice_app_mid; lia.
  - rewrite (app_assoc hb hm). apply slice_app_mid; rewrite ?app_length; lia.
  - rewrite <- (firstn_skipn 72 kb) at 1. rewrite <- app_assoc, (app_assoc hb hm).
    apply slice_app_mid; rewrite ?app_length, ?firstn_length; lia.
  - rewrite (app_assoc hb hm), (app_assoc (hb ++ hm) kb). apply skipn_app_exact. rewrite !app_length. lia.
Qed.

(* SPSDK's parser unwraps the first 72 bytes of the 80-byte key blob field *)
Lemma py_unwrap_blob (D : list N -> list N -> list N) kek kb keys :
  aes_key_ok kek = true -> length kb = 80%nat -> kw_unwrap (D kek) (firstn 72 kb) = Some keys ->
  py_unwrap D kek (firstn (length kb - 8) kb) = Ok keys.
Proof.
  intros Hk Lkb Hu. rewrite Lkb. change (80 - 8)%nat with 72%nat. unfold py_unwrap. rewrite Hk, Hu.
  rewrite firstn_length, Lkb. reflexivity.
Qed.

(* What the image theorems need of the block cipher: the wrapped key blob has the size the header announces and unwraps
   to the keys.  Every inverse pair gives it (keys_wrap_inverse), and so does the CryptoRef AES on byte-valued keys
   (keys_wrap_aes); the AES model does not invert on other blocks, which is why the premise is not the inverse law. *)
Definition keys_wrap (E D : list N -> list N -> list N) (kek dek mac : list N) : Prop :=
  length (wrap_keys E kek dek mac) = 72%nat /\ kw_unwrap (D kek) (wrap_keys E kek dek mac) = Some (dek ++ mac).

Section Image.
Variable E D : list N -> list N -> list N.
Hypothesis E_len : forall k b, length (E k b) = 16%nat.

Definition signed_len_of (x : sbin) : nat :=
  (208 + cb_raw_size (x_cb x) + (if has_sha (x_flags x) then 32 else 0))%nat.

(* the shape of every file the builder returns *)
Lemma build21_inv counted x file :
  wf_sbin x -> keys_wrap E D (x_kek x) (x_dek x) (x_mac x) -> build21_gen E counted x = Ok file ->
  exists hb hm kb cbb bs k,
    let shab := if has_sha (x_flags x) then sha256 bs else [] in
    let signed := hb ++ hm ++ kb ++ cbb ++ shab in
    file = signed ++ x_sig x ++ bs /\
    length hb = 96%nat /\ length hm = 32%nat /\ length kb = 80%nat /\ length cbb = cb_raw_size (x_cb x) /\
    length signed = signed_len_of x /\
    ((length signed + x_sigsize x) mod 16 = 0)%nat /\
    secs_export (E (x_dek x)) (x_mac x) (x_nonce x)
                (ctr_of_nonce (x_nonce x) + N.of_nat ((length signed + x_sigsize x) / 16)) (x_secs x) = Ok bs /\
    kw_unwrap (D (x_kek x)) (firstn 72 kb) = Some (x_dek x ++ x_mac x) /\
    hm = hmac256 (x_mac x) (slice bs 16 (48 + 32 * k)) /\
    (exists s0 st mm,
       x_secs x = s0 :: st /\
       k = match cmds_export (s_cmds s0) with Ok cd => sec_hmac_count (s_hmac s0) (length cd) | Err _ => 0%nat end /\
       let tagoff := (length signed + x_sigsize x - (if counted then 0 else length shab))%nat in
       ihdr_export (mkIhdr (x_nonce x) (x_pad x) 2 1 (x_flags x) (N.of_nat ((tagoff + length bs) / 16)) (N.of_nat (tagoff / 16))
                           (s_uid s0) 208 6 8 5 mm (x_ts x) (x_pv x) (x_cv x) (x_build x)) = Ok hb /\
       (tagoff mod 16 = 0)%nat /\ ((tagoff + length bs) mod 16 = 0)%nat) /\
    cb_export (x_cb x) (x_build x) (N.of_nat (208 + cb_raw_size (x_cb x))) = Ok cbb.
Proof.
  intros (Wsecs & Wdek & Wmac & Wsig & Wpv & Wcv) Hdom H. unfold build21_gen in H.
  destruct (x_secs x) as [|s0 st] eqn:Esecs; [discriminate|]. rewrite <- Esecs in *.
  destruct (secs_raw_size (x_secs x)) as [ssz|] eqn:Essz; [|discriminate].
  set (cbraw := cb_raw_size (x_cb x)) in *.
  set (sha := has_sha (x_flags x)) in *.
  set (shasz := if sha then N.to_nat V21_SHA_256_SIZE else 0%nat) in *.
  set (cnt := if counted then shasz else 0%nat) in *.
  set (tagoff := (PRE_SIZE + cbraw + x_sigsize x + cnt)%nat) in *.
  set (rawsz := (tagoff + ssz)%nat) in *.
  set (bsoff := (PRE_SIZE + cbraw + x_sigsize x + shasz)%nat) in *.
  destruct (aligned16 tagoff) eqn:Atag; [|discriminate].
  destruct (aligned16 rawsz) eqn:Araw; [|discriminate].
  destruct (Nat.eqb (length (x_nonce x)) 16) eqn:Enonce; [|discriminate].
  destruct (aligned16 bsoff) eqn:Abs; [|discriminate]. cbn [negb] in H.
  destruct (secs_export (E (x_dek x)) (x_mac x) (x_nonce x) (ctr_of_nonce (x_nonce x) + N.of_nat (bsoff / 16)) (x_secs x))
    as [bs|] eqn:Ebs; [|discriminate].
  set (hdr := mkIhdr _ _ _ _ _ _ _ _ _ _ _ _ _ _ _ _ _) in H.
  destruct (ihdr_export hdr) as [hb|] eqn:Ehb; [|discriminate].
  set (hc0 := match cmds_export (s_cmds s0) with Ok cd => sec_hmac_count (s_hmac s0) (length cd) | Err _ => 0%nat end) in *.
  set (hm := hmac256 (x_mac x) (slice bs 16 (16 + hc0 * 32 + 32))) in *.
  set (kb0 := wrap_keys E (x_kek x) (x_dek x) (x_mac x)) in *.
  set (kb := kb0 ++ zeros (N.to_nat V21_KEY_BLOB_SIZE - length kb0)) in *.
  destruct (cb_export (x_cb x) (x_build x) (N.of_nat (PRE_SIZE + cbraw))) as [cbb|] eqn:Ecb; [|discriminate].
  rewrite Wsig, Nat.eqb_refl in H. cbn [negb] in H.
  injection H as <-.
  destruct (ihdr_export_inv hdr hb Ehb) as (_ & _ & _ & _ & Lhb).
  assert (Lhm : length hm = 32%nat) by apply hmac256_length.
  destruct Hdom as [Lkb0 Hunwrap]. fold kb0 in Lkb0, Hunwrap.
  assert (Lkb : length kb = 80%nat) by (unfold kb; rewrite app_length, zeros_length, Lkb0; reflexivity).
  destruct (cb_export_inv _ _ _ _ Ecb) as (Lcbb & _). fold cbraw in Lcbb.
  assert (Lshab : length (if sha then sha256 bs else []) = shasz)
    by (unfold shasz; destruct sha; [apply sha256_length|reflexivity]).
  change PRE_SIZE with 208%nat in *.
  assert (Lsigned : length (hb ++ hm ++ kb ++ cbb ++ (if sha then sha256 bs else [])) = (208 + cbraw + shasz)%nat)
    by (rewrite !app_length, Lhb, Lhm, Lkb, Lcbb, Lshab; lia).
  exists hb, hm, kb, cbb, bs, hc0. cbv zeta. fold sha.
  split; [reflexivity|]. split; [exact Lhb|]. split; [exact Lhm|]. split; [exact Lkb|]. split; [exact Lcbb|].
  split; [rewrite Lsigned; unfold signed_len_of; fold sha cbraw; reflexivity|].
  rewrite Lsigned.
  replace (208 + cbraw + shasz + x_sigsize x)%nat with bsoff by (unfold bsoff; lia).
  split; [unfold aligned16 in Abs; now apply Nat.eqb_eq in Abs|]. split; [exact Ebs|]. split.
  - unfold kb. rewrite (firstn_app_exact kb0 _ 72 Lkb0). exact Hunwrap.
  - split; [unfold hm; f_equal; f_equal; lia|]. split; [|exact Ecb].
    pose proof (secs_raw_size_ok (E (x_dek x)) (E_len _) (x_mac x) (x_nonce x) _ _ _ _ Wsecs Ebs Essz) as Hssz.
    exists s0, st, (N.of_nat (secs_mac_count (x_secs x))). split; [exact Esecs|]. split; [reflexivity|].
    rewrite Lshab.
    replace (bsoff - (if counted then 0 else shasz))%nat with tagoff by (unfold tagoff, bsoff, cnt; destruct counted; lia).
    rewrite <- Hssz. unfold aligned16 in Atag, Araw. apply Nat.eqb_eq in Atag, Araw. split; [exact Ehb|]. split; assumption.
Qed.

(* The ROM takes the start of the sections from first_boot_tag_block and their end from image_blocks; it accepts a built
   file exactly when the builder counted the SHA-256 digest into both, or there is no digest. *)
Lemma rom21_built counted x file :
  wf_sbin x -> keys_wrap E D (x_kek x) (x_dek x) (x_mac x) -> build21_gen E counted x = Ok file ->
  if counted || negb (has_sha (x_flags x))
  then exists r, rom21 E D (x_sigsize x) (x_kek x) file = Some r /\
     r_secs r = spec_of (x_secs x) /\ r_flags r = x_flags x /\ r_pv r = x_pv x /\ r_cv r = x_cv x /\
     r_build r = x_build x /\ r_ts r = x_ts x /\ r_major r = 2 /\ r_minor r = 1 /\
     r_sig r = x_sig x /\ r_signed_len r = signed_len_of x
  else rom21 E D (x_sigsize x) (x_kek x) file = None.
Proof.
  intros W Hdom H.
  destruct (build21_inv counted x file W Hdom H) as (hb & hm & kb & cbb & bs & hc0 & Hinv). cbv zeta in Hinv.
  destruct Hinv as (Hfile & Lhb & Lhm & Lkb & Lcbb & Lpre1 & Abs & Ebs & Hunwrap & Ehm &
                    (s0 & st & mm & Esecs & Ehc0 & Ehb & Atag & Araw) & Ecb).
  destruct W as (Wsecs & Wdek & Wmac & Wsig & Wpv & Wcv).
  set (cbraw := cb_raw_size (x_cb x)) in *. set (sha := has_sha (x_flags x)) in *.
  set (shab := if sha then sha256 bs else []) in *.
  set (shasz := if sha then 32%nat else 0%nat).
  assert (Lshab : length shab = shasz) by (unfold shab, shasz; destruct sha; [apply sha256_length|reflexivity]).
  unfold signed_len_of in Lpre1. fold sha cbraw shasz in Lpre1.
  set (pre1 := hb ++ hm ++ kb ++ cbb ++ shab) in *.
  rewrite Lpre1 in Abs, Ebs, Ehb, Atag, Araw. rewrite Lshab in Ehb, Atag, Araw.
  set (bsoff := (208 + cbraw + shasz + x_sigsize x)%nat) in *.
  set (tagoff := (bsoff - (if counted then 0 else shasz))%nat) in *.
  set (rawsz := (tagoff + length bs)%nat) in *.
  set (hdr := mkIhdr _ _ _ _ _ _ _ _ _ _ _ _ _ _ _ _ _) in Ehb.
  (* the three alignment facts as multiples of 16: linear for lia *)
  destruct (mod_mult_exists _ 16 ltac:(lia) Atag) as [qt Hqt]. destruct (mod_mult_exists _ 16 ltac:(lia) Araw) as [qr Hqr].
  destruct (mod_mult_exists _ 16 ltac:(lia) Abs) as [qb Hqb]. clear Atag Araw Abs.
  destruct (secs_export_rom (E (x_dek x)) (E_len _) (x_mac x) (x_nonce x) _ _ _ Wsecs Ebs) as (_ & Hbsl & Hrom).
  assert (Hnsec : (1 <= length (x_secs x))%nat) by (rewrite Esecs; cbn [length]; lia).
  subst file. set (file := pre1 ++ x_sig x ++ bs).
  assert (Lfile : length file = (bsoff + length bs)%nat).
  { unfold file. rewrite !app_length, Lpre1, Wsig. unfold bsoff. lia. }
  pattern (rom21 E D (x_sigsize x) (x_kek x) file). match goal with |- ?P _ => set (Q := P) end.
  unfold rom21.
  replace (Nat.ltb (length file) 208) with false by (symmetry; apply Nat.ltb_ge; rewrite Lfile; unfold bsoff; lia).
  change rom_imghdr_layout with imghdr_format.
  assert (Hunp : unpack imghdr_format file = _) by (unfold file, pre1; rewrite <- !app_assoc; apply (ihdr_unpack hdr hb _ Ehb)).
  rewrite Hunp. clear Hunp. cbv beta iota.
  step_none reflexivity.
  step_none reflexivity.
  step_none reflexivity.
  destruct (front208 hb hm kb (cbb ++ shab ++ x_sig x ++ bs) Lhb Lhm Lkb) as (_ & Shm & _ & Skb & Sk208).
  replace (hb ++ hm ++ kb ++ cbb ++ shab ++ x_sig x ++ bs) with file in Shm, Skb, Sk208
    by (unfold file, pre1; rewrite <- !app_assoc; reflexivity).
  rewrite Skb, Hunwrap. cbv beta iota.
  rewrite (firstn_app_exact (x_dek x) (x_mac x) 32 Wdek), (skipn_app_exact (x_dek x) (x_mac x) 32 Wdek).
  step_none ltac:(rewrite app_length, Wdek, Wmac; reflexivity).
  rewrite Sk208. change rom_certhdr_layout with certhdr_format.
  rewrite (cb_export_unpack _ _ _ _ _ Ecb). cbv beta iota.
  step_none reflexivity.
  assert (Hctl : (cb_table_len (x_cb x) <= cbraw)%nat).
  { unfold cbraw, cb_raw_size. pose proof (align16_ge (CERTHDR_SIZE + cb_table_len (x_cb x) + 128)). lia. }
  assert (Hraw : (rawsz <= length file)%nat) by (unfold rawsz, tagoff; rewrite Lfile; lia).
  assert (Hbs48 : (48 <= length bs)%nat) by lia.
  step_none ltac:(cbn [ih_image_blocks ih_first_boot_tag_block hdr]; unfold nlen;
                  apply orb_false_iff; split; [apply orb_false_iff; split|];
                  [apply N.ltb_ge; lia | apply N.ltb_ge; lia | apply N.leb_gt; unfold rawsz; lia]).
  cbv zeta.
  replace ((32 + N.to_nat (N.of_nat (cb_table_len (x_cb x))) + 128 + 15) / 16 * 16)%nat with cbraw
    by (rewrite Nat2N.id; reflexivity).
  cbn [ih_flags ih_image_blocks ih_first_boot_tag_block ih_nonce hdr].
  rewrite (testbit15 (x_flags x)). change (negb (N.land (x_flags x) 32768 =? 0)) with sha.
  change (if sha then 32%nat else 0%nat) with shasz.
  replace (N.to_nat (N.of_nat (tagoff / 16)) * 16)%nat with tagoff by (rewrite Nat2N.id; lia).
  replace (N.to_nat (N.of_nat (rawsz / 16)) * 16)%nat with rawsz by (rewrite Nat2N.id; lia).
  assert (Ssig : slice file (208 + cbraw + shasz) (208 + cbraw + shasz + x_sigsize x) = x_sig x).
  { unfold file. rewrite <- Wsig. apply slice_at. exact Lpre1. }
  rewrite Ssig.
  step_none ltac:(rewrite Wsig, Nat.eqb_refl; reflexivity).
  subst Q. cbv beta. destruct (counted || negb sha) eqn:Hc.
  2:{ (* the sections would start inside the signed part *)
      apply orb_false_iff in Hc as [-> Hs]. apply negb_false_iff in Hs.
      replace (Nat.leb (208 + cbraw + shasz + x_sigsize x) tagoff) with false; [reflexivity|].
      symmetry. apply Nat.leb_gt. unfold tagoff, bsoff, shasz. rewrite Hs. lia. }
  assert (Htag : tagoff = bsoff).
  { unfold tagoff. apply orb_true_iff in Hc as [->|Hs]; [lia|]. apply negb_true_iff in Hs.
    unfold shasz. rewrite Hs. destruct counted; lia. }
  assert (Hraw' : rawsz = length file) by (unfold rawsz; rewrite Htag, Lfile; reflexivity).
  rewrite Hraw', Htag.
  step_none ltac:(apply negb_false_iff; rewrite !andb_true_iff; repeat split;
                  [apply Nat.leb_le; unfold bsoff; lia | apply Nat.ltb_lt; rewrite Lfile; lia | apply Nat.leb_le; lia]).
  rewrite firstn_all.
  assert (Sbs : skipn bsoff file = bs).
  { unfold file. rewrite app_assoc. apply skipn_app_exact. rewrite app_length, Lpre1, Wsig. unfold bsoff. lia. }
  rewrite Sbs.
  assert (Hshack : sha && negb (eqb_list (slice file (208 + cbraw) (208 + cbraw + 32)) (sha256 bs)) = false).
  { destruct sha eqn:Esha; [|reflexivity]. cbn [andb]. apply negb_false_iff.
    assert (S : slice file (208 + cbraw) (208 + cbraw + 32) = sha256 bs).
    { unfold file, pre1. rewrite <- !app_assoc.
      rewrite (app_assoc hb hm), (app_assoc (hb ++ hm) kb), (app_assoc ((hb ++ hm) ++ kb) cbb).
      unfold shab. replace (208 + cbraw + 32)%nat with (208 + cbraw + length (sha256 bs))%nat by (rewrite sha256_length; reflexivity).
      apply slice_at. rewrite !app_length. lia. }
    rewrite S. apply eqb_list_refl. }
  rewrite Hshack. clear Hshack.
  pose proof Ebs as Ebs0. rewrite Esecs in Ebs0. cbn [secs_export] in Ebs0.
  destruct (sec_export (E (x_dek x)) (x_mac x) (x_nonce x) (ctr_of_nonce (x_nonce x) + N.of_nat (bsoff / 16)) s0)
    as [b0|] eqn:Eb0; [|discriminate].
  destruct (secs_export (E (x_dek x)) (x_mac x) (x_nonce x) _ st) as [r0|] eqn:Er0; [|discriminate].
  injection Ebs0 as Ebs0.
  assert (Ws0 : forallb wf_cmd (s_cmds s0) = true) by (rewrite Esecs in Wsecs; now inversion Wsecs).
  destruct (sec_export_head (E (x_dek x)) (E_len _) _ _ _ _ _ Ws0 Eb0) as (cd0 & h0 & Hcd0 & Hh0 & Hh0d & Lb0).
  unfold sec_size in Lb0.
  assert (Hhc0 : hc0 = sec_hmac_count (s_hmac s0) (length cd0)) by (rewrite Ehc0, Hcd0; reflexivity).
  assert (S16 : slice file bsoff (bsoff + 16) = firstn 16 b0).
  { unfold file. rewrite <- Ebs0.
    replace (pre1 ++ x_sig x ++ b0 ++ r0) with ((pre1 ++ x_sig x) ++ firstn 16 b0 ++ (skipn 16 b0 ++ r0))
      by (rewrite <- !app_assoc; do 2 f_equal; rewrite app_assoc, firstn_skipn; reflexivity).
    replace (bsoff + 16)%nat with (bsoff + length (firstn 16 b0))%nat by (rewrite firstn_length; lia).
    apply slice_at. rewrite app_length, Lpre1, Wsig. unfold bsoff. lia. }
  rewrite S16, Hh0. cbv beta iota.
  step_none ltac:(apply N.ltb_ge; unfold nlen; rewrite Hh0d, Lfile, <- Ebs0, app_length; lia).
  rewrite Hh0d, Nat2N.id, <- Hhc0.
  assert (Stab : slice file (bsoff + 16) (bsoff + 48 + 32 * hc0) = slice bs 16 (16 + hc0 * 32 + 32)).
  { unfold file. rewrite app_assoc. replace (bsoff + 48 + 32 * hc0)%nat with (bsoff + (16 + hc0 * 32 + 32))%nat by lia.
    apply slice_past. rewrite app_length, Lpre1, Wsig. unfold bsoff. lia. }
  rewrite Shm, Stab. replace (16 + hc0 * 32 + 32)%nat with (48 + 32 * hc0)%nat by lia. rewrite <- Ehm, eqb_list_refl. cbn [negb].
  assert (Hwalk : rom_sections (E (x_dek x)) (S (length file)) (x_mac x) (x_nonce x) file bsoff (length file)
                  = Some (spec_of (x_secs x))).
  { assert (Lp : length (pre1 ++ x_sig x) = bsoff) by (rewrite app_length, Lpre1, Wsig; reflexivity).
    pose proof (rom_walk_built (E (x_dek x)) (E_len _) (x_mac x) (x_nonce x) (x_secs x) bs (pre1 ++ x_sig x) [] (S (length file)))
      as Hw. rewrite Lp, app_nil_r, <- app_assoc in Hw. fold file in Hw. rewrite <- Lfile, firstn_all in Hw.
    apply Hw; [exact Wsecs | rewrite Hqb; apply Nat.mod_mul; lia | exact Ebs | lia]. }
  rewrite Hwalk.
  eexists. split; [reflexivity|]. cbn [r_secs r_flags r_pv r_cv r_build r_ts r_major r_minor r_sig r_signed_len ih_major ih_minor
                                     ih_pv ih_cv ih_build ih_ts hdr].
  destruct (x_pv x) as [[p0 p1] p2] eqn:Epv. destruct (x_cv x) as [[c0 c1] c2] eqn:Ecv.
  rewrite (bswap_ver (p0, p1, p2) Wpv), (bswap_ver (c0, c1, c2) Wcv). repeat split.
Qed.

Lemma rom21_build_lemma x file :
  wf_sbin x -> keys_wrap E D (x_kek x) (x_dek x) (x_mac x) -> build21_gen E true x = Ok file ->
  exists r, rom21 E D (x_sigsize x) (x_kek x) file = Some r /\
     r_secs r = spec_of (x_secs x) /\ r_flags r = x_flags x /\ r_pv r = x_pv x /\ r_cv r = x_cv x /\
     r_build r = x_build x /\ r_ts r = x_ts x /\ r_major r = 2 /\ r_minor r = 1 /\
     r_sig r = x_sig x /\ r_signed_len r = signed_len_of x.
Proof. exact (rom21_built true x file). Qed.

Lemma rom21_old_rejects x file :
  wf_sbin x -> keys_wrap E D (x_kek x) (x_dek x) (x_mac x) -> has_sha (x_flags x) = true -> build21_gen E false x = Ok file ->
  rom21 E D (x_sigsize x) (x_kek x) file = None.
Proof. intros W Hdom Hs H. pose proof (rom21_built false x file W Hdom H) as R. rewrite Hs in R. exact R. Qed.

Lemma counter_agreement_lemma counted x file :
  wf_sbin x -> keys_wrap E D (x_kek x) (x_dek x) (x_mac x) -> build21_gen E counted x = Ok file ->
  exists pre bs, file = pre ++ bs /\ (length pre mod 16 = 0)%nat /\
    secs_export (E (x_dek x)) (x_mac x) (x_nonce x) (ctr_of_nonce (x_nonce x) + N.of_nat (length pre / 16)) (x_secs x) = Ok bs /\
    rom_sections (E (x_dek x)) (S (length file)) (x_mac x) (x_nonce x) file (length pre) (length file) = Some (spec_of (x_secs x)).
Proof.
  intros W Hdom H. destruct (build21_inv counted x file W Hdom H) as (hb & hm & kb & cbb & bs & k & Hinv).
  cbv zeta in Hinv. destruct Hinv as (Hfile & _ & _ & _ & _ & _ & Hal & Hexp & _).
  destruct W as (Wsecs & _ & _ & Wsig & _).
  set (signed := hb ++ hm ++ kb ++ cbb ++ (if has_sha (x_flags x) then sha256 bs else [])) in *.
  exists (signed ++ x_sig x), bs.
  assert (Lpre : length (signed ++ x_sig x) = (length signed + x_sigsize x)%nat) by (rewrite app_length, Wsig; reflexivity).
  split; [rewrite Hfile, <- app_assoc; reflexivity|]. rewrite Lpre. split; [exact Hal|]. split; [exact Hexp|].
  destruct (secs_export_rom (E (x_dek x)) (E_len _) (x_mac x) (x_nonce x) _ _ _ Wsecs Hexp) as (_ & Hl & Hrom).
  assert (Lfile : length file = (length signed + x_sigsize x + length bs)%nat)
    by (rewrite Hfile, !app_length, Wsig; lia).
  rewrite Lfile.
  replace file with ((signed ++ x_sig x) ++ bs ++ []) by (rewrite Hfile, app_nil_r, app_assoc; reflexivity).
  apply Hrom; [exact Lpre | exact Hal | reflexivity | lia].
Qed.

Lemma coverage21_lemma counted x file :
  wf_sbin x -> keys_wrap E D (x_kek x) (x_dek x) (x_mac x) -> build21_gen E counted x = Ok file ->
  exists hb hm kb cbb bs k,
    let signed := hb ++ hm ++ kb ++ cbb ++ (if has_sha (x_flags x) then sha256 bs else []) in
    file = signed ++ x_sig x ++ bs /\
    length hb = 96%nat /\ length hm = 32%nat /\ length kb = 80%nat /\ length cbb = cb_raw_size (x_cb x) /\
    length signed = signed_len_of x /\ length (x_sig x) = x_sigsize x /\
    kw_unwrap (D (x_kek x)) (firstn 72 kb) = Some (x_dek x ++ x_mac x) /\
    hm = hmac256 (x_mac x) (slice bs 16 (48 + 32 * k)) /\
    covered (x_mac x) bs (length (x_secs x)).
Proof.
  intros W Hdom H. destruct (build21_inv counted x file W Hdom H) as (hb & hm & kb & cbb & bs & k & Hinv).
  cbv zeta in Hinv. destruct Hinv as (Hfile & L1 & L2 & L3 & L4 & L5 & _ & Hexp & Hkw & Hhm & _).
  destruct W as (Wsecs & _ & _ & Wsig & _).
  exists hb, hm, kb, cbb, bs, k. cbv zeta.
  split; [exact Hfile|]. split; [exact L1|]. split; [exact L2|]. split; [exact L3|]. split; [exact L4|].
  split; [exact L5|]. split; [exact Wsig|]. split; [exact Hkw|]. split; [exact Hhm|].
  eapply secs_export_covered; [apply E_len | exact Wsecs | exact Hexp].
Qed.

Lemma spsdk_parse21_build_lemma x file :
  wf_sbin x -> keys_wrap E D (x_kek x) (x_dek x) (x_mac x) ->
  bcd3 (x_pv x) = true -> bcd3 (x_cv x) = true -> aes_key_ok (x_kek x) = true ->
  build21_gen E true x = Ok file ->
  exists oss, Forall2 sec_obs_rel (x_secs x) oss /\
    parse21 E D true (x_sigsize x) (x_kek x) file =
    Ok (mkParsed (x_flags x) (x_pv x) (x_cv x) (x_build x) (x_ts x / 1000000 * 1000000) (x_nonce x) (x_dek x) (x_mac x)
                 oss (signed_len_of x) (x_sigsize x)).
Proof.
  intros W Hdom Hpv Hcv Hkek H.
  destruct (build21_inv true x file W Hdom H) as (hb & hm & kb & cbb & bs & k & Hinv).
  cbv zeta in Hinv.
  destruct Hinv as (Hfile & Lhb & Lhm & Lkb & Lcbb & Lsigned & Hal & Hexp & Hkw & _ & (s0 & st & mm & _ & _ & Ehb & _ & Hfm) & Ecb).
  rewrite Nat.sub_0_r in Ehb, Hfm.
  destruct W as (Wsecs & Wdek & Wmac & Wsig & _ & _).
  set (sha := has_sha (x_flags x)) in *.
  set (cbraw := cb_raw_size (x_cb x)) in *.
  set (shab := if sha then sha256 bs else []) in *.
  set (signed := hb ++ hm ++ kb ++ cbb ++ shab) in *.
  set (shasz := if sha then 32%nat else 0%nat).
  assert (Lshab : length shab = shasz) by (unfold shab, shasz; destruct sha; [apply sha256_length|reflexivity]).
  unfold signed_len_of in *. fold sha cbraw shasz in Lsigned |- *.
  rewrite Lsigned in Hexp, Hal, Ehb, Hfm.
  set (index2 := (208 + cbraw + shasz + x_sigsize x)%nat) in *.
  destruct (secs_export_parse (E (x_dek x)) (E_len _) _ _ _ _ _ Wsecs Hexp) as (oss & Hrel & Hparse).
  exists oss. split; [exact Hrel|].
  assert (Lpre : length (signed ++ x_sig x) = index2) by (rewrite app_length, Lsigned, Wsig; reflexivity).
  assert (Lfile : length file = (index2 + length bs)%nat) by (rewrite Hfile, app_assoc, app_length, Lpre; reflexivity).
  assert (Hnsec : (length (x_secs x) <= length bs)%nat).
  { destruct (secs_export_rom (E (x_dek x)) (E_len _) _ _ _ _ _ Wsecs Hexp) as (_ & Hl & _). lia. }
  unfold parse21. destruct (x_kek x) as [|k0 kt] eqn:Ekek; [discriminate Hkek|]. rewrite <- Ekek in *.
  change (IHDR_SIZE + 32)%nat with 128%nat. change PRE_SIZE with 208%nat. change IHDR_SIZE with 96%nat.
  destruct (front208 hb hm kb (cbb ++ shab ++ x_sig x ++ bs) Lhb Lhm Lkb) as (Shb & _ & Skb & _ & Sk208).
  replace (hb ++ hm ++ kb ++ cbb ++ shab ++ x_sig x ++ bs) with file in Shb, Skb, Sk208
    by (rewrite Hfile; unfold signed; rewrite <- !app_assoc; reflexivity).
  rewrite Skb, (py_unwrap_blob D _ kb _ Hkek Lkb Hkw). rewrite (firstn_app_exact _ _ 32 Wdek), (skipn_app_exact _ _ 32 Wdek).
  rewrite Shb. rewrite <- (app_nil_r hb). rewrite (ihdr_parse_export _ hb [] Ehb Hpv Hcv).
  cbn [ih_cert_off ih_flags ih_nonce ih_pv ih_cv ih_build ih_ts ih_image_blocks]. change (208 =? N.of_nat 208) with true. cbn [negb].
  rewrite Sk208.
  rewrite (cb_parse_size_export _ _ _ _ _ Ecb). fold cbraw sha.
  replace (if sha then (208 + cbraw + 32)%nat else (208 + cbraw)%nat) with (208 + cbraw + shasz)%nat
    by (unfold shasz; destruct sha; lia).
  fold index2. unfold aligned16. rewrite Hal. cbn [Nat.eqb negb].
  (* all sections, up to image_blocks * 16 = the end of the file *)
  replace (N.to_nat (N.min (N.of_nat ((index2 + length bs) / 16) * 16) (nlen file + 1))) with (index2 + length bs)%nat
    by (unfold nlen; rewrite Lfile; lia).
  assert (Hfile2 : file = (signed ++ x_sig x) ++ bs ++ []) by (rewrite Hfile, app_nil_r, <- app_assoc; reflexivity).
  rewrite Hfile2 at 2. rewrite (Hparse (signed ++ x_sig x) [] index2 (S (length file)) Lpre) by (rewrite Lfile; lia).
  (* SHA-256 over all section bytes *)
  assert (Hshack : sha && negb (eqb_list (slice file (208 + cbraw) (208 + cbraw + 32)) (sha256 (skipn index2 file))) = false).
  { destruct sha eqn:Esha; [|reflexivity]. cbn [andb]. apply negb_false_iff.
    assert (Sb : skipn index2 file = bs).
    { rewrite Hfile, app_assoc. apply skipn_app_exact. exact Lpre. }
    assert (S : slice file (208 + cbraw) (208 + cbraw + 32) = sha256 bs).
    { rewrite Hfile. unfold signed. rewrite <- !app_assoc.
      rewrite (app_assoc hb hm), (app_assoc (hb ++ hm) kb), (app_assoc ((hb ++ hm) ++ kb) cbb).
      unfold shab. replace (208 + cbraw + 32)%nat with (208 + cbraw + length (sha256 bs))%nat by (rewrite sha256_length; reflexivity).
      apply slice_at. rewrite !app_length. lia. }
    rewrite S, Sb. apply eqb_list_refl. }
  rewrite Hshack. reflexivity.
Qed.

End Image.

Lemma sec_parse_ok_hmac ek mac nonce ctr data off r :
  sec_parse ek mac nonce ctr data off = Ok r ->
  eqb_list (slice data (off + 16) (off + 48)) (hmac256 mac (slice data off (off + 16))) = true.
Proof.
  unfold sec_parse. destruct (eqb_list _ _); [reflexivity|]. cbn [negb]. discriminate.
Qed.

Lemma secs_parse_ok_hmac fuel ek mac nonce ctr data idx stop r :
  secs_parse fuel ek mac nonce ctr data idx stop = Ok r ->
  r = [] \/ eqb_list (slice data (idx + 16) (idx + 48)) (hmac256 mac (slice data idx (idx + 16))) = true.
Proof.
  destruct fuel as [|f]; [discriminate|]. cbn [secs_parse].
  destruct (Nat.leb stop idx); [intros H; injection H as <-; now left|].
  destruct (sec_parse ek mac nonce ctr data idx) as [[[[uid hcnt] ps] sz]|] eqn:E; [|discriminate].
  intros _. right. eapply sec_parse_ok_hmac. exact E.
Qed.

Lemma parse21_accept_lemma (E D : list N -> list N -> list N) sig_ok sigsize kek data p :
  parse21 E D sig_ok sigsize kek data = Ok p ->
  sig_ok = true /\
  (exists keys, kw_unwrap (D kek) (firstn (length (slice data 128 208) - 8) (slice data 128 208)) = Some keys /\
                p_dek p = firstn 32 keys /\ p_mac p = skipn 32 keys) /\
  (let i := (p_signed_len p + p_sig_len p)%nat in
   p_secs p = [] \/ eqb_list (slice data (i + 16) (i + 48)) (hmac256 (p_mac p) (slice data i (i + 16))) = true).
Proof.
  unfold parse21. destruct kek as [|k0 kt]; [discriminate|].
  change (IHDR_SIZE + 32)%nat with 128%nat. change PRE_SIZE with 208%nat.
  set (kb := slice data 128 208).
  destruct (py_unwrap D (k0 :: kt) (firstn (length kb - 8) kb)) as [un|] eqn:Eun; [|discriminate].
  destruct (ihdr_parse _) as [h|]; [|discriminate].
  destruct (negb (ih_cert_off h =? N.of_nat 208)); [discriminate|].
  destruct (cb_parse_size _) as [cbraw|]; [|discriminate].
  destruct sig_ok; [|discriminate]. cbn [negb].
  set (sigidx := if has_sha (ih_flags h) then (208 + cbraw + 32)%nat else (208 + cbraw)%nat).
  destruct (aligned16 (sigidx + sigsize)); [|discriminate]. cbn [negb].
  destruct (secs_parse _ _ _ _ _ _ _ _) as [secs|] eqn:Esec; [|discriminate].
  destruct (has_sha (ih_flags h) && _); [discriminate|].
  intros Hp. injection Hp as <-. cbn [p_dek p_mac p_signed_len p_sig_len p_secs].
  split; [reflexivity|]. split.
  - unfold py_unwrap in Eun. destruct (negb (aes_key_ok (k0 :: kt))); [discriminate|].
    destruct (_ || _); [discriminate|]. destruct (kw_unwrap _ _) as [keys|]; [|discriminate].
    injection Eun as <-. exists keys. auto.
  - cbv zeta. eapply secs_parse_ok_hmac. exact Esec.
Qed.

Lemma sbE_length k b : length (sbE k b) = 16%nat.
Proof. unfold sbE, fit16. apply fit_length. Qed.

Lemma sbE_is_aes k b : aes_key_ok k = true -> wf_bytes k -> CryptoProofs.okb b -> sbE k b = aes_enc k b.
Proof.
  intros Hk Wk Hb. destruct (CryptoProofs.aes_dec_enc k b Hk Wk Hb) as [_ [L _]].
  unfold sbE, fit16. apply fit_exact. exact L.
Qed.

Lemma sb_dec_enc k b :
  aes_key_ok k = true -> wf_bytes k -> CryptoProofs.okb b -> sbD k (sbE k b) = b /\ CryptoProofs.okb (sbE k b).
Proof.
  intros Hk Wk Hb. rewrite (sbE_is_aes k b Hk Wk Hb).
  destruct (CryptoProofs.aes_dec_enc k b Hk Wk Hb) as [HD HO]. split; [|exact HO].
  unfold sbD, fit16. change (inv_cipher_rks (key_expansion k) (aes_enc k b)) with (aes_dec k (aes_enc k b)).
  rewrite HD. apply fit_exact. apply Hb.
Qed.

(* the AES model inverts only on byte-valued blocks, so the key-wrap law holds on byte strings *)
Definition aes_dom (k data : list N) : Prop := aes_key_ok k = true /\ wf_bytes k /\ wf_bytes data.

Lemma KW_aes k data :
  aes_dom k data -> (length data mod 8 = 0)%nat ->
  length (kw_wrap (sbE k) data) = (8 + length data)%nat /\ kw_unwrap (sbD k) (kw_wrap (sbE k) data) = Some data.
Proof.
  intros (Hk & Wk & Wd) Hm. split.
  - apply (CryptoProofs.kw_wrap_length (sbE k) (fun b Hb => proj2 (sb_dec_enc k b Hk Wk Hb)) data Wd Hm).
  - apply (CryptoProofs.unwrap_wrap_l (sbE k) (sbD k)).
    + intros b Hb. apply (sb_dec_enc k b Hk Wk Hb).
    + intros b Hb. apply (sb_dec_enc k b Hk Wk Hb).
    + exact Wd.
    + exact Hm.
Qed.

Lemma keys_wrap_aes kek dek mac :
  aes_key_ok kek = true -> wf_bytes kek -> wf_bytes dek -> wf_bytes mac -> length dek = 32%nat -> length mac = 32%nat ->
  keys_wrap sbE sbD kek dek mac.
Proof.
  intros Hk Wk Wd Wm Ld Lm. unfold keys_wrap, wrap_keys.
  destruct (KW_aes kek (dek ++ mac)) as [L U]; [repeat split; [assumption..|now apply wf_bytes_app] | now rewrite app_length, Ld, Lm|].
  rewrite app_length, Ld, Lm in L. auto.
Qed.

Lemma keys_wrap_inverse (E D : list N -> list N -> list N) :
  (forall k b, length (E k b) = 16%nat) -> (forall k b, length b = 16%nat -> D k (E k b) = b) ->
  forall kek dek mac, length dek = 32%nat -> length mac = 32%nat -> keys_wrap E D kek dek mac.
Proof.
  intros HE HD kek dek mac Ld Lm. unfold keys_wrap, wrap_keys.
  destruct (CryptoProofs.unwrap_wrap_any (E kek) (D kek) (HE kek) (HD kek) (dek ++ mac)) as [L U]; [now rewrite app_length, Ld, Lm|].
  rewrite app_length, Ld, Lm in L. auto.
Qed.

Lemma keys_wrap_sbin (E D : list N -> list N -> list N) :
  (forall k b, length (E k b) = 16%nat) -> (forall k b, length b = 16%nat -> D k (E k b) = b) ->
  forall x, wf_sbin x -> keys_wrap E D (x_kek x) (x_dek x) (x_mac x).
Proof. intros HE HD x (_ & Ld & Lm & _). now apply (keys_wrap_inverse E D HE HD). Qed.

Definition demo_secs : list section :=
  [mkSec 5 2 [CErase 0 256 0 0; CLoad 4096 0 [97; 98; 99] (zeros 13)];
   mkSec 9 1 [CReset; CJump 32 3 (Some 48)]].
Definition demo (flags : N) (secs : list section) : sbin :=
  mkSbin (map N.of_nat (seq 0 32)) (repeat 160 32) (repeat 11 32) (map N.of_nat (seq 0 16)) (zeros 8)
         633315200000000 (1, 2, 3) (4, 5, 6) 7 flags secs
         (mkCb 0 [[48; 130; 1; 2]] (zeros 128)) 16 (repeat 170 16).

Lemma demo_wf flags : wf_sbin (demo flags demo_secs).
Proof.
  unfold wf_sbin, demo, demo_secs, secs_wf, ver_ok. cbn [x_secs x_dek x_mac x_sig x_sigsize x_pv x_cv fst snd].
  repeat split; try reflexivity; repeat constructor.
Qed.

Lemma demo_keys_wrap flags :
  keys_wrap sbE sbD (x_kek (demo flags demo_secs)) (x_dek (demo flags demo_secs)) (x_mac (demo flags demo_secs)).
Proof. apply keys_wrap_aes; try reflexivity; apply wf_bytesb_spec; reflexivity. Qed.

Lemma is_ok_Ok {A} (r : res A) : is_ok r = true -> exists v, r = Ok v.
Proof. destruct r as [v|e]; [now exists v | discriminate]. Qed.

Lemma Forall2_len {A B} (R : A -> B -> Prop) l l' : Forall2 R l l' -> length l = length l'.
Proof. induction 1; [reflexivity | cbn [length]; congruence]. Qed.

(* The builder's checks (sizes, alignment, field ranges, counter overflow) look at no cipher, MAC or digest output, so
   lazy evaluation decides that a file is returned without computing one; what the ROM and the parser make of that file
   then follows from the general theorems. *)
Example demo_rom_accepts :
  forall flags, flags = 8 \/ flags = 32776 ->
  exists file r p, build21 (demo flags demo_secs) = Ok file /\
                   rom21_aes 16 (x_kek (demo flags demo_secs)) file = Some r /\
                   r_secs r = spec_of demo_secs /\ r_pv r = (1, 2, 3) /\ r_cv r = (4, 5, 6) /\ r_flags r = flags /\
                   spsdk_parse21 true 16 (x_kek (demo flags demo_secs)) file = Ok p /\
                   length (p_secs p) = 2%nat /\ p_flags p = flags.
Proof.
  intros flags Hfl.
  assert (Hb : exists file, build21 (demo flags demo_secs) = Ok file)
    by (apply is_ok_Ok; destruct Hfl as [-> | ->]; lazy; reflexivity).
  destruct Hb as [file Hb].
  destruct (rom21_build_lemma sbE sbD sbE_length _ file (demo_wf flags) (demo_keys_wrap flags) Hb) as (r & Hr & Hsecs & Hflags & Hpv & Hcv & _).
  destruct (spsdk_parse21_build_lemma sbE sbD sbE_length _ file (demo_wf flags) (demo_keys_wrap flags)
              eq_refl eq_refl eq_refl Hb) as (oss & Hrel & Hp).
  exists file, r. eexists. split; [exact Hb|]. split; [exact Hr|]. split; [exact Hsecs|]. split; [exact Hpv|].
  split; [exact Hcv|]. split; [exact Hflags|]. split; [exact Hp|].
  split; [symmetry; exact (Forall2_len _ _ _ Hrel) | reflexivity].
Qed.

(* the builder before the repair of C04-F2 (image_blocks / first_boot_tag_block without the SHA-256 digest): the ROM
   rejects its SHA-flagged file and accepts the file of the current builder for the same input *)
Lemma old_builder_sha_refuted x :
  wf_sbin x -> keys_wrap sbE sbD (x_kek x) (x_dek x) (x_mac x) -> has_sha (x_flags x) = true ->
  is_ok (build21_old x) = true -> is_ok (build21 x) = true ->
  exists file, wf_sbin x /\ has_sha (x_flags x) = true /\ build21_old x = Ok file /\
               rom21_aes (x_sigsize x) (x_kek x) file = None /\
               (exists file' r, build21 x = Ok file' /\ rom21_aes (x_sigsize x) (x_kek x) file' = Some r /\
                                r_secs r = spec_of (x_secs x)).
Proof.
  intros W K Hs Ho Hn. destruct (is_ok_Ok _ Ho) as [file Hf]. destruct (is_ok_Ok _ Hn) as [file' Hf'].
  destruct (rom21_build_lemma sbE sbD sbE_length x file' W K Hf') as (r & Hr & Hsecs & _).
  exists file. split; [exact W|]. split; [exact Hs|]. split; [exact Hf|].
  split; [exact (rom21_old_rejects sbE sbD sbE_length x file W K Hs Hf)|].
  exists file', r. auto.
Qed.

Lemma cmd_stream_roundtrip_thm :
  forall cs, forallb wf_cmd cs = true ->
  exists bs os, cmds_export cs = Ok bs /\ (length bs mod 16 = 0)%nat /\
                Forall2 (fun c o => cmd_obs c = Ok o) cs os /\
                cmds_parse (S (length bs)) bs = Ok os /\ rom_cmds (S (length bs)) bs = Some (map sem cs).
Proof.
  intros cs W. destruct (cmds_stream cs W) as (bs & os & H1 & H2 & H3 & H4 & H5). exists bs, os.
  assert (F : (length cs < S (length bs))%nat) by lia.
  destruct (H5 _ F). repeat split; assumption.
Qed.

