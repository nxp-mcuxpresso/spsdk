(* Proofs/MbiBcaProofs.v -- C01: the BCA / FCF based images (Model/MbiBcaModel.v). *)
From Coq Require Import ZArith NArith List Bool Lia.
Require Import Value Bytes BytesProofs MbiMixinModel GenMbi MbiModel MbiProofs MbiRtProofs MbiKindsProofs MbiSweepProofs MbiBcaModel.
Import ListNotations.
Local Open Scope Z_scope.

(* ------------------------------------------------------------------ BinaryImage: sub-images that follow each other *)
Definition ocat (im : oimage) : list N := concat (map snd im).
Fixpoint contig_from (n : nat) (im : oimage) : Prop :=
  match im with [] => True | p :: t => fst p = n /\ contig_from (n + length (snd p)) t end.

Definition omax (a : nat) (p : nat * list N) : nat := Nat.max a (fst p + length (snd p)).
Definition osplice (buf : list N) (p : nat * list N) : list N := splice buf (fst p) (snd p).

Lemma zeros_split a b : zeros (a + b) = zeros a ++ zeros b.
Proof. unfold zeros. apply repeat_app. Qed.

Lemma olen_fold im : forall a, fold_left omax im a =
                               Nat.max a (fold_left omax im 0%nat).
Proof.
  induction im as [|p t IH]; intros a; cbn [fold_left]; [lia|]. rewrite IH. rewrite (IH (omax 0 p)). unfold omax. lia.
Qed.
Lemma olen_contig im : forall n, contig_from n im ->
  fold_left omax im n = (n + length (ocat im))%nat.
Proof.
  induction im as [|p t IH]; intros n H; cbn [fold_left ocat map concat]; [cbn; lia|].
  destruct H as [H1 H2]. unfold omax at 2. rewrite H1. replace (Nat.max n (n + length (snd p))) with (n + length (snd p))%nat by lia.
  rewrite (IH _ H2). unfold ocat. rewrite app_length. lia.
Qed.
Lemma olen_contig0 im : contig_from 0 im -> olen im = length (ocat im).
Proof. intros H. unfold olen. change (fold_left omax im 0%nat = length (ocat im)). now rewrite (olen_contig im 0 H). Qed.

Lemma splice_at_end (P d : list N) r : (length d <= r)%nat ->
  splice (P ++ zeros r) (length P) d = (P ++ d) ++ zeros (r - length d).
Proof.
  intros H. unfold splice. rewrite firstn_app, firstn_all, Nat.sub_diag, firstn_O, app_nil_r.
  rewrite skipn_app, skipn_all2 by lia. cbn [app].
  replace (length P + length d - length P)%nat with (length d) by lia.
  unfold zeros. replace r with (length d + (r - length d))%nat at 1 by lia. rewrite repeat_app, skipn_app, skipn_all2 by (rewrite repeat_length; lia).
  rewrite repeat_length, Nat.sub_diag. cbn [skipn app]. now rewrite <- app_assoc.
Qed.

Lemma oexport_contig_gen im : forall P, contig_from (length P) im ->
  fold_left osplice im (P ++ zeros (length (ocat im))) = P ++ ocat im.
Proof.
  induction im as [|p t IH]; intros P H; cbn [fold_left ocat map concat]; [cbn; now rewrite app_nil_r|].
  destruct H as [H1 H2]. unfold osplice at 2. rewrite H1. fold (ocat t). rewrite app_length.
  rewrite splice_at_end by lia. replace (length (snd p) + length (ocat t) - length (snd p))%nat with (length (ocat t)) by lia.
  rewrite IH by (now rewrite app_length). now rewrite <- app_assoc.
Qed.
Theorem oexport_contig im : contig_from 0 im -> oexport im = ocat im.
Proof.
  intros H. unfold oexport. rewrite (olen_contig0 im H). exact (oexport_contig_gen im [] H).
Qed.

Lemma contig_app im : forall n d, contig_from n im -> contig_from n (im ++ [((n + length (ocat im))%nat, d)]).
Proof.
  induction im as [|p t IH]; intros n d H; cbn [app contig_from ocat map concat fst snd].
  - split; [cbn; lia|exact I].
  - destruct H as [H1 H2]. split; [exact H1|]. fold (ocat t). rewrite app_length.
    replace (n + (length (snd p) + length (ocat t)))%nat with ((n + length (snd p)) + length (ocat t))%nat by lia. now apply IH.
Qed.
Lemma contig_oappend im d : contig_from 0 im -> contig_from 0 (oappend im d) /\ ocat (oappend im d) = ocat im ++ d.
Proof.
  intros H. unfold oappend. rewrite (olen_contig0 im H). split; [exact (contig_app im 0 d H)|].
  unfold ocat. rewrite map_app, concat_app. cbn. now rewrite app_nil_r.
Qed.
Lemma contig_fold_oappend l : forall im, contig_from 0 im ->
  contig_from 0 (fold_left oappend l im) /\ ocat (fold_left oappend l im) = ocat im ++ concat l.
Proof.
  induction l as [|d t IH]; intros im H; cbn [fold_left concat]; [now rewrite app_nil_r|].
  destruct (contig_oappend im d H) as [H1 H2]. destruct (IH _ H1) as [H3 H4]. split; [exact H3|]. rewrite H4, H2. now rewrite <- app_assoc.
Qed.

Lemma contig_oreplace im : forall n i d, contig_from n im -> length d = length (obinary im i) -> (i < length im)%nat ->
  contig_from n (oreplace im i d).
Proof.
  induction im as [|p t IH]; intros n i d H L Hi; [simpl in Hi; lia|].
  destruct p as [o b]. destruct H as [H1 H2]. destruct i as [|j]; cbn [oreplace contig_from fst snd] in *.
  - unfold obinary in L. cbn in L. split; [exact H1|]. now rewrite L.
  - split; [exact H1|]. apply IH; [exact H2 | exact L | simpl in Hi; lia].
Qed.

(* ------------------------------------------------------------------ the eleven slices of collect_data *)
Lemma sub_0 (l : list N) b : sub l 0 b = firstn b l.
Proof. apply slice_0. Qed.

Lemma fold_oappend_length l : forall im, length (fold_left oappend l im) = (length im + length l)%nat.
Proof.
  induction l as [|d t IH]; intros im; cbn [fold_left length]; [lia|]. rewrite IH. unfold oappend. rewrite app_length. simpl. lia.
Qed.
Lemma fold_oappend_nth l : forall i, (i < length l)%nat ->
  nth_error (fold_left oappend l []) i = Some (length (concat (firstn i l)), nth i l []).
Proof.
  induction l as [|d l IH] using rev_ind; intros i Hi; [simpl in Hi; lia|].
  rewrite fold_left_app. cbn [fold_left]. destruct (contig_fold_oappend l [] I) as [C E]. unfold oappend at 1.
  rewrite app_length in Hi. cbn [length] in Hi. pose proof (fold_oappend_length l []) as FL. cbn [length] in FL.
  destruct (Nat.eq_dec i (length l)) as [->|Ne].
  - rewrite nth_error_app2 by lia. rewrite FL, Nat.sub_diag. cbn [nth_error]. rewrite (olen_contig0 _ C), E. cbn [ocat map concat app].
    rewrite firstn_app, firstn_all, Nat.sub_diag, firstn_O, app_nil_r, app_nth2, Nat.sub_diag by lia. reflexivity.
  - rewrite nth_error_app1 by lia. rewrite IH by lia. rewrite firstn_app, app_nth1 by lia.
    replace (i - length l)%nat with 0%nat by lia. now rewrite firstn_O, app_nil_r.
Qed.

Lemma slice_reaches (l : list N) a b n : (0 < n)%nat -> (n <= length (slice l a b))%nat -> (a + n <= length l)%nat.
Proof. unfold slice. rewrite firstn_length, skipn_length. lia. Qed.

Lemma slices_shape (b : list N) :
  contig_from 0 (slices b false) /\ ocat (slices b false) = b /\ length (slices b false) = 11%nat /\
  exists o, nth_error (slices b false) I_BCA = Some (o, sub b O_BCA O_FCF) /\ ((960 <= length b)%nat -> o = 960%nat).
Proof.
  unfold slices. cbv beta iota.
  set (l := [sub b 0 O_DIGEST; sub b O_DIGEST O_SIG; sub b O_SIG O_BCA; sub b O_BCA O_FCF; sub b O_FCF O_ISK;
             sub b O_ISK O_ISKH; sub b O_ISKH O_WPCH; sub b O_WPCH O_WPCM; sub b O_WPCM O_DUK] ++ [sub b O_DUK O_DATA; skipn O_DATA b]).
  destruct (contig_fold_oappend l [] I) as [C E]. split; [exact C|]. split; [|split; [reflexivity|]].
  - rewrite E. unfold l, sub. cbn [ocat map concat app]. rewrite app_nil_r.
    change O_DIGEST with 864%nat; change O_SIG with 896%nat; change O_BCA with 960%nat; change O_FCF with 1024%nat;
    change O_ISK with 1040%nat; change O_ISKH with 1184%nat; change O_WPCH with 1504%nat; change O_WPCM with 1536%nat;
    change O_DUK with 2048%nat; change O_DATA with 3072%nat.
    rewrite !slice_skipn_cat by (apply Nat.leb_le; reflexivity). reflexivity.
  - eexists. split; [apply (fold_oappend_nth l I_BCA); unfold l, I_BCA; simpl; lia|].
    intros L. unfold l, I_BCA, sub. cbn [firstn app concat]. rewrite !app_length, !slice_length.
    all: change O_DIGEST with 864%nat; change O_SIG with 896%nat; change O_BCA with 960%nat; cbn [length]; lia.
Qed.

Lemma contig_off_ge im : forall n i o old, contig_from n im -> nth_error im i = Some (o, old) -> (n <= o)%nat.
Proof.
  induction im as [|p t IH]; intros n i o old H E; [destruct i; discriminate|].
  destruct H as [H1 H2]. destruct i as [|j]; cbn [nth_error] in E.
  - injection E as ->. cbn in H1. lia.
  - specialize (IH _ _ _ _ H2 E). lia.
Qed.
Lemma oreplace_ocat im : forall n i o old d, contig_from n im -> nth_error im i = Some (o, old) ->
  ocat (oreplace im i d) = firstn (o - n) (ocat im) ++ d ++ skipn (o - n + length old) (ocat im).
Proof.
  induction im as [|p t IH]; intros n i o old d H E; [destruct i; discriminate|].
  destruct p as [o' b']. destruct H as [H1 H2]. cbn [fst snd] in *. destruct i as [|j].
  - cbn [nth_error] in E. injection E as -> ->. cbn [oreplace ocat map concat snd]. subst n. rewrite Nat.sub_diag.
    cbn [firstn app Nat.add]. rewrite skipn_app, skipn_all, Nat.sub_diag. reflexivity.
  - cbn [nth_error] in E. pose proof (contig_off_ge _ _ _ _ _ H2 E) as G.
    cbn [oreplace ocat map concat snd]. fold (ocat t) (ocat (oreplace t j d)).
    rewrite (IH _ _ _ _ d H2 E).
    rewrite firstn_app, (firstn_all2 b') by lia. rewrite skipn_app, (skipn_all2 b') by lia. cbn [app].
    rewrite <- app_assoc. do 2 f_equal; [f_equal; lia|]. f_equal. f_equal. lia.
Qed.

(* ------------------------------------------------------------------ the kinds plain / CRC-in-BCA (mc56f81xxx, mwct20xx) *)
Definition allowed_fcf (m : mixin) : bool :=
  match m with MixinApp | MixinBcaTable | MixinFcfObsolete | ExportMixinAppFcf | ExportMixinCrcSignBca => true | _ => false end.
Definition wf_bca_fcf (c : mbi_class) : bool :=
  forallb allowed_fcf (c_mixins c) && has c MixinApp && has c MixinFcfObsolete && no_other_stage c &&
  (opt_mixin_id (provider c SCollect) =? mixin_id ExportMixinAppFcf) &&
  (opt_mixin_id (provider c SDisassemble) =? mixin_id ExportMixinAppFcf) &&
  ((opt_mixin_id (provider c SSign) =? 0) || (opt_mixin_id (provider c SSign) =? mixin_id ExportMixinCrcSignBca)).

Lemma wf_bca_fcf_spec c : wf_bca_fcf c = true ->
  forallb allowed_fcf (c_mixins c) = true /\ has c MixinFcfObsolete = true /\ no_other_stage c = true /\
  provider c SCollect = Some ExportMixinAppFcf /\ provider c SDisassemble = Some ExportMixinAppFcf /\
  (provider c SSign = None \/ provider c SSign = Some ExportMixinCrcSignBca).
Proof.
  unfold wf_bca_fcf. rewrite !andb_true_iff, orb_true_iff, !Z.eqb_eq. intros ((((((WA & _) & Wf) & Wn) & Wc) & Wd) & Ws).
  repeat split; try assumption; try (now apply opt_id_eq).
  destruct Ws as [Ws|Ws]; [left | right; now apply opt_id_eq]. destruct (provider c SSign) as [[]|]; (discriminate Ws || reflexivity).
Qed.

Lemma update_fcf_props x app : (1040 <= length app)%nat -> 0 <= b_lifecycle x < 256 ->
  exists b, update_fcf x app = Ok b /\
  length b = length app /\
  (forall i, i <> O_LC -> nth i b 0%N = nth i app 0%N) /\
  nth O_LC b 0%N = (if b_lifecycle x =? 255 then nth O_LC app 0%N else Z.to_N (b_lifecycle x)).
Proof.
  intros L R. unfold update_fcf. change O_LC with 1036%nat. destruct (b_lifecycle x =? 255) eqn:E; [exists app; repeat split; reflexivity|].
  replace (Nat.leb (length app) 1036) with false by (symmetry; apply Nat.leb_gt; lia).
  eexists. split; [reflexivity|].
  split; [apply splice_length; simpl; lia|]. split.
  - intros i Hi. apply (nth_wr_outside 1036 [_] app i); simpl; lia.
  - rewrite nth_splice by (simpl; lia). cbn [length]. replace (1036 <? 1036)%nat with false by (symmetry; apply Nat.ltb_irrefl).
    replace (1036 <? 1036 + 1)%nat with true by (symmetry; apply Nat.ltb_lt; lia). now rewrite Nat.sub_diag.
Qed.

Lemma parse_mixins_fcf q data l : forall st, forallb allowed_fcf l = true ->
  parse_mixins_b q data l st =
  Ok (if existsb (mixin_eqb MixinFcfObsolete) l then set_b_lifecycle st (lifecycle_of data) else st).
Proof.
  induction l as [|m t IH]; intros st H; [reflexivity|]. cbn [forallb] in H. apply andb_true_iff in H as [H1 H2].
  cbn [parse_mixins_b existsb].
  destruct m; try discriminate H1; cbn [mix_parse_b bind mixin_eqb mixin_id Z.eqb Pos.eqb orb]; rewrite (IH _ H2); try reflexivity.
  destruct (existsb (mixin_eqb MixinFcfObsolete) t); reflexivity.
Qed.

(* three words written inside a 64-byte window of b are three words written in place, and leave the rest alone *)
Lemma wr3_inner (b wc ws wn : list N) a :
  length wc = 4%nat -> length ws = 4%nat -> length wn = 4%nat -> (a + 64 <= length b)%nat ->
  firstn a b ++ wr 8 wn (wr 4 ws (wr 12 wc (slice b a (a + 64)))) ++ skipn (a + 64) b =
  wr (a + 8) wn (wr (a + 4) ws (wr (a + 12) wc b)).
Proof.
  intros Lc Ls Ln L. assert (Lm : length (slice b a (a + 64)) = 64%nat) by (rewrite slice_length; lia).
  assert (Lf : length (firstn a b) = a) by (rewrite firstn_length; lia).
  rewrite <- (wr_mid _ _ _ wn (a + 8) 8), <- (wr_mid _ _ _ ws (a + 4) 4), <- (wr_mid _ _ _ wc (a + 12) 12)
    by (rewrite ?wr_length; rewrite ?wr_length; lia).
  do 3 f_equal. now rewrite app_assoc, firstn_slice_cat, firstn_skipn by lia.
Qed.
Lemma wr3_facts (b wc ws wn : list N) a :
  length wc = 4%nat -> length ws = 4%nat -> length wn = 4%nat -> (a + 16 <= length b)%nat ->
  let im := wr (a + 8) wn (wr (a + 4) ws (wr (a + 12) wc b)) in
  length im = length b /\ (forall i, ~ (a + 4 <= i < a + 16)%nat -> nth i im 0%N = nth i b 0%N) /\
  rd32 (a + 4) im = Z.of_N (le_dec ws) /\ rd32 (a + 8) im = Z.of_N (le_dec wn) /\ rd32 (a + 12) im = Z.of_N (le_dec wc) /\
  (forall n, (a + 16 <= n)%nat -> skipn n im = skipn n b).
Proof.
  intros Lc Ls Ln L im. subst im.
  assert (L1 : length (wr (a + 12) wc b) = length b) by (rewrite wr_length; lia).
  assert (L2 : length (wr (a + 4) ws (wr (a + 12) wc b)) = length b) by (rewrite wr_length; lia).
  split; [rewrite wr_length; lia|]. split; [intros i Hi; rewrite !nth_wr_outside by lia; reflexivity|].
  split; [now rewrite rd32_wr_other, rd32_wr_same by lia|]. split; [now rewrite rd32_wr_same by lia|].
  split; [now rewrite !rd32_wr_other, rd32_wr_same by lia|]. intros n Hn. rewrite !skipn_wr by lia. reflexivity.
Qed.

(* Mbi_ExportMixinCrcSignBca.sign: the Boot Config Area sub-image must be there with its first 16 bytes; three of its
   words are written *)
Lemma sign_b_crc k c x im im' : provider c SSign = Some ExportMixinCrcSignBca -> sign_b k c x im = Ok im' ->
  (16 <= length (obinary im I_BCA))%nat /\
  exists wc ws wn, u32 (Z.of_N (mbi_crc32_mpeg (skipn O_DATA (oexport im)))) = Ok wc /\ u32 G_BCA_IMG_DATA_START = Ok ws /\
                   u32 (zlen (skipn O_DATA (oexport im))) = Ok wn /\
                   im' = oreplace im I_BCA (splice (splice (splice (obinary im I_BCA) 12 wc) 4 ws) 8 wn).
Proof.
  intros Pc S. unfold sign_b in S. rewrite Pc in S. destruct (obinary im I_BCA) as [|h t] eqn:Eb; [discriminate S|]. rewrite <- Eb in S |- *.
  destruct (Nat.ltb (length (obinary im I_BCA)) 16) eqn:Q; [discriminate S|]. apply Nat.ltb_ge in Q. split; [exact Q|].
  apply bind_ok in S as (wc & Uc & S). apply bind_ok in S as (ws & Us & S). apply bind_ok in S as (wn & Un & S). apply ok_inj in S.
  exists wc, ws, wn. auto.
Qed.

Lemma export_bca_fcf_shape k c x im :
  wf_bca_fcf c = true -> (1040 <= length (b_app x))%nat -> 0 <= b_lifecycle x < 256 ->
  export_b k c x = Ok im ->
  exists b, update_fcf x (b_app x) = Ok b /\
  (provider c SSign = None -> im = b) /\
  (provider c SSign = Some ExportMixinCrcSignBca ->
   exists wc ws wn, u32 (Z.of_N (mbi_crc32_mpeg (skipn O_DATA b))) = Ok wc /\ u32 G_BCA_IMG_DATA_START = Ok ws /\
                    u32 (zlen (skipn O_DATA b)) = Ok wn /\ im = wr 968 wn (wr 964 ws (wr 972 wc b))).
Proof.
  intros W L R E. destruct (wf_bca_fcf_spec c W) as (WA & Wfcf & Wno & Wcol & Wdis & Wsign).
  destruct (update_fcf_props x (b_app x) L R) as (b & UF & Lb & _ & _). exists b. split; [exact UF|].
  unfold export_b in E. rewrite Wno in E. cbn [negb] in E.
  apply bind_ok in E as ([] & _ & E). apply bind_ok in E as (im0 & C & E). apply bind_ok in E as (im1 & S & E). apply ok_inj in E. subst im.
  unfold collect_b in C. rewrite Wcol in C. destruct (b_app x) as [|a0 r0] eqn:Ea; [simpl in L; lia|]. rewrite <- Ea in *.
  rewrite UF in C. cbn [bind] in C. apply ok_inj in C. subst im0.
  destruct (slices_shape b) as (CT & OC & LN & o & OB & O960). rewrite O960 in OB by lia.
  assert (OBB : obinary (slices b false) I_BCA = sub b O_BCA O_FCF) by (unfold obinary; now rewrite OB).
  split.
  - intros Pn. unfold sign_b in S. rewrite Pn in S. apply ok_inj in S. subst im1. rewrite (oexport_contig _ CT). exact OC.
  - intros Pc. destruct (sign_b_crc _ _ _ _ _ Pc S) as (_ & wc & ws & wn & Uc & Us & Un & ->).
    rewrite (oexport_contig _ CT), OC in Uc, Un. rewrite OBB in *. exists wc, ws, wn. repeat split; try assumption.
    assert (Lbca : length (sub b O_BCA O_FCF) = 64%nat) by (unfold sub; rewrite slice_length; change O_BCA with 960%nat; change O_FCF with 1024%nat; lia).
    pose proof (u32_length _ _ Uc) as Lc. pose proof (u32_length _ _ Us) as Ls. pose proof (u32_length _ _ Un) as Ln.
    assert (Lnew : length (splice (splice (splice (sub b O_BCA O_FCF) 12 wc) 4 ws) 8 wn) = length (obinary (slices b false) I_BCA)).
    { assert (L1 : length (splice (sub b O_BCA O_FCF) 12 wc) = 64%nat) by (rewrite splice_length; lia).
      assert (L2 : length (splice (splice (sub b O_BCA O_FCF) 12 wc) 4 ws) = 64%nat) by (rewrite splice_length; lia).
      rewrite OBB, splice_length; lia. }
    rewrite (oexport_contig _ (contig_oreplace _ 0 I_BCA _ CT Lnew ltac:(rewrite LN; unfold I_BCA; lia))).
    rewrite (oreplace_ocat _ 0 I_BCA 960 (sub b O_BCA O_FCF) _ CT OB), OC, Lbca. apply (wr3_inner b wc ws wn 960); (assumption || lia).
Qed.

Theorem roundtrip_bca_fcf k q c x im :
  wf_bca_fcf c = true -> (1040 <= length (b_app x))%nat -> In (b_lifecycle x) lifecycle_tags ->
  export_b k c x = Ok im ->
  length im = length (b_app x) /\
  (forall i, i <> O_LC -> ~ (964 <= i < 976)%nat -> nth i im 0%N = nth i (b_app x) 0%N) /\
  (provider c SSign = None -> forall i, i <> O_LC -> nth i im 0%N = nth i (b_app x) 0%N) /\
  nth O_LC im 0%N = (if b_lifecycle x =? 255 then nth O_LC (b_app x) 0%N else Z.to_N (b_lifecycle x)) /\
  (provider c SSign = Some ExportMixinCrcSignBca ->
   rd32 964 im = G_BCA_IMG_DATA_START /\ rd32 968 im = zlen (skipn O_DATA im) /\
   rd32 972 im = Z.of_N (mbi_crc32_mpeg (skipn O_DATA im))) /\
  parse_b q c im = Ok (set_b_app (set_b_lifecycle bx_default (lifecycle_of im)) (pad4 im)) /\
  (b_lifecycle x <> 255 -> lifecycle_of im = b_lifecycle x).
Proof.
  intros W L LT E.
  assert (R : 0 <= b_lifecycle x < 256) by (unfold lifecycle_tags in LT; simpl in LT; lia).
  destruct (export_bca_fcf_shape k c x im W L R E) as (b & UF & SN & SC).
  destruct (update_fcf_props x (b_app x) L R) as (b' & UF' & Lb & NB & NL).
  rewrite UF in UF'. apply ok_inj in UF'. subst b'.
  destruct (wf_bca_fcf_spec c W) as (WA & Wfcf & Wno & Wcol & Wdis & Wsign).
  (* facts about the image, by case on the signing stage *)
  assert (F : length im = length b /\ (forall i, ~ (964 <= i < 976)%nat -> nth i im 0%N = nth i b 0%N) /\
              (provider c SSign = None -> im = b) /\
              (provider c SSign = Some ExportMixinCrcSignBca ->
               rd32 964 im = G_BCA_IMG_DATA_START /\ rd32 968 im = zlen (skipn O_DATA im) /\
               rd32 972 im = Z.of_N (mbi_crc32_mpeg (skipn O_DATA im)))).
  { destruct Wsign as [Ws|Ws].
    - rewrite (SN Ws). split; [reflexivity|]. split; [intros; reflexivity|]. split; [reflexivity|]. rewrite Ws. discriminate.
    - destruct (SC Ws) as (wc & ws & wn & Uc & Us & Un & ->).
      pose proof (u32_length _ _ Uc) as Lc. pose proof (u32_length _ _ Us) as Ls. pose proof (u32_length _ _ Un) as Ln.
      assert (L976 : (960 + 16 <= length b)%nat) by (rewrite Lb; apply (Nat.le_trans _ 1040); [apply Nat.leb_le; reflexivity | exact L]).
      destruct (wr3_facts b wc ws wn 960 Lc Ls Ln L976) as (F1 & F2 & R1 & R2 & R3 & SK). cbn [Nat.add] in SK.
      split; [exact F1|]. split; [exact F2|]. split; [rewrite Ws; discriminate|]. intros _.
      rewrite (SK O_DATA) by (apply Nat.leb_le; reflexivity).
      split; [exact (eq_trans R1 (proj1 (u32_value _ _ Us)))|]. split; [exact (eq_trans R2 (proj1 (u32_value _ _ Un)))|].
      exact (eq_trans R3 (proj1 (u32_value _ _ Uc))). }
  destruct F as (F1 & F2 & F3 & F4).
  assert (NLC : nth O_LC im 0%N = nth O_LC b 0%N) by (apply F2; change O_LC with 1036%nat; lia).
  split; [lia|]. split; [intros i H1 H2; rewrite F2 by exact H2; now apply NB|].
  split; [intros Pn i Hi; rewrite (F3 Pn); now apply NB|]. split; [now rewrite NLC|]. split; [exact F4|].
  assert (LO : lifecycle_of im = (if existsb (Z.eqb (Z.of_N (nth O_LC im 0%N))) lifecycle_tags then Z.of_N (nth O_LC im 0%N) else 255)).
  { unfold lifecycle_of. rewrite (nth_error_nth' im 0%N) by (change O_LC with 1036%nat; lia). reflexivity. }
  split.
  - unfold parse_b. rewrite Wno. cbn [negb]. rewrite parse_mixins_fcf by assumption.
    unfold has in Wfcf. rewrite Wfcf. cbn [bind]. rewrite Wdis. reflexivity.
  - intros NE. rewrite LO, NLC, NL. apply Z.eqb_neq in NE. rewrite NE. rewrite Z2N.id by lia.
    replace (existsb (Z.eqb (b_lifecycle x)) lifecycle_tags) with true; [reflexivity|].
    symmetry. apply existsb_exists. exists (b_lifecycle x). split; [exact LT | apply Z.eqb_refl].
Qed.

(* ------------------------------------------------------------------ every offer of the database: under a round-trip theorem,
   or one of two named kinds that are modelled (MbiBcaModel.v, exact correspondence on every run) but have no round-trip theorem:
   - kind_vx   (mc56f818xx / mwct20d2 signed, certificate block Vx): Mbi_ExportMixinEccSignVx replaces sub-images by shorter
     strings (zero fill), which the concatenation lemmas above do not cover;
   - kind_mcxc (mcxc plain with BCA / FCF objects): the register level canonical form of the two areas belongs to C11 / C12,
     and parse does not find the class for most payloads (finding C01-F11). *)
Definition kind_vx (c : mbi_class) : bool := bca_kind c && has c MixinCertBlockVx.
Definition kind_mcxc (c : mbi_class) : bool := bca_kind c && (has c MixinBca || has c MixinFcf).
Definition under_roundtrip_theorem (c : mbi_class) : bool :=
  wf_plain_crc c || wf_v1 c || wf_v21 c || wf_enc c || wf_bca_fcf c.
Definition offer_class_ok (c : mbi_class) : bool :=
  (under_roundtrip_theorem c && negb (kind_vx c) && negb (kind_mcxc c)) ||
  (negb (under_roundtrip_theorem c) && xorb (kind_vx c) (kind_mcxc c)).
Lemma offers_classified_all : forallb offer_class_ok gen_compositions = true.
Proof. vm_compute. reflexivity. Qed.
Lemma offers_classified : forall c, In c gen_compositions ->
  (under_roundtrip_theorem c = true /\ kind_vx c = false /\ kind_mcxc c = false) \/
  (under_roundtrip_theorem c = false /\ xorb (kind_vx c) (kind_mcxc c) = true).
Proof.
  intros c H. pose proof (proj1 (forallb_forall offer_class_ok gen_compositions) offers_classified_all c H) as K.
  unfold offer_class_ok in K. apply orb_true_iff in K as [K|K].
  - apply andb_true_iff in K as [K K3]. apply andb_true_iff in K as [K1 K2]. left. repeat split; [exact K1 | now apply negb_true_iff | now apply negb_true_iff].
  - apply andb_true_iff in K as [K1 K2]. right. split; [now apply negb_true_iff | exact K2].
Qed.
Lemma offers_counted :
  count_offers (fun _ => true) = (count_offers under_roundtrip_theorem + count_offers kind_vx + count_offers kind_mcxc)%nat /\
  (0 < count_offers wf_bca_fcf)%nat.
Proof. vm_compute. split; [reflexivity | lia]. Qed.


(* the repaired refusals (findings C01-F14, C01-F15): a life cycle on an application that ends before the life-cycle byte,
   and CRC signing of an application that ends inside the first 16 bytes of the Boot Config Area, are not exported *)
Theorem bca_fcf_refusals k c x im :
  wf_bca_fcf c = true -> export_b k c x = Ok im ->
  (b_lifecycle x <> 255 -> (O_LC < length (b_app x))%nat) /\
  (provider c SSign = Some ExportMixinCrcSignBca -> b_lifecycle x = 255 -> (O_BCA + 16 <= length (b_app x))%nat).
Proof.
  intros W E. destruct (wf_bca_fcf_spec c W) as (_ & _ & Wno & Wcol & _).
  unfold export_b in E. rewrite Wno in E. cbn [negb] in E.
  apply bind_ok in E as ([] & _ & E). apply bind_ok in E as (im0 & C & E). apply bind_ok in E as (im1 & S & E).
  unfold collect_b in C. rewrite Wcol in C. destruct (b_app x) as [|a0 r0] eqn:Ea; [discriminate C|]. rewrite <- Ea in *.
  apply bind_ok in C as (b & UF & C). apply ok_inj in C. subst im0.
  split.
  - intros NE. unfold update_fcf in UF. apply Z.eqb_neq in NE. rewrite NE in UF.
    destruct (Nat.leb (length (b_app x)) O_LC) eqn:Q; [discriminate UF|]. apply Nat.leb_gt in Q. exact Q.
  - intros Pc LC. unfold update_fcf in UF. rewrite LC, Z.eqb_refl in UF. apply ok_inj in UF. subst b.
    destruct (sign_b_crc _ _ _ _ _ Pc S) as (Q & _). destruct (slices_shape (b_app x)) as (CT & OC & LN & o & OB & _).
    unfold obinary in Q. rewrite OB in Q.
    apply (slice_reaches _ _ O_FCF); [lia | exact Q].
Qed.
