(* Proofs/BimgProofs.v -- C14 lemmas about Model/BimgModel.v and the regenerated tables Gen/GenBimg.v.
   The export is reduced to Lib's theory of pieces written over a filled buffer: the present segments of a well-formed table,
   in table order, form a chain (subs_sorted), so the merged image is their fill_layout (merge_flat); segments_intact,
   gaps_are_pattern and parse_merge read that layout. *)
From Coq Require Import ZArith NArith List Bool Lia.
From Coq Require String.
Require Import Value Bytes BytesProofs GenBimg BimgModel.
Import ListNotations.
Local Open Scope Z_scope.

Lemma align_up_spec n a : 0 < a -> n <= align_up n a /\ (align_up n a) mod a = 0 /\ align_up n a < n + a.
Proof.
  intros Ha. unfold align_up.
  pose proof (Z.div_mod (n + (a - 1)) a) as E. pose proof (Z.mod_pos_bound (n + (a - 1)) a Ha) as B.
  repeat split; [lia | apply Z.mod_mul; lia | lia].
Qed.

Lemma align_up_least n a m : 0 < a -> n <= m -> m mod a = 0 -> align_up n a <= m.
Proof.
  intros Ha Hm Hd. apply Z.mod_divide in Hd; [|lia]. destruct Hd as [q ->].
  unfold align_up. apply Z.mul_le_mono_nonneg_r; [lia|]. apply Z.lt_succ_r, Z.div_lt_upper_bound; lia.
Qed.

Lemma align_up_fix n a : 0 < a -> n mod a = 0 -> align_up n a = n.
Proof.
  intros Ha Hd. pose proof (align_up_spec n a Ha) as (H1 & H2 & H3).
  pose proof (align_up_least n a n Ha (Z.le_refl _) Hd). lia.
Qed.

(* shifting by a multiple of the alignment commutes with aligning (parse works in image coordinates) *)
Lemma align_up_shift n a io : 0 < a -> io mod a = 0 -> align_up (n - io) a = align_up n a - io.
Proof.
  intros Ha Hd. apply Z.mod_divide in Hd; [|lia]. destruct Hd as [q ->].
  unfold align_up.
  replace (n - q * a + (a - 1)) with ((n + (a - 1)) + (- q) * a) by lia.
  rewrite Z.div_add by lia. lia.
Qed.

(* BimgModel.zlen is Bytes.zlen under a second name, and rewrite and lia tell the two apart: the laws are stated for the
   model's name, and zlen_one brings what a Lib lemma or the unfolding of a Lib definition produces back to it. *)
Ltac zlen_one := change (@Bytes.zlen) with (@zlen) in *.

Lemma zlen_app {A} (a b : list A) : zlen (a ++ b) = zlen a + zlen b.
Proof. exact (BytesProofs.zlen_app a b). Qed.
Lemma zlen_nonneg {A} (a : list A) : 0 <= zlen a.
Proof. exact (BytesProofs.zlen_nonneg a). Qed.
Lemma zlen_repeat {A} (x : A) n : zlen (repeat x n) = Z.of_nat n.
Proof. unfold zlen. now rewrite repeat_length. Qed.
Lemma zlen_nil_iff {A} (a : list A) : zlen a = 0 <-> a = [].
Proof. exact (BytesProofs.zlen_nil_iff a). Qed.
Lemma repeat_app_nat {A} (x : A) n m : repeat x (n + m) = repeat x n ++ repeat x m.
Proof. apply repeat_app. Qed.

Lemma zlen_pos {A} (a : list A) : a <> [] -> 0 < zlen a.
Proof. destruct a; [congruence|]. unfold zlen. cbn [length]. lia. Qed.
Lemma is_nil_true {A} (a : list A) : is_nil a = true -> a = [].
Proof. destruct a; simpl; [reflexivity|discriminate]. Qed.

Lemma zfirst_app_exact {A} (p rest : list A) n : zlen p = n -> zfirst n (p ++ rest) = p.
Proof. intros <-. unfold zfirst, zlen. rewrite Nat2Z.id. now apply firstn_app_exact. Qed.

Section FillRead.
  Context {A : Type} (x : A).
  Implicit Types (l : list (Z * list A)).

  Lemma fill_chain_In l o d : forall pos, fill_chain pos l -> In (o, d) l -> pos <= o /\ o + zlen d <= fill_end pos l.
  Proof.
    induction l as [|[o1 d1] t IH]; intros pos S Hin; [contradiction|]. destruct S as [S1 S2]. cbn [fill_end].
    destruct Hin as [E|Hin].
    - injection E as -> ->. split; [exact S1 | exact (fill_end_ge _ _ S2)].
    - destruct (IH _ S2 Hin). pose proof (zlen_nonneg d1). zlen_one. lia.
  Qed.

  Lemma fill_layout_skip l o d pos :
    fill_chain pos l -> In (o, d) l -> exists rest, zskip (o - pos) (fill_layout x pos l) = d ++ rest.
  Proof.
    intros S Hin. apply in_split in Hin as (l1 & l2 & ->). apply fill_chain_app in S as [S1 [S2 _]].
    exists (fill_layout x (o + zlen d) l2). rewrite fill_layout_app. cbn [fill_layout]. rewrite app_assoc.
    apply skipn_app_exact. rewrite app_length, repeat_length.
    pose proof (fill_layout_length x l1 pos S1). pose proof (fill_end_ge _ _ S1). unfold Bytes.zlen in *. lia.
  Qed.

  (* also beyond the last piece: the default of nth is the fill *)
  Lemma fill_layout_gap l i : forall pos,
    fill_chain pos l -> pos <= i -> (forall o d, In (o, d) l -> ~ (o <= i < o + zlen d)) ->
    nth (Z.to_nat (i - pos)) (fill_layout x pos l) x = x.
  Proof.
    induction l as [|[o1 d1] t IH]; intros pos S Hi Hout; [now destruct (Z.to_nat (i - pos))|].
    destruct S as [S1 S2]. pose proof (Hout o1 d1 (or_introl eq_refl)) as H1. cbn [fill_layout].
    destruct (Z_lt_le_dec i o1) as [Hlt|Hge].
    - rewrite app_nth1 by (rewrite repeat_length; lia). apply nth_repeat.
    - rewrite app_nth2, repeat_length by (rewrite repeat_length; lia).
      unfold zlen, Bytes.zlen in *. rewrite app_nth2 by lia.
      replace (Z.to_nat (i - pos) - Z.to_nat (o1 - pos) - length d1)%nat
        with (Z.to_nat (i - (o1 + Z.of_nat (length d1)))) by lia.
      apply IH; [exact S2 | lia | intros o d Hin; apply Hout; now right].
  Qed.
End FillRead.

(* classes whose parser keeps the whole rest of the image (MBI, HAB, SB2.1, SB3.1) *)
Definition whole_tag (s : seg) : bool := (tag s =? 10) || (tag s =? 11) || (tag s =? 15) || (tag s =? 16).

(* consecutive segments s, s' of a table *)
Definition wf_pair (s s' : seg) : bool :=
  (if 0 <=? fo s' then (0 <=? fo s) && (fo s + Z.max (fsize s) 0 <=? fo s') && (fo s <? fo s')
   else 0 <=? fo s)                                   (* a floating segment follows a fixed one and is the last *)
  && negb (whole_tag s).                               (* whole-rest classes come last *)

Fixpoint wf_chain (l : list seg) : bool :=
  match l with
  | s :: ((s' :: _) as tl) => wf_pair s s' && wf_chain tl
  | _ => true
  end.

Definition wf_seg (l : list seg) (s : seg) : bool :=
  (0 <? algn s) &&
  (if 0 <=? doff s then (doff s mod algn s =? 0)       (* the database offset is where the segment starts *)
   else forallb (fun s' => if 0 <=? fo s' then fo s' mod algn s =? 0 else true) l).
                                                       (* every possible image start keeps the floating alignment *)

Definition wf_tableb (t : table) : bool :=
  match segs t with
  | [] => false
  | s :: _ => (0 <=? fo s) && wf_chain (segs t) && forallb (wf_seg (segs t)) (segs t)
  end.
Definition wf_table (t : table) : Prop := wf_tableb t = true.

Lemma all_tables_wf_lemma : forallb wf_tableb tables = true.
Proof. vm_compute. reflexivity. Qed.

Lemma tables_wf t : In t tables -> wf_table t.
Proof. intros H. exact (proj1 (forallb_forall _ _) all_tables_wf_lemma t H). Qed.

Lemma triples_in_range : forallb (fun x => snd x <? length tables)%nat triples = true.
Proof. vm_compute. reflexivity. Qed.

Example triples_nonempty : (Nat.ltb 100 (List.length triples)) = true.
Proof. vm_compute. reflexivity. Qed.

(* literal well-formed layouts used in examples and refutations (independent of the order of the regenerated tables) *)
Definition t_rt1170_nor : table := ex_table_rt1170_nor.
Definition t_rt1010_nor : table :=
  mkTable 0%N [mkSeg 1 0 1 256 false true; mkSeg 2 1024 1 512 true true; mkSeg 11 4096 1 (-1) true false].
Definition t_lpc55s3x_nor : table :=
  mkTable 255%N [mkSeg 2 1024 1 512 true true; mkSeg 5 1536 1 4 false true; mkSeg 10 4096 1 (-1) true false].
Definition t_mx8ulp_nor : table :=
  mkTable 0%N [mkSeg 1 0 1 256 false true; mkSeg 2 1024 1 512 true true; mkSeg 13 4096 1 (-1) true false;
               mkSeg 14 (-1) 1024 (-1) false false].
Example literal_tables_wf :
  wf_table t_rt1170_nor /\ wf_table t_rt1010_nor /\ wf_table t_lpc55s3x_nor /\ wf_table t_mx8ulp_nor.
Proof. repeat split; vm_compute; reflexivity. Qed.

Definition off_of (pe : Z) (s : seg) : Z := if 0 <=? fo s then fo s else align_up pe (algn s).

Fixpoint place_from (io pe : Z) (l : list (seg * list N)) : list placed :=
  match l with
  | [] => []
  | (s, p) :: tl => let o := off_of pe s in
                    mkPlaced s p (seg_offset io s (Ok o)) :: place_from io (o + zlen p) tl
  end.

Lemma off_of_fixed pe s : 0 <= fo s -> off_of pe s = fo s.
Proof. intros H. unfold off_of. destruct (0 <=? fo s) eqn:E; [reflexivity|lia]. Qed.
Lemma off_of_floating pe s : fo s < 0 -> off_of pe s = align_up pe (algn s).
Proof. intros H. unfold off_of. destruct (0 <=? fo s) eqn:E; [lia|reflexivity]. Qed.

Definition mk_placed (io : Z) (x : seg * list N * res Z) : placed :=
  mkPlaced (fst (fst x)) (snd (fst x)) (seg_offset io (fst (fst x)) (snd x)).

Lemma place_some io po pl l :
  map (mk_placed io) (combine l (raw_offsets (Some (Ok po, pl)) l)) = place_from io (po + pl) l.
Proof.
  revert po pl; induction l as [|[s p] tl IH]; intros po pl; [reflexivity|].
  cbn [raw_offsets combine map place_from]. unfold off_of.
  destruct (0 <=? fo s); unfold mk_placed at 1; cbn [fst snd]; f_equal; apply IH.
Qed.

Lemma place_none io pe l :
  match l with (s, _) :: _ => 0 <= fo s | [] => True end ->
  map (mk_placed io) (combine l (raw_offsets None l)) = place_from io pe l.
Proof.
  destruct l as [|[s p] tl]; intros H; [reflexivity|].
  cbn [raw_offsets combine map place_from]. unfold off_of.
  destruct (0 <=? fo s) eqn:E; [|lia].
  unfold mk_placed at 1. cbn [fst snd]. f_equal. apply place_some.
Qed.

Lemma place_spec t io ps :
  wf_table t -> place t io ps = place_from io 0 (combine (segs t) ps).
Proof.
  intros W. unfold place. fold (mk_placed io). apply place_none.
  unfold wf_table, wf_tableb in W. destruct (segs t) as [|s tl]; [discriminate|].
  destruct ps as [|p ps]; [exact I|]. cbn [combine]. lia.
Qed.

Lemma place_from_nth io l : forall pe k x, nth_error (place_from io pe l) k = Some x ->
  exists pe', nth_error l k = Some (p_seg x, p_data x) /\
    p_off x = seg_offset io (p_seg x) (Ok (off_of pe' (p_seg x))) /\
    forall x', nth_error (place_from io pe l) (S k) = Some x' ->
      p_off x' = seg_offset io (p_seg x') (Ok (off_of (off_of pe' (p_seg x) + zlen (p_data x)) (p_seg x'))).
Proof.
  induction l as [|[s p] tl IH]; intros pe k x H; [destruct k; discriminate|].
  destruct k as [|k]; cbn [place_from nth_error] in *; [|exact (IH _ _ _ H)].
  injection H as <-. exists pe. repeat split. intros x' H'.
  destruct tl as [|[s' p'] tl']; [discriminate|]. now injection H' as <-.
Qed.

Lemma combine_nth_fst {A B} (a : list A) (b : list B) k x y :
  nth_error (combine a b) k = Some (x, y) -> nth_error a k = Some x.
Proof.
  revert b k; induction a as [|a0 a IH]; intros b k H; [destruct k; discriminate|].
  destruct b as [|b0 b]; [destruct k; discriminate|].
  destruct k as [|k]; cbn in *; [now injection H as -> _|]. eapply IH; eassumption.
Qed.

Lemma wf_chain_nth l k s s' :
  wf_chain l = true -> nth_error l k = Some s -> nth_error l (S k) = Some s' -> wf_pair s s' = true.
Proof.
  revert k; induction l as [|a tl IH]; intros k W H1 H2; [destruct k; discriminate|].
  destruct tl as [|b tl']; [destruct k; cbn in H2; try discriminate; destruct k; discriminate|].
  cbn [wf_chain] in W. apply andb_true_iff in W as [W1 W2].
  destruct k as [|k]; cbn [nth_error] in *.
  - injection H1 as <-. injection H2 as <-. exact W1.
  - eapply IH; eassumption.
Qed.

Lemma wf_table_parts t : wf_table t ->
  wf_chain (segs t) = true /\ forallb (wf_seg (segs t)) (segs t) = true /\
  match segs t with s :: _ => 0 <= fo s | [] => False end.
Proof.
  unfold wf_table, wf_tableb. destruct (segs t) as [|s tl] eqn:E; [discriminate|].
  intros H. apply andb_true_iff in H as [H H3]. apply andb_true_iff in H as [H1 H2].
  repeat split; try assumption. lia.
Qed.

Lemma wf_seg_in t s : wf_table t -> In s (segs t) ->
  0 < algn s /\ (if 0 <=? doff s then (doff s mod algn s =? 0)
                 else forallb (fun s' => if 0 <=? fo s' then fo s' mod algn s =? 0 else true) (segs t)) = true.
Proof.
  intros W Hin. destruct (wf_table_parts t W) as (_ & F & _).
  pose proof (proj1 (forallb_forall _ _) F s Hin) as E. apply andb_true_iff in E as [Ea Eb]. split; [lia | exact Eb].
Qed.

Lemma wf_algn t s : wf_table t -> In s (segs t) -> 0 < algn s.
Proof. intros W Hin. apply (wf_seg_in t s W Hin). Qed.

Lemma wf_static_offset t s : wf_table t -> In s (segs t) -> 0 <= doff s -> fo s = doff s.
Proof.
  intros W Hin Hd. destruct (wf_seg_in t s W Hin) as [Ea Eb]. destruct (0 <=? doff s) eqn:E0; [|lia].
  unfold fo. destruct (doff s <? 0) eqn:E1; [lia|]. apply align_up_fix; lia.
Qed.

Lemma fo_dyn s : 0 < algn s -> (fo s < 0 <-> doff s < 0).
Proof.
  intros Ha. unfold fo. destruct (doff s <? 0) eqn:E; [lia|].
  pose proof (align_up_spec (doff s) (algn s) Ha). lia.
Qed.

Lemma before_floating t k s s' :
  wf_table t -> nth_error (segs t) k = Some s -> nth_error (segs t) (S k) = Some s' -> doff s' < 0 ->
  0 < algn s' /\ fo s' < 0 /\ 0 <= doff s /\ fo s = doff s.
Proof.
  intros W H1 H2 Hd. destruct (wf_table_parts t W) as (C & _ & _).
  pose proof (wf_algn t _ W (nth_error_In _ _ H1)) as Ha. pose proof (wf_algn t _ W (nth_error_In _ _ H2)) as Ha'.
  pose proof (wf_chain_nth _ _ _ _ C H1 H2) as P. unfold wf_pair in P. apply andb_true_iff in P as [P _].
  assert (Hfx : fo s' < 0) by (apply (fo_dyn _ Ha'); exact Hd).
  destruct (0 <=? fo s') eqn:E; [lia|].
  assert (Hdp : 0 <= doff s).
  { destruct (Z_lt_le_dec (doff s) 0) as [Hn|]; [apply (fo_dyn _ Ha) in Hn; lia | assumption]. }
  repeat split; try assumption. exact (wf_static_offset t s W (nth_error_In _ _ H1) Hdp).
Qed.

(* "payload sizes up to the next segment's offset": a payload never reaches into the next fixed segment *)
Fixpoint fits_l (l : list (seg * list N)) : Prop :=
  match l with
  | (s, p) :: (((s', _) :: _) as tl) => (0 <= fo s' -> fo s + zlen p <= fo s') /\ fits_l tl
  | _ => True
  end.
Definition fits (t : table) (ps : list (list N)) : Prop := fits_l (combine (segs t) ps).

Fixpoint chain_l (pe : Z) (l : list (seg * list N)) : Prop :=
  match l with
  | [] => True
  | (s, p) :: tl => 0 < algn s /\ pe <= off_of pe s /\ (fo s < 0 -> tl = []) /\ chain_l (off_of pe s + zlen p) tl
  end.

Lemma wf_chain_combine (a : list seg) (b : list (list N)) : wf_chain a = true -> wf_chain (map fst (combine a b)) = true.
Proof.
  revert b; induction a as [|s tl IH]; intros b W; [reflexivity|].
  destruct b as [|p b]; [reflexivity|]. cbn [combine map].
  destruct tl as [|s' tl']; [reflexivity|]. destruct b as [|p' b']; [reflexivity|].
  cbn [wf_chain] in W. apply andb_true_iff in W as [W1 W2].
  specialize (IH (p' :: b') W2). cbn [combine map fst] in IH |- *.
  change (wf_pair s s' && wf_chain (s' :: map fst (combine tl' b')) = true).
  now rewrite W1, IH.
Qed.

Lemma chain_of_fits pe l :
  wf_chain (map fst l) = true -> (forall s, In s (map fst l) -> 0 < algn s) -> fits_l l ->
  match l with (s, _) :: _ => 0 <= fo s -> pe <= fo s | [] => True end ->
  chain_l pe l.
Proof.
  revert pe; induction l as [|[s p] tl IH]; intros pe W A F H; [exact I|].
  cbn [chain_l]. assert (Ha : 0 < algn s) by (apply A; now left).
  assert (Hpe : pe <= off_of pe s).
  { destruct (Z_lt_le_dec (fo s) 0); [rewrite off_of_floating by assumption; now apply align_up_spec|].
    rewrite off_of_fixed by assumption. now apply H. }
  destruct tl as [|[s' p'] tl']; [cbn [chain_l]; auto|].
  cbn [map wf_chain] in W. apply andb_true_iff in W as [W1 W2].
  cbn [fits_l] in F. destruct F as [F1 F2].
  assert (Hst : 0 <= fo s).
  { unfold wf_pair in W1. apply andb_true_iff in W1 as [W1 _]. cbn [fst] in W1.
    destruct (0 <=? fo s'); lia. }
  split; [assumption|]. split; [assumption|]. split; [lia|].
  apply IH; try assumption.
  - intros x Hx. apply A. now right.
  - intros Hs'. rewrite (off_of_fixed pe s Hst). exact (F1 Hs').
Qed.

Lemma chain_of_table t ps : wf_table t -> fits t ps -> chain_l 0 (combine (segs t) ps).
Proof.
  intros W F. destruct (wf_table_parts t W) as (C & _ & H0).
  apply chain_of_fits; try assumption.
  - now apply wf_chain_combine.
  - intros s Hs. apply (wf_algn t s W). apply in_map_iff in Hs as ((s0 & p0) & <- & Hin).
    now apply in_combine_l in Hin.
  - destruct (segs t) as [|s tl]; [contradiction|]. destruct ps; [exact I|]. cbn [combine]. lia.
Qed.

Lemma seg_offset_ok io s o o' : seg_offset io s (Ok o) = Ok o' -> o' = o - io.
Proof. unfold seg_offset. destruct (excluded io s); [discriminate|]. cbn. now intros [= <-]. Qed.

Lemma chain_ge io pe l k x o :
  chain_l pe l -> nth_error (place_from io pe l) k = Some x -> p_off x = Ok o -> pe - io <= o.
Proof.
  revert pe k; induction l as [|[s p] tl IH]; intros pe k C H Ho; [destruct k; discriminate|].
  cbn [chain_l] in C. destruct C as (Ha & Hpe & _ & C').
  destruct k as [|k]; cbn [place_from nth_error] in H.
  - injection H as <-. apply seg_offset_ok in Ho as ->. lia.
  - pose proof (IH _ _ C' H Ho). pose proof (zlen_nonneg p). lia.
Qed.

Lemma chain_disjoint io pe l i j xi xj oi oj :
  chain_l pe l -> (i < j)%nat ->
  nth_error (place_from io pe l) i = Some xi -> nth_error (place_from io pe l) j = Some xj ->
  p_off xi = Ok oi -> p_off xj = Ok oj -> oi + zlen (p_data xi) <= oj.
Proof.
  revert pe i j; induction l as [|[s p] tl IH]; intros pe i j C Hij Hi Hj Hoi Hoj; [destruct i; discriminate|].
  cbn [chain_l] in C. destruct C as (Ha & Hpe & _ & C').
  destruct j as [|j]; [lia|]. cbn [place_from nth_error] in Hj.
  destruct i as [|i]; cbn [place_from nth_error] in Hi.
  - injection Hi as <-. apply seg_offset_ok in Hoi as ->. pose proof (chain_ge _ _ _ _ _ _ C' Hj Hoj). cbn [p_data]. lia.
  - apply (IH _ i j C'); try assumption. lia.
Qed.

(* the hypotheses are satisfiable with non-trivial payloads: the i.MX RT1170 NOR layout completely filled *)
Example fits_example :
  let t := t_rt1170_nor in
  wf_table t /\ fits t [syn 129 1024; syn 130 1024; syn 131 2048; syn 132 5000].
Proof.
  split; [vm_compute; reflexivity|]. unfold fits, t_rt1170_nor, ex_table_rt1170_nor. cbn [segs combine fits_l].
  repeat split; intros _; vm_compute; discriminate.
Qed.

(* present sub-images in table order: (offset in the image, bytes) *)
Fixpoint subs_of (io : Z) (pl : list placed) : list (Z * list N) :=
  match pl with
  | [] => []
  | x :: tl => if present io x then
                 match p_off x with Ok o => (o, p_data x) :: subs_of io tl | Err _ => subs_of io tl end
               else subs_of io tl
  end.

Lemma subs_of_app io a b : subs_of io (a ++ b) = subs_of io a ++ subs_of io b.
Proof.
  induction a as [|x tl IH]; [reflexivity|]. cbn [app subs_of].
  destruct (present io x); [|exact IH]. destruct (p_off x); [|exact IH]. cbn. now rewrite IH.
Qed.

Lemma subs_place_cons io pe s p tl :
  subs_of io (place_from io pe ((s, p) :: tl))
  = (if negb (excluded io s) && negb (is_nil p) then [(off_of pe s - io, p)] else [])
    ++ subs_of io (place_from io (off_of pe s + zlen p) tl).
Proof.
  cbn [place_from subs_of]. unfold present, seg_offset. cbn [p_seg p_data p_off].
  destruct (excluded io s); [reflexivity|]. destruct (is_nil p); reflexivity.
Qed.

Lemma subs_in io pl k x o :
  nth_error pl k = Some x -> present io x = true -> p_off x = Ok o -> In (o, p_data x) (subs_of io pl).
Proof.
  revert k; induction pl as [|y tl IH]; intros k H Hp Ho; [destruct k; discriminate|].
  destruct k as [|k]; cbn [nth_error subs_of] in *.
  - injection H as ->. rewrite Hp, Ho. now left.
  - specialize (IH _ H Hp Ho). destruct (present io y); [|assumption]. destruct (p_off y); [now right|assumption].
Qed.

Lemma subs_in_inv io pl o d :
  In (o, d) (subs_of io pl) -> exists k x, nth_error pl k = Some x /\ present io x = true /\ p_off x = Ok o /\ d = p_data x.
Proof.
  induction pl as [|y tl IH]; intros Hin; [contradiction|]. cbn [subs_of] in Hin.
  assert (Htl : In (o, d) (subs_of io tl) ->
                exists k x, nth_error (y :: tl) k = Some x /\ present io x = true /\ p_off x = Ok o /\ d = p_data x).
  { intros H. destruct (IH H) as (k & x & H1 & H2). exists (S k), x. split; assumption. }
  destruct (present io y) eqn:Py; [|auto]. destruct (p_off y) as [oy|] eqn:Oy; [|auto].
  destruct Hin as [E|Hin]; [|auto]. injection E as <- <-. exists 0%nat, y. repeat split; assumption.
Qed.

Definition offsets_ok (io : Z) : list placed -> Prop := Forall (fun x => present io x = true -> exists o, p_off x = Ok o).

Lemma place_from_offsets_ok io l : forall pe, offsets_ok io (place_from io pe l).
Proof.
  induction l as [|[s p] tl IH]; intros pe; cbn [place_from]; constructor; [|apply IH].
  unfold present, seg_offset. cbn [p_seg p_off]. destruct (excluded io s); [discriminate|]. intros _. eexists; reflexivity.
Qed.

(* __len__ = end of the last present segment *)
Lemma total_len_subs io pl c : offsets_ok io pl ->
  total_len io pl = if is_nil (subs_of io pl) then Err 2%N else Ok (fill_end c (subs_of io pl)).
Proof.
  induction pl as [|x tl IH] using rev_ind; intros H; [reflexivity|].
  apply Forall_app in H as [Ht Hx]. inversion Hx as [|? ? Hx' _]; subst.
  unfold total_len. rewrite filter_app, rev_app_distr, subs_of_app. cbn [filter subs_of].
  destruct (present io x).
  - destruct (Hx' eq_refl) as [o Ho]. rewrite Ho. cbn [rev app]. rewrite Ho, fill_end_app.
    destruct (subs_of io tl); reflexivity.
  - cbn [rev app]. rewrite app_nil_r. exact (IH Ht).
Qed.

Lemma insert_img_append x acc : Forall (fun y => fst y <= fst x) acc -> insert_img x acc = acc ++ [x].
Proof.
  induction acc as [|y tl IH]; intros F; [reflexivity|]. inversion F as [|? ? Hy Ht]; subst.
  cbn [insert_img]. destruct (fst x <? fst y) eqn:E; [lia|]. cbn. f_equal. now apply IH.
Qed.

(* BinaryImage.add_image keeps the table order when the offsets form a chain *)
Lemma sub_images_chain io pl : forall acc pos,
  offsets_ok io pl -> fill_chain pos (acc ++ subs_of io pl) -> sub_images io pl acc = Ok (acc ++ subs_of io pl).
Proof.
  induction pl as [|x tl IH]; intros acc pos H S; [now rewrite app_nil_r|].
  inversion H as [|? ? Hx Ht]; subst. cbn [sub_images subs_of] in *.
  destruct (present io x); [|exact (IH _ _ Ht S)].
  destruct (Hx eq_refl) as [o Ho]. rewrite Ho in *.
  assert (F : Forall (fun y => fst y <= o) acc).
  { apply fill_chain_app in S as [S1 S2]. destruct S2 as [S2 _]. apply Forall_forall. intros [o1 d1] Hin.
    destruct (fill_chain_In _ _ _ _ S1 Hin). pose proof (zlen_nonneg d1). cbn [fst]. lia. }
  rewrite insert_img_append by exact F.
  replace (acc ++ (o, p_data x) :: subs_of io tl) with ((acc ++ [(o, p_data x)]) ++ subs_of io tl) in *
    by now rewrite <- app_assoc.
  exact (IH _ _ Ht S).
Qed.

(* memoryview assignment never fails when the pieces form a chain inside the buffer *)
Lemma write_all_chain l : forall buf pos, 0 <= pos -> fill_chain pos l -> fill_end pos l <= zlen buf ->
  write_all buf l = Ok (fold_left (fun b s => splice b (Z.to_nat (fst s)) (snd s)) l buf).
Proof.
  induction l as [|[o d] tl IH]; intros buf pos Hp S He; [reflexivity|]. destruct S as [H1 H2].
  pose proof (fill_end_ge _ _ H2) as Hge. pose proof (zlen_nonneg d) as Hd.
  cbn [write_all fold_left fst snd fill_end] in *. zlen_one. unfold write_at.
  destruct ((o <? 0) || (zlen buf <? o + zlen d)) eqn:E; [lia|].
  apply (IH _ (o + zlen d)); [lia | exact H2 |].
  unfold zlen at 2. rewrite splice_length by (unfold zlen in *; lia). exact He.
Qed.

(* io is 0 or the start of a segment still ahead, or already passed *)
Definition ahead (io pe : Z) (l : list (seg * list N)) : Prop :=
  io <= pe \/ exists s p, In (s, p) l /\ fo s = io.

Lemma ahead_step io pe s p tl :
  chain_l pe ((s, p) :: tl) -> 0 <= pe -> ahead io pe ((s, p) :: tl) -> ahead io (off_of pe s + zlen p) tl.
Proof.
  intros (_ & Hle & _) Hpe A. pose proof (zlen_nonneg p). destruct A as [A|(s0 & p0 & [E|Hin] & Hf)].
  - left. lia.
  - injection E as -> ->. left. unfold off_of in *. destruct (0 <=? fo s0) eqn:E0; lia.
  - right. exists s0, p0. split; assumption.
Qed.

Lemma subs_sorted io pe l :
  chain_l pe l -> ahead io pe l -> 0 <= pe ->
  fill_chain (Z.max 0 (pe - io)) (subs_of io (place_from io pe l)).
Proof.
  revert pe; induction l as [|[s p] tl IH]; intros pe C A Hpe; [exact I|].
  pose proof (ahead_step _ _ _ _ _ C Hpe A) as A'. destruct C as (_ & Hle & Hlast & C').
  pose proof (zlen_nonneg p) as Hp. specialize (IH _ C' A' ltac:(lia)).
  rewrite subs_place_cons. destruct (negb (excluded io s) && negb (is_nil p)) eqn:Pr; cbn [app fill_chain]; zlen_one;
    [split|]; try (eapply fill_chain_weaken; [|exact IH]; lia).
  (* io <= off_of pe s: a fixed segment is not excluded; a floating one is the last, so io is behind or its own start *)
  apply andb_true_iff in Pr as [Ex _]. unfold excluded in Ex. unfold off_of in *. destruct (0 <=? fo s) eqn:E0; [lia|].
  destruct A as [A|(s0 & p0 & [E|Hin] & Hf)]; [lia | injection E as -> ->; lia |].
  rewrite Hlast in Hin by lia. contradiction.
Qed.

Definition valid_start (t : table) (io : Z) : Prop := io = 0 \/ exists s, In s (segs t) /\ fo s = io /\ 0 <= io.

Lemma ahead_of_start t io ps :
  List.length ps = List.length (segs t) -> valid_start t io -> ahead io 0 (combine (segs t) ps).
Proof.
  intros Hl [->|(s & Hin & Hf & H0)]; [left; lia|].
  right. destruct (in_combine_fst (segs t) ps s Hl Hin) as [p Hp]. now exists s, p.
Qed.

Lemma merge_flat t io ps img :
  wf_table t -> List.length ps = List.length (segs t) -> fits t ps -> valid_start t io -> merge t io ps = Ok img ->
  let subs := subs_of io (place t io ps) in
  fill_chain 0 subs /\ total_len io (place t io ps) = Ok (fill_end 0 subs) /\ img = fill_layout (fillb t) 0 subs.
Proof.
  intros W Hl F V Hm subs. unfold merge in Hm. unfold subs in *. clear subs. rewrite (place_spec t io ps W) in *.
  set (pl := place_from io 0 (combine (segs t) ps)) in *.
  pose proof (place_from_offsets_ok io (combine (segs t) ps) 0) as Ho. fold pl in Ho.
  assert (S : fill_chain 0 (subs_of io pl)).
  { eapply fill_chain_weaken; [|apply (subs_sorted io 0); [now apply chain_of_table | now apply ahead_of_start | lia]]. lia. }
  pose proof (fill_end_ge _ _ S) as Hge.
  rewrite (total_len_subs io pl 0 Ho) in *. destruct (is_nil (subs_of io pl)); [discriminate|].
  rewrite (sub_images_chain io pl [] 0 Ho S) in Hm. cbn [app] in Hm.
  rewrite (write_all_chain _ _ 0 (Z.le_refl 0) S) in Hm by (rewrite zlen_repeat; lia).
  rewrite (write_layout_0 _ _ _ S (Z.le_refl _)), Z.sub_diag in Hm. cbn [Z.to_nat repeat] in Hm. rewrite app_nil_r in Hm.
  injection Hm as <-. repeat split. exact S.
Qed.

Lemma fold_min_least rest : forall o,
  let m := fold_left Z.min rest o in In m (o :: rest) /\ forall x, In x (o :: rest) -> m <= x.
Proof.
  induction rest as [|a tl IH]; intros o; cbn [fold_left].
  - split; [now left|]. intros x [<-|[]]. lia.
  - destruct (IH (Z.min o a)) as [H1 H2]. split.
    + destruct H1 as [H1|H1]; [|right; now right]. rewrite <- H1.
      destruct (Z.min_spec o a) as [[_ ->]|[_ ->]]; [now left | right; now left].
    + intros x Hx. pose proof (H2 _ (or_introl eq_refl)).
      destruct Hx as [<-|[<-|Hx]]; [lia | lia | apply H2; now right].
Qed.

(* a positive init offset snaps to the closest segment start at or above it (floating segments do not count) and is refused
   (SPSDK error) beyond the last fixed segment -- on every layout *)
Lemma init_offset_snaps_lemma t r : 0 < r ->
  match set_init t r with
  | Ok io => (exists s, In s (segs t) /\ fo s = io) /\ r <= io /\ (forall s, In s (segs t) -> r <= fo s -> io <= fo s)
  | Err k => k = 1%N /\ forall s, In s (segs t) -> fo s < r
  end.
Proof.
  intros Hr. unfold set_init. destruct (r <? 0) eqn:E1; [lia|]. destruct (r =? 0) eqn:E2; [lia|].
  set (L := filter (fun o => r <=? o) (map fo (segs t))).
  assert (HL : forall x, In x L <-> (exists s, fo s = x /\ In s (segs t)) /\ (r <=? x) = true)
    by (intros x; unfold L; now rewrite filter_In, in_map_iff).
  clearbody L. destruct L as [|o rest].
  - split; [reflexivity|]. intros s Hs. destruct (Z_lt_le_dec (fo s) r) as [|Hge]; [assumption|].
    destruct (proj2 (HL (fo s))). split; [now exists s | lia].
  - destruct (fold_min_least rest o) as [Hin Hmin]. apply HL in Hin as [(s & Hs1 & Hs2) Hrm].
    split; [now exists s|]. split; [lia|]. intros s' Hs' Hge. apply Hmin, HL. split; [now exists s' | lia].
Qed.

(* the repaired C14-F1 instance: the start of the FCB on the i.MX 8ULP NOR layout (with a floating segment) *)
Example init_offset_floating_layout : set_init t_mx8ulp_nor 1024 = Ok 1024 /\ set_init t_mx8ulp_nor 1025 = Ok 4096 /\
                                      set_init t_mx8ulp_nor 4097 = Err 1%N.
Proof. vm_compute. repeat split. Qed.

Lemma wf_chain_later s l s' :
  wf_chain (s :: l) = true -> In s' l -> 0 <= fo s' -> fo s + Z.max (fsize s) 0 <= fo s' /\ 0 <= fo s.
Proof.
  revert s; induction l as [|s1 l' IH]; intros s W Hin Hs'; [contradiction|].
  cbn [wf_chain] in W. apply andb_true_iff in W as [W1 W2].
  unfold wf_pair in W1. apply andb_true_iff in W1 as [W1 _].
  destruct Hin as [->|Hin].
  - destruct (0 <=? fo s') eqn:E; [|lia]. lia.
  - destruct (IH s1 W2 Hin Hs') as [H1 H2]. destruct (0 <=? fo s1) eqn:E; [|lia]. lia.
Qed.

Fixpoint spaced_l (l : list (seg * list N)) : Prop :=
  match l with
  | [] => True
  | (s, _) :: tl => (forall s' p', In (s', p') tl -> 0 <= fo s' -> fo s + Z.max (fsize s) 0 <= fo s') /\ spaced_l tl
  end.
Fixpoint whole_last (l : list (seg * list N)) : Prop :=
  match l with
  | [] => True
  | (s, _) :: tl => (whole_tag s = true -> tl = []) /\ whole_last tl
  end.

Lemma spaced_of_wf l : wf_chain (map fst l) = true -> spaced_l l /\ whole_last l.
Proof.
  induction l as [|[s p] tl IH]; intros W; [split; exact I|].
  assert (Wt : wf_chain (map fst tl) = true).
  { cbn [map wf_chain] in W. destruct (map fst tl) eqn:E; [reflexivity|]. now apply andb_true_iff in W as [_ W]. }
  destruct (IH Wt) as [I1 I2]. split; cbn [spaced_l whole_last]; (split; [|assumption]).
  - intros s' p' Hin Hs'. apply (wf_chain_later s (map fst tl) s' W); [|assumption].
    apply in_map_iff. exists (s', p'). split; [reflexivity|assumption].
  - intros Hw. destruct tl as [|[s1 p1] tl1]; [reflexivity|].
    cbn [map wf_chain] in W. apply andb_true_iff in W as [W1 _]. unfold wf_pair in W1.
    apply andb_true_iff in W1 as [_ W1]. cbn [fst] in W1. rewrite Hw in W1. discriminate.
Qed.

(* what may be left out: a fixed-size header segment (when a later fixed segment is supplied), or the floating
   segment; a floating segment is supplied only together with its predecessor *)
Fixpoint supplied_ok (io : Z) (l : list (seg * list N)) : Prop :=
  match l with
  | [] => True
  | (s, p) :: tl =>
      (0 <= fo s -> excluded io s = false -> p = [] -> exists s' p', In (s', p') tl /\ 0 <= fo s' /\ p' <> []) /\
      (match tl with (s', p') :: _ => fo s' < 0 -> p' <> [] -> p <> [] /\ excluded io s = false | [] => True end) /\
      supplied_ok io tl
  end.

Section ParseProof.
  Variable rec : seg -> list N -> rec_result.
  Variable find : seg -> list N -> res Z.
  Variable f : N.        (* fill byte *)
  Variable io : Z.

  (* contract of the per-class recogniser for segment s carrying payload p (p = [] : not supplied) *)
  Definition rec_ok (s : seg) (p : list N) : Prop :=
    (p = [] -> 0 <= fo s ->
       0 < fsize s /\ forall n rest, fsize s <= Z.of_nat n -> rec s (repeat f n ++ rest) = RAbsent) /\
    (p <> [] -> forall rest, (whole_tag s = true -> rest = []) ->
       rec s (p ++ rest) = RFound p (zlen p) /\ (fo s < 0 -> find s (p ++ rest) = Ok 0)).

  Definition masked (l : list (seg * list N)) : list (list N) :=
    map (fun x => if excluded io (fst x) then [] else snd x) l.

  Lemma zskip_in_gap (done X : list N) q o :
    zlen done <= q <= o -> zskip q (done ++ repeat f (Z.to_nat (o - zlen done)) ++ X) = repeat f (Z.to_nat (o - q)) ++ X.
  Proof.
    intros H. unfold zskip, zlen in *.
    rewrite skipn_app_ge, skipn_app_le, skipn_repeat by (rewrite ?repeat_length; lia). do 2 f_equal. lia.
  Qed.

  Lemma zskip_at (done X : list N) o :
    zlen done <= o -> zskip o (done ++ repeat f (Z.to_nat (o - zlen done)) ++ X) = X.
  Proof. intros H. rewrite zskip_in_gap by lia. now rewrite Z.sub_diag. Qed.

  Lemma zlen_gap (done X : list N) o :
    zlen done <= o -> zlen (done ++ repeat f (Z.to_nat (o - zlen done)) ++ X) = o + zlen X.
  Proof. intros H. rewrite !zlen_app, zlen_repeat. lia. Qed.

  Lemma parse_loop_fixed s tl first po psz img :
    0 <= fo s -> excluded io s = false -> fo s - io < zlen img ->
    parse_loop rec find io img first po psz (s :: tl)
    = match rec s (zskip (fo s - io) img) with
      | RFound raw ln => res_map (cons raw) (parse_loop rec find io img false (fo s - io) ln tl)
      | RAbsent => res_map (cons []) (parse_loop rec find io img false po psz tl)
      | RFail k => Err k
      end.
  Proof.
    intros Hs Ex Hl. cbn [parse_loop]. cbv zeta. rewrite Ex. unfold is_dyn.
    destruct (fo s <? 0) eqn:E; [lia|]. destruct ((zlen img <=? fo s - io) && is_hdr s) eqn:E1; [lia|reflexivity].
  Qed.

  Lemma parse_step_found s p tl first po psz done X r :
    0 <= fo s -> excluded io s = false -> rec_ok s p -> p <> [] -> (whole_tag s = true -> X = []) ->
    zlen done <= fo s - io ->
    let img := done ++ repeat f (Z.to_nat (fo s - io - zlen done)) ++ p ++ X in
    parse_loop rec find io img false (fo s - io) (zlen p) tl = Ok r ->
    parse_loop rec find io img first po psz (s :: tl) = Ok (p :: r).
  Proof.
    intros Hs Ex [_ R] Hp HX Hd img HI. destruct (R Hp X HX) as [Rr _].
    rewrite parse_loop_fixed; try assumption; unfold img at 1.
    - now rewrite zskip_at, Rr, HI.
    - rewrite zlen_gap, zlen_app by exact Hd. pose proof (zlen_pos p Hp). pose proof (zlen_nonneg X). lia.
  Qed.

  Lemma parse_step_absent s tl first po psz done o X r :
    0 <= fo s -> excluded io s = false -> rec_ok s [] -> zlen done <= fo s - io -> fo s - io + fsize s <= o ->
    let img := done ++ repeat f (Z.to_nat (o - zlen done)) ++ X in
    parse_loop rec find io img false po psz tl = Ok r ->
    parse_loop rec find io img first po psz (s :: tl) = Ok ([] :: r).
  Proof.
    intros Hs Ex [R _] Hd Ho img HI. destruct (R eq_refl Hs) as [Hfs Rab].
    rewrite parse_loop_fixed; try assumption; unfold img at 1.
    - now rewrite zskip_in_gap, Rab, HI by lia.
    - rewrite zlen_gap by lia. pose proof (zlen_nonneg X). lia.
  Qed.

  Lemma parse_step_floating s p po psz done o :
    fo s < 0 -> 0 < algn s -> excluded io s = false -> rec_ok s p -> zlen done = po + psz ->
    (p <> [] -> o = align_up (po + psz) (algn s)) ->
    parse_loop rec find io (done ++ fill_layout f (zlen done) (if negb (is_nil p) then [(o, p)] else [])) false po psz [s]
    = Ok [p].
  Proof.
    intros Hdyn Ha Ex [_ R] Hd Ho. pose proof (align_up_spec (po + psz) (algn s) Ha) as (B & _ & _).
    cbn [parse_loop]. cbv zeta. rewrite Ex. unfold is_dyn. destruct (fo s <? 0) eqn:E; [|lia].
    destruct (is_nil p) eqn:En; cbn [negb fill_layout].
    - (* not supplied: the image ends before the aligned start *)
      apply is_nil_true in En as ->. rewrite app_nil_r.
      destruct (zlen done <=? align_up (po + psz) (algn s)) eqn:E1; [reflexivity|lia].
    - assert (Hp : p <> []) by (intros ->; discriminate). rewrite (Ho Hp).
      set (start := align_up (po + psz) (algn s)) in *. pose proof (zlen_pos p Hp).
      destruct (R Hp [] (fun _ => eq_refl)) as [Rr Rf].
      rewrite zlen_gap, zskip_at, zlen_app by lia. change (zlen (@nil N)) with 0.
      destruct (start + (zlen p + 0) <=? start) eqn:E1; [lia|].
      rewrite (Rf Hdyn). cbv beta iota. rewrite !Z.add_0_r, zskip_at, Rr by lia.
      destruct ((start + zlen p <=? start) && is_hdr s) eqn:E2; [lia|reflexivity].
  Qed.

  Lemma first_sub_static pe tl :
    chain_l pe tl ->
    (exists s' p', In (s', p') tl /\ 0 <= fo s' /\ p' <> [] /\ excluded io s' = false) ->
    exists s1 d1 rest, subs_of io (place_from io pe tl) = (fo s1 - io, d1) :: rest /\ In (s1, d1) tl /\ 0 <= fo s1.
  Proof.
    revert pe; induction tl as [|[s0 p0] tl IH]; intros pe C (s' & p' & Hin & Hs' & Hp' & Hx'); [contradiction|].
    destruct C as (_ & _ & Hlast & C'). rewrite subs_place_cons.
    destruct (negb (excluded io s0) && negb (is_nil p0)) eqn:Pr; cbn [app].
    - assert (Hst : 0 <= fo s0).
      { destruct (Z_lt_le_dec (fo s0) 0) as [Hd|]; [|assumption].
        rewrite (Hlast Hd) in Hin. destruct Hin as [E|[]]. injection E as -> ->. lia. }
      rewrite (off_of_fixed pe s0 Hst). exists s0, p0. eexists. repeat split; [now left | assumption].
    - destruct Hin as [E|Hin].
      + injection E as -> ->. rewrite Hx' in Pr. destruct p'; [congruence | discriminate].
      + destruct (IH _ C') as (s1 & d1 & rest & E1 & E2 & E3); [exists s', p'; auto|].
        exists s1, d1, rest. repeat split; try assumption. now right.
  Qed.

  Lemma parse_loop_ok l : forall pe,
    chain_l pe l -> ahead io pe l -> 0 <= pe -> spaced_l l -> whole_last l -> supplied_ok io l ->
    (forall s p, In (s, p) l -> excluded io s = false -> rec_ok s p) ->
    (forall s p, In (s, p) l -> fo s < 0 -> io mod algn s = 0) ->
    forall done first po psz,
    (match l with (s, p) :: _ => (first = true -> 0 <= fo s) /\ (fo s < 0 -> p <> [] -> zlen done = pe - io)
                | [] => True end) ->
    zlen done = po + psz -> zlen done <= Z.max 0 (pe - io) ->
    parse_loop rec find io (done ++ fill_layout f (zlen done) (subs_of io (place_from io pe l))) first po psz (map fst l)
    = Ok (masked l).
  Proof.
    induction l as [|[s p] tl IH]; intros pe C A Hpe Sp Wl Su R Dm done first po psz Hh Hd Hc; [reflexivity|].
    pose proof (ahead_step _ _ _ _ _ C Hpe A) as A'. destruct C as (Ha & Hle & Hlast & C').
    destruct Sp as [Sp1 Sp2], Wl as [Wl1 Wl2], Su as (Su1 & Su2 & Su3), Hh as [Hf1 Hf2].
    pose proof (zlen_nonneg p) as Hp0. pose proof (R s p (or_introl eq_refl)) as Rs.
    specialize (IH _ C' A' ltac:(lia) Sp2 Wl2 Su3 (fun s0 p0 H => R s0 p0 (or_intror H)) (fun s0 p0 H => Dm s0 p0 (or_intror H))).
    (* the head condition of the tail when nothing is consumed: its floating head is supplied only with a supplied s *)
    assert (Hh' : (excluded io s = true \/ p = []) -> forall P : Prop,
              match tl with (s1, p1) :: _ => (false = true -> 0 <= fo s1) /\ (fo s1 < 0 -> p1 <> [] -> P)
                          | [] => True end).
    { intros Hno P. destruct tl as [|[s1 p1] tl1]; [exact I|]. split; [discriminate|].
      intros H1 H2. destruct (Su2 H1 H2) as [E1 E2]. destruct Hno; congruence. }
    rewrite subs_place_cons. cbn [map fst masked]. fold (masked tl).
    destruct (excluded io s) eqn:Ex; cbn [negb andb app].
    - (* excluded: skipped, nothing in the image *)
      cbn [parse_loop]. rewrite Ex, IH; [reflexivity | apply Hh'; now left | exact Hd | lia].
    - specialize (Rs eq_refl). destruct (Z_lt_le_dec (fo s) 0) as [Hdyn|Hst].
      + (* floating: the last segment *)
        rewrite (Hlast Hdyn). cbn [map place_from subs_of]. rewrite app_nil_r. destruct first; [lia|].
        apply parse_step_floating; try assumption.
        intros Hp. rewrite (off_of_floating _ _ Hdyn), <- Hd, (Hf2 Hdyn Hp).
        symmetry. apply align_up_shift; [assumption|]. eapply Dm; [now left|assumption].
      + rewrite (off_of_fixed pe s Hst) in *.
        assert (Hq0 : 0 <= fo s - io) by (unfold excluded in Ex; lia).
        assert (Hqc : zlen done <= fo s - io) by lia.
        destruct (is_nil p) eqn:En; cbn [negb app].
        * (* header segment not supplied: up to the next supplied fixed segment the image reads as padding *)
          apply is_nil_true in En. subst p. change (zlen (@nil N)) with 0 in *.
          destruct (proj1 Rs eq_refl Hst) as [Hfs _].
          destruct (Su1 Hst eq_refl eq_refl) as (s' & p' & Hin' & Hs' & Hp').
          pose proof (Sp1 s' p' Hin' Hs') as Hsp'.
          destruct (first_sub_static _ tl C') as (s1 & d1 & rest & E1 & E2 & E3);
            [exists s', p'; repeat split; try assumption; unfold excluded; lia|].
          pose proof (Sp1 s1 d1 E2 E3) as Hsp1.
          rewrite E1 in *. cbn [fill_layout] in *.
          apply parse_step_absent; try assumption; [lia|].
          apply IH; [apply Hh'; now right | exact Hd | lia].
        * assert (Hpn : p <> []) by (intros ->; discriminate).
          cbn [fill_layout]. zlen_one. apply parse_step_found; try assumption.
          { intros Hw. now rewrite (Wl1 Hw). }
          specialize (IH (done ++ repeat f (Z.to_nat (fo s - io - zlen done)) ++ p) false (fo s - io) (zlen p)).
          rewrite zlen_gap, <- !app_assoc in IH by exact Hqc. apply IH; [|reflexivity|lia].
          destruct tl as [|[s2 p2] tl2]; [exact I|]. split; [discriminate|]. intros _ _. lia.
  Qed.
End ParseProof.

Lemma start_aligned t io s : wf_table t -> valid_start t io -> In s (segs t) -> fo s < 0 -> io mod algn s = 0.
Proof.
  intros W V Hin Hd. destruct (wf_seg_in t s W Hin) as [Ea Eb].
  assert (Hdo : doff s < 0) by (apply (fo_dyn s); lia).
  destruct (0 <=? doff s) eqn:E0; [lia|].
  destruct V as [->|(s' & Hin' & Hf' & H0)]; [apply Z.mod_0_l; lia|].
  pose proof (proj1 (forallb_forall _ _) Eb s' Hin') as E'. cbv beta in E'.
  destruct (0 <=? fo s') eqn:E1; [|lia]. subst io. lia.
Qed.

Lemma parse_merge_lemma rec find t io ps img :
  wf_table t -> List.length ps = List.length (segs t) -> fits t ps -> valid_start t io ->
  supplied_ok io (combine (segs t) ps) ->
  (forall s p, In (s, p) (combine (segs t) ps) -> excluded io s = false -> rec_ok rec find (fillb t) s p) ->
  merge t io ps = Ok img ->
  parse_at rec find t io img = Ok (masked io (combine (segs t) ps)).
Proof.
  intros W Hl F V Su R Hm. destruct (merge_flat t io ps img W Hl F V Hm) as (_ & _ & ->).
  rewrite (place_spec t io ps W).
  set (l := combine (segs t) ps) in *.
  destruct (wf_table_parts t W) as (Cw & _ & H0).
  destruct (spaced_of_wf l) as [Sp Wl]; [apply wf_chain_combine; exact Cw|].
  unfold parse_at. rewrite <- (map_fst_combine (segs t) ps Hl). fold l.
  apply (parse_loop_ok rec find (fillb t) io l 0 (chain_of_table t ps W F) (ahead_of_start t io ps Hl V) (Z.le_refl 0)
           Sp Wl Su R) with (done := []) (po := 0) (psz := 0); [| |reflexivity|cbn; lia].
  - intros s p Hin Hd. apply (start_aligned t io s W V); [|assumption]. now apply in_combine_l in Hin.
  - unfold l. destruct (segs t) as [|s tl]; [contradiction|]. destruct ps as [|p ps']; [exact I|].
    cbn [combine]. split; intros; lia.
Qed.

Lemma masked_full t ps : List.length ps = List.length (segs t) -> masked 0 (combine (segs t) ps) = ps.
Proof.
  intros Hl. unfold masked. rewrite <- (map_snd_combine (segs t) ps Hl) at 2.
  apply map_ext. intros [s p]. cbn [fst snd]. unfold excluded.
  destruct (fo s - 0 <? 0) eqn:E1; destruct (0 <=? fo s) eqn:E2; try reflexivity. lia.
Qed.

(* the recogniser contract is met by the code's generic
   Segment.parse_binary (key blob, key store, BEE headers) *)
Lemma all_eq_repeat b n : all_eq b (repeat b n) = true.
Proof. unfold all_eq. induction n; cbn; [reflexivity|]. now rewrite N.eqb_refl. Qed.

Lemma is_padding_fill f s n rest :
  In f padding_bytes -> 0 < fsize s <= Z.of_nat n -> is_padding s (repeat f n ++ rest) = true.
Proof.
  intros Hf Hn. unfold is_padding. pose proof (zlen_nonneg rest). rewrite zlen_app, zlen_repeat.
  apply andb_true_intro; split; [lia|]. apply existsb_exists. exists f. split; [assumption|].
  unfold zfirst. rewrite firstn_app, firstn_repeat, repeat_length.
  replace (Z.to_nat (fsize s) - n)%nat with 0%nat by lia. rewrite app_nil_r. apply all_eq_repeat.
Qed.

Lemma is_padding_payload s p rest :
  zlen p = fsize s -> (forall b, In b padding_bytes -> all_eq b p = false) -> is_padding s (p ++ rest) = false.
Proof.
  intros Hl Hnp. unfold is_padding. rewrite (zfirst_app_exact p rest _ Hl). apply andb_false_intro2.
  destruct (existsb (fun b => all_eq b p) padding_bytes) eqn:E; [|reflexivity].
  apply existsb_exists in E as (b & Hb1 & Hb2). now rewrite (Hnp b Hb1) in Hb2.
Qed.

Lemma rec_raw_fill f s n rest :
  In f padding_bytes -> 0 < fsize s <= Z.of_nat n -> rec_raw s (repeat f n ++ rest) = RAbsent.
Proof.
  intros Hf Hn. unfold rec_raw. rewrite is_padding_fill by assumption.
  destruct ((0 <? fsize s) && (zlen (repeat f n ++ rest) <? fsize s)) eqn:E; [|reflexivity].
  rewrite zlen_app, zlen_repeat in E. pose proof (zlen_nonneg rest). lia.
Qed.

Lemma rec_raw_payload s p rest :
  0 < fsize s -> zlen p = fsize s -> (forall b, In b padding_bytes -> all_eq b p = false) ->
  rec_raw s (p ++ rest) = RFound p (zlen p).
Proof.
  intros Hs Hl Hnp. unfold rec_raw. rewrite is_padding_payload, zfirst_app_exact, zlen_app by assumption.
  pose proof (zlen_nonneg rest). destruct (0 <? fsize s) eqn:E1; [|lia].
  destruct (zlen p + zlen rest <? fsize s) eqn:E2; [lia|]. reflexivity.
Qed.

Lemma find_std_0 c s bin : tag s < 12 -> find_std c s bin = Ok 0.
Proof. intros H. unfold find_std. destruct ((tag s =? 12) || (tag s =? 13) || (tag s =? 14)) eqn:E; [lia|reflexivity]. Qed.

Definition raw_tag (s : seg) : bool := (tag s =? 1) || (tag s =? 6) || (tag s =? 7) || (tag s =? 8).

(* Concrete images run to thousands of bytes.  The instances below are therefore decided by boolean tests, so that evaluation
   ends in true = true and no image is written into a proof term: a result is named by the expression that computes it
   (res_ok_get) and parse results are compared by parsed_eq. *)
Lemma res_ok_get {A} (r : res A) d :
  (match r with Ok _ => true | Err _ => false end) = true -> r = Ok (match r with Ok a => a | Err _ => d end).
Proof. destruct r; [reflexivity|discriminate]. Qed.

Lemma parsed_eq (r : res (Z * list (list N))) io ps :
  (match r with
   | Ok (io', ps') => (io' =? io) && (length ps' =? length ps)%nat && forallb (fun x => eqb_list (fst x) (snd x)) (combine ps' ps)
   | Err _ => false
   end) = true ->
  r = Ok (io, ps).
Proof.
  destruct r as [[io' ps']|]; [|discriminate]. intros H.
  apply andb_true_iff in H as [H H3]. apply andb_true_iff in H as [H1 H2].
  apply Z.eqb_eq in H1 as ->. apply Nat.eqb_eq in H2. do 2 f_equal.
  revert ps H2 H3; induction ps' as [|a ps' IH]; intros [|b ps] H2 H3; try discriminate; [reflexivity|].
  cbn in H3. apply andb_true_iff in H3 as [E H3]. apply eqb_list_spec in E as ->.
  f_equal. apply IH; [now injection H2 | assumption].
Qed.

(* a complete instance: the i.MX RT1170 NOR layout with key blob, (tagged) FCB, key store and a HAB container *)
Example parse_merge_instance :
  let t := t_rt1170_nor in
  let hab := syn 140 300 in
  let c := mkCtx true [mkDescr 11 (firstn 8 hab) 300 true] in
  let ps := [syn 129 256; [70; 67; 70; 66]%N ++ syn 130 508; []; hab] in
  match merge t 0 ps with
  | Ok img => parse_typed (rec_std c) (find_std c) t img = Ok (0, ps) /\
              parse_typed (rec_std c) (find_std c) t (zskip 1024 img) = Ok (1024, [[]; nth 1 ps []; []; hab])
  | Err _ => False
  end.
Proof.
  intros t hab c ps. rewrite (res_ok_get (merge t 0 ps) []) by (vm_compute; reflexivity).
  split; apply parsed_eq; vm_compute; reflexivity.
Qed.

(* repaired C14-F4: the FCB recogniser meets the contract whether or not the family has an FCB description *)
Lemma fcb_tag_fill f n rest : In f padding_bytes -> (0 < n)%nat -> fcb_tag (repeat f n ++ rest) = false.
Proof.
  intros Hf Hn. destruct n as [|n]; [lia|].
  assert (E : forallb (fun x => negb (N.eqb 70 x) && negb (N.eqb 67 x)) padding_bytes = true) by (vm_compute; reflexivity).
  pose proof (proj1 (forallb_forall _ _) E f Hf) as Hb. cbv beta in Hb. apply andb_true_iff in Hb as [H1 H2].
  apply negb_true_iff in H1, H2. unfold fcb_tag. cbn [repeat app starts_with]. now rewrite H1, H2.
Qed.

Lemma starts_with_app q p rest : starts_with q p = true -> starts_with q (p ++ rest) = true.
Proof.
  revert p; induction q as [|a q IH]; intros p H; [reflexivity|].
  destruct p as [|b p]; [discriminate|]. cbn [app starts_with] in *.
  destruct (N.eqb a b); [now apply IH|discriminate].
Qed.

Definition fcb_class (s : seg) : bool := (tag s =? 2) || (tag s =? 3).

Lemma rec_std_fcb c s bin : fcb_class s = true ->
  rec_std c s bin =
  if zlen bin <? fsize s then RFail 1%N
  else if fcb_tag bin then (if fcb_supported c then let raw := zfirst (fsize s) bin in RFound raw (zlen raw) else rec_raw s bin)
       else if is_padding s bin then RAbsent else RFail 1%N.
Proof.
  intros H. apply orb_true_iff in H as [H|H]; apply Z.eqb_eq in H; unfold rec_std; rewrite H; reflexivity.
Qed.

(* the repaired instance: the same merged image is parsed back with and without an FCB description of the family *)
Example fcb_any_family_instance :
  let t := t_mx8ulp_nor in
  let ps := [syn 129 256; [70; 67; 70; 66]%N ++ syn 130 508; syn 140 1024; []] in
  let d := [mkDescr 13 (firstn 8 (syn 140 1024)) 1024 false; mkDescr 14 (firstn 8 (syn 140 1024)) 1024 false] in
  match merge t 0 ps with
  | Ok img => parse_typed (rec_std (mkCtx true d)) (find_std (mkCtx true d)) t img = Ok (0, ps) /\
              parse_typed (rec_std (mkCtx false d)) (find_std (mkCtx false d)) t img = Ok (0, ps) /\
              parse_typed (rec_std (mkCtx false d)) (find_std (mkCtx false d)) t (zskip 1024 img)
                = Ok (1024, [[]; nth 1 ps []; nth 2 ps []; []])
  | Err _ => False
  end.
Proof.
  intros t ps d. rewrite (res_ok_get (merge t 0 ps) []) by (vm_compute; reflexivity).
  split; [|split]; apply parsed_eq; vm_compute; reflexivity.
Qed.

(* repaired C14-F2: a configuration is loaded only when no fixed-size class gets more bytes than its SIZE *)
Lemma oversize_rejected_l l : load_check_l l = Ok tt ->
  forall s p, In (s, p) l -> sized_tag s = true -> 0 < fsize s -> zlen p <= fsize s.
Proof.
  induction l as [|[s0 p0] tl IH]; intros H s p Hin Ht Hs; [contradiction|].
  cbn [load_check_l] in H.
  destruct (sized_tag s0 && (0 <? fsize s0) && (fsize s0 <? zlen p0)) eqn:E; [discriminate|].
  destruct ((tag s0 =? 11) && is_nil p0); [discriminate|].
  destruct Hin as [Eq|Hin]; [|eapply IH; eassumption].
  injection Eq as -> ->. rewrite Ht in E. cbn [andb] in E. lia.
Qed.

Example oversize_rejected_instance :
  load_check t_rt1010_nor [syn 129 257; [70; 67; 70; 66]%N ++ syn 130 508; syn 140 300] = Err 1%N /\
  load_check t_rt1010_nor [syn 129 256; [70; 67; 70; 66]%N ++ syn 130 508; syn 140 300] = Ok tt.
Proof. vm_compute. split; reflexivity. Qed.
