(* C04, Secure Binary 2.0 (Model/Sb20Model.v): BootImageV20.export, its parser and the ROM reader, on top of the section and
   header theorems of Sb2Proofs.v; the optional certificate section is laid out like a boot section. *)
From Coq Require Import ZArith NArith List Bool Lia ZifyNat ZifyN.
Require Import Value Bytes BytesProofs GenSb2 GenSb20 Sha2 Aes Modes Hmac KeyWrap Crc Sb2Model Sb2Proofs Sb20Model.
Import ListNotations.
Local Open Scope N_scope.

Definition wf_sb20 (y : sb20in) : Prop :=
  secs_wf (y_secs y) /\ length (y_dek y) = 32%nat /\ length (y_mac y) = 32%nat /\ length (y_pad2 y) = 8%nat /\
  (y_signed y = true -> length (y_sig y) = y_sigsize y) /\ ver_ok (y_pv y) /\ ver_ok (y_cv y).

Definition flags20 (y : sb20in) : N := if y_signed y then V20_FLAGS_SIGNED else V20_FLAGS_UNSIGNED.

(* the certificate section is laid out like a boot section with one MAC group: encrypted header, its MAC, the MAC of the
   certificate block, the block *)
Lemma certsect_slices {A} (pre ench h1 h2 cbb post : list A) :
  length pre = 208%nat -> length ench = 16%nat -> length h1 = 32%nat -> length h2 = 32%nat ->
  let f := pre ++ (ench ++ h1 ++ h2 ++ cbb) ++ post in
  slice f 208 224 = ench /\ slice f 224 256 = h1 /\ slice f 256 288 = h2 /\ slice f 288 (288 + length cbb) = cbb /\
  skipn 288 f = cbb ++ post.
Proof.
  intros Hp He H1 H2 f. destruct (sec_slices pre ench h1 h2 cbb post 208 Hp He H1) as (S1 & S2 & S3 & S4 & S5 & _).
  rewrite H2 in S3, S4, S5. exact (conj S1 (conj S2 (conj S3 (conj S4 S5)))).
Qed.

Section Cipher20Proofs.
Variable E D : list N -> list N -> list N.
Hypothesis E_len : forall k b, length (E k b) = 16%nat.

Definition certsect_shape (y : sb20in) (ssz : nat) (csb : list N) : Prop :=
  if y_signed y then
    exists cbb, cb_export (y_cb y) (y_build y) (N.of_nat (208 + ssz)) = Ok cbb /\
                hdr_fits (certsect_hdr (y_cb y)) = true /\ ctr_of_nonce (y_nonce y) + 13 < U32 /\
                csb = xblock (E (y_dek y)) (y_nonce y) (ctr_of_nonce (y_nonce y) + 13) (hdr_export (certsect_hdr (y_cb y)))
                      ++ hmac256 (y_mac y) (xblock (E (y_dek y)) (y_nonce y) (ctr_of_nonce (y_nonce y) + 13) (hdr_export (certsect_hdr (y_cb y))))
                      ++ hmac256 (y_mac y) cbb ++ cbb
  else csb = [].

(* the shape of every file BootImageV20.export returns *)
Lemma build20_inv y file :
  wf_sb20 y -> keys_wrap E D (y_kek y) (y_dek y) (y_mac y) -> build20_gen E y = Ok file ->
  exists hb kb0 csb bs fbsid mm,
    file = hb ++ hmac256 (y_mac y) hb ++ (kb0 ++ y_pad2 y) ++ csb ++ bs ++ (if y_signed y then y_sig y else []) /\
    length hb = 96%nat /\ length kb0 = 72%nat /\ kw_unwrap (D (y_kek y)) kb0 = Some (y_dek y ++ y_mac y) /\
    ((208 + length csb) mod 16 = 0)%nat /\ ((208 + length csb + length bs) mod 16 = 0)%nat /\
    ihdr_export (mkIhdr (y_nonce y) (y_pad1 y) 2 0 (flags20 y) (N.of_nat ((208 + length csb + length bs) / 16))
                        (N.of_nat ((208 + length csb) / 16)) fbsid (if y_signed y then 288 else 0) 6 8 5 mm
                        (y_ts y) (y_pv y) (y_cv y) (y_build y)) = Ok hb /\
    certsect_shape y (length bs) csb /\
    (length csb = if y_signed y then (80 + cb_raw_size (y_cb y))%nat else 0%nat) /\
    secs_export (E (y_dek y)) (y_mac y) (y_nonce y) (ctr_of_nonce (y_nonce y) + N.of_nat ((208 + length csb) / 16)) (y_secs y) = Ok bs /\
    uids_distinct [] (map s_uid (y_secs y)) = true /\
    (exists s0 st, y_secs y = s0 :: st /\ fbsid = s_uid s0).
Proof.
  intros (Wsecs & Wdek & Wmac & Wpad2 & Wsig & Wpv & Wcv) Hdom H. unfold build20_gen in H.
  destruct (uids_distinct [] (map s_uid (y_secs y))) eqn:Huid; [|discriminate]. cbn [negb] in H.
  destruct (y_secs y) as [|s0 st] eqn:Esecs; [discriminate|]. rewrite <- Esecs in *.
  destruct (secs_raw_size (y_secs y)) as [ssz|] eqn:Essz; [|discriminate].
  set (cbraw := cb_raw_size (y_cb y)) in *.
  set (csz := if y_signed y then (CS_OVERHEAD + cbraw)%nat else 0%nat) in *.
  set (tagoff := (PRE20 + csz)%nat) in *.
  set (rawsz := (tagoff + ssz)%nat) in *.
  destruct (aligned16 tagoff) eqn:Atag; [|discriminate].
  destruct (aligned16 rawsz) eqn:Araw; [|discriminate]. cbn [negb] in H.
  set (hdr := mkIhdr _ _ _ _ _ _ _ _ _ _ _ _ _ _ _ _ _) in H.
  destruct (ihdr_export hdr) as [hb|] eqn:Ehb; [|discriminate].
  set (kb0 := wrap_keys E (y_kek y) (y_dek y) (y_mac y)) in *.
  set (pre := hb ++ hmac256 (y_mac y) hb ++ kb0 ++ y_pad2 y) in *.
  destruct (ihdr_export_inv hdr hb Ehb) as (_ & _ & _ & _ & Lhb).
  destruct Hdom as [Lkb0 Hunwrap]. fold kb0 in Lkb0, Hunwrap.
  assert (Lpre : length pre = 208%nat) by (unfold pre; rewrite !app_length, Lhb, hmac256_length, Lkb0, Wpad2; reflexivity).
  rewrite Lpre in H. change (aligned16 208) with true in H. cbn [negb] in H. change (208 / 16)%nat with 13%nat in H.
  change PRE20 with 208%nat in *. change CS_OVERHEAD with 80%nat in *.
  set (ctr0 := ctr_of_nonce (y_nonce y) + N.of_nat 13) in *.
  assert (Hcs : exists csb, (if y_signed y then certsect_export E (y_dek y) (y_mac y) (y_nonce y) ctr0 (y_cb y) (y_build y) (N.of_nat (208 + ssz))
                             else Ok []) = Ok csb /\ certsect_shape y ssz csb /\ length csb = csz).
  { destruct (y_signed y) eqn:Esg.
    - unfold certsect_export in *. destruct (hdr_fits (certsect_hdr (y_cb y))) eqn:Hf; [|discriminate H]. cbn [negb] in *.
      destruct (U32 <=? ctr0) eqn:Hov; [discriminate H|].
      destruct (cb_export (y_cb y) (y_build y) (N.of_nat (208 + ssz))) as [cbb|] eqn:Ecb; [|discriminate H].
      eexists. split; [reflexivity|]. split.
      + unfold certsect_shape. rewrite Esg. exists cbb. split; [exact Ecb|]. split; [exact Hf|]. split.
        * apply N.leb_gt in Hov. unfold ctr0 in Hov. lia.
        * unfold ctr0. reflexivity.
      + destruct (cb_export_inv _ _ _ _ Ecb) as (Lcbb & _). unfold csz.
        rewrite !app_length, !hmac256_length, Lcbb. rewrite xblock_length by (try apply E_len; apply hdr_export_length).
        fold cbraw. lia.
    - exists []. split; [reflexivity|]. split; [unfold certsect_shape; now rewrite Esg|reflexivity]. }
  destruct Hcs as (csb & Ecs & Hshape & Lcsb). rewrite Ecs in H.
  destruct (aligned16 (length csb)) eqn:Acs; [|discriminate]. cbn [negb] in H.
  destruct (secs_export (E (y_dek y)) (y_mac y) (y_nonce y) (ctr0 + N.of_nat (length csb / 16)) (y_secs y)) as [bs|] eqn:Ebs; [|discriminate].
  pose proof (secs_raw_size_ok (E (y_dek y)) (E_len _) (y_mac y) (y_nonce y) _ _ _ _ Wsecs Ebs Essz) as Hssz.
  destruct (Nat.eqb _ _) eqn:Elen; [|discriminate]. injection H as <-.
  unfold aligned16 in Atag, Araw, Acs. apply Nat.eqb_eq in Atag, Araw, Acs.
  exists hb, kb0, csb, bs, (s_uid s0), (N.of_nat ((if y_signed y then 1 else 0) + secs_mac_count (y_secs y))).
  split.
  { unfold pre. rewrite <- !app_assoc. destruct (y_signed y); [reflexivity| now rewrite !app_nil_r]. }
  split; [exact Lhb|]. split; [exact Lkb0|]. split; [exact Hunwrap|].
  unfold hdr in Ehb. unfold tagoff, rawsz, tagoff in *. rewrite <- Lcsb in *. rewrite Hssz in *.
  split; [exact Atag|]. split; [exact Araw|]. split.
  { unfold flags20.
    replace (if y_signed y then N.of_nat (208 + 80) else 0) with (if y_signed y then 288 else 0) in Ehb by (destruct (y_signed y); reflexivity).
    exact Ehb. }
  split; [exact Hshape|]. split; [exact Lcsb|]. split; [|split; [reflexivity| exists s0, st; split; [exact Esecs|reflexivity]]].
  replace (ctr_of_nonce (y_nonce y) + N.of_nat ((208 + length csb) / 16)) with (ctr0 + N.of_nat (length csb / 16))
    by (unfold ctr0; lia).
  exact Ebs.
Qed.

Definition sigpart (y : sb20in) : list N := if y_signed y then y_sig y else [].

Lemma certhdr_magic flds tl :
  firstn 4 (pack certhdr_format (FB CERT_SIGNATURE :: flds) ++ tl) = CERT_SIGNATURE.
Proof. unfold certhdr_format. cbn [pack pack1 snd]. rewrite <- app_assoc. now apply firstn_app_exact. Qed.

Lemma rom20_build_lemma y file :
  wf_sb20 y -> keys_wrap E D (y_kek y) (y_dek y) (y_mac y) -> build20_gen E y = Ok file ->
  exists r, rom20 E D (y_sigsize y) (y_kek y) file = Some r /\
    t_secs r = spec_of (y_secs y) /\ t_signed r = y_signed y /\ t_pv r = y_pv y /\ t_cv r = y_cv y /\
    t_build r = y_build y /\ t_ts r = y_ts y /\ t_sig r = sigpart y /\
    file = firstn (t_signed_len r) file ++ sigpart y /\ length (firstn (t_signed_len r) file) = t_signed_len r /\
    t_boot_index r = 0%nat /\ hdr_first_boot_section_id file = option_map s_uid (hd_error (y_secs y)).
Proof.
  intros W Hdom H.
  destruct (build20_inv y file W Hdom H) as (hb & kb0 & csb & bs & fbsid & mm & Hfile & Lhb & Lkb0 & Hkw & Htag & Hraw & Ehb & Hshape & Lcsb & Ebs & Huid & (s0 & st & Esecs0 & Hfb)).
  destruct W as (Wsecs & Wdek & Wmac & Wpad2 & Wsig & Wpv & Wcv).
  (* the alignment facts as multiples of 16: linear for lia *)
  destruct (mod_mult_exists _ 16 ltac:(lia) Htag) as [qt Hqt]. destruct (mod_mult_exists _ 16 ltac:(lia) Hraw) as [qr Hqr].
  clear Htag Hraw.
  set (hm := hmac256 (y_mac y) hb) in *.
  assert (Lhm : length hm = 32%nat) by apply hmac256_length.
  set (kb := kb0 ++ y_pad2 y) in *.
  assert (Lkb : length kb = 80%nat) by (unfold kb; rewrite app_length, Lkb0, Wpad2; reflexivity).
  destruct (secs_export_rom (E (y_dek y)) (E_len _) (y_mac y) (y_nonce y) _ _ _ Wsecs Ebs) as (_ & Hbsl & Hrom).
  assert (Hnsec : (1 <= length (y_secs y))%nat).
  { destruct (y_secs y) as [|s0' st'] eqn:Es'; [|cbn; lia]. unfold build20_gen in H. rewrite Es' in H. cbn [map uids_distinct negb] in H. discriminate H. }
  assert (Hbs48 : (48 <= length bs)%nat) by lia.

  set (stop := (208 + length csb + length bs)%nat) in *.
  set (start := (208 + length csb)%nat) in *.
  assert (Lsig : length (sigpart y) = if y_signed y then y_sigsize y else 0%nat).
  { unfold sigpart. destruct (y_signed y); [now apply Wsig|reflexivity]. }
  assert (Hfile' : file = (hb ++ hm ++ kb ++ csb) ++ bs ++ sigpart y) by (rewrite Hfile; unfold sigpart; rewrite <- !app_assoc; reflexivity).
  assert (Lpre : length (hb ++ hm ++ kb ++ csb) = start) by (rewrite !app_length, Lhb, Lhm, Lkb; unfold start; lia).
  assert (Lfile : length file = (stop + length (sigpart y))%nat) by (rewrite Hfile', app_length, Lpre, app_length; unfold stop, start; lia).
  assert (Hunp : unpack imghdr_format file = _) by (rewrite Hfile; apply (ihdr_unpack _ hb _ Ehb)).
  assert (Hfid : hdr_first_boot_section_id file = option_map s_uid (hd_error (y_secs y))).
  { unfold hdr_first_boot_section_id. change rom_imghdr_layout with imghdr_format. rewrite Hunp. cbv beta iota.
    rewrite Esecs0, Hfb. reflexivity. }
  unfold rom20.
  replace (Nat.ltb (length file) 208) with false by (symmetry; apply Nat.ltb_ge; rewrite Lfile; unfold stop; lia).
  change rom_imghdr_layout with imghdr_format.
  rewrite Hunp. clear Hunp. cbv beta iota.
  cbn [ih_nonce ih_pad ih_major ih_minor ih_flags ih_image_blocks ih_first_boot_tag_block ih_first_boot_section_id ih_cert_off
       ih_header_blocks ih_key_blob_block ih_key_blob_block_count ih_max_mac ih_ts ih_pv ih_cv ih_build].
  step_none reflexivity.
  step_none reflexivity.
  step_none reflexivity.
  step_none ltac:(unfold flags20; destruct (y_signed y); reflexivity).
  destruct (front208 hb hm kb (csb ++ bs ++ (if y_signed y then y_sig y else [])) Lhb Lhm Lkb) as (Shb & Shm & _ & Skb & _).
  rewrite <- Hfile in Shb, Shm, Skb. rewrite slice_0 in Shb.
  replace (firstn 72 kb) with kb0 in Skb by (unfold kb; symmetry; now apply firstn_app_exact).
  rewrite Skb, Hkw. cbv beta iota.
  rewrite (firstn_app_exact (y_dek y) (y_mac y) 32 Wdek), (skipn_app_exact (y_dek y) (y_mac y) 32 Wdek).
  step_none ltac:(rewrite app_length, Wdek, Wmac; reflexivity).
  rewrite Shm, Shb. fold hm. rewrite eqb_list_refl. cbn [negb].
  step_none ltac:(apply orb_false_iff; split; [apply N.ltb_ge; unfold nlen; rewrite Lfile; fold stop; lia | apply N.leb_gt; fold stop start; lia]).
  cbv zeta. fold stop start.
  replace (N.to_nat (N.of_nat (stop / 16)) * 16)%nat with stop by (rewrite Nat2N.id; unfold stop; lia).
  replace (N.to_nat (N.of_nat (start / 16)) * 16)%nat with start by (rewrite Nat2N.id; unfold start; lia).
  assert (Sstop : firstn stop file = (hb ++ hm ++ kb ++ csb) ++ bs ++ []).
  { rewrite Hfile', app_nil_r, app_assoc. apply firstn_app_exact. rewrite app_length, Lpre. reflexivity. }
  assert (Sskip : skipn stop file = sigpart y).
  { rewrite Hfile', app_assoc. apply skipn_app_exact. rewrite app_length, Lpre. reflexivity. }
  assert (Hwalk : rom_sections (E (y_dek y)) (S (length file)) (y_mac y) (y_nonce y) (firstn stop file) start stop = Some (spec_of (y_secs y))).
  { assert (Hfu : (length (y_secs y) < S (length file))%nat) by (rewrite Lfile; unfold stop; lia).
    rewrite Hfile' at 2. unfold stop. rewrite <- Lpre.
    apply (rom_walk_built (E (y_dek y)) (E_len _)); [exact Wsecs | rewrite Lpre, Hqt; apply Nat.mod_mul; lia | rewrite Lpre; exact Ebs | exact Hfu]. }
  assert (Efl : (flags20 y =? 8) = y_signed y) by (unfold flags20; destruct (y_signed y); reflexivity).
  rewrite !Efl.
  assert (Hfin : forall first, first = start ->
     (if negb (Nat.eqb start first) then None
      else if negb (Nat.eqb (length file) (stop + (if y_signed y then y_sigsize y else 0))) then None
      else match rom_sections (E (y_dek y)) (S (length file)) (y_mac y) (y_nonce y) (firstn stop file) start stop with
           | None => None
           | Some secs =>
               match find_uid_index fbsid (map fst secs) with
               | None => None
               | Some bi => Some (mkRom20 (y_signed y) (bswap (swap16 (fst (fst (y_pv y)))), bswap (swap16 (snd (fst (y_pv y)))), bswap (swap16 (snd (y_pv y))))
                                        (bswap (swap16 (fst (fst (y_cv y)))), bswap (swap16 (snd (fst (y_cv y)))), bswap (swap16 (snd (y_cv y))))
                                        (y_build y) (y_ts y) secs stop (skipn stop file) bi)
               end
           end) =
     Some (mkRom20 (y_signed y) (y_pv y) (y_cv y) (y_build y) (y_ts y) (spec_of (y_secs y)) stop (sigpart y) 0)).
  { intros first ->. rewrite Nat.eqb_refl. cbn [negb].
    rewrite Hwalk, Sskip. rewrite Lfile at 1. rewrite Lsig, Nat.eqb_refl. cbn [negb].
    rewrite Esecs0, Hfb. cbn [spec_of map fst find_uid_index]. rewrite N.eqb_refl.
    rewrite (bswap_ver _ Wpv), (bswap_ver _ Wcv). reflexivity. }
  unfold certsect_shape in Hshape.
  destruct (y_signed y) eqn:Esg.
  - (* signed: the certificate section *)
    destruct Hshape as (cbb & Ecb & Hfh & Hc13 & Ecsb).
    destruct (cb_export_inv _ _ _ _ Ecb) as (Lcbb & cbtl & Ecbb & _).
    set (ench := xblock (E (y_dek y)) (y_nonce y) (ctr_of_nonce (y_nonce y) + 13) (hdr_export (certsect_hdr (y_cb y)))) in *.
    assert (Lench : length ench = 16%nat) by (apply xblock_length; [apply E_len | apply hdr_export_length]).
    set (cbraw := cb_raw_size (y_cb y)) in *.
    assert (Hcbm : (cbraw mod 16 = 0)%nat) by (unfold cbraw, cb_raw_size; apply align16_mod).
    cbv iota.
    assert (F0 : file = (hb ++ hm ++ kb) ++ (ench ++ hmac256 (y_mac y) ench ++ hmac256 (y_mac y) cbb ++ cbb) ++ bs ++ sigpart y).
    { rewrite Hfile', Ecsb. rewrite <- !app_assoc. reflexivity. }
    assert (L208 : length (hb ++ hm ++ kb) = 208%nat) by (rewrite !app_length, Lhb, Lhm, Lkb; reflexivity).
    destruct (certsect_slices (hb ++ hm ++ kb) ench (hmac256 (y_mac y) ench) (hmac256 (y_mac y) cbb) cbb (bs ++ sigpart y) L208 Lench
                (hmac256_length _ _) (hmac256_length _ _))
      as (S1 & S2 & S3 & S4 & _).
    rewrite <- F0 in S1, S2, S3, S4. rewrite Lcbb in S4.
    assert (S5 : slice file 288 292 = [99; 101; 114; 116]).
    { assert (Hc4 : (4 <= cbraw)%nat).
      { unfold cbraw, cb_raw_size. pose proof (align16_ge (CERTHDR_SIZE + cb_table_len (y_cb y) + 128)). lia. }
      transitivity (firstn 4 (slice file 288 (288 + cbraw))).
      - unfold slice. rewrite firstn_firstn. f_equal. lia.
      - rewrite S4, Ecbb. apply certhdr_magic. }
    rewrite S1, S2, eqb_list_refl. cbn [negb].
    replace (ctr_of_nonce (y_nonce y) + 13 <? U32) with true by (symmetry; now apply N.ltb_lt). cbn [negb].
    unfold ench at 1. rewrite rom_hdr_sealed by (try apply E_len; assumption).
    unfold certsect_hdr. cbn [h_tag h_flags h_addr h_count h_data]. fold cbraw.
    replace (nlen file <? N.of_nat (cbraw / 16) * 16) with false
      by (symmetry; apply N.ltb_ge; unfold nlen; rewrite Lfile; unfold stop, start; rewrite Lcsb; lia).
    rewrite Nat2N.id. replace (16 * (cbraw / 16))%nat with cbraw by lia.
    rewrite S3, S4, eqb_list_refl, S5. change (negb (eqb_list [99; 101; 114; 116] [99; 101; 114; 116])) with false. cbn [negb]. cbv beta iota.
    match goal with |- context [negb (?a && ?b && ?c && ?d)] => change (negb (a && b && c && d)) with false end. cbv beta iota.
    rewrite (Hfin (288 + cbraw)%nat) by (unfold start; rewrite Lcsb; lia).
    eexists. split; [reflexivity|]. cbn [t_secs t_signed t_pv t_cv t_build t_ts t_sig t_signed_len t_boot_index].
    rewrite Sstop, app_nil_r. repeat split.
    + rewrite Hfile' at 1. rewrite <- !app_assoc. reflexivity.
    + rewrite !app_length, Lhb, Lhm, Lkb. unfold stop, start. rewrite ?app_length. cbn [length]. lia.
    + exact Hfid.
  - subst csb. cbv beta iota.
    rewrite (Hfin 208%nat) by (unfold start; cbn [length]; lia).
    eexists. split; [reflexivity|]. cbn [t_secs t_signed t_pv t_cv t_build t_ts t_sig t_signed_len t_boot_index].
    rewrite Sstop, app_nil_r. repeat split.
    + rewrite Hfile' at 1. rewrite <- !app_assoc. reflexivity.
    + rewrite !app_length, Lhb, Lhm, Lkb. unfold stop, start. rewrite ?app_length. cbn [length]. lia.
    + exact Hfid.
Qed.

Lemma obs_uids ss oss : Forall2 sec_obs_rel ss oss -> map (fun s => fst (fst s)) oss = map s_uid ss.
Proof.
  induction 1 as [|s so ss' oss' Hr _ IH]; [reflexivity|].
  destruct Hr as (cd & os & _ & _ & ->). cbn [map fst]. now rewrite IH.
Qed.

Lemma spsdk_parse20_build_lemma y file :
  wf_sb20 y -> keys_wrap E D (y_kek y) (y_dek y) (y_mac y) ->
  bcd3 (y_pv y) = true -> bcd3 (y_cv y) = true -> aes_key_ok (y_kek y) = true ->
  build20_gen E y = Ok file ->
  exists oss, Forall2 sec_obs_rel (y_secs y) oss /\
    parse20 E D true (y_kek y) file =
    Ok (mkParsed20 (y_signed y) (y_pv y) (y_cv y) (y_build y) (y_ts y / 1000000 * 1000000) (y_nonce y) (y_dek y) (y_mac y) oss
                   (length file - length (sigpart y))).
Proof.
  intros W Hdom Hpv Hcv Hkek H.
  destruct (build20_inv y file W Hdom H) as (hb & kb0 & csb & bs & fbsid & mm & Hfile & Lhb & Lkb0 & Hkw & Htag & Hraw & Ehb & Hshape & Lcsb & Ebs & Huid & (s0 & st & Esecs0 & Hfb)).
  destruct W as (Wsecs & Wdek & Wmac & Wpad2 & Wsig & Wpv & Wcv).
  set (hm := hmac256 (y_mac y) hb) in *.
  assert (Lhm : length hm = 32%nat) by apply hmac256_length.
  set (kb := kb0 ++ y_pad2 y) in *.
  assert (Lkb : length kb = 80%nat) by (unfold kb; rewrite app_length, Lkb0, Wpad2; reflexivity).
  destruct (secs_export_parse (E (y_dek y)) (E_len _) _ _ _ _ _ Wsecs Ebs) as (oss & Hrel & Hparse).
  destruct (secs_export_rom (E (y_dek y)) (E_len _) (y_mac y) (y_nonce y) _ _ _ Wsecs Ebs) as (_ & Hbsl & _).
  exists oss. split; [exact Hrel|].
  set (stop := (208 + length csb + length bs)%nat) in *.
  set (start := (208 + length csb)%nat) in *.
  assert (Hfile' : file = (hb ++ hm ++ kb ++ csb) ++ bs ++ sigpart y) by (rewrite Hfile; unfold sigpart; rewrite <- !app_assoc; reflexivity).
  assert (Lpre : length (hb ++ hm ++ kb ++ csb) = start) by (rewrite !app_length, Lhb, Lhm, Lkb; unfold start; lia).
  assert (Lfile : length file = (stop + length (sigpart y))%nat) by (rewrite Hfile', app_length, Lpre, app_length; unfold stop, start; lia).
  replace (length file - length (sigpart y))%nat with stop by lia.
  unfold parse20. destruct (y_kek y) as [|k0 kt] eqn:Ekek; [discriminate Hkek|]. rewrite <- Ekek in *.
  change (IHDR_SIZE + 32)%nat with 128%nat. change PRE20 with 208%nat. change IHDR_SIZE with 96%nat.
  destruct (front208 hb hm kb (csb ++ bs ++ (if y_signed y then y_sig y else [])) Lhb Lhm Lkb) as (Shb & Shm & Skb & _).
  rewrite <- Hfile in Shb, Shm, Skb.
  assert (Hkw72 : kw_unwrap (D (y_kek y)) (firstn 72 kb) = Some (y_dek y ++ y_mac y))
    by (unfold kb; now rewrite (firstn_app_exact kb0 _ 72 Lkb0)).
  rewrite Skb, (py_unwrap_blob D _ kb _ Hkek Lkb Hkw72). rewrite (firstn_app_exact _ _ 32 Wdek), (skipn_app_exact _ _ 32 Wdek).
  rewrite Shb, Shm. fold hm. rewrite eqb_list_refl. cbn [negb].
  rewrite <- (app_nil_r hb) at 1. rewrite (ihdr_parse_export _ hb [] Ehb Hpv Hcv).
  cbn [ih_major ih_minor ih_flags ih_nonce ih_pv ih_cv ih_build ih_ts ih_image_blocks].
  change (negb ((2 =? V20_VERSION_MAJOR) && (0 =? V20_VERSION_MINOR))) with false. cbv iota.
  fold stop.
  replace (N.to_nat (N.min (N.of_nat (stop / 16) * 16) (nlen file + 1))) with stop by (unfold nlen; rewrite Lfile; unfold stop in *; lia).
  change (208 / 16)%nat with 13%nat.
  assert (Efl : (flags20 y =? V20_PARSE_SIGNED_FLAGS) = y_signed y) by (unfold flags20; destruct (y_signed y); reflexivity).
  rewrite Efl.
  assert (Hcs : (if y_signed y then certsect_parse E (y_dek y) (y_mac y) (y_nonce y) (ctr_of_nonce (y_nonce y) + N.of_nat 13) file 208 else Ok 0%nat)
                = Ok (length csb)).
  { unfold certsect_shape in Hshape. destruct (y_signed y) eqn:Esg; [|subst csb; reflexivity].
    destruct Hshape as (cbb & Ecb & Hfh & Hc13 & Ecsb).
    destruct (cb_export_inv _ _ _ _ Ecb) as (Lcbb & _).
    set (ench := xblock (E (y_dek y)) (y_nonce y) (ctr_of_nonce (y_nonce y) + 13) (hdr_export (certsect_hdr (y_cb y)))) in *.
    assert (Lench : length ench = 16%nat) by (apply xblock_length; [apply E_len | apply hdr_export_length]).
    set (cbraw := cb_raw_size (y_cb y)) in *.
    assert (F0 : file = (hb ++ hm ++ kb) ++ (ench ++ hmac256 (y_mac y) ench ++ hmac256 (y_mac y) cbb ++ cbb) ++ bs ++ sigpart y).
    { rewrite Hfile', Ecsb. rewrite <- !app_assoc. reflexivity. }
    assert (L208 : length (hb ++ hm ++ kb) = 208%nat) by (rewrite !app_length, Lhb, Lhm, Lkb; reflexivity).
    destruct (certsect_slices (hb ++ hm ++ kb) ench (hmac256 (y_mac y) ench) (hmac256 (y_mac y) cbb) cbb (bs ++ sigpart y) L208 Lench
                (hmac256_length _ _) (hmac256_length _ _))
      as (S1 & S2 & S3 & S4 & S5).
    rewrite <- F0 in S1, S2, S3, S4, S5. rewrite Lcbb in S4.
    unfold certsect_parse. change (208 + 16)%nat with 224%nat. change (208 + 48)%nat with 256%nat. change (208 + 80)%nat with 288%nat.
    rewrite S1, S2, S3, eqb_list_refl. cbn [negb]. change (N.of_nat 13) with 13.
    replace (U32 <=? ctr_of_nonce (y_nonce y) + 13) with false by (symmetry; apply N.leb_gt; exact Hc13).
    unfold ench at 1. rewrite hdr_parse_sealed by (try apply E_len; assumption).
    unfold certsect_hdr. cbn [h_tag h_flags h_addr h_count h_data]. rewrite !N.eqb_refl. cbn [negb].
    rewrite S5, (cb_parse_size_export _ _ _ _ _ Ecb). fold cbraw. rewrite S4, eqb_list_refl. cbn [negb].
    rewrite Lcsb. reflexivity. }
  rewrite Hcs. rewrite andb_false_r.
  fold start.
  replace (ctr_of_nonce (y_nonce y) + N.of_nat 13 + N.of_nat (length csb / 16)) with (ctr_of_nonce (y_nonce y) + N.of_nat (start / 16))
    by (unfold start; lia).
  rewrite Hfile' at 2.
  replace stop with (start + length bs)%nat by (unfold stop, start; lia).
  rewrite (Hparse (hb ++ hm ++ kb ++ csb) (sigpart y) start (S (length file)) Lpre) by (rewrite Lfile; unfold stop; lia).
  rewrite (obs_uids _ _ Hrel), Huid. reflexivity.
Qed.

Lemma counter_agreement20_lemma y file :
  wf_sb20 y -> keys_wrap E D (y_kek y) (y_dek y) (y_mac y) -> build20_gen E y = Ok file ->
  exists pre bs, file = pre ++ bs ++ sigpart y /\ (length pre mod 16 = 0)%nat /\
    (y_signed y = true -> exists hp, length hp = 16%nat /\
        slice pre 208 224 = xblock (E (y_dek y)) (y_nonce y) (ctr_of_nonce (y_nonce y) + N.of_nat (208 / 16)) hp) /\
    secs_export (E (y_dek y)) (y_mac y) (y_nonce y) (ctr_of_nonce (y_nonce y) + N.of_nat (length pre / 16)) (y_secs y) = Ok bs /\
    rom_sections (E (y_dek y)) (S (length file)) (y_mac y) (y_nonce y) (pre ++ bs) (length pre) (length pre + length bs)
      = Some (spec_of (y_secs y)).
Proof.
  intros W Hdom H.
  destruct (build20_inv y file W Hdom H) as (hb & kb0 & csb & bs & fbsid & mm & Hfile & Lhb & Lkb0 & Hkw & Htag & Hraw & Ehb & Hshape & Lcsb & Ebs & Huid & (s0 & st & Esecs0 & Hfb)).
  destruct W as (Wsecs & Wdek & Wmac & Wpad2 & Wsig & Wpv & Wcv).
  set (hm := hmac256 (y_mac y) hb) in *.
  assert (Lhm : length hm = 32%nat) by apply hmac256_length.
  set (kb := kb0 ++ y_pad2 y) in *.
  assert (Lkb : length kb = 80%nat) by (unfold kb; rewrite app_length, Lkb0, Wpad2; reflexivity).
  exists (hb ++ hm ++ kb ++ csb), bs.
  assert (Lpre : length (hb ++ hm ++ kb ++ csb) = (208 + length csb)%nat) by (rewrite !app_length, Lhb, Lhm, Lkb; lia).
  split; [rewrite Hfile; unfold sigpart; rewrite <- !app_assoc; reflexivity|]. rewrite Lpre.
  split; [exact Htag|]. split.
  - intros Esg. unfold certsect_shape in Hshape. rewrite Esg in Hshape. destruct Hshape as (cbb & _ & _ & _ & Ecsb).
    exists (hdr_export (certsect_hdr (y_cb y))). split; [apply hdr_export_length|].
    rewrite Ecsb. change (N.of_nat (208 / 16)) with 13.
    set (ench := xblock _ _ _ _).
    assert (Lench : length ench = 16%nat) by (apply xblock_length; [apply E_len | apply hdr_export_length]).
    replace (hb ++ hm ++ kb ++ ench ++ hmac256 (y_mac y) ench ++ hmac256 (y_mac y) cbb ++ cbb)
      with ((hb ++ hm ++ kb) ++ ench ++ (hmac256 (y_mac y) ench ++ hmac256 (y_mac y) cbb ++ cbb)) by (rewrite <- !app_assoc; reflexivity).
    replace 224%nat with (208 + length ench)%nat by (rewrite Lench; reflexivity). apply slice_at.
    rewrite !app_length, Lhb, Lhm, Lkb. reflexivity.
  - split; [exact Ebs|].
    destruct (secs_export_rom (E (y_dek y)) (E_len _) (y_mac y) (y_nonce y) _ _ _ Wsecs Ebs) as (_ & Hl & Hrom).
    rewrite <- (app_nil_r bs) at 1. apply Hrom; [exact Lpre | exact Htag | reflexivity |].
    rewrite Hfile, !app_length. lia.
Qed.

Lemma coverage20_lemma y file :
  wf_sb20 y -> keys_wrap E D (y_kek y) (y_dek y) (y_mac y) -> build20_gen E y = Ok file ->
  exists hb kb0 csb bs,
    file = hb ++ hmac256 (y_mac y) hb ++ (kb0 ++ y_pad2 y) ++ csb ++ bs ++ sigpart y /\
    length hb = 96%nat /\ length kb0 = 72%nat /\ length (y_pad2 y) = 8%nat /\
    kw_unwrap (D (y_kek y)) kb0 = Some (y_dek y ++ y_mac y) /\
    (if y_signed y
     then exists ench cbb, length ench = 16%nat /\ length cbb = cb_raw_size (y_cb y) /\
                           csb = ench ++ hmac256 (y_mac y) ench ++ hmac256 (y_mac y) cbb ++ cbb
     else csb = []) /\
    covered (y_mac y) bs (length (y_secs y)) /\
    length (sigpart y) = (if y_signed y then y_sigsize y else 0%nat).
Proof.
  intros W Hdom H.
  destruct (build20_inv y file W Hdom H) as (hb & kb0 & csb & bs & fbsid & mm & Hfile & Lhb & Lkb0 & Hkw & Htag & Hraw & Ehb & Hshape & Lcsb & Ebs & Huid & (s0 & st & Esecs0 & Hfb)).
  destruct W as (Wsecs & Wdek & Wmac & Wpad2 & Wsig & Wpv & Wcv).
  exists hb, kb0, csb, bs. split; [exact Hfile|]. split; [exact Lhb|]. split; [exact Lkb0|]. split; [exact Wpad2|]. split; [exact Hkw|].
  split; [|split].
  - unfold certsect_shape in Hshape. destruct (y_signed y); [|exact Hshape].
    destruct Hshape as (cbb & Ecb & _ & _ & Ecsb). destruct (cb_export_inv _ _ _ _ Ecb) as (Lcbb & _).
    eexists _, cbb. split; [|split; [exact Lcbb|exact Ecsb]].
    apply xblock_length; [apply E_len | apply hdr_export_length].
  - eapply secs_export_covered; [apply E_len | exact Wsecs | exact Ebs].
  - unfold sigpart. destruct (y_signed y); [now apply Wsig|reflexivity].
Qed.

(* SB 2.1: the header's first_boot_section_id is the first section's id, and the ROM that locates its
   starting section by that id starts with the first section *)
Lemma build21_first_id counted x file :
  length (x_sig x) = x_sigsize x -> build21_gen E counted x = Ok file ->
  exists s0 st, x_secs x = s0 :: st /\ hdr_first_boot_section_id file = Some (s_uid s0).
Proof.
  intros Wsig H. unfold build21_gen in H.
  destruct (x_secs x) as [|s0 st] eqn:Esecs; [discriminate|]. rewrite <- Esecs in *.
  destruct (secs_raw_size (x_secs x)) as [ssz|] eqn:Essz; [|discriminate].
  destruct (aligned16 _); [|discriminate]. destruct (aligned16 _); [|discriminate].
  destruct (Nat.eqb (length (x_nonce x)) 16); [|discriminate]. destruct (aligned16 _); [|discriminate]. cbn [negb] in H.
  destruct (secs_export _ _ _ _ _) as [bs|]; [|discriminate].
  set (hdr := mkIhdr _ _ _ _ _ _ _ _ _ _ _ _ _ _ _ _ _) in H.
  destruct (ihdr_export hdr) as [hb|] eqn:Ehb; [|discriminate].
  destruct (cb_export _ _ _) as [cbb|]; [|discriminate].
  rewrite Wsig, Nat.eqb_refl in H. cbn [negb] in H. injection H as <-.
  exists s0, st. split; [exact Esecs|].
  unfold hdr_first_boot_section_id. change rom_imghdr_layout with imghdr_format.
  rewrite <- !app_assoc. rewrite (ihdr_unpack hdr hb _ Ehb). reflexivity.
Qed.

Lemma rom21_boot_build_lemma x file :
  wf_sbin x -> keys_wrap E D (x_kek x) (x_dek x) (x_mac x) -> build21_gen E true x = Ok file ->
  exists r, rom21_boot E D (x_sigsize x) (x_kek x) file = Some (r, 0%nat) /\
     r_secs r = spec_of (x_secs x) /\ r_flags r = x_flags x /\ r_pv r = x_pv x /\ r_cv r = x_cv x /\
     r_build r = x_build x /\ r_ts r = x_ts x /\ r_major r = 2 /\ r_minor r = 1 /\
     r_sig r = x_sig x /\ r_signed_len r = signed_len_of x /\
     hdr_first_boot_section_id file = option_map s_uid (hd_error (x_secs x)).
Proof.
  intros W Hdom H.
  destruct (rom21_build_lemma E D E_len x file W Hdom H) as (r & Hr & Hs & Hrest).
  destruct (build21_first_id true x file (proj1 (proj2 (proj2 (proj2 W)))) H) as (s0 & st & Esecs & Hfid).
  exists r. split.
  - unfold rom21_boot. rewrite Hr, Hfid, Hs, Esecs. cbn [spec_of map fst find_uid_index]. rewrite N.eqb_refl. reflexivity.
  - split; [exact Hs|]. repeat (destruct Hrest as [? Hrest]; split; [assumption|]). split; [exact Hrest|].
    rewrite Hfid, Esecs. reflexivity.
Qed.

End Cipher20Proofs.

Lemma keys_wrap_sb20 (E D : list N -> list N -> list N) :
  (forall k b, length (E k b) = 16%nat) -> (forall k b, length b = 16%nat -> D k (E k b) = b) ->
  forall y, wf_sb20 y -> keys_wrap E D (y_kek y) (y_dek y) (y_mac y).
Proof. intros HE HD y (_ & Ld & Lm & _). now apply (keys_wrap_inverse E D HE HD). Qed.
