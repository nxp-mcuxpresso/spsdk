(* Proofs/RegsProofs.v -- C11 lemmas about Model/RegsModel.v and the arithmetic translated from
   spsdk/utils/registers.py into Gen/GenRegs.v (regenerated on every run). *)
From Coq Require Import ZArith NArith List Bool Lia ZifyBool.
Require Import Value Bytes BytesProofs Writes GenMisc MiscModel MiscProofs GenRegs RegsModel.
Import ListNotations.
Local Open Scope Z_scope.

Definition getbits (v off w : Z) : Z := Z.land (Z.shiftr v off) (Z.ones w).
Definition fieldmask (off w : Z) : Z := Z.shiftl (Z.ones w) off.
Definition setbits (v off w p : Z) : Z := Z.lor (Z.land v (Z.lnot (fieldmask off w))) (Z.land (Z.shiftl p off) (fieldmask off w)).

Lemma shiftl1_ones w : 0 <= w -> Z.shiftl 1 w - 1 = Z.ones w.
Proof. intros H. rewrite Z.ones_equiv, Z.shiftl_1_l. lia. Qed.

Lemma shiftl1_pow w : 0 <= w -> Z.shiftl 1 w = 2 ^ w.
Proof. intros H. now rewrite Z.shiftl_1_l. Qed.

Lemma testbit_fieldmask off w n : 0 <= off -> 0 <= w -> 0 <= n ->
  Z.testbit (fieldmask off w) n = (off <=? n) && (n <? off + w).
Proof.
  intros Ho Hw Hn. unfold fieldmask. rewrite Z.shiftl_spec by assumption.
  rewrite Z.testbit_ones by assumption. lia.
Qed.

Lemma testbit_getbits v off w n : 0 <= off -> 0 <= w -> 0 <= n ->
  Z.testbit (getbits v off w) n = Z.testbit v (n + off) && (n <? w).
Proof.
  intros Ho Hw Hn. unfold getbits. rewrite Z.land_spec, Z.shiftr_spec, Z.testbit_ones by assumption.
  replace (0 <=? n) with true by lia. reflexivity.
Qed.

Lemma testbit_setbits v off w p n : 0 <= off -> 0 <= w -> 0 <= n ->
  Z.testbit (setbits v off w p) n =
  if (off <=? n) && (n <? off + w) then Z.testbit p (n - off) else Z.testbit v n.
Proof.
  intros Ho Hw Hn. unfold setbits.
  rewrite Z.lor_spec, !Z.land_spec, Z.lnot_spec, Z.shiftl_spec, testbit_fieldmask by assumption.
  destruct ((off <=? n) && (n <? off + w)); simpl.
  - now rewrite andb_false_r, andb_true_r.
  - now rewrite andb_true_r, andb_false_r, orb_false_r.
Qed.

Lemma small_bits p w n : 0 <= p < 2 ^ w -> w <= n -> Z.testbit p n = false.
Proof.
  intros [Hp Hlt] Hn. destruct (Z.eq_dec p 0) as [->|Hne]; [apply Z.bits_0|].
  apply Z.bits_above_log2; [assumption|].
  assert (Z.log2 p < w) by (apply Z.log2_lt_pow2; lia). lia.
Qed.

Lemma bits_small v w : 0 <= w -> 0 <= v -> (forall n, w <= n -> Z.testbit v n = false) -> v < 2 ^ w.
Proof.
  intros Hw Hv H.
  assert (E : v = Z.land v (Z.ones w)).
  { apply Z.bits_inj'. intros n Hn. rewrite Z.land_spec, Z.testbit_ones by assumption.
    destruct (Z.ltb_spec n w).
    - replace (0 <=? n) with true by lia. now rewrite andb_true_r.
    - rewrite H by lia. reflexivity. }
  rewrite Z.land_ones in E by assumption. rewrite E. apply Z.mod_pos_bound. lia.
Qed.

Lemma getbits_range v off w : 0 <= w -> 0 <= getbits v off w < 2 ^ w.
Proof.
  intros Hw. unfold getbits. rewrite Z.land_ones by assumption. apply Z.mod_pos_bound. lia.
Qed.

Lemma getbits_setbits_same v off w p : 0 <= off -> 0 <= w -> 0 <= p < 2 ^ w ->
  getbits (setbits v off w p) off w = p.
Proof.
  intros Ho Hw Hp. apply Z.bits_inj'. intros n Hn.
  rewrite testbit_getbits, testbit_setbits by lia.
  destruct (Z.ltb_spec n w).
  - replace ((off <=? n + off) && (n + off <? off + w)) with true by lia.
    rewrite andb_true_r. f_equal. lia.
  - rewrite andb_false_r. symmetry. now apply small_bits with w.
Qed.

Lemma getbits_setbits_disjoint v off w p off' w' : 0 <= off -> 0 <= w -> 0 <= off' -> 0 <= w' ->
  off + w <= off' \/ off' + w' <= off ->
  getbits (setbits v off w p) off' w' = getbits v off' w'.
Proof.
  intros Ho Hw Ho' Hw' Hd. apply Z.bits_inj'. intros n Hn.
  rewrite !testbit_getbits, testbit_setbits by lia.
  destruct (Z.ltb_spec n w'); [|now rewrite !andb_false_r].
  replace ((off <=? n + off') && (n + off' <? off + w)) with false by lia. reflexivity.
Qed.

Lemma setbits_outside v off w p n : 0 <= off -> 0 <= w -> 0 <= n -> n < off \/ off + w <= n ->
  Z.testbit (setbits v off w p) n = Z.testbit v n.
Proof.
  intros Ho Hw Hn Hd. rewrite testbit_setbits by assumption.
  replace ((off <=? n) && (n <? off + w)) with false by lia. reflexivity.
Qed.

Lemma setbits_nonneg v off w p : 0 <= off -> 0 <= w -> 0 <= v -> 0 <= setbits v off w p.
Proof.
  intros Ho Hw Hv. unfold setbits. apply Z.lor_nonneg. split.
  - apply Z.land_nonneg. now left.
  - apply Z.land_nonneg. right. unfold fieldmask. apply Z.shiftl_nonneg. rewrite Z.ones_equiv.
    assert (0 < 2 ^ w) by (apply Z.pow_pos_nonneg; lia). lia.
Qed.

Lemma setbits_range v off w p W : 0 <= off -> 0 <= w -> off + w <= W -> 0 <= v < 2 ^ W -> 0 <= p < 2 ^ w ->
  0 <= setbits v off w p < 2 ^ W.
Proof.
  intros Ho Hw HW Hv Hp. split; [apply setbits_nonneg; lia|].
  apply bits_small; [lia|apply setbits_nonneg; lia|].
  intros n Hn. rewrite testbit_setbits by lia.
  replace ((off <=? n) && (n <? off + w)) with false by lia.
  now apply small_bits with W.
Qed.

Lemma ones_range w : 0 <= w -> 0 <= Z.ones w < 2 ^ w.
Proof. intros H. rewrite Z.ones_equiv. assert (0 < 2 ^ w) by (apply Z.pow_pos_nonneg; lia). lia. Qed.

Lemma lxor_range a b w : 0 <= w -> 0 <= a < 2 ^ w -> 0 <= b < 2 ^ w -> 0 <= Z.lxor a b < 2 ^ w.
Proof.
  intros Hw Ha Hb. assert (H0 : 0 <= Z.lxor a b) by (apply Z.lxor_nonneg; lia). split; [exact H0|].
  apply bits_small; [assumption|exact H0|]. intros n Hn. now rewrite Z.lxor_spec, (small_bits a w n), (small_bits b w n).
Qed.

Lemma inverse_field v lo w W : 0 <= lo -> 0 < w -> lo + 2 * w <= W -> 0 <= v < 2 ^ W ->
  let v' := setbits v (lo + w) w (Z.lxor (getbits v lo w) (Z.ones w)) in
  0 <= v' < 2 ^ W /\ getbits v' (lo + w) w = Z.lxor (getbits v' lo w) (Z.ones w) /\
  forall o k, 0 <= o -> 0 <= k -> o + k <= lo + w \/ lo + 2 * w <= o -> getbits v' o k = getbits v o k.
Proof.
  intros Hlo Hw HW Hv v'.
  assert (Hx : 0 <= Z.lxor (getbits v lo w) (Z.ones w) < 2 ^ w) by (apply lxor_range; [lia|apply getbits_range|apply ones_range]; lia).
  split; [apply setbits_range; (assumption || lia)|]. split.
  - unfold v'. now rewrite getbits_setbits_same, getbits_setbits_disjoint by (assumption || lia).
  - intros o k Ho Hk Hd. apply getbits_setbits_disjoint; lia.
Qed.

Lemma setbits_getbits_id v off w : 0 <= off -> 0 <= w -> setbits v off w (getbits v off w) = v.
Proof.
  intros Ho Hw. apply Z.bits_inj'. intros n Hn. rewrite testbit_setbits by assumption.
  destruct ((off <=? n) && (n <? off + w)) eqn:E; [|reflexivity].
  rewrite testbit_getbits by lia. replace (n - off <? w) with true by lia.
  rewrite andb_true_r. f_equal. lia.
Qed.

Definition cp_pre (hp : bool) (c x : Z) : Z := if hp then Z.shiftr x c else x.
Definition cp_post (hp : bool) (c x : Z) : Z := if hp then Z.shiftl x c else x.

Lemma py_cp_pre_spec x hp c : py_cp_pre x hp c = Ok (cp_pre hp c x).
Proof. unfold py_cp_pre, py_shr_pre_process, py_nop_pre_process, cp_pre. now destruct hp. Qed.

Lemma py_cp_post_spec x hp c : py_cp_post x hp c = Ok (cp_post hp c x).
Proof. unfold py_cp_post, py_shr_post_process, py_nop_post_process, cp_post. now destruct hp. Qed.

(* The spec lemmas below are proved semantically (range tests by arithmetic, values bit by bit), so that a
   behaviour-preserving rewrite of the source lines still checks, while a change of behaviour does not. *)
Ltac norm_shift := rewrite ?shiftl1_ones by lia; rewrite ?shiftl1_pow by lia.
Ltac split_cmp :=
  repeat match goal with
         | |- context [Z.leb ?a ?b] => destruct (Z.leb_spec a b)
         | |- context [Z.ltb ?a ?b] => destruct (Z.ltb_spec a b)
         end.
Ltac bits_eq :=
  apply Z.bits_inj'; let n := fresh "n" in let Hn := fresh "Hn" in intros n Hn;
  unfold setbits, getbits, fieldmask;
  repeat (rewrite ?Z.lor_spec, ?Z.land_spec, ?Z.lnot_spec, ?Z.shiftl_spec, ?Z.shiftr_spec, ?Z.testbit_ones by lia);
  split_cmp; try (exfalso; lia); cbn [andb orb negb];
  repeat match goal with |- context [Z.testbit ?x ?i] => destruct (Z.testbit x i) end; reflexivity.

Lemma py_bf_get_spec rv off w hp c : 0 <= w ->
  py_bf_get rv off w hp c = Ok (cp_post hp c (getbits rv off w)).
Proof.
  intros Hw. unfold py_bf_get. cbv zeta. norm_shift.
  match goal with |- context [py_cp_post ?e hp c] => replace e with (getbits rv off w) by bits_eq end.
  rewrite py_cp_post_spec. reflexivity.
Qed.

Definition out_of_range (p w : Z) : bool := (p <? 0) || (2 ^ w <=? p).

Lemma py_bf_set_spec x rv off w hp c np : 0 <= w ->
  py_bf_set x rv off w hp c np =
  let p := if np then x else cp_pre hp c x in
  if out_of_range p w then Err 1%N else Ok (setbits rv off w p).
Proof.
  intros Hw. unfold py_bf_set, out_of_range. cbv zeta.
  destruct np; cbn [negb]; rewrite ?py_cp_pre_spec; cbv beta iota; norm_shift;
    match goal with
    | |- (if ?c1 then ?e else Ok ?v1) = (if ?c2 then _ else Ok ?v2) =>
        replace c1 with c2 by (pose proof (Z.ones_equiv w); lia); replace v1 with v2 by bits_eq; reflexivity
    end.
Qed.

Lemma py_reg_check_spec v w : 0 <= w ->
  py_reg_check v w = if out_of_range v w then Err 1%N else Ok v.
Proof.
  intros Hw. unfold py_reg_check, out_of_range. norm_shift.
  match goal with
  | |- (if ?c1 then ?e else Ok ?v1) = (if ?c2 then _ else Ok ?v2) =>
      replace c1 with c2 by (pose proof (Z.ones_equiv w); lia); reflexivity
  end.
Qed.

Definition sub_pos (W index sw : Z) (rev : bool) : Z := if rev then W - index * sw else (index - 1) * sw.

Lemma py_sub_pos_set_spec aw i sw rev : py_sub_pos_set aw i sw rev = Ok (sub_pos aw i sw rev).
Proof. unfold py_sub_pos_set, sub_pos. destruct rev; cbv zeta; f_equal; first [reflexivity | ring]. Qed.
Lemma py_sub_pos_get_spec W i sw rev : py_sub_pos_get W i sw rev = Ok (sub_pos W i sw rev).
Proof. unfold py_sub_pos_get, sub_pos. destruct rev; cbv zeta; f_equal; first [reflexivity | ring]. Qed.
Lemma py_sub_slice_spec v pos sw : 0 <= sw -> py_sub_slice v pos sw = Ok (getbits v pos sw).
Proof. intros H. unfold py_sub_slice. cbv zeta. norm_shift. f_equal; first [reflexivity | bits_eq]. Qed.
Lemma py_sub_acc_spec acc sv pos : py_sub_acc acc sv pos = Ok (Z.lor acc (Z.shiftl sv pos)).
Proof. unfold py_sub_acc. cbv zeta. f_equal; first [reflexivity | bits_eq]. Qed.

Definition brev (n : nat) (v : Z) : Z := Z.of_N (le_dec (be_enc n (Z.to_N v))).

Lemma brev_range n v : 0 <= brev n v < 2 ^ (8 * Z.of_nat n).
Proof.
  unfold brev. split; [lia|].
  pose proof (le_dec_bound (be_enc n (Z.to_N v)) (be_enc_wf n (Z.to_N v))) as H.
  rewrite be_enc_length, pow_N_Z in H.
  assert (0 < 2 ^ (8 * Z.of_nat n)) by (apply Z.pow_pos_nonneg; lia). lia.
Qed.

Lemma brev_involutive n v : 0 <= v < 2 ^ (8 * Z.of_nat n) -> brev n (brev n v) = v.
Proof.
  intros [Hv Hb]. unfold brev. rewrite N2Z.id.
  set (l := le_enc n (Z.to_N v)).
  assert (Hl : be_enc n (Z.to_N v) = rev l) by reflexivity.
  rewrite Hl.
  assert (Hwf : wf_bytes (rev l)) by (unfold wf_bytes; apply Forall_rev; apply le_enc_wf).
  assert (Hlen : length (rev l) = n) by (rewrite rev_length; apply le_enc_length).
  unfold be_enc at 1. rewrite <- Hlen at 1. rewrite le_enc_dec by assumption.
  rewrite rev_involutive. unfold l. rewrite le_dec_enc_small.
  - lia.
  - rewrite pow_N_Z. apply Z2N.inj_lt; lia.
Qed.

Definition enc (big : bool) (n : nat) (v : Z) : list N := (if big then be_enc else le_enc) n (Z.to_N v).

Lemma enc_length big n v : length (enc big n v) = n.
Proof. unfold enc. destruct big; [apply be_enc_length|apply le_enc_length]. Qed.

Lemma enc_wf big n v : wf_bytes (enc big n v).
Proof. unfold enc. destruct big; [apply be_enc_wf|apply le_enc_wf]. Qed.

Lemma dec_enc big n v : 0 <= v < 2 ^ (8 * Z.of_nat n) -> dec_bytes big (enc big n v) = v.
Proof.
  intros [Hv Hb]. unfold dec_bytes, enc.
  assert ((Z.to_N v < 2 ^ (8 * N.of_nat n))%N) by (rewrite pow_N_Z; apply Z2N.inj_lt; lia).
  destruct big; [rewrite be_dec_enc_small by assumption|rewrite le_dec_enc_small by assumption]; lia.
Qed.

Lemma dec_bytes_range big l : wf_bytes l -> 0 <= dec_bytes big l < 2 ^ (8 * Z.of_nat (length l)).
Proof.
  intros H. unfold dec_bytes. split; [lia|].
  assert (B : (le_dec (if big then rev l else l) < 2 ^ (8 * N.of_nat (length l)))%N).
  { destruct big; [rewrite <- (rev_length l)|]; apply le_dec_bound; [now apply Forall_rev|assumption]. }
  assert (E : (if big then be_dec else le_dec) l = le_dec (if big then rev l else l)) by (destruct big; reflexivity).
  rewrite E. rewrite pow_N_Z in B. apply N2Z.inj_lt in B. rewrite Z2N.id in B by (apply Z.pow_nonneg; lia). exact B.
Qed.

Lemma enc_dec_bytes big l : wf_bytes l -> enc big (length l) (dec_bytes big l) = l.
Proof.
  intros H. unfold enc, dec_bytes. rewrite N2Z.id. destruct big; [now apply be_enc_dec|now apply le_enc_dec].
Qed.

Lemma vtb_spec v n big : 0 < n -> 0 <= v < 2 ^ (8 * n) ->
  value_to_bytes_int v false n big = Ok (enc big (Z.to_nat n) v).
Proof.
  intros Hn [Hv Hb]. unfold value_to_bytes_int.
  rewrite bytes_cnt_with_cnt by lia.
  assert (Hcnt : (if v =? 0 then Ok n else if n <? width_spec v false then Err 1%N else Ok n) = Ok n).
  { destruct (v =? 0) eqn:E0; [reflexivity|].
    assert (width_spec v false <= n).
    { unfold width_spec. rewrite E0. cbn. apply nbytes_minimal; lia. }
    replace (n <? width_spec v false) with false by lia. reflexivity. }
  rewrite Hcnt. unfold int_to_bytes.
  replace ((v <? 0) || (n <? 0)) with false by lia.
  replace (2 ^ (8 * n) <=? v) with false by lia. reflexivity.
Qed.

Lemma rev_in_spec big n v : 0 < n -> 0 <= v < 2 ^ (8 * n) ->
  rev_in big n v = Ok (brev (Z.to_nat n) v).
Proof. intros Hn Hv. unfold rev_in. rewrite vtb_spec by assumption. now destruct big. Qed.

(* Registers with alternative widths are the recorded known class (C11-F1..F4): the positive theorems below are about
   register files without them; Props/C11/alt_width_*_refuted.v exhibit the failures. *)
Definition wf_field (W : Z) (f : field) : Prop :=
  0 <= f_off f /\ 0 < f_width f /\ f_off f + f_width f <= W /\ 0 <= f_count f.

Definition in_range (W v : Z) : Prop := 0 <= v < 2 ^ W.

Definition wf_sreg (s : sreg) : Prop :=
  0 < s_width s /\ s_width s mod 8 = 0 /\ s_alt s = [] /\ Forall (wf_field (s_width s)) (s_fields s) /\
  in_range (s_width s) (s_value s) /\ in_range (s_width s) (s_reset s).

Definition wf_reg (r : reg) : Prop :=
  wf_sreg (r_base r) /\ Forall wf_sreg (r_subs r) /\
  (r_subs r <> [] -> exists sw, Forall (fun s => s_width s = sw) (r_subs r) /\
                                Z.of_nat (length (r_subs r)) * sw = s_width (r_base r)) /\
  (* the own value of a group register is never written (Register._value stays 0) *)
  (r_subs r <> [] -> s_value (r_base r) = 0).

Definition wf_regs (g : regs) : Prop := Forall wf_reg (g_regs g).

Definition view (reverse raw : bool) (W v : Z) : Z :=
  if negb raw && reverse then brev (Z.to_nat (W / 8)) v else v.

Lemma width_bytes W : 0 < W -> W mod 8 = 0 -> 0 < W / 8 /\ 8 * (W / 8) = W /\ 8 * Z.of_nat (Z.to_nat (W / 8)) = W.
Proof. intros. dlia. Qed.

Lemma view_range reverse raw W v : 0 < W -> W mod 8 = 0 -> in_range W v -> in_range W (view reverse raw W v).
Proof.
  intros HW H8 Hv. unfold view. destruct (negb raw && reverse); [|assumption].
  destruct (width_bytes W HW H8) as (_ & _ & E). unfold in_range.
  pose proof (brev_range (Z.to_nat (W / 8)) v) as Hb. rewrite E in Hb. exact Hb.
Qed.

Lemma view_involutive reverse raw W v : 0 < W -> W mod 8 = 0 -> in_range W v ->
  view reverse raw W (view reverse raw W v) = v.
Proof.
  intros HW H8 Hv. unfold view. destruct (negb raw && reverse); [|reflexivity].
  destruct (width_bytes W HW H8) as (_ & _ & E). apply brev_involutive. now rewrite E.
Qed.

Lemma out_of_range_false W v : in_range W v -> out_of_range v W = false.
Proof. unfold in_range, out_of_range. lia. Qed.
Lemma out_of_range_true W v : ~ in_range W v -> out_of_range v W = true.
Proof. unfold in_range, out_of_range. lia. Qed.

Lemma set_common_ok W reverse v raw : 0 < W -> W mod 8 = 0 -> in_range W v ->
  set_common W reverse [] v raw = Ok (W, view reverse raw W v).
Proof.
  intros HW H8 Hv. unfold set_common. rewrite py_reg_check_spec, (out_of_range_false W v Hv) by lia.
  cbn [bind alt_width]. unfold view. destruct (negb raw && reverse); [|reflexivity].
  destruct (width_bytes W HW H8) as (Hp & E & _).
  rewrite rev_in_spec by (unfold in_range in Hv; rewrite ?E; lia). reflexivity.
Qed.

Lemma set_common_err W reverse alts v raw : 0 <= W -> ~ in_range W v -> set_common W reverse alts v raw = Err 1%N.
Proof.
  intros HW Hv. unfold set_common. rewrite py_reg_check_spec, (out_of_range_true W v Hv) by lia. reflexivity.
Qed.

Lemma get_common_ok big W reverse v raw : 0 < W -> W mod 8 = 0 -> in_range W v ->
  get_common big W reverse [] v raw = Ok (view reverse raw W v).
Proof.
  intros HW H8 Hv. unfold get_common. cbn [bind alt_width]. unfold view. destruct (negb raw && reverse); [|reflexivity].
  destruct (width_bytes W HW H8) as (Hp & E & _).
  rewrite rev_in_spec by (unfold in_range in Hv; rewrite ?E; lia). reflexivity.
Qed.

Lemma wf_set_value s v : wf_sreg s -> in_range (s_width s) v -> wf_sreg (set_value s v).
Proof. intros (H1 & H2 & H3 & H4 & H5 & H6) Hv. unfold wf_sreg. cbn. tauto. Qed.

Lemma sreg_set_ok s v raw : wf_sreg s -> in_range (s_width s) v ->
  sreg_set s v raw = Ok (set_value s (view (s_reverse s) raw (s_width s) v)).
Proof.
  intros (H1 & H2 & H3 & _) Hv. unfold sreg_set. rewrite H3, set_common_ok by assumption. reflexivity.
Qed.

Lemma sreg_set_err s v raw : wf_sreg s -> ~ in_range (s_width s) v -> sreg_set s v raw = Err 1%N.
Proof. intros (H1 & _) Hv. unfold sreg_set. rewrite set_common_err by (assumption || lia). reflexivity. Qed.

Lemma sreg_get_ok big s raw : wf_sreg s -> sreg_get big s raw = Ok (view (s_reverse s) raw (s_width s) (s_value s)).
Proof. intros (H1 & H2 & H3 & _ & H5 & _). unfold sreg_get. rewrite H3. now apply get_common_ok. Qed.

Lemma sreg_get_set big s v raw : wf_sreg s -> in_range (s_width s) v ->
  exists s', sreg_set s v raw = Ok s' /\ wf_sreg s' /\ sreg_get big s' raw = Ok v /\ s_width s' = s_width s.
Proof.
  intros Hs Hv. pose proof Hs as (H1 & H2 & _).
  eexists. split; [now apply sreg_set_ok|].
  assert (Hr : in_range (s_width s) (view (s_reverse s) raw (s_width s) v)) by now apply view_range.
  split; [now apply wf_set_value|]. split; [|reflexivity].
  rewrite sreg_get_ok by now apply wf_set_value. cbn. now rewrite view_involutive.
Qed.

Fixpoint concat (vs : list Z) (idx W sw : Z) (rev : bool) (acc : Z) : Z :=
  match vs with
  | [] => acc
  | v :: t => concat t (idx + 1) W sw rev (Z.lor acc (Z.shiftl v (sub_pos W idx sw rev)))
  end.

Fixpoint cbit (vs : list Z) (idx W sw : Z) (rev : bool) (n : Z) : bool :=
  match vs with
  | [] => false
  | v :: t => Z.testbit v (n - sub_pos W idx sw rev) || cbit t (idx + 1) W sw rev n
  end.

Lemma testbit_concat vs idx W sw rev acc n : 0 <= n ->
  Z.testbit (concat vs idx W sw rev acc) n = Z.testbit acc n || cbit vs idx W sw rev n.
Proof.
  intros Hn. revert idx acc. induction vs as [|v t IH]; intros idx acc; cbn [concat cbit].
  - now rewrite orb_false_r.
  - rewrite IH, Z.lor_spec, Z.shiftl_spec by assumption. now rewrite orb_assoc.
Qed.

Lemma concat_nonneg vs idx W sw rev acc : 0 <= acc -> Forall (fun v => 0 <= v) vs -> 0 <= concat vs idx W sw rev acc.
Proof.
  intros Ha Hv. revert idx acc Ha. induction Hv as [|v t Hv0 Hv IH]; intros idx acc Ha; cbn [concat]; [assumption|].
  apply IH. apply Z.lor_nonneg. split; [assumption|]. now apply Z.shiftl_nonneg.
Qed.

Lemma concat_app_zeros {A} vs (l : list A) : forall idx W sw rev acc,
  concat (vs ++ map (fun _ => 0) l) idx W sw rev acc = concat vs idx W sw rev acc.
Proof.
  induction vs as [|v t IH]; intros idx W sw rev acc; cbn [app concat]; [|apply IH].
  revert idx. induction l as [|x l IHl]; intros idx; cbn [map concat]; [reflexivity|]. now rewrite Z.shiftl_0_l, Z.lor_0_r.
Qed.

Lemma concat_norev vs W1 W2 sw : forall idx acc, concat vs idx W1 sw false acc = concat vs idx W2 sw false acc.
Proof. induction vs as [|v t IH]; intros idx acc; cbn [concat]; [reflexivity|apply IH]. Qed.

Fixpoint slices (k : nat) (idx W sw : Z) (rev : bool) (V : Z) : list Z :=
  match k with
  | O => []
  | S k' => getbits V (sub_pos W idx sw rev) sw :: slices k' (idx + 1) W sw rev V
  end.

Definition window (idx W sw : Z) (rev : bool) (len n : Z) : bool :=
  if rev then (W - (idx - 1 + len) * sw <=? n) && (n <? W - (idx - 1) * sw)
  else ((idx - 1) * sw <=? n) && (n <? (idx - 1 + len) * sw).

Lemma cbit_slices k idx W sw rev V n : 0 <= n -> 0 < sw -> 1 <= idx ->
  (rev = true -> 0 <= W - (idx - 1 + Z.of_nat k) * sw) ->
  cbit (slices k idx W sw rev V) idx W sw rev n = Z.testbit V n && window idx W sw rev (Z.of_nat k) n.
Proof.
  intros Hn Hsw. revert idx. induction k as [|k IH]; intros idx Hidx Hpos; cbn [slices cbit].
  - unfold window. destruct rev; replace (idx - 1 + Z.of_nat 0) with (idx - 1) by lia.
    + replace ((W - (idx - 1) * sw <=? n) && (n <? W - (idx - 1) * sw)) with false by lia. now rewrite andb_false_r.
    + replace (((idx - 1) * sw <=? n) && (n <? (idx - 1) * sw)) with false by lia. now rewrite andb_false_r.
  - rewrite IH by (try lia; intros E; specialize (Hpos E); lia).
    set (P := sub_pos W idx sw rev).
    assert (HP : 0 <= P).
    { unfold P, sub_pos. destruct rev; [specialize (Hpos eq_refl)|]; nia. }
    assert (Hw : window idx W sw rev (Z.of_nat (S k)) n = ((P <=? n) && (n <? P + sw)) || window (idx + 1) W sw rev (Z.of_nat k) n).
    { unfold window, P, sub_pos. destruct rev; nia. }
    rewrite Hw. destruct (Z.leb_spec P n) as [Hle|Hlt].
    + rewrite testbit_getbits by lia. replace (n - P + P) with n by lia.
      cbn [andb]. replace (n - P <? sw) with (n <? P + sw) by lia.
      destruct (Z.testbit V n); cbn; [reflexivity|]. reflexivity.
    + rewrite Z.testbit_neg_r by lia. cbn. reflexivity.
Qed.

Lemma concat_slices k W sw rev V : 0 < sw -> Z.of_nat k * sw = W -> in_range W V ->
  concat (slices k 1 W sw rev V) 1 W sw rev 0 = V.
Proof.
  intros Hsw HW HV. apply Z.bits_inj'. intros n Hn.
  rewrite testbit_concat, Z.bits_0, cbit_slices by (try lia; intros _; nia). cbn [orb].
  unfold window. replace (1 - 1 + Z.of_nat k) with (Z.of_nat k) by lia.
  destruct (Z.ltb_spec n W).
  - destruct rev; [replace ((W - Z.of_nat k * sw <=? n) && (n <? W - (1 - 1) * sw)) with true by lia
                  |replace (((1 - 1) * sw <=? n) && (n <? Z.of_nat k * sw)) with true by lia]; now rewrite andb_true_r.
  - rewrite (small_bits V W n) by (assumption || lia). reflexivity.
Qed.

Lemma sub_pos_apart W sw rev i j : 0 < sw -> i <> j ->
  sub_pos W i sw rev + sw <= sub_pos W j sw rev \/ sub_pos W j sw rev + sw <= sub_pos W i sw rev.
Proof. intros. unfold sub_pos. destruct rev; nia. Qed.

Lemma sub_pos_inside W sw rev i k : 0 < sw -> 1 <= i <= k -> (rev = true -> k * sw <= W) ->
  0 <= sub_pos W i sw rev /\ (k * sw <= W -> sub_pos W i sw rev + sw <= W).
Proof. intros Hsw Hi HW. unfold sub_pos. destruct rev; [specialize (HW eq_refl)|]; nia. Qed.

Lemma window_bit v sw p n : in_range sw v -> n < p \/ p + sw <= n -> Z.testbit v (n - p) = false.
Proof. intros Hv [H|H]; [apply Z.testbit_neg_r; lia|apply small_bits with sw; [exact Hv|lia]]. Qed.

Lemma cbit_other vs idx W sw rev J m : 0 < sw -> Forall (in_range sw) vs -> 0 <= m < sw ->
  (J < idx \/ idx + Z.of_nat (length vs) <= J) ->
  cbit vs idx W sw rev (m + sub_pos W J sw rev) = false.
Proof.
  intros Hsw Hv Hm. revert idx. induction Hv as [|v t Hv0 Hv IH]; intros idx HJ; cbn [cbit length] in *; [reflexivity|].
  rewrite IH, orb_false_r by lia. apply (window_bit v sw); [assumption|].
  destruct (sub_pos_apart W sw rev J idx Hsw); lia.
Qed.

Lemma cbit_at vs idx W sw rev j v m : 0 < sw -> Forall (in_range sw) vs -> 0 <= m < sw ->
  nth_error vs j = Some v ->
  cbit vs idx W sw rev (m + sub_pos W (idx + Z.of_nat j) sw rev) = Z.testbit v m.
Proof.
  intros Hsw Hv Hm. revert idx j. induction Hv as [|x t Hx Hv IH]; intros idx j Hj; [destruct j; discriminate|].
  destruct j as [|j]; cbn [nth_error] in Hj; cbn [cbit].
  - injection Hj as ->. replace (idx + Z.of_nat 0) with idx by lia.
    rewrite cbit_other, orb_false_r by (try assumption; lia). f_equal. lia.
  - replace (idx + Z.of_nat (S j)) with (idx + 1 + Z.of_nat j) by lia.
    rewrite IH, (window_bit x sw) by (try assumption; destruct (sub_pos_apart W sw rev (idx + 1 + Z.of_nat j) idx Hsw); lia). reflexivity.
Qed.

Lemma slice_of_concat vs W sw rev j v : 0 < sw -> Forall (in_range sw) vs ->
  (rev = true -> Z.of_nat (length vs) * sw <= W) ->
  nth_error vs j = Some v ->
  getbits (concat vs 1 W sw rev 0) (sub_pos W (1 + Z.of_nat j) sw rev) sw = v.
Proof.
  intros Hsw Hv HW Hj. apply Z.bits_inj'. intros m Hm.
  assert (Hlen : (j < length vs)%nat) by (apply nth_error_Some; congruence).
  destruct (sub_pos_inside W sw rev (1 + Z.of_nat j) (Z.of_nat (length vs)) Hsw ltac:(lia) HW) as (HP & _).
  rewrite testbit_getbits by lia.
  destruct (Z.ltb_spec m sw).
  - rewrite testbit_concat, Z.bits_0 by lia. cbn [orb]. rewrite (cbit_at vs 1 W sw rev j v m) by (assumption || lia).
    now rewrite andb_true_r.
  - rewrite andb_false_r. symmetry. apply small_bits with sw; [|assumption].
    eapply Forall_forall in Hv; [exact Hv|]. eapply nth_error_In; eassumption.
Qed.

Lemma concat_range vs W sw rev : 0 < sw -> Forall (in_range sw) vs -> Z.of_nat (length vs) * sw <= W ->
  in_range W (concat vs 1 W sw rev 0).
Proof.
  intros Hsw Hv HW.
  assert (H0 : 0 <= concat vs 1 W sw rev 0).
  { apply concat_nonneg; [lia|]. eapply Forall_impl; [|exact Hv]. unfold in_range. intros; lia. }
  split; [exact H0|]. apply bits_small; [nia|exact H0|].
  intros n Hn. rewrite testbit_concat, Z.bits_0 by nia. cbn [orb].
  assert (G : forall idx, 1 <= idx -> (idx - 1 + Z.of_nat (length vs)) * sw <= W -> cbit vs idx W sw rev n = false).
  { clear HW H0. induction Hv as [|x t Hx Hv IH]; intros idx Hi Hb; cbn [cbit length] in *; [reflexivity|].
    rewrite IH, orb_false_r by lia. apply (window_bit x sw); [assumption|].
    destruct (sub_pos_inside W sw rev idx (idx + Z.of_nat (length t)) Hsw) as (_ & Q); [lia|intros _; lia|]. specialize (Q ltac:(lia)). lia. }
  apply G; lia.
Qed.

Definition sview (raw : bool) (s : sreg) : Z := view (s_reverse s) raw (s_width s) (s_value s).
Definition sviews (raw : bool) (subs : list sreg) : list Z := map (sview raw) subs.

Lemma subs_get_ok big subs idx W sw rev raw acc : Forall wf_sreg subs ->
  subs_get big subs idx W sw rev raw acc = Ok (concat (sviews raw subs) idx W sw rev acc).
Proof.
  intros H. revert idx acc. induction H as [|s t Hs Ht IH]; intros idx acc; cbn [subs_get sviews map concat]; [reflexivity|].
  rewrite py_sub_pos_get_spec. cbn [bind]. rewrite sreg_get_ok by assumption. cbn [bind].
  rewrite py_sub_acc_spec. cbn [bind]. apply IH.
Qed.

Fixpoint subs_written (subs : list sreg) (idx aw sw : Z) (rev : bool) (V : Z) (raw : bool) : list sreg :=
  match subs with
  | [] => []
  | s :: t => set_value s (view (s_reverse s) raw (s_width s) (getbits V (sub_pos aw idx sw rev) sw))
              :: subs_written t (idx + 1) aw sw rev V raw
  end.

Lemma subs_set_ok subs idx aw sw rev V raw : Forall wf_sreg subs -> Forall (fun s => s_width s = sw) subs ->
  subs_set subs idx aw sw rev V raw = Ok (subs_written subs idx aw sw rev V raw).
Proof.
  intros H. revert idx. induction H as [|s t Hs Ht IH]; intros idx Hw; cbn [subs_set subs_written]; [reflexivity|].
  inversion Hw as [|? ? Hw0 Hwt]; subst.
  assert (0 < s_width s) by (destruct Hs; assumption).
  rewrite py_sub_pos_set_spec. cbn [bind]. rewrite py_sub_slice_spec by lia. cbn [bind].
  rewrite sreg_set_ok by (try assumption; apply getbits_range; lia). cbn [bind].
  rewrite IH by assumption. reflexivity.
Qed.

Lemma subs_written_wf subs idx aw sw rev V raw : Forall wf_sreg subs -> Forall (fun s => s_width s = sw) subs ->
  Forall wf_sreg (subs_written subs idx aw sw rev V raw) /\
  Forall (fun s => s_width s = sw) (subs_written subs idx aw sw rev V raw) /\
  length (subs_written subs idx aw sw rev V raw) = length subs.
Proof.
  intros H. revert idx. induction H as [|s t Hs Ht IH]; intros idx Hw; cbn [subs_written length]; [repeat split; constructor|].
  inversion Hw as [|? ? Hw0 Hwt]; subst.
  destruct (IH (idx + 1) Hwt) as (I1 & I2 & I3).
  pose proof Hs as (P1 & P2 & _).
  repeat split; try constructor; try assumption; try (cbn; lia).
  apply wf_set_value; [assumption|]. apply view_range; try assumption. apply getbits_range. lia.
Qed.

Lemma sviews_written subs idx aw sw rev V raw : Forall wf_sreg subs -> Forall (fun s => s_width s = sw) subs ->
  sviews raw (subs_written subs idx aw sw rev V raw) = slices (length subs) idx aw sw rev V.
Proof.
  intros H. revert idx. induction H as [|s t Hs Ht IH]; intros idx Hw; cbn [subs_written sviews map slices length]; [reflexivity|].
  inversion Hw as [|? ? Hw0 Hwt]; subst.
  pose proof Hs as (P1 & P2 & _).
  f_equal; [|apply IH; assumption].
  unfold sview. cbn. apply view_involutive; try assumption. apply getbits_range. lia.
Qed.

Lemma sviews_range raw subs sw : Forall wf_sreg subs -> Forall (fun s => s_width s = sw) subs ->
  Forall (in_range sw) (sviews raw subs).
Proof.
  intros H Hw. induction H as [|s t Hs Ht IH]; cbn; constructor; inversion Hw; subst.
  - destruct Hs as (P1 & P2 & _ & _ & P5 & _). unfold sview. now apply view_range.
  - now apply IH.
Qed.

Definition zeroed (raw : bool) (l : list sreg) : list sreg :=
  map (fun s => set_value s (view (s_reverse s) raw (s_width s) 0)) l.

Lemma zero_in_range W : 0 < W -> in_range W 0.
Proof. intros H. split; [lia|]. apply Z.pow_pos_nonneg; lia. Qed.

Lemma subs_zero_ok l raw : Forall wf_sreg l -> subs_zero l raw = Ok (zeroed raw l).
Proof.
  induction 1 as [|s t Hs Ht IH]; cbn [subs_zero zeroed map]; [reflexivity|].
  pose proof Hs as (P1 & _). rewrite sreg_set_ok by (try assumption; now apply zero_in_range). cbn [bind].
  rewrite IH. reflexivity.
Qed.

Lemma zeroed_wf l raw sw : Forall wf_sreg l -> Forall (fun s => s_width s = sw) l ->
  Forall wf_sreg (zeroed raw l) /\ Forall (fun s => s_width s = sw) (zeroed raw l) /\
  sviews raw (zeroed raw l) = map (fun _ => 0) l.
Proof.
  intros H Hw. induction H as [|s t Hs Ht IH]; cbn [zeroed map sviews]; [repeat split; constructor|].
  inversion Hw as [|? ? Hw0 Hwt]; subst. destruct (IH Hwt) as (I1 & I2 & I3). pose proof Hs as (P1 & P2 & _).
  assert (Hz := zero_in_range _ P1).
  split; [constructor; [apply wf_set_value; [assumption|now apply view_range]|assumption]|].
  split; [constructor; [reflexivity|assumption]|].
  f_equal; [|exact I3]. unfold sview. cbn. now apply view_involutive.
Qed.

Lemma slices_length k : forall idx W sw rev V, length (slices k idx W sw rev V) = k.
Proof. induction k as [|k IH]; intros; cbn [slices length]; [reflexivity|]. now rewrite IH. Qed.

Lemma group_written_ok subs n aw sw rev V raw : Forall wf_sreg subs -> Forall (fun s => s_width s = sw) subs ->
  let l := subs_written (firstn n subs) 1 aw sw rev V raw ++ zeroed raw (skipn n subs) in
  Forall wf_sreg l /\ Forall (fun s => s_width s = sw) l /\ length l = length subs /\
  sviews raw l = slices (length (firstn n subs)) 1 aw sw rev V ++ map (fun _ => 0) (skipn n subs).
Proof.
  intros Hw Hu l. rewrite <- (firstn_skipn n subs) in Hw, Hu. apply Forall_app in Hw, Hu.
  destruct (subs_written_wf (firstn n subs) 1 aw sw rev V raw (proj1 Hw) (proj1 Hu)) as (A1 & A2 & A3).
  destruct (zeroed_wf (skipn n subs) raw sw (proj2 Hw) (proj2 Hu)) as (Z1 & Z2 & Z3).
  split; [now apply Forall_app|]. split; [now apply Forall_app|]. split.
  - unfold l, zeroed. rewrite app_length, A3, map_length, <- app_length. now rewrite firstn_skipn.
  - rewrite <- (sviews_written _ 1 aw sw rev V raw (proj1 Hw) (proj1 Hu)), <- Z3. apply map_app.
Qed.

(* reg_set on a group: the sub-registers below the selected width take their slices, the others are cleared *)
Lemma reg_set_group r v raw aw V' s0 t : r_subs r = s0 :: t -> Forall wf_sreg (r_subs r) ->
  Forall (fun s => s_width s = s_width s0) (r_subs r) ->
  set_common (s_width (r_base r)) (s_reverse (r_base r)) (s_alt (r_base r)) v raw = Ok (aw, V') ->
  let n := Z.to_nat (aw / s_width s0) in
  reg_set r v raw = Ok (set_subs_of r (subs_written (firstn n (r_subs r)) 1 aw (s_width s0) (r_rev_sub r) V' raw
                                       ++ zeroed raw (skipn n (r_subs r)))).
Proof.
  intros Es Hw Hu Hc n. unfold reg_set. rewrite Hc. cbn [bind]. rewrite Es. rewrite <- Es. fold n.
  rewrite <- (firstn_skipn n (r_subs r)) in Hw, Hu. apply Forall_app in Hw, Hu.
  rewrite subs_set_ok, subs_zero_ok by tauto. reflexivity.
Qed.

Definition reg_written (r : reg) (V : Z) (raw : bool) : reg :=
  let b := r_base r in
  let V' := view (s_reverse b) raw (s_width b) V in
  match r_subs r with
  | [] => set_base r (set_value b V')
  | s0 :: _ => set_subs_of r (subs_written (r_subs r) 1 (s_width b) (s_width s0) (r_rev_sub r) V' raw)
  end.

Lemma group_shape r s0 t : wf_reg r -> r_subs r = s0 :: t ->
  let sw := s_width s0 in
  0 < sw /\ Forall (fun s => s_width s = sw) (r_subs r) /\ Z.of_nat (length (r_subs r)) * sw = s_width (r_base r) /\
  Z.to_nat (s_width (r_base r) / sw) = length (r_subs r).
Proof.
  intros (Hb & Hs & Hg & _) E. cbn zeta.
  destruct Hg as (sw & Hw & Hlen); [rewrite E; discriminate|].
  assert (s_width s0 = sw) by (rewrite E in Hw; now inversion Hw).
  subst sw. assert (0 < s_width s0) by (rewrite E in Hs; inversion Hs as [|? ? (P & _) _]; assumption).
  repeat split; try assumption. rewrite <- Hlen, Z.div_mul by lia. lia.
Qed.

Lemma reg_set_ok r V raw : wf_reg r -> in_range (s_width (r_base r)) V -> reg_set r V raw = Ok (reg_written r V raw).
Proof.
  intros Hr HV. pose proof Hr as (Hb & Hs & _). pose proof Hb as (B1 & B2 & B3 & _).
  pose proof (set_common_ok _ (s_reverse (r_base r)) V raw B1 B2 HV) as Hc. rewrite <- B3 in Hc.
  unfold reg_written. destruct (r_subs r) as [|s0 t] eqn:E; [unfold reg_set; rewrite Hc, E; reflexivity|].
  destruct (group_shape r s0 t Hr E) as (G1 & G2 & G3 & G4). rewrite <- E in *.
  rewrite (reg_set_group r V raw _ _ s0 t E Hs G2 Hc). cbv zeta. rewrite G4, firstn_all, skipn_all. cbn [zeroed map].
  now rewrite app_nil_r.
Qed.

Lemma reg_set_err r V raw : wf_reg r -> ~ in_range (s_width (r_base r)) V -> reg_set r V raw = Err 1%N.
Proof.
  intros ((B1 & _) & _) HV. unfold reg_set. rewrite set_common_err by (assumption || lia). reflexivity.
Qed.

Lemma reg_written_wf r V raw : wf_reg r -> in_range (s_width (r_base r)) V -> wf_reg (reg_written r V raw).
Proof.
  intros Hr HV. pose proof Hr as (Hb & Hs & Hg & Hz). pose proof Hb as (B1 & B2 & B3 & _).
  assert (HV' : in_range (s_width (r_base r)) (view (s_reverse (r_base r)) raw (s_width (r_base r)) V)) by now apply view_range.
  unfold reg_written. destruct (r_subs r) as [|s0 t] eqn:E.
  - unfold wf_reg. cbn. rewrite E. split; [now apply wf_set_value|]. split; [constructor|]. split; intros C; now destruct C.
  - destruct (group_shape r s0 t Hr E) as (G1 & G2 & G3 & G4). rewrite E in *.
    destruct (subs_written_wf (s0 :: t) 1 (s_width (r_base r)) (s_width s0) (r_rev_sub r)
                (view (s_reverse (r_base r)) raw (s_width (r_base r)) V) raw Hs G2) as (W1 & W2 & W3).
    unfold wf_reg. cbn [r_base r_subs set_subs_of]. split; [assumption|]. split; [assumption|].
    split; [|intros _; apply Hz; discriminate].
    intros _. exists (s_width s0). split; [assumption|]. rewrite W3. assumption.
Qed.

Definition reg_stored (r : reg) (raw : bool) : Z :=
  match r_subs r with
  | [] => s_value (r_base r)
  | s0 :: _ => concat (sviews raw (r_subs r)) 1 (s_width (r_base r)) (s_width s0) (r_rev_sub r) 0
  end.

Lemma reg_stored_range r raw : wf_reg r -> in_range (s_width (r_base r)) (reg_stored r raw).
Proof.
  intros Hr. pose proof Hr as (Hb & Hs & _). unfold reg_stored. destruct (r_subs r) as [|s0 t] eqn:E.
  - now destruct Hb as (_ & _ & _ & _ & B5 & _).
  - destruct (group_shape r s0 t Hr E) as (G1 & G2 & G3 & G4). rewrite E in *.
    apply concat_range; [assumption|now apply sviews_range|]. unfold sviews. rewrite map_length. lia.
Qed.

Lemma reg_get_ok big r raw : wf_reg r ->
  reg_get big r raw = Ok (view (s_reverse (r_base r)) raw (s_width (r_base r)) (reg_stored r raw)).
Proof.
  intros Hr. pose proof Hr as (Hb & Hs & _). pose proof Hb as (B1 & B2 & B3 & _).
  pose proof (reg_stored_range r raw Hr) as HR.
  unfold reg_get, reg_raw_value, reg_stored in *. destruct (r_subs r) as [|s0 t] eqn:E; cbn [bind].
  - rewrite B3. now apply get_common_ok.
  - rewrite subs_get_ok by assumption. cbn [bind]. rewrite B3. now apply get_common_ok.
Qed.

Lemma reg_stored_written r V raw : wf_reg r -> in_range (s_width (r_base r)) V ->
  reg_stored (reg_written r V raw) raw = view (s_reverse (r_base r)) raw (s_width (r_base r)) V.
Proof.
  intros Hr HV. pose proof Hr as (Hb & Hs & _). pose proof Hb as (B1 & B2 & B3 & _).
  assert (HV' : in_range (s_width (r_base r)) (view (s_reverse (r_base r)) raw (s_width (r_base r)) V)) by now apply view_range.
  unfold reg_stored, reg_written. destruct (r_subs r) as [|s0 t] eqn:E.
  - cbn. rewrite E. reflexivity.
  - destruct (group_shape r s0 t Hr E) as (G1 & G2 & G3 & G4). rewrite E in *.
    cbn [r_subs r_base set_subs_of subs_written].
    change (set_value s0 (view (s_reverse s0) raw (s_width s0) (getbits (view (s_reverse (r_base r)) raw (s_width (r_base r)) V)
              (sub_pos (s_width (r_base r)) 1 (s_width s0) (r_rev_sub r)) (s_width s0)))
            :: subs_written t (1 + 1) (s_width (r_base r)) (s_width s0) (r_rev_sub r) (view (s_reverse (r_base r)) raw (s_width (r_base r)) V) raw)
      with (subs_written (s0 :: t) 1 (s_width (r_base r)) (s_width s0) (r_rev_sub r) (view (s_reverse (r_base r)) raw (s_width (r_base r)) V) raw).
    cbn [s_width set_value].
    rewrite sviews_written by assumption. now apply concat_slices.
Qed.

Lemma reg_get_set big r V raw : wf_reg r -> in_range (s_width (r_base r)) V ->
  exists r', reg_set r V raw = Ok r' /\ wf_reg r' /\ reg_get big r' raw = Ok V /\
             s_width (r_base r') = s_width (r_base r) /\ s_reverse (r_base r') = s_reverse (r_base r).
Proof.
  intros Hr HV. pose proof Hr as (Hb & _). pose proof Hb as (B1 & B2 & _).
  exists (reg_written r V raw). split; [now apply reg_set_ok|].
  pose proof (reg_written_wf r V raw Hr HV) as Hw. split; [assumption|].
  assert (Ew : s_width (r_base (reg_written r V raw)) = s_width (r_base r) /\
               s_reverse (r_base (reg_written r V raw)) = s_reverse (r_base r)).
  { unfold reg_written. destruct (r_subs r); cbn; split; reflexivity. }
  destruct Ew as (Ew & Er). repeat split; try assumption.
  rewrite reg_get_ok by assumption. rewrite Ew, Er, reg_stored_written by assumption.
  now rewrite view_involutive.
Qed.

Lemma nth_error_list_set_same {A} (l : list A) n x : (n < length l)%nat -> nth_error (list_set l n x) n = Some x.
Proof. revert n. induction l as [|h t IH]; intros [|n] H; cbn in *; try lia; [reflexivity|]. apply IH. lia. Qed.

Lemma nth_error_list_set_other {A} (l : list A) n m x : n <> m -> nth_error (list_set l n x) m = nth_error l m.
Proof. revert n m. induction l as [|h t IH]; intros [|n] [|m] H; cbn; try reflexivity; try congruence. apply IH. congruence. Qed.

Lemma list_set_length {A} (l : list A) n x : length (list_set l n x) = length l.
Proof. revert n. induction l as [|h t IH]; intros [|n]; cbn; try reflexivity. now rewrite IH. Qed.

Lemma Forall_list_set {A} (P : A -> Prop) l n x : Forall P l -> P x -> Forall P (list_set l n x).
Proof.
  intros H Hx. revert n. induction H as [|h t Hh Ht IH]; intros [|n]; cbn; try constructor; try assumption. apply IH.
Qed.

Lemma map_list_set {A B} (f : A -> B) l n x : map f (list_set l n x) = list_set (map f l) n (f x).
Proof. revert n. induction l as [|h t IH]; intros [|n]; cbn; try reflexivity. now rewrite IH. Qed.

Lemma list_set_same {A} (l : list A) n x : nth_error l n = Some x -> list_set l n x = l.
Proof. revert n. induction l as [|h t IH]; intros [|n] H; cbn in *; try discriminate; [now injection H as ->|]. now rewrite IH. Qed.

(* layout = everything but the stored values *)
Definition erase_s (s : sreg) : sreg := set_value s 0.
Definition erase_r (r : reg) : reg := mkReg (erase_s (r_base r)) (r_rev_sub r) (map erase_s (r_subs r)).
Definition erase (g : regs) : regs := mkRegs (g_big g) (map erase_r (g_regs g)).
Definition same_layout (g g' : regs) : Prop := erase g = erase g'.

Lemma erase_subs_written subs idx aw sw rev V raw : map erase_s (subs_written subs idx aw sw rev V raw) = map erase_s subs.
Proof. revert idx. induction subs as [|s t IH]; intros idx; cbn; [reflexivity|]. now rewrite IH. Qed.

Lemma erase_reg_written r V raw : erase_r (reg_written r V raw) = erase_r r.
Proof.
  unfold reg_written. destruct (r_subs r) as [|s0 t] eqn:E; unfold erase_r; cbn [r_base r_subs set_base set_subs_of r_rev_sub].
  - now rewrite E.
  - now rewrite erase_subs_written, E.
Qed.

Lemma t_sreg_erase g t : option_map erase_s (t_sreg g t) = t_sreg (erase g) t.
Proof.
  destruct t as [i|i j]; cbn [t_sreg erase g_regs]; rewrite nth_error_map.
  - destruct (nth_error (g_regs g) i); reflexivity.
  - destruct (nth_error (g_regs g) i) as [r|]; cbn; [|reflexivity]. rewrite nth_error_map.
    destruct (nth_error (r_subs r) j); reflexivity.
Qed.

Lemma same_layout_sreg g g' t s : same_layout g g' -> t_sreg g t = Some s ->
  exists s', t_sreg g' t = Some s' /\ erase_s s' = erase_s s.
Proof.
  intros H Hs. pose proof (t_sreg_erase g t) as E1. pose proof (t_sreg_erase g' t) as E2.
  rewrite Hs in E1. unfold same_layout in H. rewrite <- H, <- E1 in E2.
  destruct (t_sreg g' t) as [s'|]; cbn in E2; [|discriminate]. exists s'. split; [reflexivity|]. congruence.
Qed.

(* every attribute but the value is read off the layout *)
Lemma erase_s_proj {A} (p : sreg -> A) {s' s} : (forall s, p (erase_s s) = p s) -> erase_s s' = erase_s s -> p s' = p s.
Proof. intros H E. now rewrite <- (H s'), <- (H s), E. Qed.

Lemma same_layout_field g g' t k : same_layout g g' -> t_field g' t k = t_field g t k.
Proof.
  intros H. unfold t_field. destruct (t_sreg g t) as [s|] eqn:Es.
  - destruct (same_layout_sreg g g' t s H Es) as (s' & -> & E). now rewrite (erase_s_proj s_fields (fun _ => eq_refl) E).
  - destruct (t_sreg g' t) as [s'|] eqn:Es'; [|reflexivity].
    assert (H' : same_layout g' g) by (symmetry; exact H).
    destruct (same_layout_sreg g' g t s' H' Es') as (s & C & _). congruence.
Qed.

Lemma same_layout_refl g : same_layout g g. Proof. reflexivity. Qed.
Lemma same_layout_trans g1 g2 g3 : same_layout g1 g2 -> same_layout g2 g3 -> same_layout g1 g3.
Proof. unfold same_layout. congruence. Qed.

Lemma cons_eq_inv {A} (a b : A) l m : a :: l = b :: m -> a = b /\ l = m.
Proof. intros H. now injection H. Qed.

Lemma erase_r_inv r1 r : erase_r r1 = erase_r r ->
  erase_s (r_base r1) = erase_s (r_base r) /\ r_rev_sub r1 = r_rev_sub r /\ map erase_s (r_subs r1) = map erase_s (r_subs r).
Proof. intros H. repeat split; [exact (f_equal r_base H)|exact (f_equal r_rev_sub H)|exact (f_equal r_subs H)]. Qed.

Lemma regs_eq_inv g g1 : erase g = erase g1 -> g_big g = g_big g1 /\ map erase_r (g_regs g) = map erase_r (g_regs g1).
Proof. intros H. split; [exact (f_equal g_big H)|exact (f_equal g_regs H)]. Qed.

Lemma erase_r_proj {A} (p : sreg -> A) {r' r} : (forall s, p (erase_s s) = p s) -> erase_r r' = erase_r r -> p (r_base r') = p (r_base r).
Proof. intros H E. exact (erase_s_proj p H (f_equal r_base E)). Qed.

Lemma same_layout_nth g g1 i r : same_layout g g1 -> nth_error (g_regs g) i = Some r ->
  exists r1, nth_error (g_regs g1) i = Some r1 /\ erase_r r1 = erase_r r.
Proof.
  intros H E. unfold same_layout in H. destruct (regs_eq_inv g g1 H) as (Hb & Hm).
  assert (E1 : nth_error (map erase_r (g_regs g)) i = Some (erase_r r)) by (rewrite nth_error_map, E; reflexivity).
  rewrite Hm, nth_error_map in E1. destruct (nth_error (g_regs g1) i) as [r1|]; [|discriminate].
  exists r1. split; [reflexivity|]. cbn in E1. congruence.
Qed.

(* two references are unrelated when they live in different top-level registers *)
Definition top_of (t : ref) : nat := match t with Top i => i | Sub i _ => i end.

Lemma wf_regs_nth g i r : wf_regs g -> nth_error (g_regs g) i = Some r -> wf_reg r.
Proof. intros H E. eapply Forall_forall in H; [exact H|]. eapply nth_error_In; eassumption. Qed.

Lemma wf_sub_nth r j s : wf_reg r -> nth_error (r_subs r) j = Some s -> wf_sreg s.
Proof. intros (_ & H & _) E. eapply Forall_forall in H; [exact H|]. eapply nth_error_In; eassumption. Qed.

Lemma t_sreg_wf g t s : wf_regs g -> t_sreg g t = Some s -> wf_sreg s.
Proof.
  intros Hg. destruct t as [i|i j]; cbn [t_sreg].
  - destruct (nth_error (g_regs g) i) as [r|] eqn:E; cbn; [|discriminate]. intros H; injection H as <-.
    now destruct (wf_regs_nth g i r Hg E).
  - destruct (nth_error (g_regs g) i) as [r|] eqn:E; [|discriminate]. intros H.
    eapply wf_sub_nth; [eapply wf_regs_nth|]; eassumption.
Qed.

Lemma t_get_total g t s raw : wf_regs g -> t_sreg g t = Some s ->
  exists v, t_get g t raw = Ok v /\ in_range (s_width s) v.
Proof.
  intros Hg. destruct t as [i|i j]; cbn [t_sreg t_get].
  - destruct (nth_error (g_regs g) i) as [r|] eqn:E; cbn; [|discriminate]. intros H; injection H as <-.
    pose proof (wf_regs_nth g i r Hg E) as Hr. pose proof Hr as ((B1 & B2 & _) & _).
    eexists. split; [now apply reg_get_ok|]. apply view_range; try assumption. now apply reg_stored_range.
  - destruct (nth_error (g_regs g) i) as [r|] eqn:E; [|discriminate].
    destruct (nth_error (r_subs r) j) as [s'|] eqn:E'; [|discriminate]. intros H; injection H as <-.
    pose proof (wf_sub_nth r j s' (wf_regs_nth g i r Hg E) E') as Hs. pose proof Hs as (B1 & B2 & _ & _ & B5 & _).
    eexists. split; [now apply sreg_get_ok|]. now apply view_range.
Qed.

Lemma set_reg_ok g i r r' : wf_regs g -> nth_error (g_regs g) i = Some r -> wf_reg r' -> erase_r r' = erase_r r ->
  let g' := set_regs g (list_set (g_regs g) i r') in
  wf_regs g' /\ same_layout g g' /\ nth_error (g_regs g') i = Some r' /\
  forall u raw, top_of u <> i -> t_get g' u raw = t_get g u raw.
Proof.
  intros Hg E Hr' Ee g'. assert (Hi : (i < length (g_regs g))%nat) by (apply nth_error_Some; congruence).
  split; [apply Forall_list_set; assumption|]. split.
  { unfold same_layout, erase. cbn [g_big g_regs set_regs g']. f_equal. rewrite map_list_set, Ee.
    symmetry. apply list_set_same. now rewrite nth_error_map, E. }
  split; [now apply nth_error_list_set_same|].
  intros u raw Hu. destruct u; cbn [top_of] in Hu; cbn [t_get g_regs g_big set_regs g'];
    now rewrite nth_error_list_set_other by congruence.
Qed.

Lemma t_set_ok g t s V raw : wf_regs g -> t_sreg g t = Some s -> in_range (s_width s) V ->
  exists g', t_set g t V raw = Ok g' /\ wf_regs g' /\ same_layout g g' /\ t_get g' t raw = Ok V /\
    (forall u r', top_of u <> top_of t -> t_get g' u r' = t_get g u r') /\
    (forall i j j' r', t = Sub i j -> j' <> j -> t_get g' (Sub i j') r' = t_get g (Sub i j') r').
Proof.
  intros Hg. destruct t as [i|i j]; cbn [t_sreg t_set top_of].
  - destruct (nth_error (g_regs g) i) as [r|] eqn:E; cbn [option_map]; [|discriminate]. intros H HV; injection H as <-.
    pose proof (wf_regs_nth g i r Hg E) as Hr.
    destruct (reg_get_set (g_big g) r V raw Hr HV) as (r' & S1 & S2 & S3 & _).
    assert (Ee : erase_r r' = erase_r r) by (rewrite reg_set_ok in S1 by assumption; injection S1 as <-; apply erase_reg_written).
    destruct (set_reg_ok g i r r' Hg E S2 Ee) as (K1 & K2 & K3 & K4).
    rewrite S1. cbn [bind]. eexists. split; [reflexivity|]. repeat split; try assumption; [|discriminate].
    cbn [t_get]. now rewrite K3.
  - destruct (nth_error (g_regs g) i) as [r|] eqn:E; [|discriminate].
    destruct (nth_error (r_subs r) j) as [s'|] eqn:E'; [|discriminate]. intros H HV; injection H as <-.
    pose proof (wf_regs_nth g i r Hg E) as Hr. pose proof (wf_sub_nth r j s' Hr E') as Hs.
    assert (Hj : (j < length (r_subs r))%nat) by (apply nth_error_Some; congruence).
    assert (Hne : r_subs r <> []) by (intros C; rewrite C in E'; destruct j; discriminate).
    destruct (sreg_get_set (g_big g) s' V raw Hs HV) as (s2 & S1 & S2 & S3 & S4).
    set (r' := set_subs_of r (list_set (r_subs r) j s2)).
    assert (Hr' : wf_reg r').
    { destruct Hr as (R1 & R2 & R3 & R4). unfold wf_reg. cbn [r_base r_subs set_subs_of r'].
      split; [assumption|]. split; [apply Forall_list_set; assumption|]. split; [|intros _; now apply R4].
      intros _. destruct (R3 Hne) as (sw & W1 & W2). exists sw. split; [|now rewrite list_set_length].
      apply Forall_list_set; [assumption|]. rewrite S4. eapply Forall_forall in W1; [exact W1|]. eapply nth_error_In; eassumption. }
    assert (Ee : erase_r r' = erase_r r).
    { unfold erase_r. cbn [r_base r_subs set_subs_of r_rev_sub r']. f_equal. rewrite map_list_set. apply list_set_same.
      rewrite nth_error_map, E'. rewrite sreg_set_ok in S1 by assumption. now injection S1 as <-. }
    destruct (set_reg_ok g i r r' Hg E Hr' Ee) as (K1 & K2 & K3 & K4).
    rewrite S1. cbn [bind]. fold r'. eexists. split; [reflexivity|]. repeat split; try assumption.
    + cbn [t_get]. rewrite K3. cbn [r_subs set_subs_of r']. now rewrite nth_error_list_set_same.
    + intros i0 j0 j' r0 Ht Hne'. injection Ht as <- <-. cbn [t_get]. rewrite K3, E. cbn [r_subs set_subs_of r'].
      now rewrite nth_error_list_set_other by congruence.
Qed.

Lemma t_set_err g t s V raw : wf_regs g -> t_sreg g t = Some s -> ~ in_range (s_width s) V -> t_set g t V raw = Err 1%N.
Proof.
  intros Hg. destruct t as [i|i j]; cbn [t_sreg t_set].
  - destruct (nth_error (g_regs g) i) as [r|] eqn:E; cbn [option_map]; [|discriminate]. intros H HV; injection H as <-.
    rewrite reg_set_err by (try assumption; eapply wf_regs_nth; eassumption). reflexivity.
  - destruct (nth_error (g_regs g) i) as [r|] eqn:E; [|discriminate].
    destruct (nth_error (r_subs r) j) as [s'|] eqn:E'; [|discriminate]. intros H HV; injection H as <-.
    rewrite sreg_set_err; [reflexivity| |assumption]. eapply wf_sub_nth; [eapply wf_regs_nth|]; eassumption.
Qed.

Lemma t_set_none g t V raw : t_sreg g t = None -> t_set g t V raw = Err 1%N.
Proof.
  destruct t as [i|i j]; cbn [t_sreg t_set].
  - destruct (nth_error (g_regs g) i); cbn; [discriminate|reflexivity].
  - destruct (nth_error (g_regs g) i) as [r|]; [|reflexivity]. destruct (nth_error (r_subs r) j); [discriminate|reflexivity].
Qed.

Lemma t_set_wf g t V raw g' : wf_regs g -> t_set g t V raw = Ok g' -> wf_regs g' /\ same_layout g g'.
Proof.
  intros Hg H. destruct (t_sreg g t) as [s|] eqn:Es.
  - destruct (Z_lt_dec V 0) as [Hn|Hn]; [rewrite (t_set_err g t s) in H by (unfold in_range; (assumption || lia)); discriminate|].
    destruct (Z_lt_dec V (2 ^ s_width s)) as [Hl|Hl];
      [|rewrite (t_set_err g t s) in H by (unfold in_range; (assumption || lia)); discriminate].
    destruct (t_set_ok g t s V raw Hg Es) as (g2 & S1 & S2 & S3 & _); [unfold in_range; lia|].
    rewrite S1 in H. injection H as <-. split; assumption.
  - rewrite t_set_none in H by assumption. discriminate.
Qed.

Definition pre_of (f : field) (x : Z) (nopre : bool) : Z := if nopre then x else cp_pre (f_proc f) (f_count f) x.
Definition post_of (f : field) (p : Z) : Z := cp_post (f_proc f) (f_count f) p.
Definition fbits (f : field) (rv : Z) : Z := getbits rv (f_off f) (f_width f).
Definition fields_disjoint (f f' : field) : Prop := f_off f + f_width f <= f_off f' \/ f_off f' + f_width f' <= f_off f.

Lemma t_field_wf g t k f s : wf_regs g -> t_sreg g t = Some s -> t_field g t k = Some f -> wf_field (s_width s) f.
Proof.
  intros Hg Hs Hf. unfold t_field in Hf. rewrite Hs in Hf.
  destruct (t_sreg_wf g t s Hg Hs) as (_ & _ & _ & F & _).
  eapply Forall_forall in F; [exact F|]. eapply nth_error_In; eassumption.
Qed.

Lemma f_get_of g t k f rv : t_field g t k = Some f -> 0 < f_width f -> t_get g t false = Ok rv ->
  f_get g t k = Ok (post_of f (fbits f rv)).
Proof.
  intros Hf Hw Hg. unfold f_get. rewrite Hf, Hg. cbn [bind]. unfold field_of. rewrite py_bf_get_spec by lia. reflexivity.
Qed.

Lemma f_set_int_ok g t k f s x raw nopre : wf_regs g -> t_sreg g t = Some s -> t_field g t k = Some f ->
  in_range (f_width f) (pre_of f x nopre) ->
  exists g' rv, t_get g t raw = Ok rv /\ in_range (s_width s) rv /\
    f_set_int g t k x raw nopre = Ok g' /\ wf_regs g' /\ same_layout g g' /\
    t_get g' t raw = Ok (setbits rv (f_off f) (f_width f) (pre_of f x nopre)) /\
    (forall u r', top_of u <> top_of t -> t_get g' u r' = t_get g u r') /\
    (forall i j j' r', t = Sub i j -> j' <> j -> t_get g' (Sub i j') r' = t_get g (Sub i j') r').
Proof.
  intros Hg Hs Hf Hp. destruct (t_field_wf g t k f s Hg Hs Hf) as (F1 & F2 & F3 & F4).
  destruct (t_get_total g t s raw Hg Hs) as (rv & G1 & G2).
  assert (HR : in_range (s_width s) (setbits rv (f_off f) (f_width f) (pre_of f x nopre))).
  { apply setbits_range; (assumption || lia). }
  destruct (t_set_ok g t s _ raw Hg Hs HR) as (g' & S1 & S2 & S3 & S4 & S5 & S6).
  exists g', rv. split; [assumption|]. split; [assumption|].
  split; [|repeat split; assumption].
  unfold f_set_int. rewrite Hf, G1. cbn [bind]. rewrite py_bf_set_spec by lia. cbv zeta.
  fold (pre_of f x nopre). rewrite (out_of_range_false _ _ Hp). cbn [bind]. exact S1.
Qed.

Lemma f_set_int_err g t k f s x raw nopre : wf_regs g -> t_sreg g t = Some s -> t_field g t k = Some f ->
  ~ in_range (f_width f) (pre_of f x nopre) -> f_set_int g t k x raw nopre = Err 1%N.
Proof.
  intros Hg Hs Hf Hp. destruct (t_field_wf g t k f s Hg Hs Hf) as (F1 & F2 & F3 & F4).
  destruct (t_get_total g t s raw Hg Hs) as (rv & G1 & G2).
  unfold f_set_int. rewrite Hf, G1. cbn [bind]. rewrite py_bf_set_spec by lia. cbv zeta.
  fold (pre_of f x nopre). rewrite (out_of_range_true _ _ Hp). reflexivity.
Qed.

Lemma f_set_int_wf g t k x raw nopre g' : wf_regs g -> f_set_int g t k x raw nopre = Ok g' -> wf_regs g' /\ same_layout g g'.
Proof.
  intros Hg H. unfold f_set_int in H. destruct (t_field g t k) as [f|]; [|discriminate].
  destruct (t_get g t raw) as [rv|]; [|discriminate]. cbn [bind] in H.
  destruct (py_bf_set x rv (f_off f) (f_width f) (f_proc f) (f_count f) nopre) as [rv'|]; [|discriminate]. cbn [bind] in H.
  eapply t_set_wf; eassumption.
Qed.

Lemma field_get_set_lemma g t k f s x nopre : wf_regs g -> t_sreg g t = Some s -> t_field g t k = Some f ->
  in_range (f_width f) (pre_of f x nopre) ->
  exists g', f_set_int g t k x false nopre = Ok g' /\
             (forall init v, to_int v = Ok x -> step init g (OSetField t k v false nopre) = (g', VList [])) /\
             wf_regs g' /\ same_layout g g' /\
             f_get g' t k = Ok (post_of f (pre_of f x nopre)) /\
             (forall k' f', t_field g t k' = Some f' -> fields_disjoint f f' -> f_get g' t k' = f_get g t k') /\
             (forall u, top_of u <> top_of t -> (forall r', t_get g' u r' = t_get g u r') /\ (forall k', f_get g' u k' = f_get g u k')) /\
             (forall i j j', t = Sub i j -> j' <> j ->
                (forall r', t_get g' (Sub i j') r' = t_get g (Sub i j') r') /\ (forall k', f_get g' (Sub i j') k' = f_get g (Sub i j') k')).
Proof.
  intros Hg Hs Hf Hp. destruct (t_field_wf g t k f s Hg Hs Hf) as (F1 & F2 & F3 & F4).
  destruct (f_set_int_ok g t k f s x false nopre Hg Hs Hf Hp) as (g' & rv & G1 & G2 & S1 & S2 & S3 & S4 & S5 & S6).
  exists g'. split; [assumption|]. split; [intros init v Hv; cbn [step]; unfold f_set; rewrite Hf, Hv; cbn [bind]; now rewrite S1|].
  split; [assumption|]. split; [assumption|].
  assert (Hf' : forall k', t_field g' t k' = t_field g t k') by (intros; now apply same_layout_field).
  split.
  { rewrite (f_get_of g' t k f _ (eq_trans (Hf' k) Hf) F2 S4). unfold fbits. rewrite getbits_setbits_same by (assumption || lia). reflexivity. }
  split.
  { intros k' f' Hk' Hd. destruct (t_field_wf g t k' f' s Hg Hs Hk') as (E1 & E2 & E3 & E4).
    rewrite (f_get_of g' t k' f' _ (eq_trans (Hf' k') Hk') E2 S4).
    rewrite (f_get_of g t k' f' rv Hk' E2 G1). unfold fbits.
    rewrite getbits_setbits_disjoint by (unfold fields_disjoint in Hd; lia). reflexivity. }
  split.
  { intros u Hu. split; [intros; now apply S5|]. intros k'. unfold f_get. rewrite (same_layout_field g g' u k' S3).
    now rewrite S5. }
  intros i j j' Ht Hne. split; [intros; now apply (S6 i j)|]. intros k'. unfold f_get. rewrite (same_layout_field g g' (Sub i j') k' S3).
  now rewrite (S6 i j).
Qed.

Lemma group_views_lemma g i r s0 tl raw V : wf_regs g -> nth_error (g_regs g) i = Some r -> r_subs r = s0 :: tl ->
  t_get g (Top i) raw = Ok V ->
  let b := r_base r in
  let C := view (s_reverse b) raw (s_width b) V in
  in_range (s_width b) V /\
  forall j s, nth_error (r_subs r) j = Some s ->
    t_get g (Sub i j) raw = Ok (view (s_reverse s) raw (s_width s0) (s_value s)) /\
    getbits C (sub_pos (s_width b) (1 + Z.of_nat j) (s_width s0) (r_rev_sub r)) (s_width s0)
      = view (s_reverse s) raw (s_width s0) (s_value s).
Proof.
  intros Hg E Es HV. cbv zeta. pose proof (wf_regs_nth g i r Hg E) as Hr.
  pose proof Hr as (Hb & Hsubs & _). pose proof Hb as (B1 & B2 & _).
  destruct (group_shape r s0 tl Hr Es) as (G1 & G2 & G3 & G4).
  cbn [t_get] in HV. rewrite E, reg_get_ok in HV by assumption. injection HV as <-.
  pose proof (reg_stored_range r raw Hr) as HR.
  split; [now apply view_range|].
  rewrite view_involutive by assumption.
  intros j s Hj. pose proof (wf_sub_nth r j s Hr Hj) as Hs.
  assert (Ew : s_width s = s_width s0) by (eapply Forall_forall in G2; [exact G2|eapply nth_error_In; eassumption]).
  split.
  - cbn [t_get]. rewrite E, Hj, sreg_get_ok by assumption. now rewrite Ew.
  - unfold reg_stored. rewrite Es. rewrite <- Es.
    apply slice_of_concat; [assumption|now apply sviews_range| |].
    + intros _. unfold sviews. rewrite map_length. lia.
    + unfold sviews. rewrite nth_error_map, Hj. cbn. unfold sview. now rewrite Ew.
Qed.

Definition keeps (g g' : regs) : Prop := wf_regs g' /\ same_layout g g'.

Lemma keeps_refl g : wf_regs g -> keeps g g.
Proof. intros; split; [assumption|reflexivity]. Qed.
Lemma keeps_trans g1 g2 g3 : keeps g1 g2 -> keeps g2 g3 -> keeps g1 g3.
Proof. intros (A1 & A2) (B1 & B2). split; [assumption|eapply same_layout_trans; eassumption]. Qed.

Lemma f_set_wf g t k v raw nopre g' : wf_regs g -> f_set g t k v raw nopre = Ok g' -> keeps g g'.
Proof.
  intros Hg H. unfold f_set in H. destruct (t_field g t k); [|discriminate].
  destruct (to_int v) as [x|]; [|discriminate]. cbn [bind] in H. eapply f_set_int_wf; eassumption.
Qed.

Lemma f_set_enum_wf g t k v raw g' : wf_regs g -> f_set_enum g t k v raw = Ok g' -> keeps g g'.
Proof.
  intros Hg H. unfold f_set_enum in H. destruct (t_field g t k) as [f|]; [|discriminate].
  destruct v as [z|l|s|l|e];
    try (destruct (to_int _) as [x|]; [|discriminate]; cbn [bind] in H; eapply f_set_int_wf; eassumption).
  destruct (enum_const (f_enums f) s) as [c|]; [eapply f_set_int_wf; eassumption|].
  destruct (starts_raw s).
  - destruct (value_to_int_str (skipn 4 s)) as [x|]; [|discriminate]. cbn [bind] in H. eapply f_set_int_wf; eassumption.
  - destruct (value_to_int_str s) as [x|]; [|discriminate]. cbn [bind] in H. eapply f_set_int_wf; eassumption.
Qed.

Lemma t_reset_wf g t raw g' : wf_regs g -> t_reset g t raw = Ok g' -> keeps g g'.
Proof. intros Hg H. unfold t_reset in H. destruct (t_sreg g t); [|discriminate]. eapply t_set_wf; eassumption. Qed.

Lemma reset_all_from_wf n : forall g i g', wf_regs g -> reset_all_from g i n = Ok g' -> keeps g g'.
Proof.
  induction n as [|n IH]; intros g i g' Hg H; cbn [reset_all_from] in H.
  - injection H as <-. now apply keeps_refl.
  - destruct (nth_error (g_regs g) i) as [r|]; [|injection H as <-; now apply keeps_refl].
    destruct (s_hidden (r_base r)); [eapply IH; eassumption|].
    destruct (t_reset g (Top i) true) as [g1|] eqn:E; [|discriminate]. cbn [bind] in H.
    pose proof (t_reset_wf g (Top i) true g1 Hg E) as K. eapply keeps_trans; [exact K|]. eapply IH; [apply K|eassumption].
Qed.

Lemma parse_from_wf bin n : forall g i g', wf_regs g -> parse_from g bin i n = Ok g' -> keeps g g'.
Proof.
  induction n as [|n IH]; intros g i g' Hg H; cbn [parse_from] in H.
  - injection H as <-. now apply keeps_refl.
  - destruct (nth_error (g_regs g) i) as [r|]; [|injection H as <-; now apply keeps_refl].
    destruct (s_hidden (r_base r)); [eapply IH; eassumption|].
    destruct (zlen bin <? s_offset (r_base r) + s_width (r_base r) / 8); [injection H as <-; now apply keeps_refl|].
    match type of H with bind ?X _ = _ => destruct X as [g1|] eqn:E end; [|discriminate]. cbn [bind] in H.
    pose proof (t_set_wf _ _ _ _ _ Hg E) as K. eapply keeps_trans; [exact K|]. eapply IH; [apply K|eassumption].
Qed.

Lemma load_fields_wf t l : forall g, wf_regs g -> keeps g (fst (load_fields g t l)).
Proof.
  induction l as [|(k, v) rest IH]; intros g Hg; cbn [load_fields]; [now apply keeps_refl|].
  destruct (t_field g t k); [|now apply keeps_refl].
  destruct (f_set_enum g t k v true) as [g1|] eqn:E; [|now apply keeps_refl].
  pose proof (f_set_enum_wf _ _ _ _ _ _ Hg E) as K. eapply keeps_trans; [exact K|]. apply IH, K.
Qed.

Lemma load_entry_wf g t e : wf_regs g -> keeps g (fst (load_entry g t e)).
Proof.
  intros Hg. unfold load_entry. destruct (t_sreg g t) as [s|]; [|now apply keeps_refl].
  destruct e as [v|l].
  - destruct (cfg_value (s_hex s) v) as [x|]; cbn [bind]; [|now apply keeps_refl].
    destruct (t_set g t x false) as [g1|] eqn:E; cbn [fst]; [|now apply keeps_refl]. eapply t_set_wf; eassumption.
  - pose proof (load_fields_wf t l g Hg) as K. destruct (load_fields g t l) as (g1, [u|e]); cbn [fst] in *; [|assumption].
    destruct (t_get g1 t true) as [x|]; cbn [bind]; [|assumption].
    destruct (t_set g1 t x false) as [g2|] eqn:E; cbn [fst]; [|assumption].
    eapply keeps_trans; [exact K|]. eapply t_set_wf; [apply K|eassumption].
Qed.

Lemma load_cfg_wf c : forall g, wf_regs g -> keeps g (fst (load_cfg g c)).
Proof.
  induction c as [|(t, e) rest IH]; intros g Hg; cbn [load_cfg]; [now apply keeps_refl|].
  pose proof (load_entry_wf g t e Hg) as K. destruct (load_entry g t e) as (g1, [u|k]); cbn [fst] in *; [|assumption].
  eapply keeps_trans; [exact K|]. apply IH, K.
Qed.

Lemma vunit_keeps g r : wf_regs g -> (forall g', r = Ok g' -> keeps g g') -> keeps g (fst (vunit g r)).
Proof. intros Hg H. destruct r as [g'|k]; cbn; [now apply H|now apply keeps_refl]. Qed.

Lemma step_keeps init g o : wf_regs g -> keeps g (fst (step init g o)).
Proof.
  intros Hg. destruct o; cbn [step]; try (cbn [fst]; now apply keeps_refl); try apply vunit_keeps; try assumption.
  - intros g' H. destruct (to_int v) as [x|]; [|discriminate]. cbn [bind] in H. eapply t_set_wf; eassumption.
  - intros g' H. eapply f_set_wf; eassumption.
  - intros g' H. eapply f_set_enum_wf; eassumption.
  - intros g' H. eapply t_reset_wf; eassumption.
  - intros g' H. eapply reset_all_from_wf; eassumption.
  - intros g' H. eapply parse_from_wf; eassumption.
  - intros g' H. destruct (export g) as [b0|]; [|discriminate]. cbn [bind] in H. eapply parse_from_wf; eassumption.
  - pose proof (load_cfg_wf c g Hg) as K. destruct (load_cfg g c) as (g1, [u|k]); cbn [fst] in *; assumption.
Qed.

Lemma run_keeps init ops : forall g, wf_regs g -> keeps g (run init g ops).
Proof.
  induction ops as [|o rest IH]; intros g Hg; cbn [run]; [now apply keeps_refl|].
  pose proof (step_keeps init g o Hg) as K. eapply keeps_trans; [exact K|]. apply IH, K.
Qed.

Lemma queries_pure_lemma init g o : is_query o = true -> fst (step init g o) = g.
Proof.
  destruct o; cbn [is_query]; try discriminate; intros _; cbn [step fst]; reflexivity.
Qed.

Lemma reachable_wf g0 ops : wf_regs g0 -> wf_regs (run g0 g0 ops) /\ same_layout g0 (run g0 g0 ops).
Proof. intros H. exact (run_keeps g0 ops g0 H). Qed.

Lemma step_set_enum_ok init g t k f s name c : wf_regs g -> t_sreg g t = Some s -> t_field g t k = Some f ->
  enum_const (f_enums f) name = Some c -> in_range (f_width f) (pre_of f c false) ->
  exists g', step init g (OSetEnum t k (VStr name) false) = (g', VList []) /\ wf_regs g' /\
             f_get g' t k = Ok (post_of f (pre_of f c false)).
Proof.
  intros Hg Hs Hf Hc Hp. destruct (field_get_set_lemma g t k f s c false Hg Hs Hf Hp) as (g' & S1 & _ & S2 & _ & S4 & _).
  exists g'. split; [|split; assumption]. cbn [step]. unfold f_set_enum. rewrite Hf, Hc, S1. reflexivity.
Qed.

Lemma step_set_field_rejects init g t k f s v x raw nopre : wf_regs g -> t_sreg g t = Some s -> t_field g t k = Some f ->
  to_int v = Ok x -> ~ in_range (f_width f) (pre_of f x nopre) ->
  step init g (OSetField t k v raw nopre) = (g, VErr 1%N).
Proof.
  intros Hg Hs Hf Hv Hp. cbn [step]. unfold f_set. rewrite Hf, Hv. cbn [bind].
  rewrite (f_set_int_err g t k f s) by assumption. reflexivity.
Qed.

Lemma step_set_field_unparsable init g t k f v e raw nopre : t_field g t k = Some f -> to_int v = Err e ->
  step init g (OSetField t k v raw nopre) = (g, VErr e).
Proof. intros Hf Hv. cbn [step]. unfold f_set. rewrite Hf, Hv. reflexivity. Qed.

Lemma step_set_reg_ok init g t s v x raw : wf_regs g -> t_sreg g t = Some s -> to_int v = Ok x -> in_range (s_width s) x ->
  exists g', step init g (OSetReg t v raw) = (g', VList []) /\ wf_regs g' /\ same_layout g g' /\ t_get g' t raw = Ok x /\
    (forall u r', top_of u <> top_of t -> t_get g' u r' = t_get g u r') /\
    (forall i j j' r', t = Sub i j -> j' <> j -> t_get g' (Sub i j') r' = t_get g (Sub i j') r').
Proof.
  intros Hg Hs Hv Hx. destruct (t_set_ok g t s x raw Hg Hs Hx) as (g' & S1 & R). exists g'. split; [|exact R].
  cbn [step]. rewrite Hv. cbn [bind]. rewrite S1. reflexivity.
Qed.

Lemma step_set_reg_rejects init g t s v x raw : wf_regs g -> t_sreg g t = Some s -> to_int v = Ok x -> ~ in_range (s_width s) x ->
  step init g (OSetReg t v raw) = (g, VErr 1%N).
Proof.
  intros Hg Hs Hv Hx. cbn [step]. rewrite Hv. cbn [bind]. rewrite (t_set_err g t s) by assumption. reflexivity.
Qed.

Lemma step_set_reg_fields init g t s v x : wf_regs g -> t_sreg g t = Some s -> to_int v = Ok x -> in_range (s_width s) x ->
  exists g', step init g (OSetReg t v false) = (g', VList []) /\ wf_regs g' /\
             forall k f, t_field g t k = Some f -> f_get g' t k = Ok (post_of f (fbits f x)).
Proof.
  intros Hg Hs Hv Hx. destruct (t_set_ok g t s x false Hg Hs Hx) as (g' & S1 & S2 & S3 & S4 & _).
  exists g'. split; [cbn [step]; rewrite Hv; cbn [bind]; now rewrite S1|]. split; [assumption|]. intros k f Hf.
  destruct (t_field_wf g t k f s Hg Hs Hf) as (F1 & F2 & _).
  apply f_get_of; try assumption. now rewrite (same_layout_field g g' t k S3).
Qed.

Lemma group_write_lemma init g i r s0 tl v x raw : wf_regs g -> nth_error (g_regs g) i = Some r -> r_subs r = s0 :: tl ->
  to_int v = Ok x -> in_range (s_width (r_base r)) x ->
  exists g', step init g (OSetReg (Top i) v raw) = (g', VList []) /\ wf_regs g' /\ t_get g' (Top i) raw = Ok x /\
    forall j, (j < length (r_subs r))%nat ->
      t_get g' (Sub i j) raw =
        Ok (getbits (view (s_reverse (r_base r)) raw (s_width (r_base r)) x)
                    (sub_pos (s_width (r_base r)) (1 + Z.of_nat j) (s_width s0) (r_rev_sub r)) (s_width s0)).
Proof.
  intros Hg E Es Hv Hx.
  assert (Hs : t_sreg g (Top i) = Some (r_base r)) by (cbn [t_sreg]; now rewrite E).
  destruct (step_set_reg_ok init g (Top i) (r_base r) v x raw Hg Hs Hv Hx) as (g' & S1 & S2 & S3 & S4 & _).
  exists g'. split; [assumption|]. split; [assumption|]. split; [assumption|]. intros j Hj.
  (* the written register has the layout of r: read its sub-registers through the group value just stored *)
  destruct (same_layout_nth g g' i r S3 E) as (r' & E' & Ee). destruct (erase_r_inv r' r Ee) as (Eb & Erv & Em).
  destruct (nth_error (r_subs r') j) as [s|] eqn:Ej;
    [|apply nth_error_None in Ej; rewrite <- (map_length erase_s), Em, map_length in Ej; lia].
  destruct (r_subs r') as [|s0' tl'] eqn:Es'; [destruct j; discriminate|].
  rewrite Es in Em. apply cons_eq_inv in Em.
  destruct (group_views_lemma g' i r' s0' tl' raw x S2 E' Es' S4) as (_ & V). rewrite Es' in V.
  destruct (V j s Ej) as (-> & <-).
  now rewrite (erase_s_proj s_width (fun _ => eq_refl) Eb), (erase_s_proj s_reverse (fun _ => eq_refl) Eb), Erv,
              (erase_s_proj s_width (fun _ => eq_refl) (proj1 Em)).
Qed.

Definition wf_field_b (W : Z) (f : field) : bool :=
  (0 <=? f_off f) && (0 <? f_width f) && (f_off f + f_width f <=? W) && (0 <=? f_count f).
Definition alts_ok_b (allow : bool) (W : Z) (alts : list Z) : bool :=
  if allow then forallb (fun a => (0 <? a) && (a <=? W) && (a mod 8 =? 0)) alts else match alts with [] => true | _ => false end.
Definition wf_sreg_b (allow : bool) (s : sreg) : bool :=
  (0 <? s_width s) && (s_width s mod 8 =? 0) && alts_ok_b allow (s_width s) (s_alt s) && forallb (wf_field_b (s_width s)) (s_fields s) &&
  (0 <=? s_value s) && (s_value s <? 2 ^ s_width s) && (0 <=? s_reset s) && (s_reset s <? 2 ^ s_width s).
Definition wf_reg_b (allow : bool) (r : reg) : bool :=
  wf_sreg_b allow (r_base r) && forallb (wf_sreg_b false) (r_subs r) &&
  match r_subs r with
  | [] => true
  | s0 :: _ => forallb (fun s => s_width s =? s_width s0) (r_subs r) && (Z.of_nat (length (r_subs r)) * s_width s0 =? s_width (r_base r))
               && (s_value (r_base r) =? 0)
  end.
(* allow = true: alternative widths permitted on top-level registers (the full quantifier of the property) *)
Definition wf_regs_b (allow : bool) (g : regs) : bool := forallb (wf_reg_b allow) (g_regs g).

Lemma wf_sreg_b_sound s : wf_sreg_b false s = true -> wf_sreg s.
Proof.
  unfold wf_sreg_b, wf_sreg, in_range, alts_ok_b. intros H.
  rewrite !andb_true_iff in H. destruct H as (((((((A1 & A2) & A3) & A4) & A5) & A6) & A7) & A8).
  split; [lia|]. split; [lia|]. split; [destruct (s_alt s); [reflexivity|discriminate]|]. split; [|lia].
  apply Forall_forall. intros f Hf. rewrite forallb_forall in A4. specialize (A4 f Hf).
  unfold wf_field_b in A4. unfold wf_field. lia.
Qed.

Lemma wf_regs_b_sound g : wf_regs_b false g = true -> wf_regs g.
Proof.
  unfold wf_regs_b, wf_regs. intros H. apply Forall_forall. intros r Hr. rewrite forallb_forall in H. specialize (H r Hr).
  unfold wf_reg_b in H. rewrite !andb_true_iff in H. destruct H as ((H1 & H2) & H4).
  split; [now apply wf_sreg_b_sound|]. split; [apply Forall_forall; intros s Hs; rewrite forallb_forall in H2; now apply wf_sreg_b_sound, H2|].
  destruct (r_subs r) as [|s0 t]; [split; congruence|]. rewrite !andb_true_iff in H4. destruct H4 as ((H3 & H5) & H6).
  split; intros _; [|lia]. exists (s_width s0). split; [|lia].
  apply Forall_forall. intros s Hs. rewrite forallb_forall in H3. specialize (H3 s Hs). lia.
Qed.

Definition ex_field (o w : Z) : field := mkField [70%N] o w false 0 [([69%N], 1)] false 0.
Definition ex_sub (j : Z) : sreg := mkSreg [83%N] (4 * j) 32 false [] false false 0 [ex_field 0 8; ex_field 8 24] 0.
Definition ex_subs : list sreg := map ex_sub [0; 1; 2; 3; 4; 5; 6; 7; 8; 9; 10; 11].
Definition ex_group (reverse rev_sub : bool) (alts : list Z) : reg :=
  mkReg (mkSreg [71%N] 0 384 reverse alts false true 0 [] 0) rev_sub ex_subs.
Definition ex_plain : reg :=
  mkReg (mkSreg [82%N] 48 32 true [] false false 5 [ex_field 0 4; mkField [71%N] 4 12 true 2 [] false 0; ex_field 16 16] 5) false [].
Definition ex_regs : regs := mkRegs false [ex_group true true []; ex_plain].

Example ex_regs_wf : wf_regs ex_regs.
Proof. apply wf_regs_b_sound. vm_compute. reflexivity. Qed.

Example ex_field_write :
  exists g', step ex_regs ex_regs (OSetField (Top 1) 1 (VStr [48; 120; 49; 70; 52]%N) false false) = (g', VList []) /\
             f_get g' (Top 1) 1 = Ok 500 /\ f_get g' (Top 1) 0 = f_get ex_regs (Top 1) 0.
Proof. eexists. split; [vm_compute; reflexivity|]. split; vm_compute; reflexivity. Qed.

Definition ex_alt_plain : regs := mkRegs false [mkReg (mkSreg [82%N] 0 384 true [256; 384] false false 0 [] 0) false []].
Definition ex_alt_group (big reverse rev_sub : bool) (hi : Z) : regs :=
  mkRegs big [mkReg (mkSreg [71%N] 0 384 reverse [256] false true 0 [] 0) rev_sub
                    (map (fun j => mkSreg [83%N] (4 * j) 32 false [] false false 0 [] (if j =? 11 then hi else 0))
                         [0; 1; 2; 3; 4; 5; 6; 7; 8; 9; 10; 11])].

(* BinaryImage.add_image only reorders the children *)
Lemma insert_img_in x a l : In x (insert_img a l) <-> x = a \/ In x l.
Proof.
  induction l as [|c t IH]; cbn [insert_img]; [cbn; intuition|].
  destruct (fst a <? fst c); cbn [In]; [intuition|]. rewrite IH. intuition.
Qed.

Lemma sorted_imgs_in x l : In x (fold_left (fun l x => insert_img x l) l []) <-> In x l.
Proof.
  assert (G : forall acc, In x (fold_left (fun l x => insert_img x l) l acc) <-> In x l \/ In x acc).
  { induction l as [|a t IH]; intros acc; cbn [fold_left In]; [intuition|]. rewrite IH, insert_img_in. intuition. }
  rewrite G. cbn. intuition.
Qed.

Definition reg_img (big : bool) (r : reg) : Z * list N :=
  (s_offset (r_base r), enc big (Z.to_nat (s_width (r_base r) / 8)) (reg_stored r true)).

Lemma view_raw reverse W v : view reverse true W v = v.
Proof. reflexivity. Qed.

Lemma reg_img_len big r : wf_reg r -> zlen (snd (reg_img big r)) = s_width (r_base r) / 8.
Proof.
  intros ((B1 & B2 & _) & _). unfold reg_img, zlen. cbn [snd]. rewrite enc_length. destruct (width_bytes _ B1 B2). lia.
Qed.

Lemma reg_image_ok g i r : wf_regs g -> nth_error (g_regs g) i = Some r -> reg_image g i r = Ok (reg_img (g_big g) r).
Proof.
  intros Hg E. pose proof (wf_regs_nth g i r Hg E) as Hr. pose proof Hr as ((B1 & B2 & B3 & _) & _).
  pose proof (reg_stored_range r true Hr) as HR. destruct (width_bytes _ B1 B2) as (P1 & P2 & P3).
  unfold reg_image, t_bytes. cbn [t_sreg t_get]. rewrite E. cbn [option_map].
  rewrite reg_get_ok by assumption. rewrite view_raw. cbn [bind]. rewrite B3. cbn [alt_width bind].
  rewrite vtb_spec by (unfold in_range in HR; rewrite ?P2; lia). cbn [bind].
  rewrite enc_length, Nat.eqb_refl. reflexivity.
Qed.

Lemma images_from_ok g : wf_regs g -> forall l i, (forall k r, nth_error l k = Some r -> nth_error (g_regs g) (i + k) = Some r) ->
  images_from g i l = Ok (map (reg_img (g_big g)) l).
Proof.
  intros Hg. induction l as [|r t IH]; intros i H; cbn [images_from map]; [reflexivity|].
  rewrite reg_image_ok by (try assumption; specialize (H 0%nat r eq_refl); now rewrite Nat.add_0_r in H). cbn [bind].
  rewrite IH; [reflexivity|]. intros k r' Hk. specialize (H (S k) r' Hk). now rewrite Nat.add_succ_r in H.
Qed.

Lemma images_ok g : wf_regs g -> images_from g 0 (g_regs g) = Ok (map (reg_img (g_big g)) (g_regs g)).
Proof. intros Hg. apply images_from_ok; [exact Hg|intros k r H; exact H]. Qed.

Definition children_fit (g : regs) (ims : list (Z * list N)) (n : Z) : Prop :=
  (forall x, In x ims <-> In x (map (reg_img (g_big g)) (g_regs g))) /\ Forall (fits n) ims.

Lemma children_fit_sorted g n : Forall (fits n) (map (reg_img (g_big g)) (g_regs g)) ->
  children_fit g (fold_left (fun l x => insert_img x l) (map (reg_img (g_big g)) (g_regs g)) []) n.
Proof.
  intros H. split; [intros x; apply sorted_imgs_in|]. rewrite Forall_forall in *. intros x Hx. now apply H, sorted_imgs_in.
Qed.

Lemma fold_splice_wf ims : forall buf, wf_bytes buf -> Forall (fun im => wf_bytes (snd im)) ims ->
  wf_bytes (fold_left (fun b w => splice b (Z.to_nat (fst w)) (snd w)) ims buf).
Proof.
  induction ims as [|im t IH]; intros buf Hb Hi; cbn [fold_left]; [exact Hb|]. inversion Hi; subst.
  apply IH; [|assumption]. unfold splice. apply wf_bytes_app; [now apply wf_bytes_firstn|].
  apply wf_bytes_app; [assumption|now apply wf_bytes_skipn].
Qed.

Lemma children_wf g ims n buf : children_fit g ims n -> wf_bytes buf ->
  wf_bytes (fold_left (fun b w => splice b (Z.to_nat (fst w)) (snd w)) ims buf).
Proof.
  intros (Hin & _) Hb. apply fold_splice_wf; [exact Hb|]. apply Forall_forall. intros x Hx.
  apply Hin, in_map_iff in Hx. destruct Hx as (r & <- & _). apply enc_wf.
Qed.

Lemma reg_bytes_at g ims buf i r : wf_regs g -> children_fit g ims (zlen buf) -> nth_error (g_regs g) i = Some r ->
  (forall j r', nth_error (g_regs g) j = Some r' -> j <> i ->
     s_offset (r_base r) + s_width (r_base r) / 8 <= s_offset (r_base r') \/
     s_offset (r_base r') + s_width (r_base r') / 8 <= s_offset (r_base r)) ->
  slice (fold_left (fun b w => splice b (Z.to_nat (fst w)) (snd w)) ims buf)
        (Z.to_nat (s_offset (r_base r))) (Z.to_nat (s_offset (r_base r) + s_width (r_base r) / 8))
  = enc (g_big g) (Z.to_nat (s_width (r_base r) / 8)) (reg_stored r true).
Proof.
  intros Hg (Hin & Hf) E Hiso. pose proof (wf_regs_nth g i r Hg E) as Hr.
  rewrite <- (reg_img_len (g_big g) r Hr) at 1.
  apply (fold_splice_slice ims buf (reg_img (g_big g) r) Hf).
  - apply Hin, in_map. eapply nth_error_In; eassumption.
  - intros x k Hx Hcx Hc. apply Hin, in_map_iff in Hx. destruct Hx as (r' & <- & Hr').
    destruct (In_nth_error _ _ Hr') as (j & Ej). destruct (Nat.eq_dec j i) as [->|Hne]; [congruence|exfalso].
    unfold covers in *. rewrite reg_img_len in Hcx, Hc by (assumption || exact (wf_regs_nth g j r' Hg Ej)).
    cbn [fst reg_img] in *. destruct (Hiso j r' Ej Hne); lia.
Qed.

Fixpoint offsets_ok (lo : Z) (l : list reg) : Prop :=
  match l with
  | [] => True
  | r :: t => lo <= s_offset (r_base r) /\ offsets_ok (s_offset (r_base r) + s_width (r_base r) / 8) t
  end.
Definition layout_ok (g : regs) : Prop := offsets_ok 0 (g_regs g).

Lemma offsets_ok_nth l : forall lo i r, Forall wf_reg l -> offsets_ok lo l -> nth_error l i = Some r ->
  lo <= s_offset (r_base r) /\
  forall j r', nth_error l j = Some r' -> (i < j)%nat -> s_offset (r_base r) + s_width (r_base r) / 8 <= s_offset (r_base r').
Proof.
  induction l as [|x t IH]; intros lo i r Hw H E; [destruct i; discriminate|]. destruct H as (H1 & H2).
  inversion Hw as [|? ? ((B1 & B2 & _) & _) Ht]; subst. destruct (width_bytes _ B1 B2) as (Q & _).
  destruct i as [|i]; cbn [nth_error] in E.
  - injection E as <-. split; [exact H1|]. intros [|j] r' Ej Hj; [lia|]. exact (proj1 (IH _ j r' Ht H2 Ej)).
  - destruct (IH _ i r Ht H2 E) as (I1 & I2). split; [lia|]. intros [|j] r' Ej Hj; [lia|]. apply (I2 j r' Ej). lia.
Qed.

Lemma export_ok g : wf_regs g -> layout_ok g ->
  exists bin, export g = Ok bin /\ wf_bytes bin /\
    forall i r, nth_error (g_regs g) i = Some r ->
      0 <= s_offset (r_base r) /\ s_offset (r_base r) + s_width (r_base r) / 8 <= zlen bin /\
      slice bin (Z.to_nat (s_offset (r_base r))) (Z.to_nat (s_offset (r_base r) + s_width (r_base r) / 8))
      = enc (g_big g) (Z.to_nat (s_width (r_base r) / 8)) (reg_stored r true).
Proof.
  intros Hg Hl. unfold export. rewrite images_ok by assumption. cbn [bind].
  set (ims := map (reg_img (g_big g)) (g_regs g)). set (buf := zeros (Z.to_nat (image_size ims))).
  assert (Lb : zlen buf = image_size ims).
  { unfold zlen, buf. rewrite zeros_length. pose proof (proj1 (writes_end_bound ims 0)). unfold image_size. lia. }
  assert (Hin : forall i r, nth_error (g_regs g) i = Some r ->
            0 <= s_offset (r_base r) /\ s_offset (r_base r) + s_width (r_base r) / 8 <= zlen buf).
  { intros i r E. split; [exact (proj1 (offsets_ok_nth _ 0 i r Hg Hl E))|].
    rewrite Lb, <- (reg_img_len (g_big g) r) by exact (wf_regs_nth g i r Hg E).
    apply (proj2 (writes_end_bound ims 0) (reg_img (g_big g) r)), in_map. eapply nth_error_In; eassumption. }
  assert (Hc : children_fit g (fold_left (fun l x => insert_img x l) ims []) (zlen buf)).
  { apply children_fit_sorted. apply Forall_forall. intros x Hx. apply in_map_iff in Hx. destruct Hx as (r & <- & Hr).
    destruct (In_nth_error _ _ Hr) as (i & E). split; [apply (Hin i r E)|].
    rewrite reg_img_len by exact (wf_regs_nth g i r Hg E). apply (Hin i r E). }
  eexists. split; [reflexivity|]. split; [exact (children_wf g _ _ buf Hc (wf_zeros _))|].
  intros i r E. destruct (Hin i r E) as (I1 & I2). split; [exact I1|].
  split; [now rewrite (proj1 (fold_splice_written _ buf (proj2 Hc)))|].
  apply (reg_bytes_at g _ buf i r Hg Hc E). intros j r' Ej Hne.
  destruct (Nat.lt_ge_cases i j); [left; exact (proj2 (offsets_ok_nth _ 0 i r Hg Hl E) j r' Ej H)|].
  right. apply (proj2 (offsets_ok_nth _ 0 j r' Hg Hl Ej) i r E). lia.
Qed.

Lemma set_value_erase s1 s v : erase_s s1 = erase_s s -> set_value s1 v = set_value s v.
Proof. destruct s1, s. unfold erase_s, set_value. cbn. intros H. injection H. intros; subst. reflexivity. Qed.

Lemma set_value_self s : set_value s (s_value s) = s.
Proof. now destruct s. Qed.

Lemma subs_restore subs : forall subs1 idx W sw rev V, map erase_s subs1 = map erase_s subs ->
  (forall k s, nth_error subs k = Some s -> getbits V (sub_pos W (idx + Z.of_nat k) sw rev) sw = s_value s) ->
  subs_written subs1 idx W sw rev V true = subs.
Proof.
  induction subs as [|s t IH]; intros [|s1 t1] idx W sw rev V E H; cbn [map] in E; try discriminate; [reflexivity|].
  apply cons_eq_inv in E. destruct E as (E1 & E2). cbn [subs_written]. f_equal.
  - rewrite view_raw. rewrite (set_value_erase s1 s) by assumption.
    pose proof (H 0%nat s eq_refl) as H0. replace (idx + Z.of_nat 0) with idx in H0 by lia.
    rewrite H0. apply set_value_self.
  - apply IH; [assumption|]. intros k s' Hk. specialize (H (S k) s' Hk).
    replace (idx + 1 + Z.of_nat k) with (idx + Z.of_nat (S k)) by lia. exact H.
Qed.

Lemma reg_eq r r' : r_base r' = r_base r -> r_rev_sub r' = r_rev_sub r -> r_subs r' = r_subs r -> r' = r.
Proof. destruct r, r'. cbn. intros; subst. reflexivity. Qed.

Lemma sreg_eq s s' : erase_s s' = erase_s s -> s_value s' = s_value s -> s' = s.
Proof. intros E V. rewrite <- (set_value_self s'), <- (set_value_self s), V. now apply set_value_erase. Qed.

Lemma reg_written_restore r1 r : wf_reg r -> wf_reg r1 -> erase_r r1 = erase_r r -> reg_written r1 (reg_stored r true) true = r.
Proof.
  intros Hr Hr1 E. destruct (erase_r_inv r1 r E) as (Eb & Erv & Es).
  unfold reg_written, reg_stored. rewrite view_raw.
  destruct (r_subs r) as [|s0 t] eqn:Esr.
  - destruct (r_subs r1) as [|s01 t1] eqn:Esr1; [|discriminate].
    apply reg_eq; cbn [r_base r_rev_sub r_subs set_base]; [|assumption|congruence].
    rewrite (set_value_erase _ _ _ Eb). apply set_value_self.
  - destruct (r_subs r1) as [|s01 t1] eqn:Esr1; [discriminate|].
    assert (Ew0 : s_width s01 = s_width s0).
    { cbn [map] in Es. apply cons_eq_inv in Es. exact (erase_s_proj s_width (fun _ => eq_refl) (proj1 Es)). }
    destruct (group_shape r s0 t Hr Esr) as (G1 & G2 & G3 & G4). pose proof Hr as (_ & Hsubs & _ & Hz).
    pose proof Hr1 as (_ & _ & _ & Hz1). rewrite Esr in *. rewrite Esr1 in Hz1.
    apply reg_eq; cbn [r_base r_rev_sub r_subs set_subs_of]; [|assumption|].
    + apply sreg_eq; [assumption|]. rewrite Hz, Hz1 by discriminate. reflexivity.
    + rewrite Esr, (erase_s_proj s_width (fun _ => eq_refl) Eb), Ew0, Erv. apply subs_restore; [exact Es|].
      intros k s Hk.
      assert (Hsl := slice_of_concat (sviews true (s0 :: t)) (s_width (r_base r)) (s_width s0) (r_rev_sub r) k (s_value s) G1).
      rewrite Hsl; [reflexivity|now apply sviews_range| |].
      * intros _. unfold sviews. rewrite map_length. lia.
      * unfold sviews. rewrite nth_error_map, Hk. reflexivity.
Qed.

Definition parsed_reg (big : bool) (bin : list N) (r1 : reg) : reg :=
  let b := r_base r1 in
  if s_hidden b then r1
  else reg_written r1 (dec_bytes big (slice bin (Z.to_nat (s_offset b)) (Z.to_nat (s_offset b + s_width b / 8)))) true.

Lemma chunk_value big bin r : wf_reg r -> wf_bytes bin ->
  0 <= s_offset (r_base r) -> s_offset (r_base r) + s_width (r_base r) / 8 <= zlen bin ->
  let chunk := slice bin (Z.to_nat (s_offset (r_base r))) (Z.to_nat (s_offset (r_base r) + s_width (r_base r) / 8)) in
  length chunk = Z.to_nat (s_width (r_base r) / 8) /\ wf_bytes chunk /\ in_range (s_width (r_base r)) (dec_bytes big chunk).
Proof.
  intros ((B1 & B2 & _) & _) Hb Ho He chunk. destruct (width_bytes _ B1 B2) as (Q1 & _ & Q3).
  assert (L : length chunk = Z.to_nat (s_width (r_base r) / 8)) by (unfold chunk, zlen in *; rewrite slice_length; lia).
  assert (Hw : wf_bytes chunk) by (apply wf_bytes_firstn, wf_bytes_skipn, Hb).
  repeat split; try assumption; pose proof (dec_bytes_range big chunk Hw) as D; rewrite L, Q3 in D; apply D.
Qed.

Lemma parse_from_spec bin n : forall i g1, wf_regs g1 -> wf_bytes bin -> (i + n = length (g_regs g1))%nat ->
  (forall k r1, (i <= k)%nat -> nth_error (g_regs g1) k = Some r1 -> s_hidden (r_base r1) = false ->
     0 <= s_offset (r_base r1) /\ s_offset (r_base r1) + s_width (r_base r1) / 8 <= zlen bin) ->
  exists g', parse_from g1 bin i n = Ok g' /\
    (forall k, (k < i)%nat -> nth_error (g_regs g') k = nth_error (g_regs g1) k) /\
    (forall k r1, (i <= k)%nat -> nth_error (g_regs g1) k = Some r1 -> nth_error (g_regs g') k = Some (parsed_reg (g_big g1) bin r1)).
Proof.
  induction n as [|n IH]; intros i g1 Hg Hb Hlen H; cbn [parse_from].
  - exists g1. split; [reflexivity|]. split; [reflexivity|].
    intros k r1 Hk E. assert ((k < length (g_regs g1))%nat) by (apply nth_error_Some; congruence). lia.
  - destruct (nth_error (g_regs g1) i) as [r|] eqn:E; [|apply nth_error_None in E; lia].
    assert (Hi : (i < length (g_regs g1))%nat) by (apply nth_error_Some; congruence).
    pose proof (wf_regs_nth g1 i r Hg E) as Hr.
    (* the file after register i was handled, in both cases: register i is parsed_reg, the others are untouched *)
    assert (Hstep : forall g2, wf_regs g2 -> g_big g2 = g_big g1 -> g_regs g2 = list_set (g_regs g1) i (parsed_reg (g_big g1) bin r) ->
              forall R, parse_from g2 bin (S i) n = R ->
              exists g', R = Ok g' /\ (forall k, (k < i)%nat -> nth_error (g_regs g') k = nth_error (g_regs g1) k) /\
                (forall k r1, (i <= k)%nat -> nth_error (g_regs g1) k = Some r1 ->
                   nth_error (g_regs g') k = Some (parsed_reg (g_big g1) bin r1))).
    { intros g2 Hg2 Ebig Eregs R <-. destruct (IH (S i) g2 Hg2 Hb) as (g' & P1 & P3 & P4).
      { rewrite Eregs, list_set_length. lia. }
      { intros k r1 Hk Ek. rewrite Eregs, nth_error_list_set_other in Ek by lia. apply (H k r1); (assumption || lia). }
      exists g'. split; [exact P1|]. split.
      - intros k Hk. rewrite P3, Eregs by lia. apply nth_error_list_set_other. lia.
      - intros k r1 Hk Ek. destruct (Nat.eq_dec k i) as [->|Hne].
        + rewrite P3, Eregs, nth_error_list_set_same by (assumption || lia). congruence.
        + rewrite (P4 k r1), Ebig; [reflexivity|lia|]. rewrite Eregs, nth_error_list_set_other by lia. assumption. }
    unfold parsed_reg in Hstep. destruct (s_hidden (r_base r)) eqn:Eh.
    + apply (Hstep g1 Hg eq_refl); [|reflexivity]. symmetry. now apply list_set_same.
    + destruct (H i r (le_n i) E Eh) as (Ho & Hfit).
      destruct (chunk_value (g_big g1) bin r Hr Hb Ho Hfit) as (_ & _ & HV).
      replace (zlen bin <? s_offset (r_base r) + s_width (r_base r) / 8) with false by lia.
      cbn [t_set]. rewrite E, reg_set_ok by assumption. cbn [bind].
      set (g2 := set_regs g1 _). apply (Hstep g2); [|reflexivity|reflexivity|reflexivity].
      apply Forall_list_set; [assumption|now apply reg_written_wf].
Qed.

Lemma parse_total g1 bin : wf_regs g1 -> wf_bytes bin ->
  (forall k r1, nth_error (g_regs g1) k = Some r1 -> s_hidden (r_base r1) = false ->
     0 <= s_offset (r_base r1) /\ s_offset (r_base r1) + s_width (r_base r1) / 8 <= zlen bin) ->
  exists g', parse g1 bin = Ok g' /\ keeps g1 g' /\
    forall k r1, nth_error (g_regs g1) k = Some r1 -> nth_error (g_regs g') k = Some (parsed_reg (g_big g1) bin r1).
Proof.
  intros Hg Hb H. destruct (parse_from_spec bin (length (g_regs g1)) 0 g1 Hg Hb eq_refl) as (g' & P1 & _ & P4).
  { intros k r1 _. apply H. }
  exists g'. split; [exact P1|]. split; [eapply parse_from_wf; eassumption|]. intros k r1. apply P4, Nat.le_0_l.
Qed.

Lemma reg_img_parsed big bin r1 : wf_reg r1 -> s_hidden (r_base r1) = false -> wf_bytes bin ->
  0 <= s_offset (r_base r1) -> s_offset (r_base r1) + s_width (r_base r1) / 8 <= zlen bin ->
  reg_img big (parsed_reg big bin r1) =
  (s_offset (r_base r1), slice bin (Z.to_nat (s_offset (r_base r1))) (Z.to_nat (s_offset (r_base r1) + s_width (r_base r1) / 8))).
Proof.
  intros Hr Eh Hb Ho He. destruct (chunk_value big bin r1 Hr Hb Ho He) as (L & Hw & HV). unfold parsed_reg. rewrite Eh.
  set (chunk := slice _ _ _) in *. unfold reg_img.
  rewrite (erase_r_proj s_offset (fun _ => eq_refl) (erase_reg_written r1 _ true)),
          (erase_r_proj s_width (fun _ => eq_refl) (erase_reg_written r1 _ true)), reg_stored_written, view_raw by assumption.
  now rewrite <- L, enc_dec_bytes.
Qed.

(* parse (export g) restores every non-hidden register of g, whatever the receiving object held *)
Lemma export_parse_lemma g g1 : wf_regs g -> wf_regs g1 -> same_layout g g1 -> layout_ok g ->
  exists bin g', export g = Ok bin /\ parse g1 bin = Ok g' /\
    forall i r, nth_error (g_regs g) i = Some r ->
      (s_hidden (r_base r) = false -> nth_error (g_regs g') i = Some r) /\
      (s_hidden (r_base r) = true -> nth_error (g_regs g') i = nth_error (g_regs g1) i).
Proof.
  intros Hg Hg1 Hsl Hl. destruct (export_ok g Hg Hl) as (bin & Ex & Hwb & Hbin).
  assert (Hbig : g_big g1 = g_big g) by (destruct (regs_eq_inv g g1 Hsl); congruence).
  destruct (parse_total g1 bin Hg1 Hwb) as (g' & P1 & _ & P4).
  { intros k r1 Ek _. destruct (same_layout_nth g1 g k r1 (eq_sym Hsl) Ek) as (r & Er & Ee).
    rewrite <- (erase_r_proj s_offset (fun _ => eq_refl) Ee), <- (erase_r_proj s_width (fun _ => eq_refl) Ee).
    destruct (Hbin k r Er) as (I1 & I2 & _). now split. }
  exists bin, g'. split; [assumption|]. split; [exact P1|].
  intros i r Er. destruct (same_layout_nth g g1 i r Hsl Er) as (r1 & Er1 & Ee).
  rewrite (P4 i r1 Er1). unfold parsed_reg. rewrite (erase_r_proj s_hidden (fun _ => eq_refl) Ee).
  split; intros Eh; rewrite Eh; [|now rewrite Er1].
  pose proof (wf_regs_nth g i r Hg Er) as Hr. pose proof Hr as ((B1 & B2 & _) & _). destruct (width_bytes _ B1 B2) as (_ & _ & Q3).
  rewrite (erase_r_proj s_offset (fun _ => eq_refl) Ee), (erase_r_proj s_width (fun _ => eq_refl) Ee).
  destruct (Hbin i r Er) as (_ & _ & ->). rewrite Hbig, dec_enc by (rewrite Q3; now apply reg_stored_range).
  f_equal. apply reg_written_restore; try assumption. eapply wf_regs_nth; eassumption.
Qed.

Lemma layout_ok_same g g' : same_layout g g' -> layout_ok g -> layout_ok g'.
Proof.
  intros H. destruct (regs_eq_inv g g' H) as (_ & Hm). unfold layout_ok. generalize 0.
  revert Hm. generalize (g_regs g') as l'. induction (g_regs g) as [|r t IH]; intros [|r' t'] Hm lo Hl; cbn [map] in Hm; try discriminate; [exact I|].
  apply cons_eq_inv in Hm. destruct Hm as (E1 & E2).
  cbn in *. rewrite <- (erase_r_proj s_offset (fun _ => eq_refl) E1), <- (erase_r_proj s_width (fun _ => eq_refl) E1).
  split; [apply Hl|]. now apply IH.
Qed.

Example ex_regs_layout_ok : layout_ok ex_regs.
Proof. unfold layout_ok. cbn. repeat split; try apply Z.leb_le; vm_compute; reflexivity. Qed.

Example ex_export_parse :
  exists g b g', step ex_regs ex_regs (OSetReg (Top 0) (VStr [48; 120; 97; 98; 99]%N) false) = (g, VList []) /\
                 export g = Ok b /\ length b = 52%nat /\ parse ex_regs b = Ok g' /\ g' = g.
Proof. eexists. eexists. eexists. split; [vm_compute; reflexivity|]. split; [vm_compute; reflexivity|]. split; [reflexivity|].
  split; vm_compute; reflexivity. Qed.

Lemma pre_post hp c b : 0 <= c -> cp_pre hp c (cp_post hp c b) = b.
Proof.
  intros Hc. unfold cp_pre, cp_post. destruct hp; [|reflexivity].
  rewrite Z.shiftr_shiftl_l by lia. replace (c - c) with 0 by lia. apply Z.shiftl_0_r.
Qed.

(* the configuration of one register as numbers: bit-field k -> bitfield.get_value() *)
Fixpoint numeric_cfg (k : nat) (fs : list field) (V : Z) : list (nat * value) :=
  match fs with
  | [] => []
  | f :: rest => (k, VInt (post_of f (fbits f V))) :: numeric_cfg (S k) rest V
  end.

Definition apply_fields (S : Z) (fs : list field) (V : Z) : Z :=
  fold_left (fun S f => setbits S (f_off f) (f_width f) (fbits f V)) fs S.

Definition covered (fs : list field) (n : Z) : bool :=
  existsb (fun f => (f_off f <=? n) && (n <? f_off f + f_width f)) fs.

Definition tiles (fs : list field) (W : Z) : Prop := forall n, 0 <= n < W -> covered fs n = true.

Lemma testbit_apply_fields W V fs : Forall (wf_field W) fs -> forall S n, 0 <= n ->
  Z.testbit (apply_fields S fs V) n = if covered fs n then Z.testbit V n else Z.testbit S n.
Proof.
  intros Hw. induction Hw as [|f t (F1 & F2 & F3 & F4) Ht IH]; intros S n Hn; cbn [apply_fields fold_left covered existsb]; [reflexivity|].
  change (fold_left _ t ?x) with (apply_fields x t V). rewrite IH by assumption.
  fold (covered t n). destruct (covered t n); [now rewrite orb_true_r|]. rewrite orb_false_r.
  rewrite testbit_setbits by lia.
  destruct ((f_off f <=? n) && (n <? f_off f + f_width f)) eqn:E; [|reflexivity].
  unfold fbits. rewrite testbit_getbits by lia. replace (n - f_off f + f_off f) with n by lia.
  replace (n - f_off f <? f_width f) with true by lia. now rewrite andb_true_r.
Qed.

Lemma apply_fields_tiled W S V fs : 0 <= W -> Forall (wf_field W) fs -> tiles fs W -> in_range W S -> in_range W V ->
  apply_fields S fs V = V.
Proof.
  intros HW Hw Ht HS HV. apply Z.bits_inj'. intros n Hn. rewrite (testbit_apply_fields W) by assumption.
  destruct (Z.ltb_spec n W).
  - now rewrite Ht by lia.
  - rewrite (small_bits S W n), (small_bits V W n) by (assumption || lia). now destruct (covered fs n).
Qed.

Lemma load_fields_numeric V t : forall fs k0 g1 s St, wf_regs g1 -> t_sreg g1 t = Some s ->
  (forall j f, nth_error fs j = Some f -> t_field g1 t (k0 + j) = Some f) ->
  t_get g1 t true = Ok St ->
  exists g2 s2, load_fields g1 t (numeric_cfg k0 fs V) = (g2, Ok tt) /\ wf_regs g2 /\ same_layout g1 g2 /\
                t_sreg g2 t = Some s2 /\ t_get g2 t true = Ok (apply_fields St fs V) /\
                (forall u r', top_of u <> top_of t -> t_get g2 u r' = t_get g1 u r').
Proof.
  induction fs as [|f rest IH]; intros k0 g1 s St Hg Hs Hf HS; cbn [numeric_cfg load_fields apply_fields fold_left].
  - exists g1, s. repeat split; solve [assumption | reflexivity].
  - assert (Hf0 : t_field g1 t k0 = Some f) by (specialize (Hf 0%nat f eq_refl); now rewrite Nat.add_0_r in Hf).
    destruct (t_field_wf g1 t k0 f s Hg Hs Hf0) as (F1 & F2 & F3 & F4).
    assert (Hp : in_range (f_width f) (pre_of f (post_of f (fbits f V)) false)).
    { unfold pre_of, post_of. rewrite pre_post by assumption. apply getbits_range. lia. }
    destruct (f_set_int_ok g1 t k0 f s _ true false Hg Hs Hf0 Hp) as (g' & rv & G1 & G2 & S1 & S2 & S3 & S4 & S5 & _).
    rewrite HS in G1. injection G1 as <-.
    rewrite Hf0. unfold f_set_enum. rewrite Hf0. cbn [to_int bind]. rewrite S1.
    unfold pre_of, post_of in S4. rewrite pre_post in S4 by assumption.
    destruct (same_layout_sreg g1 g' t s S3 Hs) as (s' & Hs' & _).
    assert (Hf' : forall j f', nth_error rest j = Some f' -> t_field g' t (S k0 + j) = Some f').
    { intros j f' Hj. rewrite (same_layout_field g1 g' t _ S3). specialize (Hf (S j) f' Hj). now rewrite Nat.add_succ_r in Hf. }
    destruct (IH (S k0) g' s' _ S2 Hs' Hf' S4) as (g2 & s2 & L1 & L2 & L3 & L4 & L5 & L6).
    exists g2, s2. split; [exact L1|]. split; [assumption|]. split; [eapply same_layout_trans; eassumption|]. split; [assumption|].
    split; [assumption|]. intros u r' Hu. rewrite L6 by assumption. now apply S5.
Qed.

Lemma config_numeric_lemma g1 t s V : wf_regs g1 -> t_sreg g1 t = Some s -> in_range (s_width s) V ->
  tiles (s_fields s) (s_width s) ->
  exists g2, load_entry g1 t (CFields (numeric_cfg 0 (s_fields s) V)) = (g2, Ok tt) /\ wf_regs g2 /\ same_layout g1 g2 /\
             t_get g2 t false = Ok V /\
             (forall k f, t_field g1 t k = Some f -> f_get g2 t k = Ok (post_of f (fbits f V))) /\
             (forall u r', top_of u <> top_of t -> t_get g2 u r' = t_get g1 u r').
Proof.
  intros Hg Hs HV Ht. destruct (t_get_total g1 t s true Hg Hs) as (St & HS & HSr).
  destruct (load_fields_numeric V t (s_fields s) 0 g1 s St Hg Hs) as (g2 & s2 & L1 & L2 & L3 & L4 & L5 & L6); [|assumption|].
  { intros j f Hj. unfold t_field. now rewrite Hs. }
  pose proof (t_sreg_wf g1 t s Hg Hs) as (B1 & _ & _ & BF & _).
  rewrite (apply_fields_tiled (s_width s)) in L5 by (assumption || lia).
  destruct (same_layout_sreg g1 g2 t s L3 Hs) as (s2' & Hs2 & Es).
  assert (HV2 : in_range (s_width s2') V) by now rewrite (erase_s_proj s_width (fun _ => eq_refl) Es).
  destruct (t_set_ok g2 t s2' V false L2 Hs2 HV2) as (g3 & T1 & T2 & T3 & T4 & T5 & _).
  exists g3. split.
  { unfold load_entry. rewrite Hs, L1, L5. cbn [bind]. rewrite T1. reflexivity. }
  split; [assumption|]. split; [eapply same_layout_trans; eassumption|]. split; [assumption|]. split.
  - intros k f Hf. destruct (t_field_wf g1 t k f s Hg Hs Hf) as (F1 & F2 & _).
    apply f_get_of; try assumption.
    rewrite (same_layout_field g2 g3 t k T3), (same_layout_field g1 g2 t k L3). assumption.
  - intros u r' Hu. rewrite T5 by assumption. now apply L6.
Qed.

Lemma config_roundtrip_lemma g g1 t s V : wf_regs g -> wf_regs g1 -> same_layout g g1 ->
  t_sreg g t = Some s -> tiles (s_fields s) (s_width s) -> t_get g t false = Ok V ->
  (forall k f, t_field g t k = Some f -> f_get g t k = Ok (post_of f (fbits f V))) /\
  exists g2, load_entry g1 t (CFields (numeric_cfg 0 (s_fields s) V)) = (g2, Ok tt) /\ wf_regs g2 /\ same_layout g g2 /\
             t_get g2 t false = Ok V /\
             (forall k f, t_field g t k = Some f -> f_get g2 t k = f_get g t k).
Proof.
  intros Hg Hg1 Hsl Hs Ht HV.
  assert (Hget : forall k f, t_field g t k = Some f -> f_get g t k = Ok (post_of f (fbits f V))).
  { intros k f Hf. destruct (t_field_wf g t k f s Hg Hs Hf) as (_ & F2 & _). now apply f_get_of. }
  split; [exact Hget|].
  destruct (t_get_total g t s false Hg Hs) as (V' & HV' & HVr). rewrite HV in HV'. injection HV' as <-.
  destruct (same_layout_sreg g g1 t s Hsl Hs) as (s1 & Hs1 & Es).
  pose proof (erase_s_proj s_fields (fun _ => eq_refl) Es) as Ef. pose proof (erase_s_proj s_width (fun _ => eq_refl) Es) as Ew.
  assert (HV1 : in_range (s_width s1) V) by now rewrite Ew.
  assert (Ht1 : tiles (s_fields s1) (s_width s1)) by now rewrite Ef, Ew.
  destruct (config_numeric_lemma g1 t s1 V Hg1 Hs1 HV1 Ht1) as (g2 & C1 & C2 & C3 & C4 & C5 & _).
  exists g2. rewrite <- Ef. split; [assumption|]. split; [assumption|]. split; [eapply same_layout_trans; eassumption|].
  split; [assumption|]. intros k f Hf. rewrite (Hget k f Hf). apply C5. now rewrite (same_layout_field g g1 t k Hsl).
Qed.

Example ex_plain_tiles : tiles (s_fields (r_base ex_plain)) 32.
Proof.
  intros n Hn. unfold covered. cbn.
  destruct (Z.ltb_spec n 4); [replace (0 <=? n) with true by lia; reflexivity|].
  destruct (Z.ltb_spec n 16); [replace (4 <=? n) with true by lia; cbn; now rewrite ?orb_true_r|].
  replace (16 <=? n) with true by lia. replace (n <? 32) with true by lia. cbn. now rewrite ?orb_true_r.
Qed.

(* group registers with alternative widths, after the repair of finding C11-F2: sub-registers above the selected
   width are cleared *)
Lemma insert_z_in x a l : In x (insert_z a l) <-> x = a \/ In x l.
Proof.
  induction l as [|h t IH]; cbn; [intuition|]. destruct (a <=? h); cbn; [intuition|]. rewrite IH. intuition.
Qed.

Lemma sort_z_in x l : In x (sort_z l) <-> In x l.
Proof. induction l as [|h t IH]; cbn; [tauto|]. rewrite insert_z_in, IH. intuition. Qed.

Lemma pick_alt_cases c l d : pick_alt c l d = d \/ (In (pick_alt c l d) l /\ c <= pick_alt c l d / 8).
Proof.
  induction l as [|a t IH]; cbn [pick_alt]; [now left|]. destruct (Z.leb_spec c (a / 8)).
  - right. split; [now left|assumption].
  - destruct IH as [IH|(I1 & I2)]; [now left|right]. split; [now right|assumption].
Qed.

Lemma alt_width_ok W alts v : in_range W v -> Forall (fun a => 0 < a) alts ->
  exists aw, alt_width W alts v = Ok aw /\ (aw = W \/ In aw alts) /\ v < 2 ^ aw.
Proof.
  intros (Hv & Hb) Ha. destruct alts as [|a0 t]; [exists W; cbn; repeat split; (now left) || assumption|].
  unfold alt_width. rewrite bytes_cnt_total by assumption. cbn [bind].
  destruct (width_spec_fits v false Hv) as (Hf & Hp).
  eexists. split; [reflexivity|].
  destruct (pick_alt_cases (width_spec v false) (sort_z (a0 :: t)) W) as [->|(I1 & I2)]; [split; [now left|assumption]|].
  apply (proj1 (sort_z_in _ _)) in I1. split; [right; exact I1|].
  eapply Forall_forall in Ha; [|exact I1].
  eapply Z.lt_le_trans; [exact Hf|]. apply Z.pow_le_mono_r; dlia.
Qed.

Definition wf_alt_group (r : reg) : Prop :=
  let b := r_base r in
  0 < s_width b /\ s_width b mod 8 = 0 /\ s_reverse b = false /\ r_rev_sub r = false /\
  Forall wf_sreg (r_subs r) /\
  exists s0 t, r_subs r = s0 :: t /\ Forall (fun s => s_width s = s_width s0) (r_subs r) /\
    Z.of_nat (length (r_subs r)) * s_width s0 = s_width b /\
    Forall (fun a => 0 < a <= s_width b /\ a mod s_width s0 = 0) (s_alt b).

Lemma alt_group_get_set_lemma big r v raw : wf_alt_group r -> in_range (s_width (r_base r)) v ->
  exists r' aw, alt_width (s_width (r_base r)) (s_alt (r_base r)) v = Ok aw /\
    reg_set r v raw = Ok r' /\ reg_get big r' raw = Ok v /\ wf_alt_group r' /\
    length (r_subs r') = length (r_subs r) /\
    forall j s s0, nth_error (r_subs r') j = Some s -> nth_error (r_subs r) 0 = Some s0 ->
                   aw <= Z.of_nat j * s_width s0 -> sreg_get big s raw = Ok 0.
Proof.
  intros (B1 & B2 & Brev & Brs & Hsubs & s0 & t & Es & Hw & Hlen & Halts) HV. cbv zeta in *.
  set (W := s_width (r_base r)) in *. set (sw := s_width s0) in *.
  assert (Hsw : 0 < sw) by (rewrite Es in Hsubs; inversion Hsubs as [|? ? (P & _) _]; exact P).
  destruct (alt_width_ok W (s_alt (r_base r)) v HV) as (aw & Ea & Hin & Hlt).
  { eapply Forall_impl; [|exact Halts]. cbn. intros; lia. }
  assert (Haw : 0 < aw <= W /\ aw mod sw = 0).
  { destruct Hin as [->|Hin]; [split; [lia|]; rewrite <- Hlen; apply Z.mod_mul; lia|].
    eapply Forall_forall in Halts; [|exact Hin]. cbn in Halts. lia. }
  set (n := Z.to_nat (aw / sw)).
  assert (Hn : Z.of_nat n * sw = aw) by (unfold n; dlia).
  assert (Hfn : length (firstn n (r_subs r)) = n) by (rewrite firstn_length; nia).
  destruct (group_written_ok (r_subs r) n aw sw false v raw Hsubs Hw) as (L1 & L2 & L3 & L4). rewrite Hfn in L4.
  set (l := subs_written _ _ _ _ _ _ _ ++ _) in *.
  assert (Hc : set_common W (s_reverse (r_base r)) (s_alt (r_base r)) v raw = Ok (aw, v)).
  { unfold set_common. rewrite py_reg_check_spec, (out_of_range_false _ _ HV) by (unfold W; lia). cbn [bind].
    rewrite Ea. cbn [bind]. now rewrite Brev, andb_false_r. }
  exists (set_subs_of r l), aw. split; [exact Ea|].
  split; [rewrite (reg_set_group r v raw aw v s0 t Es Hsubs Hw Hc), Brs; reflexivity|].
  destruct l as [|s0' t'] eqn:El; [rewrite Es in L3; discriminate|]. rewrite <- El in *.
  assert (Ew0 : s_width s0' = sw) by (rewrite El in L2; now inversion L2).
  split.
  { unfold reg_get, reg_raw_value. cbn [r_subs r_base r_rev_sub set_subs_of]. rewrite El, <- El, subs_get_ok by assumption.
    cbn [bind]. fold W. rewrite Brs, Ew0, L4, concat_app_zeros, (concat_norev _ W aw), concat_slices by (assumption || (unfold in_range in *; lia)).
    unfold get_common. rewrite Ea. cbn [bind]. now rewrite Brev, andb_false_r. }
  split.
  { unfold wf_alt_group. cbn [r_subs r_base r_rev_sub set_subs_of]. repeat split; try assumption.
    exists s0', t'. rewrite Ew0, L3. repeat split; assumption. }
  split; [exact L3|].
  intros j s s00 Hj H0 Hge. rewrite Es in H0. injection H0 as <-. cbn [r_subs set_subs_of] in Hj.
  rewrite sreg_get_ok by (eapply Forall_forall in L1; [exact L1|eapply nth_error_In; eassumption]). f_equal.
  pose proof (map_nth_error (sview raw) _ _ Hj) as Hv. fold (sviews raw l) in Hv.
  rewrite L4, nth_error_app2, nth_error_map in Hv by (rewrite slices_length; nia).
  destruct (nth_error (skipn n (r_subs r)) _); [now injection Hv|discriminate].
Qed.

(* the layout of finding C11-F2 *)
Example ex_alt_group_wf : wf_alt_group (ex_group false false [256]).
Proof.
  unfold wf_alt_group. cbv zeta. cbn [ex_group r_base r_subs r_rev_sub s_width s_reverse s_alt].
  split; [lia|]. split; [reflexivity|]. split; [reflexivity|]. split; [reflexivity|]. split.
  - apply Forall_forall. intros s Hs. apply wf_sreg_b_sound.
    assert (H : forallb (wf_sreg_b false) ex_subs = true) by (vm_compute; reflexivity). rewrite forallb_forall in H. now apply H.
  - eexists. eexists. split; [reflexivity|]. split; [|split; [vm_compute; reflexivity|]].
    + apply Forall_forall. intros s Hs.
      assert (H : forallb (fun s => s_width s =? 32) ex_subs = true) by (vm_compute; reflexivity). rewrite forallb_forall in H.
      specialize (H s Hs). cbn. lia.
    + constructor; [|constructor]. cbn. split; [lia|reflexivity].
Qed.

Lemma alt_group_step_lemma init g i r v raw : nth_error (g_regs g) i = Some r -> wf_alt_group r -> in_range (s_width (r_base r)) v ->
  exists g' r', step init g (OSetReg (Top i) (VInt v) raw) = (g', VList []) /\ nth_error (g_regs g') i = Some r' /\
                wf_alt_group r' /\ t_get g' (Top i) raw = Ok v.
Proof.
  intros E Hr Hv. destruct (alt_group_get_set_lemma (g_big g) r v raw Hr Hv) as (r' & aw & _ & S1 & S2 & S3 & _).
  assert (Hi : (i < length (g_regs g))%nat) by (apply nth_error_Some; congruence).
  exists (set_regs g (list_set (g_regs g) i r')), r'. cbn [step to_int bind t_set]. rewrite E, S1. cbn [bind vunit].
  split; [reflexivity|]. cbn [g_regs set_regs t_get g_big]. rewrite nth_error_list_set_same by assumption.
  split; [reflexivity|]. split; assumption.
Qed.
