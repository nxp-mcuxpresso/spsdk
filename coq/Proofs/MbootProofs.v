(* Proofs/MbootProofs.v -- C10 lemmas about Model/MbootModel.v (host = faithful model of McuBoot over the serial / HID
   protocols, tables from Gen/GenMboot.v; device = reference bootloader). *)
From Coq Require Import ZArith NArith List Bool Lia.
Require Import Value Bytes BytesProofs GenMboot MbootModel.
Import ListNotations.
Local Open Scope N_scope.

Lemma firstnN_firstn {A} (l : list A) : forall n, firstnN n l = firstn (N.to_nat n) l.
Proof.
  induction l as [|x t IH]; intros n; simpl.
  - now rewrite firstn_nil.
  - destruct (n =? 0) eqn:E.
    + apply N.eqb_eq in E; subst; reflexivity.
    + apply N.eqb_neq in E. replace (N.to_nat n) with (S (N.to_nat (N.pred n))) by lia. simpl. now rewrite IH.
Qed.
Lemma skipnN_skipn {A} (l : list A) : forall n, skipnN n l = skipn (N.to_nat n) l.
Proof.
  induction l as [|x t IH]; intros n; simpl.
  - now rewrite skipn_nil.
  - destruct (n =? 0) eqn:E.
    + apply N.eqb_eq in E; subst; reflexivity.
    + apply N.eqb_neq in E. replace (N.to_nat n) with (S (N.to_nat (N.pred n))) by lia. simpl. now rewrite IH.
Qed.
Lemma firstnN_app_exact {A} (a b : list A) : firstnN (nlen a) (a ++ b) = a.
Proof. rewrite firstnN_firstn, nlen_to_nat. rewrite firstn_app, Nat.sub_diag, firstn_all. simpl. now rewrite app_nil_r. Qed.
Lemma skipnN_app_exact {A} (a b : list A) : skipnN (nlen a) (a ++ b) = b.
Proof. rewrite skipnN_skipn, nlen_to_nat. rewrite skipn_app, Nat.sub_diag, skipn_all. reflexivity. Qed.
Lemma nlen_nil {A} : nlen (@nil A) = 0.
Proof. reflexivity. Qed.
Lemma firstnN_ge {A} (l : list A) n : nlen l <= n -> firstnN n l = l.
Proof. intros H. rewrite firstnN_firstn. apply firstn_all2. unfold nlen in H. lia. Qed.
Lemma firstnN_all {A} (l : list A) : firstnN (nlen l) l = l.
Proof. apply firstnN_ge, N.le_refl. Qed.
Lemma nlen_firstnN_le {A} (l : list A) n : nlen (firstnN n l) <= n.
Proof. rewrite firstnN_firstn. unfold nlen. rewrite firstn_length. lia. Qed.
Lemma nlen_firstnN {A} (l : list A) n : n <= nlen l -> nlen (firstnN n l) = n.
Proof. intros H. rewrite firstnN_firstn. unfold nlen in *. rewrite firstn_length. lia. Qed.
Lemma firstnN_skipnN {A} (l : list A) n : firstnN n l ++ skipnN n l = l.
Proof. rewrite firstnN_firstn, skipnN_skipn. apply firstn_skipn. Qed.

(* every step of the CRC masks to 16 bits *)
Lemma crc_byte_bound c b : crc_byte c b < 65536.
Proof.
  unfold crc_byte. generalize (crc_bit (crc_bit (crc_bit (crc_bit (crc_bit (crc_bit (crc_bit (N.lxor c (N.shiftl b 8))))))))).
  intros x. unfold crc_bit. change 65535 with (N.ones 16). destruct (N.testbit x 15); rewrite N.land_ones; apply N.mod_lt; discriminate.
Qed.
Lemma crc16_bound l : crc16 l < 65536.
Proof.
  unfold crc16. change CRC16_XOROUT with 0. rewrite N.lxor_0_r. assert (H : CRC16_INIT < 65536) by reflexivity. revert H.
  generalize CRC16_INIT. induction l as [|x t IH]; intros c Hc; simpl; [assumption|]. apply IH, crc_byte_bound.
Qed.
Lemma le_dec_le16 n : n < 65536 -> le_dec (le16 n) = n.
Proof. exact (le_dec_enc_small 2 n). Qed.
Lemma le16_nlen n : nlen (le16 n) = 2.
Proof. unfold nlen, le16. now rewrite le_enc_length. Qed.

Lemma skipnN_0 {A} (l : list A) : skipnN 0 l = l.
Proof. destruct l; reflexivity. Qed.

Section SerialExec.
  Variable D : Type.
  Variable recv : D -> list N -> D * list N.

  Lemma sread_exact n bs rest d out cons : bs <> [] -> nlen bs = n ->
    sread D n (mkSenv D d (bs ++ rest) out cons) = (ROk bs, mkSenv D d rest out (bs :: cons)).
  Proof.
    intros Hne <-. unfold sread. cbn [se_in se_dev se_out se_cons].
    rewrite firstnN_app_exact, skipnN_app_exact. destruct bs; [contradiction|reflexivity].
  Qed.

  Lemma sread_one h rest d out cons :
    sread D 1 (mkSenv D d (h :: rest) out cons) = (ROk [h], mkSenv D d rest out ([h] :: cons)).
  Proof. apply (sread_exact 1 [h] rest); [discriminate|reflexivity]. Qed.

  Lemma wait_nonzero h rest d out cons : h <> 0 ->
    s_wait_for_data D (mkSenv D d (h :: rest) out cons) = (ROk h, mkSenv D d rest out ([h] :: cons)).
  Proof.
    intros Hh. unfold s_wait_for_data. cbn [se_in length s_wait_loop]. unfold mbind. rewrite sread_one.
    cbn [le_dec]. replace (h + 256 * 0) with h by lia.
    unfold memb, FRAME_START_NOT_READY_LIST. cbn [existsb].
    destruct (h =? 0) eqn:E; [apply N.eqb_eq in E; contradiction|]. reflexivity.
  Qed.

  Lemma header_frame t rest d out cons : t <> FP_ABORT ->
    s_read_frame_header D None (mkSenv D d (FRAME_START_BYTE :: t :: rest) out cons) =
    (ROk (FRAME_START_BYTE, t), mkSenv D d rest out ([t] :: [FRAME_START_BYTE] :: cons)).
  Proof.
    intros Ht. unfold s_read_frame_header, mbind. rewrite wait_nonzero by discriminate.
    change (FRAME_START_BYTE =? FRAME_START_BYTE) with true. cbn [orb negb].
    change (FRAME_START_BYTE =? FP_ACK) with false. cbv beta iota. rewrite sread_one. unfold mret.
    cbn [le_dec]. replace (t + 256 * 0) with t by lia.
    destruct (t =? FP_ABORT) eqn:E; [apply N.eqb_eq in E; contradiction|]. reflexivity.
  Qed.

  Lemma header_ack rest d out cons :
    s_read_frame_header D (Some FP_ACK) (mkSenv D d (FRAME_START_BYTE :: FP_ACK :: rest) out cons) =
    (ROk (FRAME_START_BYTE, FP_ACK), mkSenv D d rest out ([FP_ACK] :: [FRAME_START_BYTE] :: cons)).
  Proof.
    unfold s_read_frame_header, mbind. rewrite wait_nonzero by discriminate.
    change (FRAME_START_BYTE =? FRAME_START_BYTE) with true. cbn [orb negb].
    change (FRAME_START_BYTE =? FP_ACK) with false. cbv beta iota. rewrite sread_one. unfold mret. reflexivity.
  Qed.

  Definition after_ack (d : D) (rest : list N) (out cons : list (list N)) : senv D :=
    mkSenv D (fst (recv d ACK_BYTES)) (rest ++ snd (recv d ACK_BYTES)) (ACK_BYTES :: out) cons.

  Lemma send_ack_env d i out cons :
    s_send_ack D recv (mkSenv D d i out cons) = (ROk tt, after_ack d i out cons).
  Proof.
    unfold s_send_ack, swrite, after_ack. cbn [se_dev se_in se_out se_cons].
    change [FRAME_START_BYTE; FP_ACK] with ACK_BYTES. destruct (recv d ACK_BYTES); reflexivity.
  Qed.

  (* frame_roundtrip, host side: reading a frame the device encoded gives back type and payload, acknowledges it once *)
  Lemma s_read_frame t p rest d out cons :
    t <> FP_ABORT -> p <> [] -> nlen p < 65536 ->
    s_read D recv (mkSenv D d (mk_frame t p ++ rest) out cons) =
    let env' := after_ack d rest out (p :: le16 (frame_crc t p) :: le16 (nlen p) :: [t] :: [FRAME_START_BYTE] :: cons) in
    if t =? FP_CMD then parse_rx p env' else (ROk (RxData p), env').
  Proof.
    intros Ht Hp Hl. unfold s_read, mk_frame. unfold mbind at 1.
    cbn [app]. rewrite header_frame by exact Ht.
    unfold mbind at 1. rewrite <- app_assoc. rewrite (sread_exact 2 (le16 (nlen p))); [|discriminate|apply le16_nlen].
    unfold mbind at 1. rewrite <- app_assoc. rewrite (sread_exact 2 (le16 (frame_crc t p))); [|discriminate|apply le16_nlen].
    rewrite le_dec_le16 by exact Hl.
    destruct (nlen p =? 0) eqn:E; [apply N.eqb_eq, nlen_0 in E; contradiction|].
    unfold mbind at 1. rewrite (sread_exact (nlen p) p rest) by (auto).
    unfold mbind at 1. rewrite send_ack_env.
    rewrite le_dec_le16 by apply crc16_bound. cbn [snd]. rewrite N.eqb_refl. cbn [negb].
    cbv zeta. destruct (t =? FP_CMD); reflexivity.
  Qed.

  (* a frame the device acknowledges: sent once, the ACK consumed, whatever the device answers left in the input *)
  Lemma send_frame_acked t p d out cons d' rest : nlen p < 65536 -> recv d (mk_frame t p) = (d', ACK_BYTES ++ rest) ->
    (f <- mlift (create_frame t p);; s_send_frame D recv f true) (mkSenv D d [] out cons) =
    (ROk tt, mkSenv D d' rest (mk_frame t p :: out) ([FP_ACK] :: [FRAME_START_BYTE] :: cons)).
  Proof.
    intros Hl Hr. unfold mbind at 1, mlift, create_frame.
    replace (65536 <=? nlen p) with false by (symmetry; apply N.leb_gt; exact Hl).
    unfold s_send_frame, mbind at 1. unfold swrite at 1. cbn [se_dev se_in se_out se_cons]. rewrite Hr. cbn [app ACK_BYTES].
    unfold mbind at 1. rewrite header_ack. reflexivity.
  Qed.
End SerialExec.

(* what successive reads of the protocol interface delivered *)
Inductive rditem : Type := IData (d : list N) | IResp (r : resp) | IAborted.
Inductive ireads {E} (I : iface E) : E -> E -> list rditem -> Prop :=
| ir_nil e : ireads I e e []
| ir_data e e1 e2 d its : i_read I e = (ROk (RxData d), e1) -> ireads I e1 e2 its -> ireads I e e2 (IData d :: its)
| ir_resp e e1 e2 r its : i_read I e = (ROk (RxResp r), e1) -> ireads I e1 e2 its -> ireads I e e2 (IResp r :: its)
| ir_abort e e1 e2 its : i_read I e = (RExn XAbort, e1) -> ireads I e1 e2 its -> ireads I e e2 (IAborted :: its).

Fixpoint datas (its : list rditem) : list N :=
  match its with [] => [] | IData d :: t => d ++ datas t | _ :: t => datas t end.
Definition last_resp (its : list rditem) : option resp :=
  match rev its with IResp r :: _ => Some r | _ => None end.

Lemma ireads_app {E} (I : iface E) e1 e2 e3 a b : ireads I e1 e2 a -> ireads I e2 e3 b -> ireads I e1 e3 (a ++ b).
Proof. induction 1; intros Hb; simpl; [assumption| | |]; econstructor; eauto. Qed.
Lemma datas_app a b : datas (a ++ b) = datas a ++ datas b.
Proof. induction a as [|[d|r|] t IH]; simpl; [reflexivity| | |]; rewrite ?IH, ?app_assoc; reflexivity. Qed.

Definition item_of (v : rx) : rditem := match v with RxData d => IData d | RxResp r => IResp r end.
Lemma last_resp_cons x its : its <> [] -> last_resp (x :: its) = last_resp its.
Proof.
  intros H. unfold last_resp. simpl rev. destruct (rev its) eqn:R.
  - apply (f_equal (@rev _)) in R. rewrite rev_involutive in R. simpl in R. contradiction.
  - reflexivity.
Qed.

(* run m, continue with k on a value and with h on an exception: the shape of the try/except blocks of the host, which
   the model writes out as a match on the outcome *)
Definition mcatch {S A B} (m : M S A) (k : A -> M S B) (h : exn -> M S B) : M S B :=
  fun s => let '(r, s1) := m s in match r with ROk a => k a s1 | RExn x => h x s1 end.

Section HostEquations.
  Variable E : Type.
  Variable I : iface E.
  Variable ce : bool.

  Lemma process_cmd_eq p : process_cmd E I ce p =
    mcatch (lift E (b <- mlift (pkt_bytes p);; i_write_command I b;;; i_read I))
      (fun v s1 => match v with RxData _ => (RExn XConn, s1) | RxResp rs => finish_cmd E ce rs s1 end)
      (fun x s1 => match x with
                   | XTimeout => finish_cmd E ce (no_response (pkt_tag p)) (set_status E s1 SC_NO_RESPONSE)
                   | _ => (RExn x, s1)
                   end).
  Proof. reflexivity. Qed.

  (* what the receive loop of _read_data does with one delivered item *)
  Definition rd_handle (tag : N) (f : nat) (acc : list (list N)) (v : rx) : M (mbs E) (list N * resp) :=
    match v with
    | RxData d => read_data_loop E I tag f (d :: acc)
    | RxResp rs =>
        if r_cls rs =? 1
        then put_status E (r_status rs);;; (if r_second rs =? tag then mret (concat (rev acc), rs) else read_data_loop E I tag f acc)
        else read_data_loop E I tag f acc
    end.
  Lemma read_data_loop_eq tag f acc : read_data_loop E I tag (S f) acc =
    mcatch (lift E (i_read I)) (rd_handle tag f acc)
      (fun x s1 => match x with
                   | XAbort => (v <- lift E (i_read I);; rd_handle tag f acc v) s1
                   | XTimeout => (ROk (concat (rev acc), no_response tag), set_status E s1 SC_NO_RESPONSE)
                   | _ => (RExn x, s1)
                   end).
  Proof. reflexivity. Qed.

  (* _send_data: what is done with the final response, and with an exception of the data phase *)
  Definition sd_got (all_sent : bool) (v : rx) : M (mbs E) bool :=
    match v with
    | RxData _ => mraise XConn
    | RxResp rs => put_status E (r_status rs);;;
                   (if negb (r_status rs =? SC_SUCCESS) then (if ce then mraise (XCmd (r_status rs)) else mret false) else mret all_sent)
    end.
  Definition sd_on_exn (tag : N) (all_sent : bool) (x : exn) : M (mbs E) bool :=
    match x with
    | XTimeout => put_status E SC_NO_RESPONSE;;; mraise XConn
    | _ => if is_spsdk_error x
           then (if negb (tag =? CT_NO_COMMAND) then (v <- lift E (i_read I);; sd_got all_sent v)
                 else (put_status E SC_SENDING_OPERATION_CONDITION_ERROR;;; mret all_sent))
           else mraise x
    end.
  Lemma send_data_eq ab tag chunks : send_data E I ce ab tag chunks =
    mcatch (lift E (write_chunks E I ab chunks))
      (fun _ s1 => if negb (tag =? CT_NO_COMMAND) then mcatch (lift E (i_read I)) (sd_got true) (sd_on_exn tag true) s1 else (ROk true, s1))
      (sd_on_exn tag false).
  Proof. reflexivity. Qed.
End HostEquations.

Section McuBootSound.
  Variable E : Type.
  Variable I : iface E.
  Variable ce : bool.

  (* how a run of the receive loop of _read_data can end *)
  Definition rd_end (tag : N) (e_end : E) (its : list rditem) (rs : resp) (s' : mbs E) : Prop :=
    (e_end = mb_env E s' /\ last_resp its = Some rs /\ r_cls rs = 1 /\ r_second rs = tag /\ mb_status E s' = r_status rs)
    \/ (i_read I e_end = (RExn XTimeout, mb_env E s') /\ rs = no_response tag /\ mb_status E s' = SC_NO_RESPONSE).

  Lemma rd_end_cons tag e_end x its rs s' : rd_end tag e_end its rs s' -> rd_end tag e_end (x :: its) rs s'.
  Proof.
    intros [(H1 & H2 & H3)|H]; [left|right; exact H]. split; [exact H1|]. split; [|exact H3].
    rewrite last_resp_cons; [exact H2|]. intros ->. discriminate.
  Qed.

  Definition rd_spec (tag : N) (acc : list (list N)) (e0 : E) (mps0 : option N) (pre : list rditem) (data : list N) (rs : resp) (s' : mbs E) : Prop :=
    mb_mps E s' = mps0 /\
    exists its e_end, ireads I e0 e_end its /\ data = concat (rev acc) ++ datas (pre ++ its) /\ rd_end tag e_end (pre ++ its) rs s'.

  Lemma handle_sound tag f acc
    (IH : forall acc s data rs s', read_data_loop E I tag f acc s = (ROk (data, rs), s') -> rd_spec tag acc (mb_env E s) (mb_mps E s) [] data rs s') :
    forall v st data rs s', rd_handle E I tag f acc v st = (ROk (data, rs), s') ->
    rd_spec tag acc (mb_env E st) (mb_mps E st) [item_of v] data rs s'.
  Proof.
    intros v st data rs s' H. destruct v as [d|rs0]; cbn [rd_handle] in H.
    - apply IH in H. destruct H as (Hm & its & e_end & Hr & Hd & He). split; [exact Hm|].
      exists its, e_end. split; [exact Hr|]. split.
      + rewrite Hd. simpl rev. rewrite concat_app. simpl. rewrite app_nil_r, <- app_assoc. reflexivity.
      + apply rd_end_cons. exact He.
    - assert (K : forall st0, read_data_loop E I tag f acc st0 = (ROk (data, rs), s') ->
                  rd_spec tag acc (mb_env E st0) (mb_mps E st0) [IResp rs0] data rs s').
      { intros st0 H0. apply IH in H0. destruct H0 as (Hm & its & e_end & Hr & Hd & He). split; [exact Hm|].
        exists its, e_end. split; [exact Hr|]. split; [exact Hd|]. apply rd_end_cons. exact He. }
      destruct (r_cls rs0 =? 1) eqn:Ec; [|exact (K _ H)]. unfold mbind, put_status in H.
      destruct (r_second rs0 =? tag) eqn:Et; [|exact (K _ H)].
      unfold mret in H. injection H as <- <- <-. split; [reflexivity|].
      exists [], (mb_env E st). split; [constructor|]. split; [simpl; now rewrite app_nil_r|].
      left. cbn. apply N.eqb_eq in Ec, Et. auto.
  Qed.

  Lemma read_data_loop_sound tag : forall fuel acc s data rs s',
    read_data_loop E I tag fuel acc s = (ROk (data, rs), s') ->
    rd_spec tag acc (mb_env E s) (mb_mps E s) [] data rs s'.
  Proof.
    induction fuel as [|f IH]; intros acc s data rs s' H; [discriminate|].
    cbn [read_data_loop] in H. unfold lift in H.
    destruct (i_read I (mb_env E s)) as [r e1] eqn:R1.
    destruct r as [v|x].
    - apply (handle_sound tag f acc IH) in H. destruct H as (Hm & its & e_end & Hr & Hd & He).
      split; [exact Hm|]. exists (item_of v :: its), e_end. split; [|split; [exact Hd|exact He]].
      destruct v; [eapply ir_data|eapply ir_resp]; eauto.
    - destruct x; try discriminate.
      + (* time-out *)
        injection H as <- <- <-. split; [reflexivity|]. exists [], (mb_env E s).
        split; [constructor|]. split; [simpl; now rewrite app_nil_r|]. right. cbn. auto.
      + (* abort: one more read *)
        unfold mbind in H. cbn [set_env mb_env] in H.
        destruct (i_read I e1) as [r2 e2] eqn:R2. destruct r2 as [v|x2]; [|discriminate].
        apply (handle_sound tag f acc IH) in H. destruct H as (Hm & its & e_end & Hr & Hd & He).
        split; [exact Hm|]. exists (IAborted :: item_of v :: its), e_end. split; [|split].
        * eapply ir_abort; [exact R1|]. cbn [set_env mb_env] in Hr.
          destruct v; [eapply ir_data|eapply ir_resp]; eauto.
        * exact Hd.
        * apply rd_end_cons. exact He.
  Qed.

  (* _read_data: the value is the first `len` bytes of what the reads delivered, in order; the call only leaves status
     SUCCESS when the final response said SUCCESS and at least `len` bytes arrived; with cmd_exception it only returns then *)
  Lemma read_data_sound fuel tag len s v s' :
    read_data E I ce fuel tag len s = (ROk v, s') ->
    mb_mps E s' = mb_mps E s /\
    exists its e_end rs s1, ireads I (mb_env E s) e_end its /\ v = firstnN len (datas its) /\ rd_end tag e_end its rs s1 /\
      mb_env E s' = mb_env E s1 /\
      (mb_status E s' = SC_SUCCESS -> mb_status E s1 = SC_SUCCESS /\ len <= nlen (datas its)) /\
      (ce = true -> mb_status E s' = SC_SUCCESS).
  Proof.
    unfold read_data, mbind. destruct (read_data_loop E I tag fuel [] s) as [[[data rs]|x] s1] eqn:L; [|discriminate].
    apply read_data_loop_sound in L. destruct L as (Hm & its & e_end & Hr & Hd & He).
    unfold get_status. cbn [fst snd]. simpl in Hd. subst data.
    destruct ((nlen (datas its) <? len) || negb (mb_status E s1 =? SC_SUCCESS)) eqn:C.
    - unfold put_status. destruct ce.
      + discriminate.
      + unfold mret. intros H. injection H as <- <-. split; [exact Hm|].
        exists its, e_end, rs, s1. split; [exact Hr|]. split; [reflexivity|]. split; [exact He|]. split; [reflexivity|].
        split; [|discriminate]. cbn [set_status mb_status]. intros Hs. exfalso.
        destruct (mb_status E s1 =? SC_SUCCESS) eqn:E1; [discriminate|]. apply N.eqb_neq in E1. contradiction.
    - unfold mret. intros H. injection H as <- <-. split; [exact Hm|].
      apply orb_false_iff in C. destruct C as [C1 C2]. apply negb_false_iff, N.eqb_eq in C2. apply N.ltb_ge in C1.
      exists its, e_end, rs, s1. split; [exact Hr|]. split; [reflexivity|]. split; [exact He|]. split; [reflexivity|]. auto.
  Qed.

  Lemma finish_cmd_inv rs0 s0 rs s' : finish_cmd E ce rs0 s0 = (ROk rs, s') ->
    rs = rs0 /\ s' = set_status E s0 (r_status rs0) /\ (ce = true -> r_status rs0 = SC_SUCCESS).
  Proof.
    unfold finish_cmd. destruct (ce && negb (r_status rs0 =? SC_SUCCESS)) eqn:C; [discriminate|]. intros H. injection H as <- <-.
    repeat split. intros ->. apply negb_false_iff, N.eqb_eq in C. exact C.
  Qed.

  (* _process_cmd: the response object returned is the one the interface delivered (or NoResponse after a time-out),
     and status_code is its status field *)
  Lemma process_cmd_sound p s rs s' :
    process_cmd E I ce p s = (ROk rs, s') ->
    mb_mps E s' = mb_mps E s /\ mb_status E s' = r_status rs /\ (ce = true -> r_status rs = SC_SUCCESS) /\
    ((exists b e0, pkt_bytes p = ROk b /\ i_write_command I b (mb_env E s) = (ROk tt, e0) /\
                   i_read I e0 = (ROk (RxResp rs), mb_env E s'))
     \/ rs = no_response (pkt_tag p)).
  Proof.
    unfold process_cmd, lift.
    destruct ((b <- mlift (pkt_bytes p);; i_write_command I b;;; i_read I) (mb_env E s)) as [r e1] eqn:X.
    destruct r as [[d|r0]|x]; [discriminate| |destruct x; try discriminate]; intros H; apply finish_cmd_inv in H;
      destruct H as (-> & -> & Hce); cbn [set_status set_env mb_mps mb_status mb_env]; (split; [reflexivity|]); (split; [reflexivity|]);
      (split; [exact Hce|]); [left|right; reflexivity].
    unfold mbind, mlift in X. destruct (pkt_bytes p) as [b|x]; [|discriminate].
    destruct (i_write_command I b (mb_env E s)) as [[[]|x] e0] eqn:W; [|discriminate]. exists b, e0. auto.
  Qed.

  Lemma rd_end_success tag e_end its rs s' : rd_end tag e_end its rs s' -> mb_status E s' = SC_SUCCESS ->
    e_end = mb_env E s' /\ last_resp its = Some rs /\ r_cls rs = 1 /\ r_second rs = tag /\ r_status rs = SC_SUCCESS.
  Proof.
    intros [(H1 & H2 & H3 & H4 & H5)|(H1 & H2 & H3)] Hs.
    - rewrite H5 in Hs. auto.
    - rewrite H3 in Hs. discriminate.
  Qed.

  (* SUCCESS_SOUND for every "command, typed response, incoming data phase" call (read_memory, flash_read_resource,
     kp_read_key_store, fuse_read): a returned byte string is backed by the reads of the protocol interface; when
     status_code is SUCCESS (always, with cmd_exception) it has exactly the announced length *)
  Lemma cmd_data_in_sound fuel p cls s v s' :
    cmd_data_in E I ce fuel p cls s = (ROk (AVBytes v), s') ->
    exists b e0 rs e1 its e_end rsf s1,
      pkt_bytes p = ROk b /\ i_write_command I b (mb_env E s) = (ROk tt, e0) /\ i_read I e0 = (ROk (RxResp rs), e1) /\
      r_status rs = SC_SUCCESS /\ r_cls rs = cls /\
      ireads I e1 e_end its /\ v = firstnN (r_second rs) (datas its) /\ rd_end (pkt_tag p) e_end its rsf s1 /\
      mb_env E s' = mb_env E s1 /\
      (mb_status E s' = SC_SUCCESS ->
         e_end = mb_env E s' /\ last_resp its = Some rsf /\ r_cls rsf = 1 /\ r_second rsf = pkt_tag p /\ r_status rsf = SC_SUCCESS /\
         nlen v = r_second rs) /\
      (ce = true -> mb_status E s' = SC_SUCCESS).
  Proof.
    unfold cmd_data_in, mbind. destruct (process_cmd E I ce p s) as [[rs|x] s0] eqn:P; [|discriminate].
    apply process_cmd_sound in P. destruct P as (Hm & Hst & Hce & Hw).
    unfold is_success. destruct (r_status rs =? SC_SUCCESS) eqn:Es; [|discriminate]. apply N.eqb_eq in Es.
    destruct (r_cls rs =? cls) eqn:Ec; [|discriminate]. apply N.eqb_eq in Ec.
    destruct (read_data E I ce fuel (pkt_tag p) (r_second rs) s0) as [[d|x] s2] eqn:R; [|discriminate].
    unfold mret. intros H. injection H as <- <-.
    apply read_data_sound in R. destruct R as (Hm2 & its & e_end & rsf & s1 & Hr & Hv & He & Hen & Hc & Hct).
    destruct Hw as [(b & e0 & Hb & Hw & Hrd)|Hno]; [|subst rs; discriminate].
    exists b, e0, rs, (mb_env E s0), its, e_end, rsf, s1. repeat (split; [assumption|]). split; [|exact Hct].
    intros Hs. destruct (Hc Hs) as [H1 H2]. destruct (rd_end_success _ _ _ _ _ He H1) as (G1 & G2 & G3 & G4 & G5).
    rewrite Hen. repeat (split; [assumption|]). subst d. apply nlen_firstnN. exact H2.
  Qed.

  (* every bool-returning command: True only when the delivered response carries SUCCESS *)
  Lemma simple_sound p s s' :
    simple E I ce p s = (ROk (AVBool true), s') ->
    exists b e0 rs, pkt_bytes p = ROk b /\ i_write_command I b (mb_env E s) = (ROk tt, e0) /\
      i_read I e0 = (ROk (RxResp rs), mb_env E s') /\ r_status rs = SC_SUCCESS /\ mb_status E s' = SC_SUCCESS.
  Proof.
    unfold simple, mbind. destruct (process_cmd E I ce p s) as [[rs|x] s1] eqn:P; [|discriminate].
    apply process_cmd_sound in P. destruct P as (Hm & Hst & Hce & Hw).
    unfold mret, is_success. intros H. injection H as Hs <-. apply N.eqb_eq in Hs.
    destruct Hw as [(b & e0 & Hb & Hw & Hrd)|Hno]; [|subst rs; discriminate].
    exists b, e0, rs. rewrite Hst. auto 10.
  Qed.
End McuBootSound.

Lemma parse_cmd_response_exn p x : parse_cmd_response p = RExn x -> x = XMboot \/ exists k, x = XCrash k.
Proof.
  unfold parse_cmd_response. destruct (nlen p <? CMD_HEADER_SIZE); [intros H; injection H as <-; auto|].
  destruct (nlen (skipn 4 p) <? 4); [intros H; injection H as <-; eauto|].
  destruct (assoc (assocd (nth 0 p 0) known_response 0) response_shape) as [[[[[kind nfix] nbefore] star] second]|]; [|discriminate].
  destruct (if kind =? 2 then _ else _); [intros H; injection H as <-; eauto|].
  destruct (if star =? 1 then _ else _); [intros H; injection H as <-; eauto|discriminate].
Qed.

Section SerialSound.
  Variable D : Type.
  Variable recv : D -> list N -> D * list N.

  (* bytes taken from the device between two environments, in order *)
  Definition eaten (e e' : senv D) (bs : list N) : Prop :=
    exists new, se_cons D e' = new ++ se_cons D e /\ concat (rev new) = bs.
  Lemma eaten_refl e : eaten e e [].
  Proof. exists []. auto. Qed.
  Lemma eaten_trans e1 e2 e3 a b : eaten e1 e2 a -> eaten e2 e3 b -> eaten e1 e3 (a ++ b).
  Proof.
    intros (n1 & H1 & C1) (n2 & H2 & C2). exists (n2 ++ n1). split.
    - rewrite H2, H1. now rewrite app_assoc.
    - rewrite rev_app_distr, concat_app. now rewrite C1, C2.
  Qed.

  (* the footprint of the read-only steps of the protocol: `bs` moved from the head of the input to the consumed log,
     nothing written, the device untouched *)
  Definition took (e e' : senv D) (bs : list N) : Prop :=
    eaten e e' bs /\ se_in D e = bs ++ se_in D e' /\ se_out D e' = se_out D e /\ se_dev D e' = se_dev D e.
  Lemma took_refl e : took e e [].
  Proof. split; [apply eaten_refl|auto]. Qed.
  Lemma took_trans e1 e2 e3 a b : took e1 e2 a -> took e2 e3 b -> took e1 e3 (a ++ b).
  Proof.
    intros (E1 & I1 & O1 & D1) (E2 & I2 & O2 & D2). split; [eapply eaten_trans; eauto|].
    rewrite I1, I2, O2, O1, D2, D1, app_assoc. auto.
  Qed.

  Lemma sread_took n e r e' : sread D n e = (r, e') ->
    match r with
    | ROk bs => bs <> [] /\ bs = firstnN n (se_in D e) /\ took e e' bs
    | RExn x => x = XTimeout /\ e' = e
    end.
  Proof.
    unfold sread. destruct (firstnN n (se_in D e)) as [|b t] eqn:F; intros H; injection H as <- <-; [auto|].
    split; [discriminate|]. split; [reflexivity|]. split; [exists [b :: t]; split; [reflexivity|simpl; now rewrite app_nil_r]|].
    cbn [se_in se_out se_dev]. rewrite <- F, firstnN_skipnN. auto.
  Qed.
  Lemma swrite_inv w e r e' : swrite D recv w e = (r, e') -> r = ROk tt /\ eaten e e' [].
  Proof.
    unfold swrite. destruct (recv (se_dev D e) w). intros H. injection H as <- <-. split; [reflexivity|].
    exists []. auto.
  Qed.
  Lemma firstnN_one {A} (l : list A) : firstnN 1 l = [] \/ exists b, firstnN 1 l = [b].
  Proof. destruct l; [left; reflexivity|right]. simpl. destruct l; eauto. Qed.

  Definition zeros_only (zs : list N) : Prop := Forall (fun z => z = 0) zs.

  (* _wait_for_data skips idle zeros; it stops at the first other byte, at the end of the input, or when its fuel is
     spent on zeros *)
  Lemma wait_loop_took : forall fuel e r e', s_wait_loop D fuel e = (r, e') ->
    exists zs, zeros_only zs /\ took e e' (zs ++ match r with ROk h => [h] | RExn _ => [] end) /\
      match r with ROk h => h <> 0 | RExn XHang => (fuel <= length zs)%nat | RExn x => x = XTimeout end.
  Proof.
    induction fuel as [|f IH]; intros e r e' H.
    - injection H as <- <-. exists []. split; [constructor|]. split; [apply took_refl|apply le_n].
    - cbn [s_wait_loop] in H. unfold mbind in H. destruct (sread D 1 e) as [[bs|x] e1] eqn:R; apply sread_took in R.
      + destruct R as (Hne & Hbs & Ht). destruct (firstnN_one (se_in D e)) as [F|[b F]]; rewrite F in Hbs; subst bs; [contradiction|].
        cbn [le_dec] in H. replace (b + 256 * 0) with b in H by lia.
        unfold memb, FRAME_START_NOT_READY_LIST in H. cbn [existsb] in H. destruct (b =? 0) eqn:E; cbn [orb] in H.
        * apply N.eqb_eq in E. subst b. destruct (IH _ _ _ H) as (zs & Hz & Ht2 & Hr). exists (0 :: zs).
          split; [constructor; auto|]. split; [exact (took_trans _ _ _ [0] _ Ht Ht2)|].
          destruct r as [h|[]]; auto. simpl. lia.
        * injection H as <- <-. exists []. split; [constructor|]. split; [exact Ht|now apply N.eqb_neq].
      + destruct R as [-> ->]. injection H as <- <-. exists []. split; [constructor|]. split; [apply took_refl|reflexivity].
  Qed.

  Definition hdr_ok (hdr : list N) (ft : N) : Prop :=
    hdr = [FRAME_START_BYTE; ft] \/ (hdr = [FP_ACK] /\ ft = FP_ACK).

  (* _read_frame_header, whatever it was told to expect: idle zeros, then the header bytes; it never runs out of fuel *)
  Lemma header_took ex e r e' : s_read_frame_header D ex e = (r, e') ->
    exists zs bs, zeros_only zs /\ took e e' (zs ++ bs) /\
      match r with
      | ROk (h, ft) => bs <> [] /\ (ex = None -> hdr_ok bs ft /\ ft <> FP_ABORT)
      | RExn XAbort => bs = [FRAME_START_BYTE; FP_ABORT]
      | RExn XHang => False
      | RExn _ => True
      end.
  Proof.
    unfold s_read_frame_header, mbind, s_wait_for_data.
    destruct (s_wait_loop D (S (length (se_in D e))) e) as [[h0|x] e1] eqn:W;
      apply wait_loop_took in W; destruct W as (zs & Hz & Ht & Hr).
    2:{ intros H. injection H as <- <-. exists zs, []. split; [exact Hz|]. split; [exact Ht|].
        destruct x; try exact I; [discriminate|]. destruct Ht as (_ & Hi & _). apply (f_equal (@length _)) in Hi.
        rewrite !app_length in Hi. lia. }
    destruct (negb ((h0 =? FRAME_START_BYTE) || (h0 =? FP_ACK))) eqn:C.
    { intros H. injection H as <- <-. exists zs, [h0]. auto. }
    apply negb_false_iff, orb_true_iff in C. unfold mret. destruct (h0 =? FP_ACK) eqn:EA.
    - apply N.eqb_eq in EA. subst h0. change (FP_ACK =? FP_ABORT) with false. cbv iota.
      assert (G : [FP_ACK] <> [] /\ (ex = None -> hdr_ok [FP_ACK] FP_ACK /\ FP_ACK <> FP_ABORT))
        by (split; [discriminate|intros _; split; [right; auto|discriminate]]).
      destruct ex as [x|]; [destruct (_ =? x)|]; intros H; injection H as <- <-; exists zs, [FP_ACK]; auto.
    - destruct C as [C|C]; [|discriminate]. apply N.eqb_eq in C. subst h0.
      destruct (sread D 1 e1) as [[bs|x] e2] eqn:R; apply sread_took in R.
      2:{ destruct R as [-> ->]. intros H. injection H as <- <-. exists zs, [FRAME_START_BYTE]. auto. }
      destruct R as (Hne & Hbs & Ht2). destruct (firstnN_one (se_in D e1)) as [F|[b F]]; rewrite F in Hbs; subst bs; [contradiction|].
      cbn [le_dec]. replace (b + 256 * 0) with b by lia.
      pose proof (took_trans _ _ _ _ _ Ht Ht2) as T. rewrite <- app_assoc in T. cbn [app] in T.
      destruct (b =? FP_ABORT) eqn:EB.
      + apply N.eqb_eq in EB. subst b. intros H. injection H as <- <-. exists zs, [FRAME_START_BYTE; FP_ABORT]. auto.
      + apply N.eqb_neq in EB.
        assert (G : [FRAME_START_BYTE; b] <> [] /\ (ex = None -> hdr_ok [FRAME_START_BYTE; b] b /\ b <> FP_ABORT))
          by (split; [discriminate|intros _; split; [left; reflexivity|exact EB]]).
        destruct ex as [x|]; [destruct (_ =? x)|]; intros H; injection H as <- <-; exists zs, [FRAME_START_BYTE; b]; auto.
        split; [exact Hz|]. split; [exact T|]. split; discriminate.
  Qed.

  (* the two forms of "data phase aborted": the ABORT frame type, or a frame of length zero *)
  Definition abort_wire (w : list N) : Prop :=
    exists zs, zeros_only zs /\
      (w = zs ++ [FRAME_START_BYTE; FP_ABORT] \/
       exists hdr ft lenb crcb, w = zs ++ hdr ++ lenb ++ crcb /\ hdr_ok hdr ft /\ le_dec lenb = 0).

  (* one walk through MbootSerialProtocol.read, for the two outcomes that matter: a delivered frame, an abort *)
  Lemma s_read_inv e r e' : s_read D recv e = (r, e') ->
    match r with
    | ROk v => exists zs hdr ft lenb crcb p,
        eaten e e' (zs ++ hdr ++ lenb ++ crcb ++ p) /\ zeros_only zs /\ hdr_ok hdr ft /\ ft <> FP_ABORT /\
        p <> [] /\ nlen p <= le_dec lenb /\ le_dec crcb = frame_crc ft p /\
        (if ft =? FP_CMD then exists r, parse_cmd_response p = ROk r /\ v = RxResp r else v = RxData p)
    | RExn XAbort => exists w, eaten e e' w /\ abort_wire w
    | RExn _ => True
    end.
  Proof.
    unfold s_read. unfold mbind at 1.
    destruct (s_read_frame_header D None e) as [[[h ft]|x] e1] eqn:Hd; apply header_took in Hd; destruct Hd as (zs & hdr & Hz & (He1 & _) & Hr).
    2:{ intros H. injection H as <- <-. destruct x; try exact I. subst hdr.
        eexists. split; [exact He1|]. exists zs. split; [exact Hz|]. left. reflexivity. }
    destruct (proj2 Hr eq_refl) as [Hh Hab].
    unfold mbind at 1. destruct (sread D 2 e1) as [[lenb|x] e2] eqn:R2; apply sread_took in R2.
    2:{ destruct R2 as [-> ->]. intros H. injection H as <- <-. exact I. }
    destruct R2 as (_ & _ & He2 & _).
    unfold mbind at 1. destruct (sread D 2 e2) as [[crcb|x] e3] eqn:R3; apply sread_took in R3.
    2:{ destruct R3 as [-> ->]. intros H. injection H as <- <-. exact I. }
    destruct R3 as (_ & _ & He3 & _).
    assert (Hea : eaten e e3 (zs ++ hdr ++ lenb ++ crcb)).
    { rewrite !app_assoc. repeat (eapply eaten_trans; [|eassumption]). assumption. }
    destruct (le_dec lenb =? 0) eqn:E0.
    - apply N.eqb_eq in E0. unfold mbind, s_send_ack.
      destruct (swrite D recv [FRAME_START_BYTE; FP_ACK] e3) as [r5 e5] eqn:W. apply swrite_inv in W. destruct W as (-> & He5).
      intros H. injection H as <- <-. exists (zs ++ hdr ++ lenb ++ crcb). split.
      + rewrite <- (app_nil_r (zs ++ _)). eapply eaten_trans; eassumption.
      + exists zs. split; [exact Hz|]. right. exists hdr, ft, lenb, crcb. auto.
    - unfold mbind at 1. destruct (sread D (le_dec lenb) e3) as [[p|x] e4] eqn:R4; apply sread_took in R4.
      2:{ destruct R4 as [-> ->]. intros H. injection H as <- <-. exact I. }
      destruct R4 as (Hp & Hpf & He4 & _).
      unfold mbind at 1. unfold s_send_ack. destruct (swrite D recv [FRAME_START_BYTE; FP_ACK] e4) as [r5 e5] eqn:W.
      apply swrite_inv in W. destruct W as (-> & He5).
      cbn [snd]. destruct (negb (le_dec crcb =? frame_crc ft p)) eqn:EC; [intros H; injection H as <- <-; exact I|].
      apply negb_false_iff, N.eqb_eq in EC.
      assert (Hlen : nlen p <= le_dec lenb) by (subst p; apply nlen_firstnN_le).
      assert (Hea5 : eaten e e5 (zs ++ hdr ++ lenb ++ crcb ++ p)).
      { replace (zs ++ hdr ++ lenb ++ crcb ++ p) with (((zs ++ hdr ++ lenb ++ crcb) ++ p) ++ []) by (rewrite app_nil_r, <- !app_assoc; reflexivity).
        repeat (eapply eaten_trans; [|eassumption]). assumption. }
      destruct (ft =? FP_CMD) eqn:EF.
      + unfold parse_rx. destruct (parse_cmd_response p) as [r0|x] eqn:P; intros H; injection H as <- <-.
        * exists zs, hdr, ft, lenb, crcb, p. rewrite EF. repeat (split; [assumption|]). exists r0. auto.
        * apply parse_cmd_response_exn in P. destruct P as [->|[k ->]]; exact I.
      + intros H. injection H as <- <-. exists zs, hdr, ft, lenb, crcb, p. rewrite EF. repeat (split; [assumption|]). reflexivity.
  Qed.

  (* FRAMES_CRC_CHECKED: whatever the device sends, a read of the serial protocol only succeeds on
     [idle zeros] header length16 crc16 payload  where the CRC field equals CRC16-XMODEM over 5A, type, the length of the
     payload actually delivered, and that payload; a CMD frame moreover parses into the response object returned *)
  Lemma s_read_sound e v e' : s_read D recv e = (ROk v, e') ->
    exists zs hdr ft lenb crcb p,
      eaten e e' (zs ++ hdr ++ lenb ++ crcb ++ p) /\ zeros_only zs /\ hdr_ok hdr ft /\ ft <> FP_ABORT /\
      p <> [] /\ nlen p <= le_dec lenb /\ le_dec crcb = frame_crc ft p /\
      (if ft =? FP_CMD then exists r, parse_cmd_response p = ROk r /\ v = RxResp r else v = RxData p).
  Proof. exact (s_read_inv e (ROk v) e'). Qed.
End SerialSound.

Lemma chunks_fuelN_spec {A} k : 0 < k -> forall fuel (l : list A), (length l <= fuel)%nat ->
  concat (chunks_fuelN fuel k l) = l /\ Forall (fun c => c <> [] /\ nlen c <= k) (chunks_fuelN fuel k l).
Proof.
  intros Hk. induction fuel as [|f IH]; intros l Hl.
  - destruct l; [split; [reflexivity|constructor]|simpl in Hl; lia].
  - destruct l as [|x t]; [split; [reflexivity|constructor]|].
    cbn [chunks_fuelN]. set (l := x :: t) in *.
    assert (Hs : (length (skipnN k l) <= f)%nat).
    { rewrite skipnN_skipn, skipn_length. subst l. simpl length in *. lia. }
    destruct (IH _ Hs) as [C F]. split.
    + cbn [concat]. rewrite C. apply firstnN_skipnN.
    + constructor; [|exact F]. split; [|apply nlen_firstnN_le].
      subst l. simpl. destruct (k =? 0) eqn:E; [apply N.eqb_eq in E; lia|discriminate].
Qed.

(* _split_data's slicing: the chunks are non-empty, at most k bytes each, and their concatenation is the data *)
Lemma chunksN_spec {A} k (l : list A) : 0 < k ->
  concat (chunksN k l) = l /\ Forall (fun c => c <> [] /\ nlen c <= k) (chunksN k l).
Proof. intros Hk. apply chunks_fuelN_spec; [exact Hk|apply le_n]. Qed.

Section Packets.
  Variable E : Type.
  Variable I : iface E.
  Variable ce : bool.

  Lemma get_mps_cached s m s' : get_max_packet_size E I ce s = (ROk m, s') -> mb_mps E s' = Some m.
  Proof.
    unfold get_max_packet_size. destruct (mb_mps E s) as [m0|] eqn:C.
    - intros H. injection H as <- <-. exact C.
    - destruct (get_property E I ce PT_MAX_PACKET_SIZE 0 s) as [[[[|v t]|]|x] s1]; intros H; try discriminate;
        try (injection H as <- <-; reflexivity).
      destruct (is_mcuboot_error x); [injection H as <- <-; reflexivity|discriminate].
  Qed.

End Packets.

(* PACKETS_BOUNDED (2), on the wire: whatever the device answers, the frames written by the data phase are exactly the
   frames of a PREFIX of the chunk list, in order, each once (all of them when the phase did not fail) *)
Section WireOut.
  Variable D : Type.
  Variable recv : D -> list N -> D * list N.

  Definition is_data_frame (w : list N) : bool := (6 <? nlen w) && (nth 1 w 0 =? FP_DATA).
  (* host writes between two environments, oldest first *)
  Definition wrote (e e' : senv D) (ws : list (list N)) : Prop := se_out D e' = rev ws ++ se_out D e.
  Lemma wrote_refl e : wrote e e [].
  Proof. reflexivity. Qed.
  Lemma wrote_trans e1 e2 e3 a b : wrote e1 e2 a -> wrote e2 e3 b -> wrote e1 e3 (a ++ b).
  Proof. unfold wrote. intros H1 H2. rewrite H2, H1, rev_app_distr, app_assoc. reflexivity. Qed.

  Lemma took_wrote e e' bs : took D e e' bs -> wrote e e' [].
  Proof. intros (_ & _ & H & _). exact H. Qed.

  Lemma s_write_data_out ab c e r e' : s_write_data D recv ab c e = (r, e') ->
    (wrote e e' [mk_frame FP_DATA c] /\ nlen c < 65536) \/ (wrote e e' [] /\ r <> ROk tt).
  Proof.
    unfold s_write_data, mbind, mlift, create_frame. destruct (65536 <=? nlen c) eqn:L.
    - intros H. injection H as <- <-. right. split; [reflexivity|discriminate].
    - apply N.leb_gt in L. unfold s_send_frame, mbind, swrite.
      destruct (recv (se_dev D e) (mk_frame FP_DATA c)) as [d' rr]. cbv iota beta.
      set (e1 := mkSenv D d' (se_in D e ++ rr) (mk_frame FP_DATA c :: se_out D e) (se_cons D e)).
      assert (W1 : wrote e e1 [mk_frame FP_DATA c]) by reflexivity.
      destruct (s_read_frame_header D (Some FP_ACK) e1) as [r1 e2] eqn:Hd. apply header_took in Hd.
      destruct Hd as (zs & bs & _ & Hd & _). apply took_wrote in Hd.
      destruct r1; intros H; injection H as <- <-; left; (split; [apply (wrote_trans _ _ _ [_] [] W1 Hd)|exact L]).
  Qed.

End WireOut.

Section SerialWire.
  Variable D : Type.
  Variable recv : D -> list N -> D * list N.

  (* one accepted frame on the wire: [idle zeros] header length16 crc16 payload with a matching CRC *)
  Definition frame_wire (ft : N) (p : list N) (w : list N) : Prop :=
    exists zs hdr lenb crcb, w = zs ++ hdr ++ lenb ++ crcb ++ p /\ zeros_only zs /\ hdr_ok hdr ft /\ ft <> FP_ABORT /\
      p <> [] /\ nlen p <= le_dec lenb /\ le_dec crcb = frame_crc ft p.
  (* the device->host bytes behind a sequence of reads *)
  Inductive swire : list rditem -> list N -> Prop :=
  | sw_nil : swire [] []
  | sw_data p w its bs : frame_wire FP_DATA p w \/ (exists ft, ft <> FP_CMD /\ frame_wire ft p w) -> swire its bs -> swire (IData p :: its) (w ++ bs)
  | sw_resp r p w its bs : frame_wire FP_CMD p w -> parse_cmd_response p = ROk r -> swire its bs -> swire (IResp r :: its) (w ++ bs)
  | sw_abort w its bs : abort_wire w -> swire its bs -> swire (IAborted :: its) (w ++ bs).

  Lemma s_read_wire e v e' : s_read D recv e = (ROk v, e') ->
    exists ft p w, eaten D e e' w /\ frame_wire ft p w /\
      (if ft =? FP_CMD then exists r, parse_cmd_response p = ROk r /\ v = RxResp r else v = RxData p).
  Proof.
    intros R. apply s_read_sound in R. destruct R as (zs & hdr & ft & lenb & crcb & p & He & Hz & Hh & Hab & Hp & Hl & Hc & Hv).
    exists ft, p, (zs ++ hdr ++ lenb ++ crcb ++ p). split; [exact He|]. split; [|exact Hv]. exists zs, hdr, lenb, crcb. auto 10.
  Qed.

  Lemma ireads_serial_wire e e' its : ireads (serial_iface D recv) e e' its -> exists bs, eaten D e e' bs /\ swire its bs.
  Proof.
    induction 1 as [e|e e1 e2 d its R _ IH|e e1 e2 r its R _ IH|e e1 e2 its R _ IH].
    - exists []. split; [apply eaten_refl|constructor].
    - cbn [i_read serial_iface] in R. apply s_read_wire in R. destruct R as (ft & p & w & He & Hw & Hv).
      destruct IH as (bs & Hb & Hs). exists (w ++ bs). split; [eapply eaten_trans; eauto|].
      destruct (ft =? FP_CMD) eqn:EF; [destruct Hv as (r & _ & Hr); discriminate|]. injection Hv as <-.
      constructor; [|exact Hs]. right. exists ft. split; [now apply N.eqb_neq|exact Hw].
    - cbn [i_read serial_iface] in R. apply s_read_wire in R. destruct R as (ft & p & w & He & Hw & Hv).
      destruct IH as (bs & Hb & Hs). exists (w ++ bs). split; [eapply eaten_trans; eauto|].
      destruct (ft =? FP_CMD) eqn:EF; [|discriminate]. destruct Hv as (r0 & Hpr & Hr). injection Hr as <-.
      apply N.eqb_eq in EF. subst ft. econstructor; [exact Hw|exact Hpr|exact Hs].
    - cbn [i_read serial_iface] in R. apply s_read_inv in R. destruct R as (w & Hw & Ha).
      destruct IH as (bs & Hb & Hs). exists (w ++ bs). split; [eapply eaten_trans; eauto|]. constructor; assumption.
  Qed.
End SerialWire.

(* finding C10-F1 (repaired): the device announces 20 bytes, one DATA frame is lost, the final response
   says SUCCESS -- the call does not leave status SUCCESS (and raises with cmd_exception) *)
Definition f1_stream : list N :=
  [90; 161; 90; 164; 12; 0; 27; 108; 163; 0; 0; 2; 0; 0; 0; 0; 20; 0; 0; 0; 90; 165; 8; 0; 116; 49; 0; 1; 2; 3; 4; 5; 6; 7;
   90; 165; 4; 0; 166; 200; 16; 17; 18; 19; 90; 164; 12; 0; 14; 35; 160; 0; 0; 2; 0; 0; 0; 0; 3; 0; 0; 0].
Definition f1_run (ce : bool) :=
  read_memory (senv unit) (serial_iface unit null_recv) ce 100 4096 20 0 false
              (mkMbs (senv unit) SC_SUCCESS (Some 8) (mkSenv unit tt f1_stream [] [])).
Section HidLemmas.
  Variable D : Type.
  Lemma report_roundtrip_lemma rid p (e : henv D) : p <> [] -> nlen p < 65536 ->
    h_parse_frame D (mk_report rid p) e = if rid =? RID_CMD_IN then parse_rx p e else (ROk (RxData p), e).
  Proof.
    intros Hp Hl. unfold h_parse_frame, mk_report.
    assert (H4 : nlen (rid :: 0 :: le16 (nlen p) ++ p) <? 4 = false).
    { apply N.ltb_ge. rewrite !nlen_cons, nlen_app, le16_nlen. lia. }
    rewrite H4. cbn [nth skipn]. change (le16 (nlen p)) with [nlen p mod 256; (nlen p / 256) mod 256]. cbn [app skipn firstn].
    change [nlen p mod 256; (nlen p / 256) mod 256] with (le16 (nlen p)). rewrite le_dec_le16 by exact Hl.
    destruct (nlen p =? 0) eqn:E; [apply N.eqb_eq, nlen_0 in E; contradiction|].
    replace (nlen (rid :: 0 :: nlen p mod 256 :: (nlen p / 256) mod 256 :: p) <? 4 + nlen p) with false
      by (symmetry; apply N.ltb_ge; rewrite !nlen_cons; lia).
    rewrite firstnN_all. destruct (rid =? RID_CMD_IN); reflexivity.
  Qed.
End HidLemmas.
(* D24 (finding C10-F2, repaired): a report that announces 8 bytes and delivers 3 is a connection error *)
Lemma short_report_rejected_example :
  h_parse_frame unit [RID_DATA_IN; 0; 8; 0; 97; 98; 99] (mkHenv unit tt [] [] []) = (RExn XConn, mkHenv unit tt [] [] []).
Proof. reflexivity. Qed.

Lemma mk_frame_nlen t p : nlen (mk_frame t p) = 6 + nlen p.
Proof. unfold mk_frame. rewrite !nlen_cons, !nlen_app, !le16_nlen. lia. Qed.

Lemma sdev_decode t p :
  skipn 6 (mk_frame t p) = p /\ nth 0 (mk_frame t p) 0 = FRAME_START_BYTE /\ nth 1 (mk_frame t p) 0 = t /\
  firstn 2 (skipn 2 (mk_frame t p)) = le16 (nlen p) /\ firstn 2 (skipn 4 (mk_frame t p)) = le16 (frame_crc t p).
Proof.
  unfold mk_frame.
  assert (S2 : forall (a b : N) l n, skipn (S (S n)) (a :: b :: l) = skipn n l) by reflexivity.
  split; [|split; [reflexivity|split; [reflexivity|split]]].
  - rewrite S2. rewrite (app_assoc (le16 _)).
    apply skipn_app_exact. rewrite app_length. reflexivity.
  - rewrite S2. cbn [skipn]. apply firstn_app_exact. reflexivity.
  - rewrite S2. rewrite (skipn_app_exact (le16 _)) by reflexivity.
    apply firstn_app_exact. reflexivity.
Qed.

Definition cmd_core (c : dcore) (b : list N) : dcore := fst (dev_zero_phase (fst (fst (dev_command c b)))).
Definition cmd_first (c : dcore) (b : list N) : list N := snd (fst (dev_command c b)).

(* what the device has queued for the host: data chunks and response packets, oldest first *)
Inductive litem : Type := LData (ch : list N) | LResp (r : list N).
Definition payload (it : litem) : list N := match it with LData ch => ch | LResp r => r end.
Definition din_items (c1 : dcore) (din : option (list N * (N * N))) : list litem :=
  match din with
  | Some (data, (tag, fin)) => map LData (chunksN (dc_mps c1) data) ++ [LResp (generic fin tag)]
  | None => []
  end.
Definition fin_items (fin : option (list N)) : list litem := match fin with Some r => [LResp r] | None => [] end.
(* everything a command leaves queued, after its first response *)
Definition cmd_items (c : dcore) (b : list N) : list litem :=
  fin_items (snd (dev_zero_phase (fst (fst (dev_command c b))))) ++ din_items (cmd_core c b) (snd (dev_command c b)).

Definition frame_of (it : litem) : list N :=
  match it with LData ch => mk_frame FP_DATA ch | LResp r => mk_frame FP_CMD r end.

Lemma cmd_items_open c b : snd (dev_zero_phase (fst (fst (dev_command c b)))) = None ->
  cmd_items c b = din_items (cmd_core c b) (snd (dev_command c b)).
Proof. unfold cmd_items. intros ->. reflexivity. Qed.

(* frame_roundtrip, device side: the reference bootloader decodes what the host encoded, CMD and DATA frames alike *)
Lemma sdev_recv_frame c q t p : p <> [] -> nlen p < 65536 -> t = FP_CMD \/ t = FP_DATA ->
  sdev_recv (mkSdev c q) (mk_frame t p) =
  if t =? FP_CMD
  then (mkSdev (cmd_core c p) (map frame_of (cmd_items c p)), ACK_BYTES ++ mk_frame FP_CMD (cmd_first c p))
  else (mkSdev (fst (dev_data_out c p)) q, ACK_BYTES ++ match snd (dev_data_out c p) with Some r => mk_frame FP_CMD r | None => [] end).
Proof.
  intros Hp Hl Ht. unfold sdev_recv.
  destruct (sdev_decode t p) as (D6 & D0 & D1 & D2 & D4).
  assert (HA : eqb_list (mk_frame t p) ACK_BYTES = false) by (destruct Ht as [-> | ->]; reflexivity).
  rewrite HA, D6, D0, D1, D2, D4, mk_frame_nlen.
  rewrite !le_dec_le16 by (first [exact Hl | apply crc16_bound]).
  replace (6 + nlen p <? 6) with false by (symmetry; apply N.ltb_ge; lia).
  rewrite !N.eqb_refl. destruct (nlen p =? 0) eqn:E; [apply N.eqb_eq, nlen_0 in E; contradiction|].
  cbn [negb orb sd_core sd_queue]. destruct Ht as [-> | ->]; rewrite ?N.eqb_refl; change (FP_DATA =? FP_CMD) with false; cbn [negb orb]; cbv iota.
  - unfold cmd_items, cmd_core, cmd_first. destruct (dev_command c p) as [[c1 first] din]. cbn [fst snd].
    destruct (dev_zero_phase c1) as [c2 zfin]. cbn [fst snd]. rewrite map_app.
    destruct zfin, din as [[data [tag fin]]|]; cbn [fin_items din_items map app]; rewrite ?map_app, ?map_map; reflexivity.
  - destruct (dev_data_out c p) as [c1 fin]. reflexivity.
Qed.

Lemma sdev_recv_cmd c q b : b <> [] -> nlen b < 65536 ->
  sdev_recv (mkSdev c q) (mk_frame FP_CMD b) =
  (mkSdev (cmd_core c b) (map frame_of (cmd_items c b)), ACK_BYTES ++ mk_frame FP_CMD (cmd_first c b)).
Proof. intros Hb Hl. exact (sdev_recv_frame c q FP_CMD b Hb Hl (or_introl eq_refl)). Qed.
Lemma sdev_recv_data c q p : p <> [] -> nlen p < 65536 ->
  sdev_recv (mkSdev c q) (mk_frame FP_DATA p) =
  (mkSdev (fst (dev_data_out c p)) q, ACK_BYTES ++ match snd (dev_data_out c p) with Some r => mk_frame FP_CMD r | None => [] end).
Proof. intros Hp Hl. exact (sdev_recv_frame c q FP_DATA p Hp Hl (or_intror eq_refl)). Qed.

Lemma sdev_recv_ack c q : sdev_recv (mkSdev c q) ACK_BYTES = (mkSdev c (tl q), hd [] q).
Proof. unfold sdev_recv. change (eqb_list ACK_BYTES ACK_BYTES) with true. cbv iota. destruct q; reflexivity. Qed.

Definition U32 : N := 4294967296.
Lemma words_u32s ws : forall rest, Forall (fun x => x < U32) ws -> words (length ws) (u32s ws ++ rest) = ws.
Proof.
  induction ws as [|w t IH]; intros rest H; [reflexivity|].
  inversion H as [|? ? Hw Ht]; subst. cbn [length words u32s flat_map]. fold (u32s t).
  rewrite <- app_assoc. rewrite (firstn_app_exact (le_enc 4 w)) by apply le_enc_length.
  rewrite (skipn_app_exact (le_enc 4 w)) by apply le_enc_length.
  rewrite le_dec_enc_small by exact Hw. now rewrite IH.
Qed.
Lemma u32s_nlen ws : nlen (u32s ws) = 4 * nlen ws.
Proof.
  induction ws as [|w t IH]; [reflexivity|]. cbn [u32s flat_map]. fold (u32s t).
  rewrite nlen_app, nlen_cons, IH. unfold nlen at 1. rewrite le_enc_length. lia.
Qed.
Lemma map_mod_id ws : Forall (fun x => x < U32) ws -> map (fun p => p mod U32) ws = ws.
Proof. induction 1 as [|x t Hx _ IH]; [reflexivity|]. cbn [map]. rewrite IH, N.mod_small by exact Hx. reflexivity. Qed.

Lemma pkt_params tag flags n ps : Forall (fun x => x < U32) ps -> n = nlen ps ->
  let pkt := tag :: flags :: 0 :: n :: u32s ps in
  (4 + 4 * n <=? nlen pkt) = true /\ words (N.to_nat n) (skipn 4 pkt) = ps.
Proof.
  intros H -> pkt. split.
  - apply N.leb_le. unfold pkt. rewrite !nlen_cons, u32s_nlen. lia.
  - unfold pkt. cbn [skipn]. rewrite nlen_to_nat, <- (app_nil_r (u32s ps)). apply words_u32s, H.
Qed.
Lemma pkt_nlen tag flags n ps : nlen (tag :: flags :: 0 :: n :: u32s ps) = 4 + 4 * nlen ps.
Proof. rewrite !nlen_cons, u32s_nlen. lia. Qed.
Lemma pkt_bytes_small tag flags ps : Forall (fun x => x < U32) ps -> nlen ps < 256 ->
  pkt_bytes (tag, flags, ps) = ROk (tag :: flags :: 0 :: nlen ps :: u32s ps).
Proof.
  intros Hf Hn. unfold pkt_bytes. fold U32.
  replace (existsb (fun x => U32 <=? x) ps) with false.
  - replace (256 <=? nlen ps) with false by (symmetry; apply N.leb_gt; exact Hn). reflexivity.
  - symmetry. clear Hn. induction Hf as [|x t Hx _ IH]; [reflexivity|]. cbn [existsb]. rewrite IH.
    replace (U32 <=? x) with false by (symmetry; apply N.leb_gt; exact Hx). reflexivity.
Qed.

Definition generic_resp (st tag : N) : resp := mkResp 1 RT_GENERIC st tag [] [].

(* a response packet of the device parses back, for every row of the extracted shape table that its parameter count fits:
   status, second word, the values after the fixed ones, the data of a read-once response *)
Lemma parse_response tagr st rest cls kind nfix nb star snd_ :
  let ps := st :: rest in
  Forall (fun x => x < U32) ps -> assocd tagr known_response 0 = cls -> assoc cls response_shape = Some (kind, nfix, nb, star, snd_) ->
  (if kind =? 0 then nfix else nlen ps) = nlen ps -> (if star =? 1 then nlen ps <? nb else negb (nlen ps =? nb)) = false ->
  parse_cmd_response (response tagr ps) =
  let sec := if 2 <=? nb then nth 1 ps 0 else 0 in
  ROk (mkResp cls tagr st sec (if star =? 1 then skipn (N.to_nat nb) ps else [])
         (if (cls =? 4) && (0 <? sec) then firstnN sec (skipn 8 (u32s ps)) else [])).
Proof.
  intros ps Hall Hcls Hshape Hnw Hnb. unfold parse_cmd_response, response. fold U32.
  rewrite map_mod_id by exact Hall. set (raw := u32s ps).
  assert (Hraw : nlen raw = 4 * nlen ps) by apply u32s_nlen.
  assert (Hps : 1 <= nlen ps) by (unfold ps; rewrite nlen_cons; lia).
  replace (nlen (tagr :: 0 :: 0 :: nlen ps :: raw) <? CMD_HEADER_SIZE) with false
    by (symmetry; apply N.ltb_ge; rewrite !nlen_cons; unfold CMD_HEADER_SIZE; lia).
  cbn [nth]. assert (S4 : forall (a b c d : N) l, skipn 4 (a :: b :: c :: d :: l) = l) by reflexivity. rewrite S4.
  replace (nlen raw <? 4) with false by (symmetry; apply N.ltb_ge; lia).
  rewrite Hcls, Hshape, Hnw, Hraw, N.eqb_refl, N.ltb_irrefl. cbn [negb].
  replace (if kind =? 2 then false else false) with false by (destruct (kind =? 2); reflexivity).
  assert (W : words (N.to_nat (nlen ps)) raw = ps).
  { unfold raw. rewrite nlen_to_nat, <- (app_nil_r (u32s ps)). apply words_u32s. exact Hall. }
  rewrite W, Hnb.
  replace (le_dec (firstn 4 raw)) with st; [reflexivity|].
  unfold raw, ps. cbn [u32s flat_map]. rewrite (firstn_app_exact (le_enc 4 st)) by apply le_enc_length.
  inversion Hall. now rewrite le_dec_enc_small.
Qed.

Lemma parse_two tagr cls st x (Hcls : assocd tagr known_response 0 = cls)
      (Hshape : assoc cls response_shape = Some (0, 2, 2, 0, (if cls =? 1 then 1 else 2))) (Hc4 : (cls =? 4) = false) :
  st < U32 -> x < U32 -> parse_cmd_response (response tagr [st; x]) = ROk (mkResp cls tagr st x [] []).
Proof.
  intros Hs Hx. rewrite (parse_response tagr st [x] cls _ _ _ _ _ ltac:(repeat constructor; assumption) Hcls Hshape eq_refl eq_refl).
  cbv zeta. rewrite Hc4. reflexivity.
Qed.

Lemma parse_generic st tag : st < U32 -> tag < U32 -> parse_cmd_response (generic st tag) = ROk (generic_resp st tag).
Proof. intros. unfold generic, generic_resp. apply (parse_two RT_GENERIC 1); auto. Qed.

Lemma response_nlen t ps : nlen (response t ps) = 4 + 4 * nlen ps.
Proof. unfold response. rewrite pkt_nlen. unfold nlen. rewrite map_length. reflexivity. Qed.
Lemma generic_nlen st tag : nlen (generic st tag) = 12.
Proof. apply response_nlen. Qed.
Lemma response_nonempty t ps : response t ps <> [].
Proof. discriminate. Qed.

Definition ph_add (ph : phase) (d : list N) : phase :=
  mkPhase (ph_tag ph) (ph_expected ph) (ph_buf ph ++ d) (ph_kind ph) (ph_arg ph) (ph_fin ph).
Definition with_phase (c : dcore) (ph : phase) : dcore :=
  upd_core c (dc_mem c) (dc_props c) (dc_fuses c) (Some ph) (dc_cmds c).
Lemma phase_done_with c ph1 ph2 : phase_done (with_phase c ph1) ph2 = phase_done c ph2.
Proof. destruct c. reflexivity. Qed.
Lemma with_phase_phase c ph : dc_phase (with_phase c ph) = Some ph.
Proof. reflexivity. Qed.
Lemma ph_add_add ph a b : ph_add (ph_add ph a) b = ph_add ph (a ++ b).
Proof. unfold ph_add. cbn. now rewrite app_assoc. Qed.
Lemma phase_done_mps c ph : dc_mps (phase_done c ph) = dc_mps c.
Proof.
  unfold phase_done. destruct (negb (ph_fin ph =? S_OK)); [reflexivity|]. destruct (ph_kind ph =? 0); [reflexivity|].
  destruct (ph_kind ph =? 1); [reflexivity|]. destruct (ph_kind ph =? 2); reflexivity.
Qed.
Lemma dev_zero_phase_open c : match dc_phase c with Some ph => ph_expected ph <> 0 | None => True end -> dev_zero_phase c = (c, None).
Proof.
  unfold dev_zero_phase. destruct (dc_phase c) as [ph|]; [|reflexivity].
  intros H. destruct (ph_expected ph =? 0) eqn:E; [apply N.eqb_eq in E; contradiction|reflexivity].
Qed.

Definition log_cmd (c : dcore) (e : N * N * list N) : dcore :=
  upd_core c (dc_mem c) (dc_props c) (dc_fuses c) (dc_phase c) (e :: dc_cmds c).
Definition no_faults (c : dcore) : Prop := dc_fail_cmd c = [] /\ dc_fail_final c = [].

(* a byte string the transport carries in one frame / report *)
Definition cok (maxc : N) (b : list N) : Prop := b <> [] /\ nlen b <= maxc.
Lemma cok_chunks maxc m (data : list N) : 0 < m -> m <= maxc -> Forall (cok maxc) (chunksN m data).
Proof.
  intros H0 H1. destruct (chunksN_spec m data H0) as [_ F]. eapply Forall_impl; [|exact F].
  intros ch [Hne Hl]. split; [exact Hne|lia].
Qed.

(* a well-formed command packet whose effect on the device core is known, as the transport lemmas want it: the bytes, that
   they fit a frame, and the four components of the device's reaction (no zero-length phase completes at once) *)
Lemma pkt_cmd maxc c tag flags ps c1 first din :
  Forall (fun x => x < U32) ps -> nlen ps < 256 -> 4 + 4 * nlen ps <= maxc ->
  let b := tag :: flags :: 0 :: nlen ps :: u32s ps in
  dev_command c b = (c1, first, din) -> match dc_phase c1 with Some ph => ph_expected ph <> 0 | None => True end ->
  pkt_bytes (tag, flags, ps) = ROk b /\ cok maxc b /\ cmd_core c b = c1 /\ cmd_first c b = first /\
  snd (dev_zero_phase (fst (fst (dev_command c b)))) = None /\ snd (dev_command c b) = din.
Proof.
  intros Hps Hn Hl b Hd Hph. split; [apply pkt_bytes_small; assumption|]. split; [split; [discriminate|unfold b; rewrite pkt_nlen; exact Hl]|].
  unfold cmd_core, cmd_first. rewrite Hd. cbn [fst snd]. rewrite (dev_zero_phase_open c1 Hph). auto.
Qed.

(* the device core on a well-formed command packet whose tag is a literal: decode the parameter words, drop the (empty)
   fault tables; what remains is the cascade of tag tests, which conversion decides *)
Ltac core_eval Hnf :=
  match goal with |- dev_command _ (?t :: ?f :: 0 :: ?n :: u32s ?ps) = _ =>
    assert (Hps : Forall (fun x => x < U32) ps) by (repeat constructor; first [assumption | reflexivity]);
    destruct (pkt_params t f n ps Hps eq_refl) as [H1 H2]; destruct Hnf as [Hfc Hff];
    unfold dev_command; cbv zeta in H1, H2; cbn [nth]; rewrite H1, H2;
    cbn [nth upd_core dc_fail_cmd dc_fail_final]; rewrite Hfc, Hff; cbn [assoc assocd]
  end.

Lemma dev_command_write c a l : no_faults c -> a < U32 -> l < U32 -> in_range c a l = true ->
  dev_command c (CT_WRITE_MEMORY :: CF_HAS_DATA_PHASE :: 0 :: 3 :: u32s [a; l; 0]) =
  (with_phase (log_cmd c (CT_WRITE_MEMORY, CF_HAS_DATA_PHASE, [a; l; 0])) (mkPhase CT_WRITE_MEMORY l [] 0 a S_OK), generic S_OK CT_WRITE_MEMORY, None).
Proof.
  intros Hnf Ha Hl Hr. core_eval Hnf. change (in_range _ a l) with (in_range c a l). rewrite Hr. reflexivity.
Qed.

Lemma dev_command_read c a l : no_faults c -> a < U32 -> l < U32 -> in_range c a l = true ->
  dev_command c (CT_READ_MEMORY :: CF_NONE :: 0 :: 3 :: u32s [a; l; 0]) =
  (log_cmd c (CT_READ_MEMORY, CF_NONE, [a; l; 0]), response RT_READ_MEMORY [S_OK; l], Some (mem_get c a l, (CT_READ_MEMORY, S_OK))).
Proof.
  intros Hnf Ha Hl Hr. core_eval Hnf. change (in_range _ a l) with (in_range c a l). rewrite Hr. reflexivity.
Qed.

(* `live c items e`: the device core is c, it is waiting for the host, `items` are still to be delivered, nothing else.
   A transport is in lock step with the device when each of the three interface operations does exactly its part:
   a command is consumed, answered, and leaves what the core queued; a read delivers the next queued item; a data
   packet is consumed and leaves the final response when it completes the phase. *)
Record lockstep {LE : Type} (LI : iface LE) (live : dcore -> list litem -> LE -> Prop) (maxc : N) : Prop := {
  ls_cmd : forall c b e, live c [] e -> cok maxc b -> cok maxc (cmd_first c b) ->
    exists e', (i_write_command LI b ;;; i_read LI) e = parse_rx (cmd_first c b) e' /\ live (cmd_core c b) (cmd_items c b) e';
  ls_read : forall c it its e, live c (it :: its) e -> cok maxc (payload it) ->
    exists e', i_read LI e = (match it with LData ch => mret (RxData ch) | LResp r => parse_rx r end) e' /\ live c its e';
  ls_write : forall c ch e, live c [] e -> cok maxc ch ->
    exists e', i_write_data LI false ch e = (ROk tt, e') /\ live (fst (dev_data_out c ch)) (fin_items (snd (dev_data_out c ch))) e' }.

Section LockStep.
  Variable LE : Type.
  Variable LI : iface LE.
  Variable ce : bool.
  Variable live : dcore -> list litem -> LE -> Prop.
  Variable maxc : N.
  Hypothesis maxc_ge : 12 <= maxc.
  Hypothesis LS : lockstep LI live maxc.

  Lemma cok_generic st tag : cok maxc (generic st tag).
  Proof. split; [discriminate|rewrite generic_nlen; exact maxc_ge]. Qed.

  Lemma process_cmd_ls c b p rs st mps e :
    live c [] e -> pkt_bytes p = ROk b -> cok maxc b -> cok maxc (cmd_first c b) -> parse_cmd_response (cmd_first c b) = ROk rs ->
    exists e', process_cmd LE LI ce p (mkMbs LE st mps e) = finish_cmd LE ce rs (mkMbs LE st mps e') /\
               live (cmd_core c b) (cmd_items c b) e'.
  Proof.
    intros Hl Hb Hcb Hcf Hp. destruct (ls_cmd _ _ _ LS c b e Hl Hcb Hcf) as (e' & X & L). exists e'. split; [|exact L].
    unfold process_cmd, lift. cbn [mb_env]. rewrite Hb. unfold mlift. unfold mbind at 1.
    unfold mbind in X |- *. rewrite X. unfold parse_rx. rewrite Hp. reflexivity.
  Qed.

  (* the receive loop of _read_data: every queued chunk is read and appended; the generic response for this command
     ends the loop *)
  Lemma read_loop_ls fin tag : fin < U32 -> tag < U32 -> forall chunks acc fuel c st mps e,
    Forall (cok maxc) chunks -> (length chunks < fuel)%nat -> live c (map LData chunks ++ [LResp (generic fin tag)]) e ->
    exists e', read_data_loop LE LI tag fuel acc (mkMbs LE st mps e) =
               (ROk (concat (rev acc) ++ concat chunks, generic_resp fin tag), mkMbs LE fin mps e') /\ live c [] e'.
  Proof.
    intros Hf Ht. induction chunks as [|ch t IH]; intros acc fuel c st mps e Hc Hfu Hl;
      (destruct fuel as [|f]; [inversion Hfu|]); cbn [map app] in Hl.
    - destruct (ls_read _ _ _ LS _ _ _ _ Hl (cok_generic fin tag)) as (e' & R & L). exists e'. split; [|exact L].
      cbn [read_data_loop]. unfold lift. cbn [mb_env]. rewrite R. unfold parse_rx. rewrite parse_generic by assumption.
      unfold mret, set_env. cbn [mb_status mb_mps mb_env]. unfold generic_resp at 1. cbn [r_cls]. change (1 =? 1) with true. cbv iota.
      unfold mbind, put_status. cbn [r_second generic_resp r_status set_status mb_mps mb_env mb_status]. rewrite N.eqb_refl.
      unfold mret. cbn [concat]. rewrite (app_nil_r (concat (rev acc))). reflexivity.
    - inversion Hc as [|? ? Hch Ht']; subst. destruct (ls_read _ _ _ LS _ _ _ _ Hl Hch) as (e1 & R & L1).
      destruct (IH (ch :: acc) f c st mps e1 Ht' ltac:(simpl in Hfu; lia) L1) as (e' & R' & L). exists e'. split; [|exact L].
      cbn [read_data_loop]. unfold lift. cbn [mb_env]. rewrite R. unfold mret, set_env. cbn [mb_status mb_mps]. rewrite R'.
      cbn [rev concat]. rewrite concat_app. cbn [concat]. rewrite app_nil_r, <- app_assoc. reflexivity.
  Qed.

  (* the outgoing data phase: the device collects exactly the chunks, in order, each once, and completes the phase
     with the last one *)
  Lemma write_chunks_ls : forall chunks c ph e,
    Forall (cok maxc) chunks -> chunks <> [] -> dc_phase c = Some ph ->
    ph_expected ph = nlen (ph_buf ph) + nlen (concat chunks) -> live c [] e ->
    exists e', write_chunks LE LI false chunks e = (ROk tt, e') /\
               live (phase_done c (ph_add ph (concat chunks))) [LResp (generic (ph_fin ph) (ph_tag ph))] e'.
  Proof.
    induction chunks as [|ch t IH]; intros c ph e Hc Hne Hph Hex Hl; [contradiction|].
    inversion Hc as [|? ? Hch Ht]; subst. destruct (ls_write _ _ _ LS c ch e Hl Hch) as (e1 & W & L1).
    cbn [write_chunks]. unfold mbind. rewrite W.
    unfold dev_data_out in L1. rewrite Hph in L1. fold (ph_add ph ch) in L1.
    cbn [concat] in Hex. rewrite nlen_app in Hex.
    destruct t as [|ch2 t].
    - cbn [concat] in *. rewrite app_nil_r in *. change (nlen []) with 0 in Hex.
      replace (ph_expected ph <=? nlen (ph_buf (ph_add ph ch))) with true in L1
        by (symmetry; apply N.leb_le; cbn [ph_add ph_buf]; rewrite nlen_app; lia).
      exists e1. split; [reflexivity|exact L1].
    - inversion Ht as [|? ? [Hne2 Hl2] Ht2]; subst.
      assert (Hpos : 0 < nlen (concat (ch2 :: t))).
      { cbn [concat]. rewrite nlen_app. destruct ch2; [contradiction|]. rewrite nlen_cons. lia. }
      replace (ph_expected ph <=? nlen (ph_buf (ph_add ph ch))) with false in L1
        by (symmetry; apply N.leb_gt; cbn [ph_add ph_buf]; rewrite nlen_app; lia).
      cbn [fst snd fin_items] in L1. fold (with_phase c (ph_add ph ch)) in L1.
      destruct (IH (with_phase c (ph_add ph ch)) (ph_add ph ch) e1 Ht ltac:(discriminate) (with_phase_phase _ _)) as (e' & W' & L);
        [cbn [ph_add ph_expected ph_buf]; rewrite nlen_app; lia|exact L1|].
      exists e'. split; [exact W'|]. rewrite phase_done_with, ph_add_add in L. exact L.
  Qed.

  (* _send_data in an outgoing data phase *)
  Lemma send_data_ls tag chunks c ph st mps e :
    tag <> CT_NO_COMMAND -> Forall (cok maxc) chunks -> chunks <> [] -> dc_phase c = Some ph ->
    ph_expected ph = nlen (ph_buf ph) + nlen (concat chunks) -> ph_fin ph = S_OK -> ph_tag ph < U32 -> live c [] e ->
    exists e', send_data LE LI ce false tag chunks (mkMbs LE st mps e) = (ROk true, mkMbs LE SC_SUCCESS mps e') /\
               live (phase_done c (ph_add ph (concat chunks))) [] e'.
  Proof.
    intros Ht Hc Hne Hph Hex Hfin Hpt Hl. destruct (write_chunks_ls chunks c ph e Hc Hne Hph Hex Hl) as (e1 & W & L1).
    destruct (ls_read _ _ _ LS _ _ _ _ L1 (cok_generic _ _)) as (e' & R & L). exists e'. split; [|exact L].
    unfold send_data. destruct (tag =? CT_NO_COMMAND) eqn:E; [apply N.eqb_eq in E; contradiction|]. cbn [negb].
    unfold lift at 1. cbn [mb_env]. rewrite W. unfold set_env at 1. cbn [mb_status mb_mps]. unfold lift. cbn [mb_env]. rewrite R.
    unfold parse_rx. rewrite Hfin. rewrite parse_generic by (first [reflexivity|assumption]).
    unfold mret, set_env. cbn [mb_status mb_mps].
    unfold mbind, put_status, generic_resp. cbn [r_status set_status mb_mps mb_env]. change (negb (S_OK =? SC_SUCCESS)) with false.
    reflexivity.
  Qed.

  (* command + outgoing data phase (write_memory, receive_sb_file, kp_set_user_key, kp_write_key_store): the device core
     accepted the command (generic SUCCESS) and opened a phase expecting exactly the data *)
  Lemma cmd_data_out_ls c p b data ph st e :
    live c [] e -> pkt_bytes p = ROk b -> cok maxc b -> cok maxc (cmd_first c b) ->
    parse_cmd_response (cmd_first c b) = ROk (generic_resp S_OK (pkt_tag p)) -> cmd_items c b = [] -> 0 < dc_mps c -> dc_mps c <= maxc -> data <> [] -> pkt_tag p <> CT_NO_COMMAND ->
    dc_phase (cmd_core c b) = Some ph -> ph_expected ph = nlen data -> ph_buf ph = [] -> ph_fin ph = S_OK -> ph_tag ph < U32 ->
    exists e', cmd_data_out LE LI ce false p data (mkMbs LE st (Some (dc_mps c)) e) =
               (ROk (AVBool true), mkMbs LE SC_SUCCESS (Some (dc_mps c)) e') /\
               live (phase_done (cmd_core c b) (ph_add ph data)) [] e'.
  Proof.
    intros Hl Hb Hcb Hcf Hp Hq Hm0 Hm1 Hne Htag Hph Hex Hbuf Hfin Hpt.
    destruct (process_cmd_ls c b p _ st (Some (dc_mps c)) e Hl Hb Hcb Hcf Hp) as (e1 & P & L). rewrite Hq in L. destruct (chunksN_spec (dc_mps c) data Hm0) as [Hc Hfa].
    destruct (send_data_ls (pkt_tag p) (chunksN (dc_mps c) data) (cmd_core c b) ph S_OK (Some (dc_mps c)) e1) as (e2 & S & L2); try assumption.
    - apply cok_chunks; assumption.
    - intros Hn. rewrite Hn in Hc. simpl in Hc. now subst data.
    - rewrite Hc, Hbuf, Hex. reflexivity.
    - exists e2. rewrite Hc in L2. split; [|exact L2].
      unfold cmd_data_out. unfold mbind at 1. unfold split_data. change NEED_DATA_SPLIT with true. cbv iota.
      unfold mbind at 1. unfold get_max_packet_size. cbn [mb_mps].
      destruct (dc_mps c =? 0) eqn:E0; [apply N.eqb_eq in E0; lia|]. unfold mret. unfold mbind at 1. rewrite P.
      unfold finish_cmd, generic_resp. cbn [r_status set_status mb_status mb_mps mb_env].
      change (negb (S_OK =? SC_SUCCESS)) with false. rewrite andb_false_r. unfold is_success. cbn [r_status].
      change (S_OK =? SC_SUCCESS) with true. cbv iota. unfold set_status. cbn [mb_status mb_mps mb_env]. unfold mbind at 1. rewrite S. reflexivity.
  Qed.

  (* command + typed response announcing the length + incoming data phase (read_memory, kp_read_key_store, ...) *)
  Lemma cmd_data_in_ls fuel c p b cls rt data st mps e :
    live c [] e -> pkt_bytes p = ROk b -> cok maxc b -> cok maxc (cmd_first c b) ->
    parse_cmd_response (cmd_first c b) = ROk (mkResp cls rt S_OK (nlen data) [] []) ->
    cmd_items c b = din_items (cmd_core c b) (Some (data, (pkt_tag p, S_OK))) -> pkt_tag p < U32 ->
    0 < dc_mps (cmd_core c b) -> dc_mps (cmd_core c b) <= maxc ->
    (length (chunksN (dc_mps (cmd_core c b)) data) < fuel)%nat ->
    exists e', cmd_data_in LE LI ce fuel p cls (mkMbs LE st mps e) = (ROk (AVBytes data), mkMbs LE SC_SUCCESS mps e') /\
               live (cmd_core c b) [] e'.
  Proof.
    intros Hl Hb Hcb Hcf Hp Hq Hpt Hm0 Hm1 Hfu.
    destruct (process_cmd_ls c b p _ st mps e Hl Hb Hcb Hcf Hp) as (e1 & P & L). rewrite Hq in L. cbn [din_items] in L.
    destruct (chunksN_spec (dc_mps (cmd_core c b)) data Hm0) as [Hc _].
    destruct (read_loop_ls S_OK (pkt_tag p) ltac:(reflexivity) Hpt (chunksN (dc_mps (cmd_core c b)) data) [] fuel (cmd_core c b) S_OK mps e1)
      as (e2 & R & L2); [apply cok_chunks; assumption|exact Hfu|exact L|].
    exists e2. split; [|exact L2]. unfold cmd_data_in. unfold mbind at 1. rewrite P.
    unfold finish_cmd. cbn [r_status set_status mb_status mb_mps mb_env].
    change (negb (S_OK =? SC_SUCCESS)) with false. rewrite andb_false_r. unfold is_success. cbn [r_status r_cls r_second].
    change (S_OK =? SC_SUCCESS) with true. cbv iota. rewrite N.eqb_refl.
    unfold set_status. cbn [mb_status mb_mps mb_env]. unfold mbind at 1. unfold read_data. unfold mbind at 1. rewrite R. cbn [concat rev app]. rewrite Hc.
    unfold mbind at 1. unfold get_status. cbn [mb_status fst snd]. rewrite N.ltb_irrefl. change (negb (S_OK =? SC_SUCCESS)) with false.
    cbn [orb]. unfold mret. rewrite firstnN_all. reflexivity.
  Qed.
End LockStep.

Section Live.
  Notation LE := (senv sdev).
  Notation LI := (serial_iface sdev sdev_recv).

  Definition live_env (c : dcore) (q : list (list N)) (i : list N) (out cons : list (list N)) : LE :=
    mkSenv sdev (mkSdev c q) i out cons.
  (* one frame in flight, the rest in the device's queue *)
  Definition live_serial (c : dcore) (items : list litem) (e : LE) : Prop :=
    exists out cons, e = live_env c (tl (map frame_of items)) (hd [] (map frame_of items)) out cons.

  (* the host's ACK releases the next queued frame *)
  Lemma after_ack_sdev c q out cons :
    after_ack sdev sdev_recv (mkSdev c q) [] out cons = live_env c (tl q) (hd [] q) (ACK_BYTES :: out) cons.
  Proof. unfold after_ack. rewrite sdev_recv_ack. reflexivity. Qed.

  Lemma serial_lockstep : lockstep LI live_serial 65535.
  Proof.
    split.
    - intros c b e (out & cons & ->) [Hb Hl] [Hf Hfl]. cbn [map hd tl i_write_command i_read serial_iface].
      unfold mbind at 1. unfold s_write_command, live_env.
      rewrite (send_frame_acked sdev sdev_recv FP_CMD b _ _ _ _ _ ltac:(lia) (sdev_recv_cmd c [] b Hb ltac:(lia))).
      rewrite <- (app_nil_r (mk_frame FP_CMD (cmd_first c b))).
      rewrite (s_read_frame sdev sdev_recv FP_CMD (cmd_first c b) []) by (first [discriminate | assumption | lia]).
      cbv zeta. change (FP_CMD =? FP_CMD) with true. cbv iota. rewrite after_ack_sdev.
      eexists. split; [reflexivity|]. eexists. eexists. reflexivity.
    - intros c it its e (out & cons & ->) [Hne Hl]. cbn [map hd tl i_read serial_iface]. unfold live_env at 1.
      rewrite <- (app_nil_r (frame_of it)).
      destruct it as [ch|r]; cbn [frame_of payload] in *;
        (rewrite s_read_frame by (first [discriminate | assumption | lia])); cbv zeta;
        [change (FP_DATA =? FP_CMD) with false|change (FP_CMD =? FP_CMD) with true]; cbv iota; rewrite after_ack_sdev;
        (eexists; split; [reflexivity|]; eexists; eexists; reflexivity).
    - intros c ch e (out & cons & ->) [Hne Hl]. cbn [map hd tl i_write_data serial_iface].
      unfold s_write_data, live_env.
      rewrite (send_frame_acked sdev sdev_recv FP_DATA ch _ _ _ _ _ ltac:(lia) (sdev_recv_data c [] ch Hne ltac:(lia))).
      eexists. split; [reflexivity|]. eexists. eexists.
      destruct (snd (dev_data_out c ch)); reflexivity.
  Qed.

  Definition wf_dev (c : dcore) : Prop :=
    no_faults c /\ dc_phase c = None /\ 0 < dc_mps c /\ dc_mps c < 65536 /\ dc_base c + nlen (dc_mem c) <= U32.
  Definition idle (st : N) (c : dcore) (out cons : list (list N)) : mbs LE :=
    mkMbs LE st (Some (dc_mps c)) (live_env c [] [] out cons).

  (* the device after a successful write_memory(a, data) *)
  Definition write_ph (a : N) (data : list N) : phase := mkPhase CT_WRITE_MEMORY (nlen data) [] 0 a S_OK.
  Definition after_write (c : dcore) (a : N) (data : list N) : dcore :=
    phase_done (with_phase (log_cmd c (CT_WRITE_MEMORY, CF_HAS_DATA_PHASE, [a; nlen data; 0])) (write_ph a data))
               (ph_add (write_ph a data) data).
  Definition after_read (c : dcore) (a l : N) : dcore := log_cmd c (CT_READ_MEMORY, CF_NONE, [a; l; 0]).

  (* FAULTFREE, write: the bytes reach the device memory once, in order; True is returned, status_code is SUCCESS *)
  Lemma write_memory_live ce fuel c a data st out cons :
    wf_dev c -> a < U32 -> nlen data < U32 -> data <> [] -> in_range c a (nlen data) = true ->
    exists out' cons',
    api LE LI ce fuel (Call 4 [a; 0] data) (idle st c out cons) =
    (ROk (AVBool true), idle SC_SUCCESS (after_write c a data) out' cons').
  Proof.
    intros (Hnf & Hph & Hm0 & Hm1 & Hsz) Ha Hl Hne Hr.
    destruct (pkt_cmd 65535 c CT_WRITE_MEMORY CF_HAS_DATA_PHASE [a; nlen data; 0] _ _ _ ltac:(repeat constructor; first [assumption|reflexivity])
                eq_refl ltac:(cbn; lia) (dev_command_write c a (nlen data) Hnf Ha Hl Hr)) as (Hb & Hcb & Hcore & Hfirst & Hz & Hd).
    { rewrite with_phase_phase. intros E. apply nlen_0 in E. contradiction. }
    pose proof (cmd_items_open _ _ Hz) as Hq. rewrite Hd in Hq.
    assert (Hf : cok 65535 (generic S_OK CT_WRITE_MEMORY)) by (split; [discriminate|rewrite generic_nlen; lia]).
    pose proof (parse_generic S_OK CT_WRITE_MEMORY eq_refl eq_refl) as Hp. rewrite <- Hfirst in Hf, Hp.
    destruct (cmd_data_out_ls LE LI ce live_serial 65535 ltac:(lia) serial_lockstep c _ _ data (write_ph a data) st
                (live_env c [] [] out cons) ltac:(exists out, cons; reflexivity) Hb Hcb Hf Hp Hq Hm0 ltac:(lia) Hne ltac:(discriminate)
                (f_equal dc_phase Hcore) eq_refl eq_refl eq_refl eq_refl) as (e' & R & (o2 & c2 & ->)).
    exists o2, c2. unfold api, idle, pkt_write_memory. cbn [nth]. change (clamp_down_memory_id 0) with 0.
    rewrite R, Hcore. unfold after_write. rewrite phase_done_mps. reflexivity.
  Qed.

  Lemma mem_get_nlen c a l : in_range c a l = true -> nlen (mem_get c a l) = l.
  Proof.
    unfold in_range, mem_get. intros H. apply andb_true_iff in H. destruct H as [H1 H2].
    apply N.leb_le in H1, H2. apply nlen_firstnN. rewrite skipnN_skipn. unfold nlen in *. rewrite skipn_length. lia.
  Qed.

  (* FAULTFREE, read: the bytes returned are exactly the device's memory bytes, completely *)
  Lemma read_memory_live ce fuel c a l st out cons :
    wf_dev c -> a < U32 -> l < U32 -> in_range c a l = true ->
    (length (chunksN (dc_mps c) (mem_get c a l)) < fuel)%nat ->
    exists out' cons',
    api LE LI ce fuel (Call 3 [a; l; 0] []) (idle st c out cons) =
    (ROk (AVBytes (mem_get c a l)), idle SC_SUCCESS (after_read c a l) out' cons').
  Proof.
    intros (Hnf & Hph & Hm0 & Hm1 & Hsz) Ha Hl Hr Hfuel.
    destruct (pkt_cmd 65535 c CT_READ_MEMORY CF_NONE [a; l; 0] _ _ _ ltac:(repeat constructor; first [assumption|reflexivity])
                eq_refl ltac:(cbn; lia) (dev_command_read c a l Hnf Ha Hl Hr)) as (Hb & Hcb & Hcore & Hfirst & Hz & Hd).
    { change (dc_phase (log_cmd c _)) with (dc_phase c). rewrite Hph. exact I. }
    pose proof (cmd_items_open _ _ Hz) as Hq. rewrite Hd in Hq.
    assert (Hf : cok 65535 (response RT_READ_MEMORY [S_OK; l])) by (split; [discriminate|rewrite response_nlen; cbn; lia]).
    pose proof (parse_two RT_READ_MEMORY 3 S_OK l eq_refl eq_refl eq_refl eq_refl Hl) as Hp.
    rewrite <- (mem_get_nlen c a l Hr) in Hp at 2. rewrite <- Hfirst in Hf, Hp.
    destruct (cmd_data_in_ls LE LI ce live_serial 65535 ltac:(lia) serial_lockstep fuel c _ _ 3 RT_READ_MEMORY (mem_get c a l) st
                (Some (dc_mps c)) (live_env c [] [] out cons) ltac:(exists out, cons; reflexivity) Hb Hcb Hf Hp Hq eq_refl)
      as (e' & R & (o2 & c2 & ->)); rewrite ?Hcore; change (dc_mps (log_cmd c _)) with (dc_mps c); [assumption|lia|assumption|].
    exists o2, c2. unfold api, idle, read_memory, pkt_read_memory. cbn [nth i_usb serial_iface andb].
    change (clamp_down_memory_id 0) with 0. rewrite R, Hcore. reflexivity.
  Qed.

  Lemma mem_put_nlen c a d : in_range c a (nlen d) = true -> nlen (mem_put c a d) = nlen (dc_mem c).
  Proof.
    unfold in_range, mem_put. intros H. apply andb_true_iff in H. destruct H as [H1 H2]. apply N.leb_le in H1, H2.
    rewrite !nlen_app, firstnN_firstn, skipnN_skipn. unfold nlen in *. rewrite firstn_length, skipn_length. lia.
  Qed.

  (* the abstract effect of a successful write: the bytes are spliced into the device memory at `a`, the command is
     logged, nothing else changes *)
  Lemma after_write_eq c a d :
    after_write c a d =
    mkCore (dc_base c) (mem_put c a d) (dc_mps c) (dc_props c) (dc_fuses c) (dc_keystore c) (dc_fail_cmd c) (dc_fail_final c)
           (dc_sb c) (dc_images c) (dc_userkeys c) None ((CT_WRITE_MEMORY, CF_HAS_DATA_PHASE, [a; nlen d; 0]) :: dc_cmds c).
  Proof.
    unfold after_write. rewrite phase_done_with. unfold phase_done, write_ph, ph_add. cbn [ph_fin ph_kind ph_arg ph_expected ph_buf app].
    rewrite firstnN_all. destruct c; reflexivity.
  Qed.
  Lemma after_write_mem c a d : dc_mem (after_write c a d) = mem_put c a d.
  Proof. rewrite after_write_eq. reflexivity. Qed.
  Lemma after_write_frame c a d :
    dc_base (after_write c a d) = dc_base c /\ dc_mps (after_write c a d) = dc_mps c /\ dc_props (after_write c a d) = dc_props c /\
    dc_fuses (after_write c a d) = dc_fuses c /\ dc_phase (after_write c a d) = None /\
    dc_fail_cmd (after_write c a d) = dc_fail_cmd c /\ dc_fail_final (after_write c a d) = dc_fail_final c /\
    dc_cmds (after_write c a d) = (CT_WRITE_MEMORY, CF_HAS_DATA_PHASE, [a; nlen d; 0]) :: dc_cmds c.
  Proof. rewrite after_write_eq. repeat split. Qed.

  Lemma wf_after_write c a d : wf_dev c -> in_range c a (nlen d) = true -> wf_dev (after_write c a d).
  Proof.
    intros ((Hf1 & Hf2) & Hph & Hm0 & Hm1 & Hsz) Hr.
    destruct (after_write_frame c a d) as (Eb & Em & _ & _ & Ep & Ec & Ef & _).
    unfold wf_dev, no_faults. rewrite Eb, Em, Ep, Ec, Ef, after_write_mem, mem_put_nlen by exact Hr. auto 10.
  Qed.

  Inductive wr : Type := W (a : N) (data : list N) | R (a l : N).
  Definition wr_call (x : wr) : call :=
    match x with W a d => Call 4 [a; 0] d | R a l => Call 3 [a; l; 0] [] end.
  Definition wr_ok (fuel : nat) (c : dcore) (x : wr) : Prop :=
    match x with
    | W a d => a < U32 /\ nlen d < U32 /\ d <> [] /\ in_range c a (nlen d) = true
    | R a l => a < U32 /\ l < U32 /\ in_range c a l = true /\ (length (chunksN (dc_mps c) (mem_get c a l)) < fuel)%nat
    end.
  (* SPEC: what the protocol defines, with no transport at all *)
  Definition spec_dev (c : dcore) (x : wr) : dcore :=
    match x with W a d => after_write c a d | R a l => after_read c a l end.
  Definition spec_res (c : dcore) (x : wr) : result apival * N :=
    match x with W _ _ => (ROk (AVBool true), SC_SUCCESS) | R a l => (ROk (AVBytes (mem_get c a l)), SC_SUCCESS) end.
  Fixpoint spec_run (c : dcore) (xs : list wr) : list (result apival * N) * dcore :=
    match xs with [] => ([], c) | x :: t => let '(rs, c') := spec_run (spec_dev c x) t in (spec_res c x :: rs, c') end.
  Fixpoint all_ok (fuel : nat) (c : dcore) (xs : list wr) : Prop :=
    match xs with [] => True | x :: t => wr_ok fuel c x /\ all_ok fuel (spec_dev c x) t end.

  Lemma wr_call_live ce fuel c x st out cons : wf_dev c -> wr_ok fuel c x ->
    wf_dev (spec_dev c x) /\
    exists out' cons', api LE LI ce fuel (wr_call x) (idle st c out cons) = (fst (spec_res c x), idle SC_SUCCESS (spec_dev c x) out' cons').
  Proof.
    intros Hwf Hx. destruct x as [a d|a l]; cbn [wr_call wr_ok spec_dev spec_res fst] in *.
    - destruct Hx as (Ha & Hl & Hne & Hr). split; [apply wf_after_write; assumption|apply write_memory_live; assumption].
    - destruct Hx as (Ha & Hl & Hr & Hfu). split; [exact Hwf|apply read_memory_live; assumption].
  Qed.

  (* non-vacuity: a device and a call list that satisfy the hypotheses *)
  Example faultfree_instance :
    let c := mkCore 4096 (repeat 7 64) 8 [(11, [8])] [] [] [] [] [] [] [] None [] in
    wf_dev c /\ all_ok 100 c [W 4100 [1; 2; 3; 4; 5; 6; 7; 8; 9; 10; 11]; R 4098 20].
  Proof. vm_compute. repeat split; try discriminate; try reflexivity; try lia. Qed.
End Live.

Definition nohang {A} (r : result A) : Prop := match r with RExn XHang => False | _ => True end.
(* started with fewer than `fuel` units of unread input (counted by mu), m does not run out of fuel and does not make the
   unread input longer *)
Definition safe {S A} (mu : S -> nat) (fuel : nat) (m : M S A) : Prop :=
  forall s r s', (mu s < fuel)%nat -> m s = (r, s') -> nohang r /\ (mu s' <= mu s)%nat.

Section Safe.
  Context {S : Type} (mu : S -> nat) (fuel : nat).
  Lemma safe_lift {A} (r : result A) : nohang r -> safe mu fuel (mlift r).
  Proof. intros Hr s r' s' _ H. injection H as <- <-. split; [exact Hr|apply le_n]. Qed.
  Lemma safe_ret {A} (a : A) : safe mu fuel (mret a).
  Proof. exact (safe_lift (ROk a) I). Qed.
  Lemma safe_raise {A} x : x <> XHang -> safe mu fuel (@mraise S A x).
  Proof. intros Hx. apply (safe_lift (RExn x)). destruct x; try exact I. contradiction. Qed.
  Lemma safe_catch {A B} (m : M S A) (k : A -> M S B) (h : exn -> M S B) :
    safe mu fuel m -> (forall a, safe mu fuel (k a)) -> (forall x, x <> XHang -> safe mu fuel (h x)) -> safe mu fuel (mcatch m k h).
  Proof.
    intros Hm Hk Hh s r s' Hs H. unfold mcatch in H. destruct (m s) as [[a|x] s1] eqn:E; destruct (Hm _ _ _ Hs E) as [N L1].
    - destruct (Hk a s1 r s' ltac:(lia) H) as [N2 L2]. split; [exact N2|lia].
    - destruct (Hh x ltac:(intros ->; exact N) s1 r s' ltac:(lia) H) as [N2 L2]. split; [exact N2|lia].
  Qed.
  Lemma safe_bind {A B} (m : M S A) (f : A -> M S B) : safe mu fuel m -> (forall a, safe mu fuel (f a)) -> safe mu fuel (mbind m f).
  Proof. intros Hm Hf. exact (safe_catch m f mraise Hm Hf (fun x => safe_raise x)). Qed.
End Safe.

Section Terminates.
  Notation SE := (senv unit).
  Notation SI := (serial_iface unit null_recv).
  Definition availe (e : SE) : nat := length (se_in unit e).
  Lemma took_availe e e' bs : took unit e e' bs -> availe e = (length bs + availe e')%nat.
  Proof. intros (_ & H & _). unfold availe. rewrite H. apply app_length. Qed.

  Lemma sread_safe fuel n : safe availe fuel (sread unit n).
  Proof.
    intros e r e' _ H. apply sread_took in H. destruct r as [bs|x].
    - destruct H as (_ & _ & T). apply took_availe in T. split; [exact I|lia].
    - destruct H as [-> ->]. split; [exact I|apply le_n].
  Qed.
  Lemma swrite_safe fuel w : safe availe fuel (swrite unit null_recv w).
  Proof.
    intros e r e' _ H. unfold swrite, null_recv in H. injection H as <- <-. split; [exact I|].
    unfold availe. cbn [se_in]. rewrite app_nil_r. apply le_n.
  Qed.
  Lemma header_safe fuel ex : safe availe fuel (s_read_frame_header unit ex).
  Proof.
    intros e r e' _ H. apply header_took in H. destruct H as (zs & bs & _ & T & Hr). apply took_availe in T.
    split; [destruct r as [[h ft]|[]]; try exact I; contradiction|lia].
  Qed.
  (* a header read that succeeds, or that reports an ABORT frame, has consumed input *)
  Lemma header_progress ex e r e' : s_read_frame_header unit ex e = (r, e') -> (exists v, r = ROk v) \/ r = RExn XAbort ->
    (availe e' < availe e)%nat.
  Proof.
    intros H Hr. apply header_took in H. destruct H as (zs & bs & _ & T & Hb). apply took_availe in T. rewrite app_length in T.
    assert (bs <> []) by (destruct Hr as [[[h ft] ->]| ->]; [apply Hb|rewrite Hb; discriminate]).
    destruct bs; [contradiction|]. simpl in T. lia.
  Qed.

  Lemma parse_rx_safe fuel p : safe availe fuel (@parse_rx SE p).
  Proof.
    unfold parse_rx. destruct (parse_cmd_response p) as [r|x] eqn:P; [apply safe_ret|]. apply safe_raise.
    intros ->. apply parse_cmd_response_exn in P. destruct P as [P|[k P]]; discriminate.
  Qed.

  Definition s_read_tail (hf : N * N) : M SE rx :=
    lb <- sread unit 2;; cb <- sread unit 2;;
    (if le_dec lb =? 0 then s_send_ack unit null_recv;;; mraise XAbort
     else data <- sread unit (le_dec lb);; s_send_ack unit null_recv;;;
          (if negb (le_dec cb =? frame_crc (snd hf) data) then mraise XConn
           else if snd hf =? FP_CMD then parse_rx data else mret (RxData data))).
  Lemma s_read_tail_safe fuel hf : safe availe fuel (s_read_tail hf).
  Proof.
    unfold s_read_tail. apply safe_bind; [apply sread_safe|]. intros lb. apply safe_bind; [apply sread_safe|]. intros cb.
    destruct (le_dec lb =? 0).
    - apply safe_bind; [apply swrite_safe|]. intros; apply safe_raise; discriminate.
    - apply safe_bind; [apply sread_safe|]. intros d. apply safe_bind; [apply swrite_safe|]. intros _.
      destruct (negb _); [apply safe_raise; discriminate|]. destruct (snd hf =? FP_CMD); [apply parse_rx_safe|apply safe_ret].
  Qed.
  Lemma s_read_safe fuel : safe availe fuel (s_read unit null_recv).
  Proof. exact (safe_bind _ _ _ _ (header_safe fuel None) (s_read_tail_safe fuel)). Qed.

  (* a read that delivers something, or that reports an abort, has consumed input *)
  Lemma s_read_progress e r e' : s_read unit null_recv e = (r, e') -> (exists v, r = ROk v) \/ r = RExn XAbort ->
    (availe e' < availe e)%nat.
  Proof.
    intros H Hr. change (s_read unit null_recv) with (hf <- s_read_frame_header unit None;; s_read_tail hf) in H.
    unfold mbind in H. destruct (s_read_frame_header unit None e) as [[hf|x] e1] eqn:Hd.
    - pose proof (header_progress _ _ _ _ Hd (or_introl (ex_intro _ hf eq_refl))) as L1.
      destruct (s_read_tail_safe (S (availe e1)) hf _ _ _ (le_n _) H) as [_ L2]. lia.
    - injection H as <- <-. destruct Hr as [[v Hv]|Hv]; [discriminate|]. injection Hv as ->. exact (header_progress _ _ _ _ Hd (or_intror eq_refl)).
  Qed.

  Variable ce : bool.
  Definition avail (s : mbs SE) : nat := availe (mb_env SE s).

  Lemma safe_env {A} fuel (m : M SE A) : safe availe fuel m -> safe avail fuel (lift SE m).
  Proof.
    intros Hm s r s' Hs H. unfold lift in H. destruct (m (mb_env SE s)) as [r0 e1] eqn:E. injection H as <- <-.
    exact (Hm _ _ _ Hs E).
  Qed.
  Lemma safe_put fuel st : safe avail fuel (put_status SE st).
  Proof. intros s r s' _ H. injection H as <- <-. split; [exact I|apply le_n]. Qed.
  Lemma safe_get fuel : safe avail fuel (get_status SE).
  Proof. intros s r s' _ H. injection H as <- <-. split; [exact I|apply le_n]. Qed.
  Lemma safe_finish fuel rs : safe avail fuel (finish_cmd SE ce rs).
  Proof.
    intros s r s' _ H. unfold finish_cmd in H. destruct (ce && negb (r_status rs =? SC_SUCCESS)); injection H as <- <-; (split; [exact I|apply le_n]).
  Qed.

  (* s_write_command and s_write_data *)
  Lemma write_frame_safe fuel t b : safe availe fuel (f <- mlift (create_frame t b);; s_send_frame unit null_recv f true).
  Proof.
    apply safe_bind.
    - apply safe_lift. unfold create_frame. destruct (65536 <=? nlen b); exact I.
    - intros f. unfold s_send_frame. apply safe_bind; [apply swrite_safe|]. intros _.
      apply safe_bind; [apply header_safe|]. intros; apply safe_ret.
  Qed.

  Lemma process_cmd_safe fuel p : safe avail fuel (process_cmd SE SI ce p).
  Proof.
    rewrite process_cmd_eq. apply safe_catch.
    - apply safe_env. apply safe_bind; [apply safe_lift; unfold pkt_bytes; destruct p as [[? ?] ?]; destruct (_ || _); exact I|].
      intros b. apply safe_bind; [apply write_frame_safe|]. intros _. apply s_read_safe.
    - intros [d|rs]; [apply (safe_raise avail fuel XConn); discriminate|apply safe_finish].
    - intros x Hx. destruct x; try exact (safe_raise avail fuel _ Hx).
      intros s r s' Hs. exact (safe_finish fuel _ (set_status SE s SC_NO_RESPONSE) r s' Hs).
  Qed.

  Lemma rd_handle_safe tag f acc v :
    (forall acc, safe avail f (read_data_loop SE SI tag f acc)) -> safe avail f (rd_handle SE SI tag f acc v).
  Proof.
    intros IH. destruct v as [d|rs]; cbn [rd_handle]; [apply IH|]. destruct (r_cls rs =? 1); [|apply IH].
    apply safe_bind; [apply safe_put|]. intros _. destruct (r_second rs =? tag); [apply safe_ret|apply IH].
  Qed.

  (* every iteration that goes on has consumed input: a delivered item, or an abort frame followed by one more read *)
  Lemma read_data_loop_safe tag : forall fuel acc, safe avail fuel (read_data_loop SE SI tag fuel acc).
  Proof.
    induction fuel as [|f IH]; intros acc s r s' Hs H; [lia|].
    rewrite read_data_loop_eq in H. unfold mcatch, lift in H. destruct (i_read SI (mb_env SE s)) as [r0 e1] eqn:R.
    pose proof (s_read_safe _ _ _ _ (le_n _) R) as [N0 L0].
    pose proof (fun v => rd_handle_safe tag f acc v IH) as Hh.
    destruct r0 as [v|x].
    - assert (P : (availe e1 < availe (mb_env SE s))%nat) by (eapply s_read_progress; [exact R|left; eauto]).
      apply Hh in H; [|unfold avail in *; cbn [set_env mb_env]; lia].
      destruct H as [N L]. split; [exact N|]. unfold avail in *. cbn [set_env mb_env] in L. lia.
    - destruct x; try (injection H as <- <-; split; [first [exact I|exact N0]|unfold avail; cbn [set_env set_status mb_env]; exact L0]).
      assert (P : (availe e1 < availe (mb_env SE s))%nat) by (eapply s_read_progress; [exact R|right; reflexivity]).
      unfold mbind, lift in H. cbn [set_env mb_env] in H. destruct (i_read SI e1) as [r2 e2] eqn:R2.
      pose proof (s_read_safe _ _ _ _ (le_n _) R2) as [N2 L2].
      destruct r2 as [v|x2].
      + apply Hh in H; [|unfold avail in *; cbn [set_env mb_env]; lia].
        destruct H as [N L]. split; [exact N|]. unfold avail in *. cbn [set_env mb_env] in L. lia.
      + injection H as <- <-. split; [exact N2|unfold avail; cbn [set_env mb_env]; lia].
  Qed.

  Lemma read_data_safe fuel tag len : safe avail fuel (read_data SE SI ce fuel tag len).
  Proof.
    unfold read_data. apply safe_bind.
    - apply read_data_loop_safe.
    - intros dr. apply safe_bind; [apply safe_get|]. intros st.
      destruct (_ || _); [|apply safe_ret].
      apply safe_bind; [apply safe_put|]. intros _. destruct ce; [apply safe_raise; discriminate|apply safe_ret].
  Qed.

  Lemma write_chunks_safe fuel ab : forall chunks, safe availe fuel (write_chunks SE SI ab chunks).
  Proof.
    induction chunks as [|c t IH]; [apply safe_ret|]. cbn [write_chunks].
    apply safe_bind; [apply write_frame_safe|]. intros _. exact IH.
  Qed.

  Lemma sd_got_safe fuel all_sent v : safe avail fuel (sd_got SE ce all_sent v).
  Proof.
    destruct v as [d|rs]; [apply safe_raise; discriminate|]. apply safe_bind; [apply safe_put|]. intros _.
    destruct (negb _); [destruct ce; [apply safe_raise; discriminate|apply safe_ret]|apply safe_ret].
  Qed.
  Lemma sd_on_exn_safe fuel tag all_sent x : x <> XHang -> safe avail fuel (sd_on_exn SE SI ce tag all_sent x).
  Proof.
    intros Hx. assert (T : safe avail fuel (put_status SE SC_NO_RESPONSE;;; @mraise _ bool XConn))
      by (apply safe_bind; [apply safe_put|intros; apply safe_raise; discriminate]).
    destruct x; cbn [sd_on_exn is_spsdk_error]; try exact T; try exact (safe_raise avail fuel _ Hx);
      (destruct (negb (tag =? CT_NO_COMMAND));
       [apply safe_bind; [apply safe_env, s_read_safe|intros v; apply sd_got_safe]|apply safe_bind; [apply safe_put|intros; apply safe_ret]]).
  Qed.
  Lemma send_data_safe fuel ab tag chunks : safe avail fuel (send_data SE SI ce ab tag chunks).
  Proof.
    rewrite send_data_eq. apply safe_catch; [apply safe_env, write_chunks_safe| |intros x; apply sd_on_exn_safe].
    intros _. destruct (negb (tag =? CT_NO_COMMAND)); [|apply safe_ret].
    apply safe_catch; [apply safe_env, s_read_safe|apply sd_got_safe|intros x; apply sd_on_exn_safe].
  Qed.

  Variable fuel : nat.

  Ltac safe_step :=
    first [ apply safe_ret | apply safe_put | apply safe_get | apply process_cmd_safe | apply read_data_safe
          | apply send_data_safe | (apply safe_raise; discriminate) ].

  Lemma get_property_safe tag index : safe avail fuel (get_property SE SI ce tag index).
  Proof.
    unfold get_property. apply safe_bind; [safe_step|]. intros rs.
    destruct (r_status rs =? SC_SUCCESS); [destruct (r_cls rs =? 2)|]; safe_step.
  Qed.
  Lemma get_mps_safe : safe avail fuel (get_max_packet_size SE SI ce).
  Proof.
    intros s r s' Hs H. unfold get_max_packet_size in H. destruct (mb_mps SE s).
    - injection H as <- <-. split; [exact I|apply le_n].
    - destruct (get_property SE SI ce PT_MAX_PACKET_SIZE 0 s) as [r0 s1] eqn:G.
      destruct (get_property_safe _ _ _ _ _ Hs G) as [Nh L].
      assert (U : forall v : N, nohang (ROk v) /\ (avail (set_mps SE s1 v) <= avail s)%nat) by (intros; split; [exact I|exact L]).
      destruct r0 as [[[|v t]|]|x]; try (injection H as <- <-; first [apply U | split; [exact I|exact L]]).
      destruct (is_mcuboot_error x); injection H as <- <-; [apply U|split; [destruct x; simpl in *; auto|exact L]].
  Qed.
  Lemma split_data_safe data : safe avail fuel (split_data SE SI ce data).
  Proof.
    unfold split_data. destruct NEED_DATA_SPLIT; [|safe_step].
    apply safe_bind; [apply get_mps_safe|]. intros m. destruct (m =? 0); safe_step.
  Qed.
  Lemma simple_safe p : safe avail fuel (simple SE SI ce p).
  Proof. unfold simple. apply safe_bind; [safe_step|]. intros; safe_step. Qed.
  Lemma cmd_data_out_safe ab p data : safe avail fuel (cmd_data_out SE SI ce ab p data).
  Proof.
    unfold cmd_data_out. apply safe_bind; [apply split_data_safe|]. intros ch.
    apply safe_bind; [safe_step|]. intros rs. destruct (is_success rs); [|safe_step].
    apply safe_bind; [safe_step|]. intros; safe_step.
  Qed.
  Lemma cmd_data_in_safe p cls : safe avail fuel (cmd_data_in SE SI ce fuel p cls).
  Proof.
    unfold cmd_data_in. apply safe_bind; [safe_step|]. intros rs. destruct (is_success rs); [|safe_step].
    destruct (r_cls rs =? cls); [|safe_step]. apply safe_bind; [safe_step|]. intros; safe_step.
  Qed.
  Lemma read_memory_safe a l m fast : safe avail fuel (read_memory SE SI ce fuel a l m fast).
  Proof. unfold read_memory. cbn [i_usb serial_iface andb]. apply cmd_data_in_safe. Qed.
  Lemma efuse_read_once_safe index : safe avail fuel (efuse_read_once SE SI ce index).
  Proof.
    unfold efuse_read_once. apply safe_bind; [safe_step|]. intros rs. destruct (is_success rs); [|safe_step].
    destruct (r_cls rs =? 4); [|safe_step]. destruct (r_values rs); safe_step.
  Qed.
  Lemma efuse_program_once_safe index value verify : safe avail fuel (efuse_program_once SE SI ce index value verify).
  Proof.
    unfold efuse_program_once. apply safe_bind; [safe_step|]. intros rs. destruct (negb (is_success rs)); [safe_step|].
    destruct verify; [|safe_step]. apply safe_bind; [apply efuse_read_once_safe|]. intros rv.
    destruct rv; try safe_step. destruct (N.land n value =? value); [safe_step|].
    apply safe_bind; [safe_step|]. intros; safe_step.
  Qed.
  Lemma flash_read_once_safe index count : safe avail fuel (flash_read_once SE SI ce index count).
  Proof.
    unfold flash_read_once. destruct (negb _); [safe_step|]. apply safe_bind; [safe_step|]. intros rs.
    destruct (is_success rs); [destruct (r_cls rs =? 4)|]; safe_step.
  Qed.
  Lemma flash_program_once_safe index data : safe avail fuel (flash_program_once SE SI ce index data).
  Proof. unfold flash_program_once. destruct (negb _); [safe_step|apply simple_safe]. Qed.
  Lemma flash_security_disable_safe key : safe avail fuel (flash_security_disable SE SI ce key).
  Proof. unfold flash_security_disable. destruct (negb _); [safe_step|apply simple_safe]. Qed.
  Lemma load_image_safe data : safe avail fuel (load_image SE SI ce data).
  Proof.
    unfold load_image. apply safe_bind; [apply split_data_safe|]. intros ch.
    apply safe_bind; [safe_step|]. intros _. apply safe_bind; [safe_step|]. intros; safe_step.
  Qed.

  (* one leaf of the decision tree of `api` on the operation number: most are the default, the others a routine above *)
  Ltac api_leaf :=
    first [ (apply safe_raise; discriminate) | apply simple_safe | apply read_memory_safe | apply cmd_data_out_safe | apply cmd_data_in_safe
          | apply flash_security_disable_safe | apply efuse_program_once_safe | apply efuse_read_once_safe
          | apply flash_read_once_safe | apply flash_program_once_safe | apply load_image_safe
          | (apply safe_bind; [apply get_property_safe|intros v; destruct v; safe_step])
          | (match goal with |- safe _ _ (if ?b then _ else _) => destruct b end; [safe_step|apply cmd_data_in_safe])
          | safe_step ].

  Lemma api_safe c : safe avail fuel (api SE SI ce fuel c).
  Proof.
    destruct c as [op a d]. unfold api.
    destruct op as [|p]; [api_leaf|].
    do 7 (try (destruct p as [p|p|])); api_leaf.
  Qed.

  Lemma session_safe : forall calls s rs s', (avail s < fuel)%nat -> session SE SI ce fuel calls s = (rs, s') ->
    Forall (fun o => nohang (fst o)) rs.
  Proof.
    induction calls as [|c t IH]; intros s rs s' Hs H.
    - injection H as <- <-. constructor.
    - cbn [session] in H. destruct (api SE SI ce fuel c s) as [r s1] eqn:A.
      destruct (api_safe c _ _ _ Hs A) as [N L].
      destruct (session SE SI ce fuel t s1) as [rs1 s2] eqn:S. injection H as <- <-.
      constructor; [exact N|]. eapply IH; [|exact S]. lia.
  Qed.
End Terminates.

Section Complete.
  Variable E : Type.
  Variable I : iface E.
  Variable ce : bool.

  Lemma read_data_complete fuel tag len s v s' :
    read_data E I ce fuel tag len s = (ROk v, s') -> mb_status E s' = SC_SUCCESS -> nlen v = len.
  Proof.
    intros H Hs. apply read_data_sound in H. destruct H as (_ & its & e_end & rs & s1 & _ & Hv & _ & _ & Hc & _).
    destruct (Hc Hs) as [_ Hl]. subst v. apply nlen_firstnN. exact Hl.
  Qed.

  Lemma block_arith ps len idx :
    0 < ps -> let rem := len mod ps in let packets := len / ps + (if rem =? 0 then 0 else 1) in
    idx < packets ->
    N.min (idx * ps) len + (if (idx =? packets - 1) && negb (rem =? 0) then rem else ps) = N.min ((idx + 1) * ps) len.
  Proof.
    intros Hps rem packets Hi. subst rem packets.
    pose proof (N.div_mod len ps ltac:(lia)) as Hdm. pose proof (N.mod_lt len ps ltac:(lia)) as Hr.
    set (q := len / ps) in *. set (r := len mod ps) in *.
    destruct (r =? 0) eqn:E0.
    - apply N.eqb_eq in E0. rewrite andb_false_r. assert (idx + 1 <= q) by lia.
      assert ((idx + 1) * ps <= q * ps) by nia. lia.
    - apply N.eqb_neq in E0. rewrite andb_true_r. destruct (idx =? q + 1 - 1) eqn:EI.
      + apply N.eqb_eq in EI. assert (idx = q) by lia. subst idx. nia.
      + apply N.eqb_neq in EI. assert (idx + 1 <= q) by lia. assert ((idx + 1) * ps <= q * ps) by nia. lia.
  Qed.

  (* the block-wise USB-HID read_memory: status SUCCESS at the end means every block was complete *)
  Lemma read_usb_loop_complete address mem_id ps len (Hps : 0 < ps) :
    let rem := len mod ps in let packets := len / ps + (if rem =? 0 then 0 else 1) in
    forall fuel idx acc s v s', idx <= packets -> nlen acc = N.min (idx * ps) len ->
    read_usb_loop E I ce fuel address mem_id ps rem packets idx acc s = (ROk (AVBytes v), s') ->
    mb_status E s' = SC_SUCCESS -> nlen v = len.
  Proof.
    intros rem packets. induction fuel as [|f IH]; intros idx acc s v s' Hi Ha H Hs; [discriminate|].
    cbn [read_usb_loop] in H. destruct (packets <=? idx) eqn:EP.
    - apply N.leb_le in EP. injection H as <- <-. rewrite Ha. assert (idx = packets) by lia. subst idx.
      subst packets rem. pose proof (N.div_mod len ps ltac:(lia)) as Hdm. pose proof (N.mod_lt len ps ltac:(lia)) as Hr.
      destruct (len mod ps =? 0) eqn:E0; [apply N.eqb_eq in E0|apply N.eqb_neq in E0]; nia.
    - apply N.leb_gt in EP. unfold mbind at 1 in H.
      destruct (process_cmd E I ce _ s) as [[rs|x] s1] eqn:P; [|discriminate].
      apply process_cmd_sound in P. destruct P as (_ & Hst & _ & _).
      unfold is_success in H. destruct (r_status rs =? SC_SUCCESS) eqn:ES.
      + unfold mbind at 1 in H.
        match type of H with context [read_data E I ce ?fu ?tg ?dl s1] => destruct (read_data E I ce fu tg dl s1) as [[d|x] s2] eqn:R; [|discriminate] end.
        unfold mbind at 1, get_status in H.
        destruct (negb (mb_status E s2 =? SC_SUCCESS)) eqn:E2.
        * injection H as <- <-. apply negb_true_iff, N.eqb_neq in E2. contradiction.
        * apply negb_false_iff, N.eqb_eq in E2. apply read_data_complete in R; [|exact E2].
          eapply IH; [| |exact H|exact Hs]; [lia|].
          rewrite nlen_app, Ha, R. apply block_arith; assumption.
      + injection H as <- <-. apply N.eqb_neq in ES. rewrite Hst in Hs. contradiction.
  Qed.

End Complete.
