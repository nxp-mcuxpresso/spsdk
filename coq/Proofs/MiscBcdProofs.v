(* Proofs/MiscBcdProofs.v -- C20: spsdk.sbfile.misc.BcdVersion3 (from_str / __str__) as modelled in
   MiscModel.v: string round trips, the documented form d{1,4}.d{1,4}.d{1,4} has its BCD reading, and what is
   accepted is always a valid BCD triple read from exactly three dot-separated parts of at most 4 characters;
   everything else is Err 1. *)
From Coq Require Import ZArith NArith List Bool Lia ZifyBool.
Require Import Value Bytes BytesProofs GenMisc MiscModel MiscProofs.
Import ListNotations.
Local Open Scope Z_scope.

(* a valid BCD component: four decimal digits d3 d2 d1 d0, one per nibble *)
Definition bcd_valid (v : Z) : Prop :=
  exists d3 d2 d1 d0, 0 <= d3 <= 9 /\ 0 <= d2 <= 9 /\ 0 <= d1 <= 9 /\ 0 <= d0 <= 9 /\
    v = ((d3 * 16 + d2) * 16 + d1) * 16 + d0.

(* the documented component text: one to four decimal digits *)
Definition dec_str (a : list N) : Prop :=
  (1 <= length a <= 4)%nat /\ Forall (fun ch => (48 <= ch <= 57)%N) a.
(* its BCD reading: each decimal digit becomes one nibble *)
Definition bcd_read (a : list N) : Z := fold_left (fun acc ch => acc * 16 + (Z.of_N ch - 48)) a 0.
(* canonical text: no superfluous leading zero (what __str__ prints) *)
Definition canonical (a : list N) : Prop := a = [48%N] \/ (exists c t, a = c :: t /\ c <> 48%N).

Definition dotted (a b c : list N) : list N := a ++ [46%N] ++ b ++ [46%N] ++ c.
Definition nodot (a : list N) : Prop := forall ch, In ch a -> ch <> 46%N.

(* The four nibbles of a number written in base 16 are what _check_number and the printer extract. *)
Lemma nibble_div v k : 0 <= k -> Z.land (Z.shiftr v k) 15 = v / 2 ^ k mod 16.
Proof. intros H. change 15 with (Z.ones 4). now rewrite Z.land_ones, Z.shiftr_div_pow2. Qed.

Lemma nibbles_pack d3 d2 d1 d0 : 0 <= d3 < 16 -> 0 <= d2 < 16 -> 0 <= d1 < 16 -> 0 <= d0 < 16 ->
  let v := ((d3 * 16 + d2) * 16 + d1) * 16 + d0 in
  Z.land (Z.shiftr v 12) 15 = d3 /\ Z.land (Z.shiftr v 8) 15 = d2 /\ Z.land (Z.shiftr v 4) 15 = d1 /\ Z.land v 15 = d0.
Proof.
  intros H3 H2 H1 H0 v. change (Z.land v 15) with (Z.land (Z.shiftr v 0) 15). rewrite !nibble_div by lia.
  change (2 ^ 12) with 4096. change (2 ^ 8) with 256. change (2 ^ 4) with 16. change (2 ^ 0) with 1.
  subst v. repeat split; dlia.
Qed.

Lemma bcd_check_pack d3 d2 d1 d0 : 0 <= d3 < 16 -> 0 <= d2 < 16 -> 0 <= d1 < 16 -> 0 <= d0 < 16 ->
  bcd_check (((d3 * 16 + d2) * 16 + d1) * 16 + d0) = forallb (fun d => d <=? 9) [d3; d2; d1; d0].
Proof.
  intros H3 H2 H1 H0. unfold bcd_check. destruct (nibbles_pack d3 d2 d1 d0) as (-> & -> & -> & ->); try assumption.
  cbn [forallb]. lia.
Qed.

Lemma hex_upper_pack d3 d2 d1 d0 : 0 <= d3 < 16 -> 0 <= d2 < 16 -> 0 <= d1 < 16 -> 0 <= d0 < 16 ->
  hex_upper (((d3 * 16 + d2) * 16 + d1) * 16 + d0) =
    if 0 <? d3 then [hexchar d3; hexchar d2; hexchar d1; hexchar d0]
    else if 0 <? d2 then [hexchar d2; hexchar d1; hexchar d0]
    else if 0 <? d1 then [hexchar d1; hexchar d0]
    else [hexchar d0].
Proof.
  intros H3 H2 H1 H0. unfold hex_upper. cbv zeta. destruct (nibbles_pack d3 d2 d1 d0) as (-> & -> & -> & ->); try assumption.
  reflexivity.
Qed.

(* Characters that int(text, 16) reads as digits, with their values. *)
Definition hexdigit (c : N) : Prop := (48 <= c <= 57)%N \/ (65 <= c <= 70)%N \/ (97 <= c <= 102)%N.
Definition hexval (c : N) : Z := Z.of_N c - (if nle c 57 then 48 else if nle c 70 then 55 else 87).

Lemma hexdigit_val_hex c : hexdigit c -> hexdigit_val c = Some (hexval c).
Proof.
  unfold hexdigit, hexdigit_val, digit_val, lower_ch, is_digit, is_hexlow, hexval, nle. intros H.
  destruct (N.leb 65 c && N.leb c 90) eqn:U.
  - replace (N.leb 48 (c + 32) && N.leb (c + 32) 57) with false by lia.
    replace (N.leb 97 (c + 32) && N.leb (c + 32) 102) with true by lia.
    replace (N.leb c 57) with false by lia. replace (N.leb c 70) with true by lia. f_equal. lia.
  - destruct (N.leb 48 c && N.leb c 57) eqn:D.
    + replace (N.leb c 57) with true by lia. reflexivity.
    + replace (N.leb 97 c && N.leb c 102) with true by lia.
      replace (N.leb c 57) with false by lia. replace (N.leb c 70) with false by lia. reflexivity.
Qed.

Lemma hexval_range c : hexdigit c -> 0 <= hexval c < 16.
Proof. unfold hexdigit, hexval, nle. intros H. destruct (N.leb c 57) eqn:A, (N.leb c 70) eqn:B; lia. Qed.

Lemma hexval_le9 c : hexdigit c -> (hexval c <=? 9) = is_digit c.
Proof. unfold hexdigit, hexval, is_digit, nle. intros H. destruct (N.leb c 57) eqn:A, (N.leb c 70) eqn:B; lia. Qed.

Lemma hexval_digit c : (48 <= c <= 57)%N -> hexval c = Z.of_N c - 48.
Proof. intros H. unfold hexval, nle. now replace (N.leb c 57) with true by lia. Qed.

Lemma digit_hexdigit c : (48 <= c <= 57)%N -> hexdigit c.
Proof. now left. Qed.

(* int(text, 16) on a text of hex digits: nothing to strip, no sign, no prefix; the digits are read in base 16. *)
Lemma lstrip_nospace a : Forall (fun c => is_space c = false) a -> lstrip a = a.
Proof. intros [|c t H _]; [reflexivity|]. cbn [lstrip]. now rewrite H. Qed.

Lemma strip_nospace a : Forall (fun c => is_space c = false) a -> strip a = a.
Proof.
  intros H. unfold strip. rewrite (lstrip_nospace a H), lstrip_nospace by now apply Forall_rev.
  apply rev_involutive.
Qed.

Lemma hexdigit_nospace c : hexdigit c -> is_space c = false.
Proof. unfold hexdigit, is_space, nle. lia. Qed.

Lemma hexdigit_not_x c : hexdigit c -> N.eqb (lower_ch c) 120 = false.
Proof. unfold hexdigit, lower_ch, nle. intros H. destruct (N.leb 65 c && N.leb c 90) eqn:U; lia. Qed.

(* a first character other than '-' and '+' is no sign; "0x" needs an 'x' *)
Lemma no_sign c t : c <> 45%N -> c <> 43%N ->
  match c :: t with 45%N :: t' => (true, t') | 43%N :: t' => (false, t') | _ => (false, c :: t) end = (false, c :: t).
Proof.
  intros H1 H2. destruct c as [|p]; [reflexivity|].
  do 6 (destruct p as [p|p|]; try reflexivity; try congruence).
Qed.

Lemma no_prefix c t : (forall x t', t = x :: t' -> N.eqb (lower_ch x) 120 = false) ->
  match c :: t with
  | 48%N :: x :: t' => if N.eqb (lower_ch x) 120 then match t' with 95%N :: t'' => t'' | _ => t' end else c :: t
  | _ => c :: t
  end = c :: t.
Proof.
  intros H. destruct c as [|p]; [reflexivity|].
  do 6 (destruct p as [p|p|]; try reflexivity).
  destruct t as [|x t']; [reflexivity|]. now rewrite (H x t').
Qed.

Lemma py_int16_text_hex a : Forall hexdigit a -> py_int16_text a = hex_digits a 0 false.
Proof.
  intros H. unfold py_int16_text.
  rewrite strip_nospace by (eapply Forall_impl; [apply hexdigit_nospace|exact H]).
  destruct H as [|c t Hc Ht]; [reflexivity|].
  rewrite no_sign by (unfold hexdigit in Hc; lia). cbv beta iota.
  rewrite no_prefix by (intros x t' ->; apply hexdigit_not_x; now inversion Ht).
  now destruct (hex_digits (c :: t) 0 false).
Qed.

Definition hex_read (a : list N) : Z := fold_left (fun acc c => acc * 16 + hexval c) a 0.

Lemma hex_digits_read a : Forall hexdigit a -> forall acc p, a <> [] \/ p = true ->
  hex_digits a acc p = Some (fold_left (fun acc c => acc * 16 + hexval c) a acc).
Proof.
  induction 1 as [|c t Hc _ IH]; intros acc p Hp; cbn [hex_digits fold_left].
  - destruct Hp as [Hp| ->]; [now destruct Hp|reflexivity].
  - rewrite (hexdigit_val_hex c Hc). replace (N.eqb c 95) with false by (unfold hexdigit in Hc; lia).
    apply IH. now right.
Qed.

Lemma int16_hex_text a : Forall hexdigit a -> a <> [] -> py_int16_text a = Some (hex_read a).
Proof. intros H Hn. rewrite py_int16_text_hex by assumption. apply hex_digits_read; auto. Qed.

Lemma hex_read_dec a : Forall (fun ch => (48 <= ch <= 57)%N) a -> hex_read a = bcd_read a.
Proof.
  intros H. unfold hex_read, bcd_read. generalize 0. induction H as [|c t Hc _ IH]; intros acc; cbn [fold_left]; [reflexivity|].
  now rewrite hexval_digit, IH.
Qed.

Lemma forallb_is_digit a : forallb is_digit a = true <-> Forall (fun ch => (48 <= ch <= 57)%N) a.
Proof.
  rewrite forallb_forall, Forall_forall. unfold is_digit, nle.
  split; intros H c Hc; specialize (H c Hc); lia.
Qed.

Lemma short_text_cases (Q : N -> Prop) (P : list N -> Prop) :
  (forall c1, Q c1 -> P [c1]) -> (forall c1 c2, Q c1 -> Q c2 -> P [c1; c2]) ->
  (forall c1 c2 c3, Q c1 -> Q c2 -> Q c3 -> P [c1; c2; c3]) ->
  (forall c1 c2 c3 c4, Q c1 -> Q c2 -> Q c3 -> Q c4 -> P [c1; c2; c3; c4]) ->
  forall a, (1 <= length a <= 4)%nat -> Forall Q a -> P a.
Proof.
  intros P1 P2 P3 P4 [|c1 [|c2 [|c3 [|c4 [|c5 t]]]]] H Hf; cbn [length] in H; try lia; rewrite Forall_forall in Hf;
    [apply P1|apply P2|apply P3|apply P4]; apply Hf; cbn; tauto.
Qed.

(* all four nibbles of the reading are decimal exactly when all characters are *)
Lemma bcd_check_hex_read a : (1 <= length a <= 4)%nat -> Forall hexdigit a ->
  bcd_check (hex_read a) = forallb is_digit a.
Proof.
  revert a. apply short_text_cases; intros; cbn [forallb]; rewrite <- !hexval_le9 by assumption.
  - apply (bcd_check_pack 0 0 0 (hexval c1)); try lia; now apply hexval_range.
  - apply (bcd_check_pack 0 0 (hexval c1) (hexval c2)); try lia; now apply hexval_range.
  - apply (bcd_check_pack 0 (hexval c1) (hexval c2) (hexval c3)); try lia; now apply hexval_range.
  - apply (bcd_check_pack (hexval c1) (hexval c2) (hexval c3) (hexval c4)); now apply hexval_range.
Qed.

(* a component of one to four hex digits is accepted exactly when all its digits are decimal *)
Lemma bcd_num_from_hex a : (1 <= length a <= 4)%nat -> Forall hexdigit a ->
  bcd_num_from_str a = if forallb is_digit a then Ok (bcd_read a) else Err 1%N.
Proof.
  intros Hl Hf. unfold bcd_num_from_str. replace (Nat.ltb 4 (length a)) with false by lia.
  rewrite int16_hex_text, bcd_check_hex_read by (assumption || (intros ->; cbn in Hl; lia)).
  destruct (forallb is_digit a) eqn:E; [|reflexivity].
  now rewrite hex_read_dec by now apply forallb_is_digit.
Qed.

Lemma hexchar_digit c : (48 <= c <= 57)%N -> hexchar (Z.of_N c - 48) = c.
Proof. intros H. unfold hexchar. replace (Z.of_N c - 48 <? 10) with true by lia. lia. Qed.

Lemma dec_str_hex a : dec_str a -> (1 <= length a <= 4)%nat /\ Forall hexdigit a.
Proof. intros [Hl Hf]. split; [exact Hl|]. eapply Forall_impl; [apply digit_hexdigit|exact Hf]. Qed.

Lemma hexdigit_nodot a : Forall hexdigit a -> nodot a.
Proof. intros Hf ch Hin ->. rewrite Forall_forall in Hf. specialize (Hf _ Hin). unfold hexdigit in Hf. lia. Qed.

Lemma canonical_head c c' t : canonical (c :: c' :: t) -> c <> 48%N.
Proof. intros [E|(x & y & E & Hx)]; [discriminate|]. now injection E as -> _. Qed.

(* canonical text is printed back: its first digit is not 0, so printing starts at that nibble *)
Lemma hex_upper_bcd_read a : dec_str a -> canonical a -> hex_upper (bcd_read a) = a.
Proof.
  intros [Hl Hd]. revert a Hl Hd.
  apply (short_text_cases (fun ch => (48 <= ch <= 57)%N) (fun a => canonical a -> _ = a)); intros; unfold bcd_read; cbn [fold_left].
  - etransitivity; [apply (hex_upper_pack 0 0 0 (Z.of_N c1 - 48)); lia|]. cbn. now rewrite hexchar_digit.
  - etransitivity; [apply (hex_upper_pack 0 0 (Z.of_N c1 - 48) (Z.of_N c2 - 48)); lia|].
    apply canonical_head in H1. replace (0 <? Z.of_N c1 - 48) with true by lia. cbn. now rewrite !hexchar_digit.
  - etransitivity; [apply (hex_upper_pack 0 (Z.of_N c1 - 48) (Z.of_N c2 - 48) (Z.of_N c3 - 48)); lia|].
    apply canonical_head in H2. replace (0 <? Z.of_N c1 - 48) with true by lia. cbn. now rewrite !hexchar_digit.
  - etransitivity; [apply (hex_upper_pack (Z.of_N c1 - 48) (Z.of_N c2 - 48) (Z.of_N c3 - 48) (Z.of_N c4 - 48)); lia|].
    apply canonical_head in H3. replace (0 <? Z.of_N c1 - 48) with true by lia. now rewrite !hexchar_digit.
Qed.

Lemma dec_str_component a : dec_str a ->
  bcd_num_from_str a = Ok (bcd_read a) /\ bcd_check (bcd_read a) = true /\ nodot a /\
  (canonical a -> hex_upper (bcd_read a) = a).
Proof.
  intros H. destruct (dec_str_hex a H) as [Hl Hh].
  pose proof (proj2 (forallb_is_digit a) (proj2 H)) as E.
  split; [now rewrite bcd_num_from_hex, E|].
  split; [now rewrite <- hex_read_dec, bcd_check_hex_read by (assumption || apply H)|].
  split; [now apply hexdigit_nodot|now apply hex_upper_bcd_read].
Qed.

Lemma hexchar_dec d : 0 <= d <= 9 -> (48 <= hexchar d <= 57)%N /\ Z.of_N (hexchar d) - 48 = d.
Proof. intros H. unfold hexchar. replace (d <? 10) with true by lia. lia. Qed.

(* a valid component prints as a decimal text that reads back as the component *)
Lemma hex_upper_valid v : bcd_valid v -> dec_str (hex_upper v) /\ bcd_read (hex_upper v) = v.
Proof.
  intros (d3 & d2 & d1 & d0 & H3 & H2 & H1 & H0 & ->). rewrite hex_upper_pack by lia.
  destruct (hexchar_dec d3 H3) as [C3 R3], (hexchar_dec d2 H2) as [C2 R2], (hexchar_dec d1 H1) as [C1 R1],
    (hexchar_dec d0 H0) as [C0 R0].
  destruct (0 <? d3) eqn:E3; [|destruct (0 <? d2) eqn:E2; [|destruct (0 <? d1) eqn:E1]];
    (split; [split; [cbn; lia|auto]|unfold bcd_read; cbn [fold_left]; lia]).
Qed.

(* str.split(".") *)
Lemma split_dot_nodot a : forall rest cur, nodot a -> split_dot (a ++ rest) cur = split_dot rest (rev a ++ cur).
Proof.
  induction a as [|c a IH]; intros rest cur Hn; [reflexivity|].
  cbn [app split_dot]. assert (Hc : N.eqb c 46 = false).
  { apply N.eqb_neq. apply Hn. now left. }
  rewrite Hc. rewrite IH by (intros ch Hin; apply Hn; now right).
  cbn [rev]. now rewrite <- app_assoc.
Qed.

Lemma split_dot_three a b c : nodot a -> nodot b -> nodot c -> split_dot (dotted a b c) [] = [a; b; c].
Proof.
  intros Ha Hb Hc. unfold dotted.
  rewrite split_dot_nodot by assumption. cbn [app split_dot]. change (N.eqb 46 46) with true. cbv iota.
  rewrite app_nil_r, rev_involutive. f_equal.
  rewrite split_dot_nodot by assumption. cbn [app split_dot]. change (N.eqb 46 46) with true. cbv iota.
  rewrite app_nil_r, rev_involutive. f_equal.
  rewrite <- (app_nil_r c). rewrite split_dot_nodot by assumption. cbn [split_dot].
  now rewrite !app_nil_r, rev_involutive.
Qed.

Fixpoint join (l : list (list N)) : list N :=
  match l with
  | [] => []
  | a :: t => match t with [] => a | _ => a ++ 46%N :: join t end
  end.

Lemma split_dot_nonempty s cur : split_dot s cur <> [].
Proof. revert cur. induction s as [|c t IH]; intros cur; cbn; [discriminate|]. destruct (N.eqb c 46); [discriminate|apply IH]. Qed.

Lemma split_dot_join s : forall cur, join (split_dot s cur) = rev cur ++ s.
Proof.
  induction s as [|c t IH]; intros cur; cbn [split_dot].
  - cbn. now rewrite app_nil_r.
  - destruct (N.eqb c 46) eqn:E.
    + apply N.eqb_eq in E. subst c. cbn [join].
      destruct (split_dot t []) as [|x l] eqn:Et; [now apply split_dot_nonempty in Et|].
      rewrite <- Et, IH. reflexivity.
    + rewrite IH. cbn [rev]. now rewrite <- app_assoc.
Qed.

Lemma split_dot_parts s : forall cur, nodot cur -> Forall nodot (split_dot s cur).
Proof.
  induction s as [|c t IH]; intros cur Hc; cbn [split_dot].
  - constructor; [|constructor]. intros ch Hin. apply Hc. now apply in_rev.
  - destruct (N.eqb c 46) eqn:E.
    + constructor; [intros ch Hin; apply Hc; now apply in_rev|]. apply IH. intros ch [].
    + apply IH. intros ch [<-|Hin]; [now apply N.eqb_neq|now apply Hc].
Qed.

Lemma split_dot_count s : forall cur, length (split_dot s cur) = S (count_occ N.eq_dec s 46%N).
Proof.
  induction s as [|c t IH]; intros cur; cbn [split_dot]; [reflexivity|].
  destruct (N.eqb c 46) eqn:E.
  - apply N.eqb_eq in E. subst c. cbn [length]. rewrite IH. now rewrite count_occ_cons_eq.
  - apply N.eqb_neq in E. rewrite IH. now rewrite count_occ_cons_neq.
Qed.

Lemma bcd_check_valid v : bcd_check v = true <-> bcd_valid v.
Proof.
  split.
  - intros H. unfold bcd_check in H. change (Z.land v 15) with (Z.land (Z.shiftr v 0) 15) in H.
    rewrite !nibble_div in H by lia.
    exists (v / 2 ^ 12 mod 16), (v / 2 ^ 8 mod 16), (v / 2 ^ 4 mod 16), (v / 2 ^ 0 mod 16).
    change (2 ^ 12) with 4096 in *. change (2 ^ 8) with 256 in *. change (2 ^ 4) with 16 in *. change (2 ^ 0) with 1 in *.
    dlia.
  - intros (d3 & d2 & d1 & d0 & H3 & H2 & H1 & H0 & ->). rewrite bcd_check_pack by lia. cbn [forallb]. lia.
Qed.

Lemma bcd_from_dotted a b c : nodot a -> nodot b -> nodot c ->
  bcd_from_str (dotted a b c) =
    match bcd_num_from_str a with
    | Err e => Err e
    | Ok x => match bcd_num_from_str b with
              | Err e => Err e
              | Ok y => match bcd_num_from_str c with Err e => Err e | Ok z => Ok (x, y, z) end
              end
    end.
Proof. intros Ha Hb Hc. unfold bcd_from_str. now rewrite split_dot_three. Qed.

(* 1. the documented text form has its BCD reading; canonical text is printed back unchanged *)
Lemma bcd_from_str_documented_l a b c : dec_str a -> dec_str b -> dec_str c ->
  bcd_from_str (dotted a b c) = Ok (bcd_read a, bcd_read b, bcd_read c) /\
  bcd_valid (bcd_read a) /\ bcd_valid (bcd_read b) /\ bcd_valid (bcd_read c) /\
  (canonical a -> canonical b -> canonical c ->
     bcd_to_str (bcd_read a, bcd_read b, bcd_read c) = dotted a b c).
Proof.
  intros Ha Hb Hc.
  destruct (dec_str_component a Ha) as (Ea & Va & Na & Ca).
  destruct (dec_str_component b Hb) as (Eb & Vb & Nb & Cb).
  destruct (dec_str_component c Hc) as (Ec & Vc & Nc & Cc).
  split; [rewrite bcd_from_dotted by assumption; now rewrite Ea, Eb, Ec|].
  split; [now apply bcd_check_valid|]. split; [now apply bcd_check_valid|]. split; [now apply bcd_check_valid|].
  intros Xa Xb Xc.
  change (bcd_to_str (bcd_read a, bcd_read b, bcd_read c))
    with (dotted (hex_upper (bcd_read a)) (hex_upper (bcd_read b)) (hex_upper (bcd_read c))).
  now rewrite Ca, Cb, Cc.
Qed.

(* 2. object -> text -> object: a valid triple prints as documented text *)
Lemma bcd_roundtrip_l x y z : bcd_valid x -> bcd_valid y -> bcd_valid z ->
  bcd_from_str (bcd_to_str (x, y, z)) = Ok (x, y, z).
Proof.
  intros Hx Hy Hz.
  destruct (hex_upper_valid x Hx) as [Dx Rx], (hex_upper_valid y Hy) as [Dy Ry], (hex_upper_valid z Hz) as [Dz Rz].
  destruct (bcd_from_str_documented_l _ _ _ Dx Dy Dz) as [E _].
  change (bcd_to_str (x, y, z)) with (dotted (hex_upper x) (hex_upper y) (hex_upper z)).
  now rewrite E, Rx, Ry, Rz.
Qed.

(* 3. whatever is accepted is a valid triple read from exactly three parts of at most 4 characters;
      every other input is rejected with the SPSDK error class *)
Lemma bcd_num_ok a v : bcd_num_from_str a = Ok v -> bcd_valid v /\ (length a <= 4)%nat.
Proof.
  unfold bcd_num_from_str. destruct (Nat.ltb_spec 4 (length a)) as [|Hl]; [discriminate|].
  destruct (py_int16_text a) as [w|]; [|discriminate]. destruct (bcd_check w) eqn:Ec; [|discriminate].
  intros H; injection H as <-. split; [now apply bcd_check_valid|lia].
Qed.

Lemma bcd_num_err a e : bcd_num_from_str a = Err e -> e = 1%N.
Proof.
  unfold bcd_num_from_str. destruct (Nat.ltb 4 (length a)); [now intros H; injection H|].
  destruct (py_int16_text a) as [w|]; [destruct (bcd_check w); [discriminate|]|]; now intros H; injection H.
Qed.

Lemma bcd_from_str_err s e : bcd_from_str s = Err e -> e = 1%N.
Proof.
  unfold bcd_from_str. destruct (split_dot s []) as [|a [|b [|c [|? ?]]]]; try (now intros H; injection H).
  destruct (bcd_num_from_str a) eqn:Ea, (bcd_num_from_str b) eqn:Eb, (bcd_num_from_str c) eqn:Ec;
    intros H; try discriminate; injection H as <-; eauto using bcd_num_err.
Qed.

Lemma bcd_from_str_accepts_only_l s x y z : bcd_from_str s = Ok (x, y, z) ->
  bcd_valid x /\ bcd_valid y /\ bcd_valid z /\
  exists a b c, s = dotted a b c /\ nodot a /\ nodot b /\ nodot c /\
    (length a <= 4)%nat /\ (length b <= 4)%nat /\ (length c <= 4)%nat /\
    bcd_num_from_str a = Ok x /\ bcd_num_from_str b = Ok y /\ bcd_num_from_str c = Ok z.
Proof.
  unfold bcd_from_str. intros H.
  pose proof (split_dot_join s []) as Hj. pose proof (split_dot_parts s [] ltac:(intros ch [])) as Hp.
  destruct (split_dot s []) as [|a [|b [|c [|e l]]]]; try discriminate.
  destruct (bcd_num_from_str a) as [x'|] eqn:Ea; [|discriminate].
  destruct (bcd_num_from_str b) as [y'|] eqn:Eb; [|discriminate].
  destruct (bcd_num_from_str c) as [z'|] eqn:Ec; [|discriminate].
  injection H as <- <- <-.
  destruct (bcd_num_ok a _ Ea) as [Vx Lx], (bcd_num_ok b _ Eb) as [Vy Ly], (bcd_num_ok c _ Ec) as [Vz Lz].
  inversion Hp as [|? ? Pa Hp1]; subst. inversion Hp1 as [|? ? Pb Hp2]; subst. inversion Hp2 as [|? ? Pc _]; subst.
  cbn in Hj. do 3 (split; [assumption|]). exists a, b, c. split; [symmetry; exact Hj|]. auto 12.
Qed.

Lemma bcd_from_str_total_l s : (exists v, bcd_from_str s = Ok v) \/ bcd_from_str s = Err 1%N.
Proof.
  destruct (bcd_from_str s) as [v|e] eqn:E; [left; now exists v|right]. f_equal. now apply (bcd_from_str_err s).
Qed.

Lemma bcd_from_str_wrong_parts_l s : count_occ N.eq_dec s 46%N <> 2%nat -> bcd_from_str s = Err 1%N.
Proof.
  intros H. unfold bcd_from_str. pose proof (split_dot_count s []) as Hc.
  destruct (split_dot s []) as [|a [|b [|c [|e l]]]]; try reflexivity.
  simpl in Hc. lia.
Qed.

Lemma bcd_from_str_long_part_l a b c : nodot a -> nodot b -> nodot c ->
  (4 < length a \/ 4 < length b \/ 4 < length c)%nat -> bcd_from_str (dotted a b c) = Err 1%N.
Proof.
  intros Ha Hb Hc H. destruct (bcd_from_str (dotted a b c)) as [v|e] eqn:E; [exfalso|f_equal; now apply bcd_from_str_err in E].
  rewrite bcd_from_dotted in E by assumption.
  destruct (bcd_num_from_str a) eqn:Ea; [apply bcd_num_ok in Ea|discriminate].
  destruct (bcd_num_from_str b) eqn:Eb; [apply bcd_num_ok in Eb|discriminate].
  destruct (bcd_num_from_str c) eqn:Ec; [apply bcd_num_ok in Ec|discriminate]. lia.
Qed.

(* the hypotheses are satisfiable *)
Example bcd_ex1 : bcd_valid 0x9999 /\ bcd_valid 0 /\ bcd_valid 0x1234.
Proof. repeat split; apply bcd_check_valid; reflexivity. Qed.
Example bcd_ex2 : ~ bcd_valid 0x1A.
Proof. intros H. apply bcd_check_valid in H. vm_compute in H. discriminate. Qed.
Example bcd_ex3 : dec_str [49; 50]%N /\ canonical [49; 50]%N /\ bcd_read [49; 50]%N = 0x12.
Proof. split; [split; [cbn; lia|repeat constructor; lia]|]. split; [right; exists 49%N, [50%N]; split; [reflexivity|discriminate]|reflexivity]. Qed.
Example bcd_ex4 : bcd_from_str [49; 46; 50; 46; 51]%N = Ok (1, 2, 3)                 (* "1.2.3" *)
               /\ bcd_from_str [49; 46; 50]%N = Err 1%N                              (* "1.2" *)
               /\ bcd_from_str [49; 50; 51; 52; 53; 46; 49; 46; 49]%N = Err 1%N      (* "12345.1.1" *)
               /\ bcd_from_str [97; 46; 49; 46; 49]%N = Err 1%N.                      (* "a.1.1" *)
Proof. vm_compute. repeat split; reflexivity. Qed.
(* the text parser is int(text, 16): it also accepts a sign, "0x" and an inner underscore (C20 design note) *)
Example bcd_ex5_quirk : bcd_from_str [43; 49; 46; 48; 120; 50; 46; 49; 95; 48]%N = Ok (1, 2, 16).   (* "+1.0x2.1_0" *)
Proof. vm_compute. reflexivity. Qed.

Lemma bcd_from_str_accepts_only_l2 s :
  ((exists v, bcd_from_str s = Ok v) \/ bcd_from_str s = Err 1%N) /\
  (forall x y z, bcd_from_str s = Ok (x, y, z) ->
     bcd_valid x /\ bcd_valid y /\ bcd_valid z /\
     exists a b c, s = dotted a b c /\ nodot a /\ nodot b /\ nodot c /\
       (length a <= 4)%nat /\ (length b <= 4)%nat /\ (length c <= 4)%nat /\
       bcd_num_from_str a = Ok x /\ bcd_num_from_str b = Ok y /\ bcd_num_from_str c = Ok z).
Proof. split; [apply bcd_from_str_total_l|apply bcd_from_str_accepts_only_l]. Qed.

Lemma bcd_from_str_rejects_l :
  (forall s, count_occ N.eq_dec s 46%N <> 2%nat -> bcd_from_str s = Err 1%N) /\
  (forall a b c, nodot a -> nodot b -> nodot c ->
     (4 < length a \/ 4 < length b \/ 4 < length c)%nat -> bcd_from_str (dotted a b c) = Err 1%N).
Proof. split; [apply bcd_from_str_wrong_parts_l|apply bcd_from_str_long_part_l]. Qed.

Print Assumptions bcd_roundtrip_l.
Print Assumptions bcd_from_str_documented_l.
Print Assumptions bcd_from_str_accepts_only_l2.
Print Assumptions bcd_from_str_rejects_l.
Print Assumptions bcd_check_valid.
