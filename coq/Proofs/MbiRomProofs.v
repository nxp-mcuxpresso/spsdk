(* Proofs/MbiRomProofs.v -- C02: every image the export model (Model/MbiModel.v with the real primitives of
   Model/MbiRomModel.v) produces passes the checks of the independent ROM model.  Depends on MbiProofs, MbiRtProofs,
   MbiKindsProofs (C01: IVT words, export stages, length sums, HMAC insertion, manifest) and CryptoProofs / SymWrapProofs (C09).
   For each kind of class (k_crc, k_v1, k_v1h, k_enc, k_v21) the export side gives the shape of the image (k_crc_shape,
   export_v1_signed + v1_parts, the first half of enc_rom_l, k_v21_shape) and the ROM side evaluates rom_mbi on that
   shape; the ROM side is common to the kinds as far as their formats are: rom_mbi_signed (image type, total length, header
   HMAC), rom_mbi_v1 (certificate block v1, by image type), rom_v21_layout. *)
From Coq Require Import ZArith NArith List Bool Lia.
Require Import Value Bytes BytesProofs Crc Sha2 Hmac Aes Modes CryptoProofs SymWrapModel SymWrapProofs.
Require Import MbiMixinModel GenMbi MbiModel MbiProofs MbiRtProofs MbiKindsProofs MbiRomModel.
Import ListNotations.
Local Open Scope nat_scope.

(* the builder's two-call CRC is the standard CRC-32/MPEG-2 *)
Lemma crc_bits_bridge n c : mbi_crc_bits n c = crc_bits n 32 79764919 c.
Proof. revert c; induction n as [|n IH]; intros c; [reflexivity|]. cbn [mbi_crc_bits crc_bits]. rewrite IH. reflexivity. Qed.
Lemma crc_byte_bridge c b : mbi_crc_byte c b = crc_byte CRC32_MPEG2 c b.
Proof. unfold mbi_crc_byte, crc_byte. rewrite crc_bits_bridge. reflexivity. Qed.
Lemma crc_from_bridge init d : mbi_crc32_from init d = crc_update CRC32_MPEG2 init d.
Proof. exact (fold_left_ext mbi_crc_byte (crc_byte CRC32_MPEG2) d crc_byte_bridge init). Qed.
Lemma crc_finish_mpeg r : crc_finish CRC32_MPEG2 r = r.
Proof. unfold crc_finish. cbn. apply N.lxor_0_r. Qed.
Lemma crc_bridge_l (a b : list N) :
  mbi_crc32_mpeg a = crc CRC32_MPEG2 a /\ mbi_crc32_from (mbi_crc32_mpeg a) b = crc CRC32_MPEG2 (a ++ b).
Proof.
  unfold mbi_crc32_mpeg, crc. rewrite !crc_finish_mpeg, crc_update_app. change (crc_init CRC32_MPEG2) with 4294967295%N.
  rewrite <- (crc_from_bridge 4294967295 a). split; [reflexivity|apply crc_from_bridge].
Qed.

(* bytearray slice assignment d[off:off+len(w)] = w: the three parts of the result *)
Lemma wr_split off w d : off + length w <= length d -> wr off w d = firstn off d ++ w ++ skipn (off + length w) d.
Proof. reflexivity. Qed.

Lemma mixin_eqb_sym a b : mixin_eqb a b = mixin_eqb b a.
Proof. unfold mixin_eqb. apply Z.eqb_sym. Qed.
Lemma opt_mixin_id_inj a b : opt_mixin_id a = opt_mixin_id b -> a = b.
Proof.
  assert (NZ : forall m, mixin_id m <> 0%Z) by (intros m; destruct m; discriminate).
  destruct a as [a|], b as [b|]; cbn [opt_mixin_id]; intros H.
  - f_equal. now apply mixin_id_inj.
  - now apply NZ in H.
  - symmetry in H. now apply NZ in H.
  - reflexivity.
Qed.

Definition ks_bytes (x : mbi) : list N := match m_ks x with Some b => b | None => [] end.

Lemma flat_snoc (im : image) (s : list N) : flat (im ++ [s]) = flat im ++ s.
Proof. rewrite flat_app. unfold flat at 2. simpl. now rewrite app_nil_r. Qed.
Lemma flat_v1_raw app' cbb x : flat ([app'; cbb] ++ tz_segment x) = app' ++ cbb ++ tz_export (m_tz x).
Proof. rewrite flat_app, flat_tz_segment. unfold flat. simpl. now rewrite app_nil_r, <- app_assoc. Qed.

Lemma validate_app_len c x : validate c x = Ok tt -> has c MixinApp = true -> 56 <= length (m_app x).
Proof.
  intros V H. pose proof (validate_mix c x MixinApp V H) as M. cbn [mix_validate] in M.
  destruct (Nat.ltb (length (m_app x)) MIN_APP) eqn:E; [discriminate|]. apply Nat.ltb_ge in E. exact E.
Qed.
Lemma validate_iv c x : validate c x = Ok tt -> has c MixinCtrInitVector = true -> length (m_iv x) = 16.
Proof.
  intros V H. pose proof (validate_mix c x MixinCtrInitVector V H) as M. cbn [mix_validate] in M.
  change IV_SZ with 16 in M. destruct (Nat.eqb (length (m_iv x)) 16) eqn:E; [|discriminate]. now apply Nat.eqb_eq in E.
Qed.

Lemma reloc_none c x start : m_table x = None -> reloc_segment c x start = Ok [].
Proof. intros H. unfold reloc_segment. rewrite H. now destruct (has_attr c AAppTable). Qed.
Lemma sign_rsa k c x raw : provider c SSign = Some ExportMixinRsaSign ->
  MbiModel.sign k c x raw = Ok (raw ++ [k_sign k (flat raw)], flat raw).
Proof. intros P. unfold MbiModel.sign. now rewrite P. Qed.

(* the four IVT words of a class with MixinIvt and a non-zero image type *)
Lemma mixin_ivt_words c x d total cc d' :
  provider c SUpdateIvt = Some MixinIvt -> c_type c <> 0%Z -> 56 <= length d -> update_ivt c x d total cc = Ok d' ->
  length d' = length d /\ rd32 32 d' = total /\ rd32 36 d' = create_flags c x /\ rd32 40 d' = cc.
Proof.
  intros PU CT L U. destruct (ivt_words c x d total cc d' L U) as (I1 & I2 & I3 & _).
  unfold ivt_total in I1. rewrite PU in I1. unfold ivt_crc in I3. rewrite (proj2 (Z.eqb_neq _ _) CT) in I3.
  split; [exact (update_ivt_length c x d total cc d' L U)|]. auto.
Qed.

(* what MbiProofs.update_ivt_form gives for the bytes behind the IVT and for the IVT words themselves *)
Lemma update_ivt_tail c x d total cc d' : 56 <= length d -> update_ivt c x d total cc = Ok d' -> skipn 56 d' = skipn 56 d.
Proof.
  intros L U. destruct (update_ivt_form c x d total cc d' L U) as (wt & wf & wc & wl & H1 & H2 & H3 & H4 & ->).
  apply ivt_frame_tail; try eapply u32_length; eassumption.
Qed.
Lemma update_ivt_same_words c x d1 d2 total cc d1' d2' : 56 <= length d1 -> 56 <= length d2 ->
  update_ivt c x d1 total cc = Ok d1' -> update_ivt c x d2 total cc = Ok d2' ->
  slice d1' 32 44 = slice d2' 32 44 /\ slice d1' 52 56 = slice d2' 52 56.
Proof.
  intros L1 L2 U1 U2.
  destruct (update_ivt_form c x d1 total cc d1' L1 U1) as (wt & wf & wc & wl & H1 & H2 & H3 & H4 & ->).
  destruct (update_ivt_form c x d2 total cc d2' L2 U2) as (wt' & wf' & wc' & wl' & H1' & H2' & H3' & H4' & ->).
  rewrite H1 in H1'. rewrite H2 in H2'. rewrite H3 in H3'. rewrite H4 in H4'.
  injection H1' as <-. injection H2' as <-. injection H3' as <-. injection H4' as <-.
  apply u32_length in H1, H2, H3, H4.
  assert (S : forall d, 56 <= length d ->
            slice (ivt_frame d wt wf wc wl) 32 44 = wt ++ wf ++ wc /\ slice (ivt_frame d wt wf wc wl) 52 56 = wl).
  { intros d L. unfold ivt_frame. assert (LA : length (firstn 32 d) = 32) by (rewrite firstn_length; lia). split.
    - rewrite (app_assoc wf), (app_assoc wt). apply slice_app_mid; [exact LA|rewrite !app_length; lia].
    - rewrite !app_assoc, <- (app_assoc _ wl). apply slice_app_mid; [|lia]. rewrite !app_length, LA, slice_length by lia. lia. }
  destruct (S d1 L1) as [-> ->]. destruct (S d2 L2) as [-> ->]. auto.
Qed.

Definition wf_input (x : mbi) : Prop := (0 <= m_subtype x < 4)%Z /\ (0 <= m_imgver x < 65536)%Z /\ m_table x = None.

Definition prov_is (c : mbi_class) (s : stage) (m : option mixin) : bool := (opt_mixin_id (provider c s) =? opt_mixin_id m)%Z.
Lemma prov_is_eq c s m : prov_is c s m = true -> provider c s = m.
Proof. intros H. apply opt_mixin_id_inj, Z.eqb_eq, H. Qed.

(* what the flags word (IVT word 0x24) tells the ROM *)
Lemma land63_type c x : (0 <= c_type c < 64)%Z -> wf_input x -> Z.land (create_flags c x) 63 = c_type c.
Proof. intros H (H1 & H2 & _). now destruct (flags_decode_lemma c x H H1 H2) as (_ & E & _). Qed.
Lemma tz_custom_flags c x (a : list N) : (0 <= c_type c < 64)%Z -> wf_input x -> has_tz c = true ->
  rd32 36 a = create_flags c x -> tz_custom a = match m_tz x with TzCustom _ => true | _ => false end.
Proof.
  intros CT (H1 & H2 & _) HA R. unfold tz_custom, rom_word. rewrite R.
  destruct (flags_decode_lemma c x CT H1 H2) as (_ & _ & E & _).
  change G_IVT_IMAGE_FLAGS_TZ_TYPE_SHIFT with 13%Z in E. change G_IVT_IMAGE_FLAGS_TZ_TYPE_MASK with 3%Z in E. rewrite E, HA.
  destruct (m_tz x); reflexivity.
Qed.
Lemma ks_flag_flags c x (a : list N) : (0 <= c_type c < 64)%Z -> wf_input x -> has_attr c AKeyStore = true ->
  rd32 36 a = create_flags c x -> ks_flag a = truthy_ks (m_ks x).
Proof.
  intros CT (H1 & H2 & _) HA R. unfold ks_flag, zbit, rom_word. rewrite R.
  destruct (flags_decode_lemma c x CT H1 H2) as (_ & _ & _ & _ & _ & E & _).
  change G_KEY_STORE_FLAG with 32768%Z in E. rewrite E, HA. reflexivity.
Qed.

(* the length that goes into the certificate block header, mixin by mixin, and what total_len adds to it *)
Lemma total_len_for_cert_expand c x : nodupb (c_mixins c) = true ->
  total_len_for_cert c x =
  (hz c MixinApp (zlen (m_app x)) + hz c MixinTrustZone (mix_len x MixinTrustZone) +
   hz c MixinTrustZoneMandatory (mix_len x MixinTrustZoneMandatory) + hz c MixinRelocTable (mix_len x MixinRelocTable) +
   hz c MixinManifestCrc (mix_len x MixinManifestCrc) + hz c MixinManifestDigest (mix_len x MixinManifestDigest) +
   hz c MixinCertBlockV1 (mix_len x MixinCertBlockV1) + hz c MixinCertBlockV21 (mix_len x MixinCertBlockV21))%Z.
Proof.
  intros ND. unfold total_len_for_cert. rewrite (sumz_nodup _ _ ND). unfold hz, has, hasl.
  cbn [all_mixins map sumz fold_right mix_len legacy_len]. rewrite ?if_same0. ring.
Qed.
Lemma total_len_split c x : nodupb (c_mixins c) = true ->
  total_len c x =
  (total_len_for_cert c x + hz c MixinKeyStore (opt_len (m_ks x)) + hz c MixinHmac (mix_len x MixinHmac) +
   hz c MixinHmacMandatory (mix_len x MixinHmacMandatory))%Z.
Proof. intros ND. rewrite (total_len_expand c x ND), (total_len_for_cert_expand c x ND). cbn [mix_len]. ring. Qed.
Lemma hz_0 c m : hz c m 0 = 0%Z. Proof. apply if_same0. Qed.

Definition no_auth_mixins (c : mbi_class) : bool :=
  negb (has c MixinManifestCrc) && negb (has c MixinManifestDigest) && negb (has c MixinCertBlockV1) &&
  negb (has c MixinCertBlockV21) && negb (has c MixinKeyStore) && negb (has c MixinHmac) && negb (has c MixinHmacMandatory).

(* CRC classes: application (+ TrustZone), CRC written into IVT word 0x28, total length written into word 0x20 *)
Definition k_crc (c : mbi_class) : bool :=
  supported c && nodupb (c_mixins c) && has c MixinApp && has_attr c AIvtTable && no_auth_mixins c &&
  ((prov_is c SCollect (Some ExportMixinAppTrustZone) && xorb (has c MixinTrustZone) (has c MixinTrustZoneMandatory)) ||
   (prov_is c SCollect (Some ExportMixinApp) && negb (has c MixinTrustZone) && negb (has c MixinTrustZoneMandatory))) &&
  prov_is c SEncrypt None && prov_is c SPostEncrypt None && prov_is c SFinalize None &&
  prov_is c SSign (Some ExportMixinCrcSign) && prov_is c SUpdateIvt (Some MixinIvt) && ((c_type c =? 2) || (c_type c =? 5))%Z.

(* ROM side: the CRC word the builder writes is the one the ROM recomputes *)
Lemma crc_region_wr (a w t : list N) : 44 <= length a -> length w = 4 ->
  crc_region (wr 40 w a ++ t) = firstn 40 (a ++ t) ++ skipn 44 (a ++ t) /\ slice (wr 40 w a ++ t) 40 44 = w.
Proof.
  intros L Lw. assert (L40 : length (firstn 40 a) = 40) by (rewrite firstn_length; lia).
  rewrite firstn_app_le, skipn_app_le by lia. unfold wr, splice. rewrite Lw, <- !app_assoc. split.
  - unfold crc_region. rewrite (firstn_app_exact _ _ 40 L40). f_equal. now apply (skipn_app_exact2 _ _ _ 40 4).
  - apply slice_app_mid; [exact L40|now rewrite Lw].
Qed.
Lemma rom_mbi_crc cfg keys (a t : list N) : 56 <= length a ->
  let ty := Z.land (rd32 36 a) 63 in (ty = 2 \/ ty = 5)%Z -> In ty (r_types cfg) -> rd32 32 a = zlen (a ++ t) ->
  let img := wr 40 (le_enc 4 (mbi_crc32_from (mbi_crc32_mpeg (firstn 40 (a ++ t))) (skipn 44 (a ++ t)))) a ++ t in
  rom_crc_ok img = true /\ rom_mbi cfg keys img = Some {| ro_plain := img; ro_msg := crc_region img; ro_obl := [] |}.
Proof.
  intros L ty CT TY R32 img. set (w := le_enc 4 _) in img.
  assert (Lw : length w = 4) by apply le_enc_length.
  assert (Lwr : length (wr 40 w a) = length a) by (apply wr_length; lia).
  assert (RC : rom_crc_ok img = true).
  { unfold rom_crc_ok, img. destruct (crc_region_wr a w t ltac:(lia) Lw) as [-> ->].
    destruct (crc_bridge_l (firstn 40 (a ++ t)) (skipn 44 (a ++ t))) as [_ <-]. apply eqb_list_refl. }
  split; [exact RC|].
  assert (RW : forall o, o + 4 <= 40 -> rd32 o img = rd32 o a).
  { intros o Ho. unfold img. rewrite rd32_app, rd32_wr_other by lia. reflexivity. }
  unfold rom_mbi. rewrite (proj2 (Nat.ltb_ge (length img) 56)) by (unfold img; rewrite app_length; lia).
  rewrite (RW 36), (RW 32), R32 by lia. fold ty.
  replace (existsb (Z.eqb ty) (r_types cfg)) with true by (symmetry; apply existsb_exists; exists ty; split; [exact TY|apply Z.eqb_refl]).
  replace (zlen img) with (zlen (a ++ t)) by (unfold zlen, img; now rewrite !app_length, Lwr).
  rewrite Z.eqb_refl, RC. destruct CT as [-> | ->]; reflexivity.
Qed.

Lemma no_auth_spec c : no_auth_mixins c = true ->
  has c MixinManifestCrc = false /\ has c MixinManifestDigest = false /\ has c MixinCertBlockV1 = false /\
  has c MixinCertBlockV21 = false /\ has c MixinKeyStore = false /\ has c MixinHmac = false /\ has c MixinHmacMandatory = false.
Proof.
  unfold no_auth_mixins. intros [[[[[[N1 N2]%andb_prop N3]%andb_prop N4]%andb_prop N5]%andb_prop N6]%andb_prop N7]%andb_prop.
  apply negb_true_iff in N1, N2, N3, N4, N5, N6, N7. auto 8.
Qed.

(* export side: header with the IVT words, optional TrustZone data behind it, CRC of everything but its own word at 0x28 *)
Lemma k_crc_shape k c x img : k_crc c = true -> wf_input x -> export_mbi k c x = Ok img ->
  exists a t, 56 <= length a /\ rd32 32 a = zlen (a ++ t) /\ rd32 36 a = create_flags c x /\ (c_type c = 2 \/ c_type c = 5)%Z /\
    img = wr 40 (le_enc 4 (mbi_crc32_from (mbi_crc32_mpeg (firstn 40 (a ++ t))) (skipn 44 (a ++ t)))) a ++ t.
Proof.
  intros K (_ & _ & HT) E. unfold k_crc in K.
  apply andb_prop in K as [[[[[[[[[[[_ ND]%andb_prop HA]%andb_prop HI]%andb_prop NA]%andb_prop KC]%andb_prop PE]%andb_prop PP]%andb_prop
    PF]%andb_prop PS]%andb_prop PU]%andb_prop CT].
  apply prov_is_eq in PE, PP, PF, PS, PU. destruct (no_auth_spec c NA) as (N1 & N2 & N3 & N4 & N5 & N6 & N7).
  assert (CT' : (c_type c = 2 \/ c_type c = 5)%Z) by (apply orb_true_iff in CT as [X|X]; apply Z.eqb_eq in X; auto).
  destruct (export_inv k c x img E) as (_ & V & raw & enc & enc2 & sg & fin & E1 & E2 & E3 & E4 & E5 & ->).
  pose proof (validate_app_len c x V HA) as L.
  rewrite (encrypt_none k c x raw PE) in E2. injection E2 as <-.
  rewrite (post_encrypt_none c x raw PP) in E3. injection E3 as <-.
  rewrite (finalize_none k c x _ _ PF) in E5. injection E5 as <-.
  assert (CA : exists app' t, update_ivt c x (m_app x) (total_len c x) 0 = Ok app' /\ raw = app' :: t /\
                 total_len c x = (zlen (m_app x) + zlen (flat t))%Z).
  { pose proof (total_len_split c x ND) as TL. rewrite (total_len_for_cert_expand c x ND) in TL.
    rewrite (hz_true c MixinApp _ HA), (hz_false c _ _ N1), (hz_false c _ _ N2), (hz_false c _ _ N3), (hz_false c _ _ N4),
      (hz_false c _ _ N5), (hz_false c _ _ N6), (hz_false c _ _ N7) in TL. cbn [mix_len] in TL. rewrite HT, hz_0 in TL.
    unfold collect in E1. apply orb_prop in KC as [[KC X]%andb_prop|[[KC X1]%andb_prop X2]%andb_prop];
      apply prov_is_eq in KC; rewrite KC in E1.
    - destruct (collect_app c x) as [im|] eqn:CA; cbn [bind] in E1; [|discriminate]. injection E1 as <-.
      destruct (collect_app_inv c x im HI CA) as (app' & rs & U & RS & ->). rewrite (reloc_none c x _ HT) in RS. injection RS as <-.
      exists app', (tz_segment x).
      split; [exact U|]. split; [reflexivity|]. rewrite flat_tz_segment. unfold hz in TL.
      destruct (has c MixinTrustZone), (has c MixinTrustZoneMandatory); try discriminate X; lia.
    - destruct (collect_app_inv c x raw HI E1) as (app' & rs & U & RS & ->). rewrite (reloc_none c x _ HT) in RS. injection RS as <-.
      exists app', []. apply negb_true_iff in X1, X2.
      rewrite (hz_false c _ _ X1), (hz_false c _ _ X2) in TL. split; [exact U|]. split; [reflexivity|]. rewrite TL. cbn. lia. }
  destruct CA as (app' & t & U & -> & TL). exists app', (flat t).
  assert (CT0 : c_type c <> 0%Z) by lia. destruct (mixin_ivt_words c x _ _ _ app' PU CT0 L U) as (La & R32 & R36 & _).
  split; [lia|]. split; [rewrite R32, TL, zlen_app; unfold zlen; now rewrite La|]. split; [exact R36|]. split; [exact CT'|].
  unfold MbiModel.sign in E4. rewrite PS, flat_cons, crc_write_head in E4 by lia. injection E4 as <-. reflexivity.
Qed.

Theorem crc_ok_l k c x img cfg keys :
  k_crc c = true -> wf_input x -> In (c_type c) (r_types cfg) -> export_mbi k c x = Ok img ->
  rom_crc_ok img = true /\
  rom_mbi cfg keys img = Some {| ro_plain := img; ro_msg := crc_region img; ro_obl := [] |}.
Proof.
  intros K WI TY E. destruct (k_crc_shape k c x img K WI E) as (a & t & L & R32 & R36 & CT & ->).
  assert (T63 : Z.land (rd32 36 a) 63 = c_type c) by (rewrite R36; apply land63_type; [lia|exact WI]).
  apply rom_mbi_crc; rewrite ?T63; assumption.
Qed.

Lemma finalize_hmac_app_len k c x im dts fin : provider c SFinalize = Some ExportMixinHmacKeyStoreFinalize ->
  finalize k c x im dts = Ok fin -> (64 <= app_len c x)%Z.
Proof.
  intros PF E. unfold finalize in E. rewrite PF in E. change (Z.of_nat HMAC_OFF) with 64%Z in E.
  destruct (app_len c x <? 64)%Z eqn:X; [discriminate|]. now apply Z.ltb_ge in X.
Qed.

Lemma wnat_eq lim z : (z <= Z.of_nat lim)%Z -> wnat lim z = Z.to_nat z.
Proof. intros H. unfold wnat. f_equal. lia. Qed.
Lemma wnat_zlen {A} lim (l : list A) : length l <= lim -> wnat lim (zlen l) = length l.
Proof. intros H. rewrite wnat_eq by (unfold zlen; lia). unfold zlen. apply Nat2Z.id. Qed.

Lemma rom_digest_bytes_length c s : length (digest_bytes c s) = 8 * wbytes c.
Proof.
  destruct s as [[[[[[[a b] cc] d] e] f] g] h]. unfold digest_bytes. cbn [map concat].
  rewrite !app_length, !be_enc_length. simpl. lia.
Qed.
Lemma rom_sha256_length m : length (sha256 m) = 32.
Proof. unfold sha256, sha2. rewrite firstn_length, rom_digest_bytes_length. reflexivity. Qed.
Lemma rom_sha384_length m : length (sha384 m) = 48.
Proof. unfold sha384, sha2. rewrite firstn_length, rom_digest_bytes_length. reflexivity. Qed.
Lemma rom_sha512_length m : length (sha512 m) = 64.
Proof. unfold sha512, sha2. rewrite firstn_length, rom_digest_bytes_length. reflexivity. Qed.
Lemma hmac_sha256_length k d : length (hmac_sha256 k d) = 32.
Proof. unfold hmac_sha256, hmac_gen. apply rom_sha256_length. Qed.

Lemma rom_strip_layout cfg keys ty (s hm ksb : list N) :
  has_hmac cfg ty = true -> 64 <= length s -> hm = hmac_sha256 (rom_hmac_key (rk_user keys)) (firstn 64 s) ->
  length ksb = (if ks_flag s then KS_SIZE else 0) ->
  let img := firstn 64 s ++ hm ++ ksb ++ skipn 64 s in
  firstn 64 img = firstn 64 s /\ rom_hmac_ok (rk_user keys) img = true /\ rom_strip cfg keys ty img = Some s.
Proof.
  intros HH L EH LK img.
  assert (L64 : length (firstn 64 s) = 64) by (rewrite firstn_length; lia).
  assert (LH : length hm = 32) by (subst hm; apply hmac_sha256_length).
  assert (F : firstn 64 img = firstn 64 s) by (unfold img; now apply firstn_app_exact).
  assert (LI : length img = 64 + 32 + length ksb + (length s - 64)).
  { unfold img. rewrite !app_length, L64, LH, skipn_length. lia. }
  assert (KF : ks_flag img = ks_flag s).
  { unfold ks_flag, rom_word. now rewrite <- (rd32_firstn 36 64 img), F, rd32_firstn by lia. }
  assert (RH : rom_hmac_ok (rk_user keys) img = true).
  { unfold rom_hmac_ok. rewrite F, <- EH. unfold img. rewrite slice_app_mid by (rewrite ?LH; trivial). apply eqb_list_refl. }
  split; [exact F|]. split; [exact RH|].
  unfold rom_strip. rewrite HH, RH. cbn [negb]. unfold strip_len. rewrite KF.
  assert (SK : skipn (if ks_flag s then 96 + KS_SIZE else 96) img = skipn 64 s).
  { unfold img. replace (if ks_flag s then 96 + KS_SIZE else 96) with (64 + (32 + length ksb)) by (rewrite LK; destruct (ks_flag s); reflexivity).
    rewrite skipn_add, (skipn_app_exact _ _ 64 L64). now apply skipn_app_exact2. }
  rewrite (proj2 (Nat.ltb_ge (length img) (if ks_flag s then 96 + KS_SIZE else 96))) by (rewrite LI, LK; destruct (ks_flag s); lia).
  rewrite F, SK, firstn_skipn. reflexivity.
Qed.

Lemma in_existsb_z (t : Z) l : In t l -> existsb (Z.eqb t) l = true.
Proof. intros H. apply existsb_exists. exists t. split; [assumption|apply Z.eqb_refl]. Qed.

(* the ROM's way to the signed image: image type, total length, header HMAC; s = the signed image, img = s with HMAC and key
   store behind its first 64 bytes when the device authenticates headers of this image type *)
Lemma rom_mbi_signed cfg keys ty (s ksb : list N) :
  In ty (r_types cfg) -> (ty = 1 \/ ty = 3 \/ ty = 4 \/ ty = 8)%Z -> 64 <= length s ->
  Z.land (rd32 36 s) 63 = ty -> (has_hmac cfg ty = true -> length ksb = (if ks_flag s then KS_SIZE else 0)) ->
  let img := if has_hmac cfg ty
             then firstn 64 s ++ hmac_sha256 (rom_hmac_key (rk_user keys)) (firstn 64 s) ++ ksb ++ skipn 64 s else s in
  rd32 32 s = zlen img ->
  (has_hmac cfg ty = true -> firstn 64 img = firstn 64 s /\ rom_hmac_ok (rk_user keys) img = true) /\
  rom_mbi cfg keys img =
    match r_cb cfg with
    | CbV1 => rom_signed_v1 cfg keys ty s
    | CbV21 => if (ty =? 3)%Z then None else rom_signed_v21 cfg keys ty s
    | CbNone => None
    end.
Proof.
  intros TY CT L T63 LK img R32.
  assert (X : (forall o, o + 4 <= 64 -> rd32 o img = rd32 o s) /\ rom_strip cfg keys ty img = Some s /\ 56 <= length img /\
              (has_hmac cfg ty = true -> firstn 64 img = firstn 64 s /\ rom_hmac_ok (rk_user keys) img = true)).
  { unfold img. destruct (has_hmac cfg ty) eqn:HH.
    - destruct (rom_strip_layout cfg keys ty s _ ksb HH L eq_refl (LK eq_refl)) as (F & RH & RS).
      set (im := firstn 64 s ++ _) in *. assert (LI : 64 <= length im) by (unfold im; rewrite app_length, firstn_length; lia).
      split; [|split; [exact RS|split; [lia|auto]]].
      intros o Ho. now rewrite <- (rd32_firstn o 64), F, rd32_firstn by lia.
    - split; [reflexivity|]. split; [unfold rom_strip; now rewrite HH|]. split; [lia|discriminate]. }
  destruct X as (RW & RS & L56 & HM). split; [exact HM|]. unfold rom_mbi.
  rewrite (proj2 (Nat.ltb_ge (length img) 56)) by exact L56.
  rewrite (RW 36), (RW 32), T63, R32, Z.eqb_refl, RS, (in_existsb_z ty _ TY) by lia.
  destruct CT as [-> | [-> | [-> | ->]]]; reflexivity.
Qed.

Lemma hmac_img_len (s hm ksb : list N) : 64 <= length s -> length hm = 32 ->
  zlen (firstn 64 s ++ hm ++ ksb ++ skipn 64 s) = (zlen s + 32 + zlen ksb)%Z.
Proof. intros L LH. unfold zlen. rewrite !app_length, firstn_length, skipn_length, LH. lia. Qed.

Lemma wnat_le lim z : wnat lim z <= lim -> (z <= Z.of_nat lim)%Z.
Proof. unfold wnat. lia. Qed.
Lemma align4_ge n : n <= align4 n.
Proof. unfold align4. pose proof (Nat.div_mod (n + 3) 4 ltac:(lia)). pose proof (Nat.mod_upper_bound (n + 3) 4 ltac:(lia)). lia. Qed.
Lemma rom_cb_v1_inv cb info : rom_cb_v1 cb = Some info ->
  32 <= length cb /\ length cb = align4 (32 + natz (rd32 28 cb) + 128) /\ c1_il info = rd32 20 cb /\ (rd32 28 cb <= zlen cb)%Z.
Proof.
  unfold rom_cb_v1. intros H.
  destruct (Nat.ltb (length cb) 32) eqn:E1; [discriminate|]. apply Nat.ltb_ge in E1.
  destruct (negb (eqb_list (firstn 4 cb) CERT_MAGIC_B)); [discriminate|].
  destruct (negb (rd32 8 cb =? 32)%Z); [discriminate|].
  destruct (Nat.eqb (wnat (length cb) (rd32 24 cb)) 0 || Nat.ltb 4 (wnat (length cb) (rd32 24 cb))); [discriminate|].
  destruct (negb (Nat.eqb (length cb) (align4 (32 + wnat (length cb) (rd32 28 cb) + 128)))) eqn:E2; [discriminate|].
  apply negb_false_iff, Nat.eqb_eq in E2.
  destruct (cb1_certs (wnat (length cb) (rd32 24 cb)) cb 32 (32 + wnat (length cb) (rd32 28 cb))) as [[cs e]|]; [|discriminate].
  destruct (negb (Nat.eqb e (32 + wnat (length cb) (rd32 28 cb)))); [discriminate|]. injection H as <-.
  assert (B : (rd32 28 cb <= Z.of_nat (length cb))%Z).
  { apply wnat_le. pose proof (align4_ge (32 + wnat (length cb) (rd32 28 cb) + 128)). lia. }
  rewrite (wnat_eq _ _ B) in E2. auto.
Qed.

Definition v1_obl (info : cb1_info) (msg sig : list N) : list obligation :=
  chain_obl info ++ [ImageSig 1 (last (c1_certs info) []) msg sig].

(* msg = hdr-app | certificate block | trailer ; trailer = TrustZone data (plain) or header copy + IV + TrustZone (encrypted) *)
Lemma rom_v1_layout cfg keys ty (a cbb tr sig : list N) info :
  min_off cfg ty <= length a -> rd32 40 a = zlen a -> 44 <= length a ->
  rom_cb_v1 cbb = Some info -> c1_il info = zlen (a ++ cbb ++ tr) ->
  rk_rkth keys = sha256 (concat (c1_table info)) ->
  length tr = (if (ty =? 3)%Z then 72 else 0) + (if tz_custom a then r_tzsize cfg else 0) -> 0 < length sig ->
  let msg := a ++ cbb ++ tr in
  let s := msg ++ sig in
  let off := length a in let cbsize := length cbb in
  rom_signed_v1 cfg keys ty s =
    if (ty =? 3)%Z
    then let plain := ctr_xcrypt (aes_enc_block (rom_image_key cfg keys)) (rom_iv s off cbsize) (rom_cipher s off cbsize (length msg)) in
         if ivt_agree plain s then Some {| ro_plain := plain; ro_msg := msg; ro_obl := v1_obl info msg sig |} else None
    else Some {| ro_plain := msg; ro_msg := msg; ro_obl := v1_obl info msg sig |}.
Proof.
  intros MO W40 L44 CB IL RK LT SG msg s off cbsize.
  destruct (rom_cb_v1_inv cbb info CB) as (L32 & LCB & ILE & B28).
  assert (Es : s = a ++ cbb ++ tr ++ sig) by (unfold s, msg; now rewrite <- !app_assoc).
  assert (Lm : length msg = off + cbsize + length tr) by (unfold msg; rewrite !app_length; lia).
  assert (Ls : length s = length msg + length sig) by apply app_length.
  unfold rom_signed_v1.
  assert (O : wnat (length s) (rd32 40 s) = off).
  { rewrite Es at 2. rewrite rd32_app, W40 by lia. apply wnat_zlen. lia. }
  rewrite O.
  rewrite (proj2 (Nat.ltb_ge off (min_off cfg ty))) by exact MO.
  rewrite (proj2 (Nat.ltb_ge (length s) (off + 32))) by lia. cbn [orb].
  assert (R28 : rd32 (off + 28) s = rd32 28 cbb) by (rewrite Es; apply rd32_mid; lia).
  rewrite R28. rewrite (wnat_eq (length s) (rd32 28 cbb)) by (unfold zlen in B28; fold cbsize in B28; lia).
  fold (natz (rd32 28 cbb)). rewrite <- LCB. fold cbsize.
  rewrite (proj2 (Nat.ltb_ge (length s) (off + cbsize))) by lia.
  rewrite Es at 1. rewrite slice_app_mid by reflexivity. rewrite CB, <- RK, eqb_list_refl. cbn [negb].
  rewrite IL. fold msg. rewrite wnat_zlen by lia.
  replace (tz_custom s) with (tz_custom a) by (unfold tz_custom, rom_word; rewrite Es; now rewrite rd32_app by lia).
  rewrite (proj2 (Nat.eqb_eq (length msg) (off + cbsize + (if (ty =? 3)%Z then 72 else 0) + (if tz_custom a then r_tzsize cfg else 0)))) by lia.
  rewrite (proj2 (Nat.ltb_lt (length msg) (length s))) by lia. cbn [negb orb].
  rewrite (firstn_app_exact msg sig _ eq_refl : firstn (length msg) s = msg).
  rewrite (skipn_app_exact msg sig _ eq_refl : skipn (length msg) s = sig). reflexivity.
Qed.

(* the whole ROM walk for certificate block v1, by image type: 4 signed XIP, 1 signed load-to-RAM, 3 encrypted *)
Lemma rom_mbi_v1 cfg keys ty (a cbb tr sig ksb : list N) info :
  r_cb cfg = CbV1 -> In ty (r_types cfg) -> (ty = 1 \/ ty = 3 \/ ty = 4)%Z ->
  min_off cfg ty <= length a -> Z.land (rd32 36 a) 63 = ty -> rd32 40 a = zlen a ->
  rom_cb_v1 cbb = Some info -> c1_il info = zlen (a ++ cbb ++ tr) -> rk_rkth keys = sha256 (concat (c1_table info)) ->
  length tr = (if (ty =? 3)%Z then 72 else 0) + (if tz_custom a then r_tzsize cfg else 0) -> 0 < length sig ->
  (has_hmac cfg ty = true -> length ksb = (if ks_flag a then KS_SIZE else 0)) ->
  let msg := a ++ cbb ++ tr in
  let s := msg ++ sig in
  let img := if has_hmac cfg ty
             then firstn 64 s ++ hmac_sha256 (rom_hmac_key (rk_user keys)) (firstn 64 s) ++ ksb ++ skipn 64 s else s in
  rd32 32 a = zlen img ->
  (has_hmac cfg ty = true -> firstn 64 img = firstn 64 s /\ rom_hmac_ok (rk_user keys) img = true) /\
  rom_mbi cfg keys img =
    if (ty =? 3)%Z
    then let plain := ctr_xcrypt (aes_enc_block (rom_image_key cfg keys)) (rom_iv s (length a) (length cbb))
                                 (rom_cipher s (length a) (length cbb) (length msg)) in
         if ivt_agree plain s then Some {| ro_plain := plain; ro_msg := msg; ro_obl := v1_obl info msg sig |} else None
    else Some {| ro_plain := msg; ro_msg := msg; ro_obl := v1_obl info msg sig |}.
Proof.
  intros RCB TY CT MO T63 W40 CB IL RK LT SN LK msg s img R32.
  assert (L56 : 56 <= length a) by (unfold min_off in MO; destruct (has_hmac cfg ty); lia).
  destruct (rom_cb_v1_inv cbb info CB) as (L32 & _).
  assert (RA : forall o, o + 4 <= 56 -> rd32 o s = rd32 o a).
  { intros o Ho. unfold s, msg. rewrite <- !app_assoc. apply rd32_app. lia. }
  destruct (rom_mbi_signed cfg keys ty s ksb TY) as (HM & RM).
  - tauto.
  - unfold s, msg. rewrite !app_length. lia.
  - now rewrite RA by lia.
  - unfold ks_flag, rom_word. rewrite RA by lia. exact LK.
  - rewrite RA by lia. exact R32.
  - split; [exact HM|]. fold img in RM. rewrite RM, RCB. apply rom_v1_layout; trivial; lia.
Qed.

(* certificate-block-v1 classes (RSA) *)
Definition v1_common (c : mbi_class) : bool :=
  supported c && nodupb (c_mixins c) && has c MixinApp && has c MixinCertBlockV1 && negb (has c MixinCertBlockV21) &&
  negb (has c MixinManifestCrc) && negb (has c MixinManifestDigest) && has c MixinTrustZone &&
  negb (has c MixinTrustZoneMandatory) && negb (has c MixinHmac) && has_attr c ATrustZone &&
  prov_is c SSign (Some ExportMixinRsaSign) && prov_is c SUpdateIvt (Some MixinIvt).
(* signed XIP (LPC55S0x/1x/2x/6x, RT5xx/6xx, MCXW23x, NHS52S04) *)
Definition k_v1 (c : mbi_class) : bool :=
  v1_common c && prov_is c SCollect (Some ExportMixinAppTrustZoneCertBlock) && prov_is c SEncrypt None &&
  prov_is c SPostEncrypt None && prov_is c SFinalize None && negb (has c MixinKeyStore) && negb (has c MixinHmacMandatory) &&
  (c_type c =? 4)%Z.
(* signed load-to-RAM with header HMAC and optional key store (RT5xx/6xx) *)
Definition k_v1h (c : mbi_class) : bool :=
  v1_common c && prov_is c SCollect (Some ExportMixinAppTrustZoneCertBlock) && prov_is c SEncrypt None &&
  prov_is c SPostEncrypt None && prov_is c SFinalize (Some ExportMixinHmacKeyStoreFinalize) && has c MixinKeyStore &&
  has c MixinHmacMandatory && has_attr c AKeyStore && (c_type c =? 1)%Z.
(* encrypted load-to-RAM (RT5xx/6xx) *)
Definition k_enc (c : mbi_class) : bool :=
  v1_common c && prov_is c SCollect (Some ExportMixinAppTrustZoneCertBlockEncrypt) &&
  prov_is c SEncrypt (Some ExportMixinAppTrustZoneCertBlockEncrypt) &&
  prov_is c SPostEncrypt (Some ExportMixinAppTrustZoneCertBlockEncrypt) &&
  prov_is c SFinalize (Some ExportMixinHmacKeyStoreFinalize) && has c MixinKeyStore &&
  has c MixinHmacMandatory && has c MixinCtrInitVector && has_attr c AKeyStore && (c_type c =? 3)%Z.

Definition cb_v1_ok (pre post : list N) (certs table : list (list N)) : Prop :=
  length pre = 20 /\
  forall w, length w = 4 ->
    rom_cb_v1 (pre ++ w ++ post) = Some {| c1_il := rd32 20 (pre ++ w ++ post); c1_certs := certs; c1_table := table |}.
Definition tz_ok (tzsize : nat) (x : mbi) : Prop := match m_tz x with TzCustom d => length d = tzsize | _ => True end.

Lemma v1_common_spec c : v1_common c = true ->
  (nodupb (c_mixins c) = true /\ has c MixinApp = true /\ has c MixinCertBlockV1 = true /\ has c MixinCertBlockV21 = false /\
   has c MixinManifestCrc = false /\ has c MixinManifestDigest = false /\ has c MixinTrustZone = true /\
   has c MixinTrustZoneMandatory = false /\ has c MixinHmac = false) /\
  has_tz c = true /\ provider c SSign = Some ExportMixinRsaSign /\ provider c SUpdateIvt = Some MixinIvt.
Proof.
  unfold v1_common.
  intros [[[[[[[[[[[[_ ND]%andb_prop HA]%andb_prop H1]%andb_prop H21]%andb_prop HMC]%andb_prop HMD]%andb_prop HT]%andb_prop
    HTM]%andb_prop HH]%andb_prop HAT]%andb_prop PS]%andb_prop PU]%andb_prop.
  apply negb_true_iff in H21, HMC, HMD, HTM, HH. apply prov_is_eq in PS, PU. unfold has_tz. rewrite HAT. auto 12.
Qed.

Lemma v1_lens c x : v1_common c = true -> m_table x = None ->
  total_len_for_cert c x = (zlen (m_app x) + zlen (tz_export (m_tz x)) + mix_len x MixinCertBlockV1)%Z /\
  app_len c x = zlen (m_app x) /\
  total_len c x = (total_len_for_cert c x + hz c MixinKeyStore (opt_len (m_ks x)) +
                   hz c MixinHmacMandatory (mix_len x MixinHmacMandatory))%Z.
Proof.
  intros K HT. destruct (v1_common_spec c K) as ((ND & HA & H1 & H21 & HMC & HMD & HTZ & HTM & HH) & _).
  rewrite (total_len_split c x ND), (app_len_expand c x ND), (total_len_for_cert_expand c x ND).
  rewrite !(hz_true c _ _ HA), (hz_true c _ _ H1), (hz_true c _ _ HTZ), (hz_false c _ _ H21), (hz_false c _ _ HMC),
    (hz_false c _ _ HMD), (hz_false c _ _ HTM), (hz_false c _ _ HH).
  cbn [mix_len]. rewrite HT, !hz_0. repeat split; ring.
Qed.

(* the exported certificate block is the one the ROM parses, with image_length = il *)
Lemma cb_v1_export pre post sg certs table il cbb :
  cb_v1_ok pre post certs table -> cert_export (CertV1 pre post sg) il = Ok cbb ->
  rom_cb_v1 cbb = Some {| c1_il := il; c1_certs := certs; c1_table := table |} /\ rd32 20 cbb = il /\
  length cbb = cert_size (CertV1 pre post sg).
Proof.
  intros (LP & CB) E. unfold cert_export in E. destruct (il <=? 0)%Z; [discriminate|].
  destruct (u32 il) as [w|] eqn:U; cbn [bind] in E; [|discriminate]. injection E as <-.
  pose proof (u32_length _ _ U) as Lw. apply u32_value in U as [U _].
  assert (R20 : rd32 20 (pre ++ w ++ post) = il) by (rewrite <- LP, rd32_at by exact Lw; exact U).
  rewrite (CB w Lw), R20. cbn [cert_size]. rewrite !app_length, Lw. repeat split. lia.
Qed.
Lemma tz_len_ok tzsize x : tz_ok tzsize x ->
  length (tz_export (m_tz x)) = if (match m_tz x with TzCustom _ => true | _ => false end) then tzsize else 0.
Proof. unfold tz_ok. destruct (m_tz x); simpl; auto. Qed.

Lemma flat_v1_signed app' cbb x sg : flat (app' :: cbb :: tz_segment x ++ [sg]) = (app' ++ cbb ++ tz_export (m_tz x)) ++ sg.
Proof. now rewrite <- flat_v1_raw, <- flat_snoc. Qed.

(* the stages up to the signature, for the two kinds that collect application, certificate block and TrustZone data as they are *)
Lemma export_v1_signed sign c x img pre post sg :
  v1_common c = true -> provider c SCollect = Some ExportMixinAppTrustZoneCertBlock ->
  provider c SEncrypt = None -> provider c SPostEncrypt = None ->
  m_table x = None -> m_cert x = Some (CertV1 pre post sg) -> export_mbi (real_crypto sign) c x = Ok img ->
  exists app' cbb fin, validate c x = Ok tt /\ 56 <= length (m_app x) /\
    update_ivt c x (m_app x) (total_len c x + Z.of_nat sg) (app_len c x) = Ok app' /\
    cert_export (CertV1 pre post sg) (total_len_for_cert c x) = Ok cbb /\
    let msg := app' ++ cbb ++ tz_export (m_tz x) in
    finalize (real_crypto sign) c x (app' :: cbb :: tz_segment x ++ [sign msg]) msg = Ok fin /\ img = flat fin.
Proof.
  intros K PC PE PP HT MC E. destruct (v1_common_spec c K) as ((_ & HA & _) & _ & PS & _).
  destruct (export_inv _ c x img E) as (_ & V & raw & enc & enc2 & sgn & fin & E1 & E2 & E3 & E4 & E5 & ->).
  pose proof (validate_app_len c x V HA) as L.
  destruct (collect_v1_inv c x pre post sg raw PC MC L E1) as (app' & rs & cbb & CE & U & RS & ->).
  rewrite (reloc_none c x _ HT) in RS. apply ok_inj in RS. subst rs. cbn [app].
  rewrite (encrypt_none _ c x _ PE) in E2. injection E2 as <-.
  rewrite (post_encrypt_none c x _ PP) in E3. injection E3 as <-.
  rewrite (sign_rsa _ c x _ PS) in E4. injection E4 as <-. cbn [fst snd app] in E5.
  rewrite !flat_tz_segment in E5.
  exists app', cbb, fin. auto 10.
Qed.

(* ... and what the ROM will read in the header and the certificate block *)
Lemma v1_parts c x cfg pre post sg certs table app' cbb :
  v1_common c = true -> (c_type c = 1 \/ c_type c = 4)%Z -> wf_input x -> m_cert x = Some (CertV1 pre post sg) ->
  cb_v1_ok pre post certs table -> tz_ok (r_tzsize cfg) x -> 56 <= length (m_app x) ->
  update_ivt c x (m_app x) (total_len c x + Z.of_nat sg) (app_len c x) = Ok app' ->
  cert_export (CertV1 pre post sg) (total_len_for_cert c x) = Ok cbb ->
  let msg := app' ++ cbb ++ tz_export (m_tz x) in
  length app' = length (m_app x) /\
  rd32 32 app' = (zlen msg + Z.of_nat sg + hz c MixinKeyStore (opt_len (m_ks x)) +
                  hz c MixinHmacMandatory (mix_len x MixinHmacMandatory))%Z /\
  rd32 36 app' = create_flags c x /\ Z.land (rd32 36 app') 63 = c_type c /\ rd32 40 app' = zlen app' /\
  rom_cb_v1 cbb = Some {| c1_il := zlen msg; c1_certs := certs; c1_table := table |} /\ rd32 20 cbb = zlen msg /\
  length (tz_export (m_tz x)) = (if tz_custom app' then r_tzsize cfg else 0).
Proof.
  intros K CT WI MC CBOK TZ L U CE msg. pose proof WI as (_ & _ & HT).
  destruct (v1_common_spec c K) as (_ & HTZ & _ & PU). destruct (v1_lens c x K HT) as (TLC & AL & TL).
  destruct (mixin_ivt_words c x _ _ _ app' PU ltac:(lia) L U) as (La & R32 & R36 & R40).
  destruct (cb_v1_export pre post sg certs table _ cbb CBOK CE) as (CB & R20 & LCB).
  assert (Lmsg : zlen msg = total_len_for_cert c x).
  { rewrite TLC. cbn [mix_len]. rewrite MC, <- LCB. unfold msg, zlen. rewrite !app_length, La. lia. }
  rewrite <- Lmsg in CB, R20. split; [exact La|]. split; [rewrite R32, TL; lia|]. split; [exact R36|].
  split; [rewrite R36; apply land63_type; [lia|exact WI]|]. split; [rewrite R40, AL; unfold zlen; now rewrite La|].
  split; [exact CB|]. split; [exact R20|].
  rewrite (tz_custom_flags c x app') by (trivial; lia). now apply tz_len_ok.
Qed.

Theorem v1_accept_l sign c x img cfg keys pre post sg certs table :
  k_v1 c = true -> wf_input x -> m_cert x = Some (CertV1 pre post sg) -> cb_v1_ok pre post certs table ->
  rk_rkth keys = sha256 (concat table) -> r_cb cfg = CbV1 -> In 4%Z (r_types cfg) -> tz_ok (r_tzsize cfg) x ->
  (forall m, length (sign m) = sg) -> 0 < sg ->
  export_mbi (real_crypto sign) c x = Ok img ->
  exists msg, img = msg ++ sign msg /\
    rd32 32 img = zlen img /\ rd32 (natz (rd32 40 img) + 20) img = zlen msg /\
    rom_mbi cfg keys img =
    Some {| ro_plain := msg; ro_msg := msg;
            ro_obl := v1_obl {| c1_il := zlen msg; c1_certs := certs; c1_table := table |} msg (sign msg) |}.
Proof.
  intros K WI MC CBOK RK RCB TY TZ SL SG E. pose proof WI as (_ & _ & HT).
  unfold k_v1 in K.
  apply andb_prop in K as [[[[[[[K PC]%andb_prop PE]%andb_prop PP]%andb_prop PF]%andb_prop NKS]%andb_prop NHM]%andb_prop CT].
  apply prov_is_eq in PC, PE, PP, PF. apply negb_true_iff in NKS, NHM. apply Z.eqb_eq in CT.
  destruct (export_v1_signed sign c x img pre post sg K PC PE PP HT MC E) as (app' & cbb & fin & V & L & U & CE & FIN & ->).
  destruct (v1_parts c x cfg pre post sg certs table app' cbb K (or_intror CT) WI MC CBOK TZ L U CE)
    as (La & R32 & R36 & T63 & R40 & CB & R20 & LTZ).
  cbv zeta in FIN. rewrite (finalize_none _ c x _ _ PF) in FIN. injection FIN as <-. rewrite flat_v1_signed.
  set (msg := app' ++ cbb ++ tz_export (m_tz x)) in *. exists msg. split; [reflexivity|].
  rewrite (hz_false c _ _ NKS), (hz_false c _ _ NHM), !Z.add_0_r in R32.
  assert (Limg : zlen (msg ++ sign msg) = rd32 32 app') by (rewrite R32, zlen_app; unfold zlen; now rewrite SL).
  assert (HH : has_hmac cfg 4 = false) by apply andb_false_r.
  assert (Es : msg ++ sign msg = app' ++ cbb ++ tz_export (m_tz x) ++ sign msg) by (unfold msg; now rewrite <- !app_assoc).
  split; [|split].
  - rewrite Limg, Es. apply rd32_app. lia.
  - rewrite Es, (rd32_app 40), R40 by lia. unfold natz, zlen at 1. rewrite Nat2Z.id, rd32_mid; [exact R20|].
    apply rom_cb_v1_inv in CB. lia.
  - pose proof (rom_mbi_v1 cfg keys 4 app' cbb (tz_export (m_tz x)) (sign msg) []
                  {| c1_il := zlen msg; c1_certs := certs; c1_table := table |} RCB TY) as RM.
    cbv zeta in RM. rewrite HH in RM. apply RM; clear RM; trivial.
    + tauto.
    + unfold min_off. rewrite HH. lia.
    + now rewrite T63.
    + now rewrite SL.
    + discriminate.
    + now symmetry.
Qed.

Lemma nlen_32 (k : list N) : length k = 32 -> nlen k = 32%N.
Proof. intros H. unfold nlen. now rewrite H. Qed.
(* the builder's HMAC (KeyStore.derive_hmac_key + hmac) is the ROM's: HMAC-SHA256 under AES-ECB(user key, 0^16) *)
Lemma real_hmac_eq key hdr : length key = 32 -> real_hmac key hdr = hmac_sha256 (rom_hmac_key key) hdr.
Proof.
  intros L. unfold real_hmac. destruct (keystore_derivations_l key (nlen_32 key L)) as (-> & _). reflexivity.
Qed.
(* ... and the image key: AES-ECB(master key, 1|0^15) || AES-ECB(master key, 2|0^15) *)
Lemma real_enc_key_eq key : length key = 32 -> SymWrapModel.derive_enc_image_key key = Ok (rom_enc_key key).
Proof. intros L. destruct (keystore_derivations_l key (nlen_32 key L)) as (_ & -> & _). reflexivity. Qed.
Lemma hmac_block_real sign x key hdr rest : m_hmac x = Some key -> length key = 32 ->
  hmac_bytes x (match m_hmac x with Some (kb :: kt) => k_hmac (real_crypto sign) (kb :: kt) hdr | _ => [] end) ++ rest =
  hmac_sha256 (rom_hmac_key key) hdr ++ ks_bytes x ++ rest.
Proof.
  intros H L. rewrite H. destruct key as [|b t]; [discriminate L|]. cbn [k_hmac real_crypto]. rewrite real_hmac_eq by exact L.
  unfold hmac_bytes. apply app_assoc_reverse.
Qed.

Definition ks_wf (x : mbi) : Prop := match m_ks x with Some (b :: t) => length (b :: t) = KS_SIZE | _ => True end.
Lemma ks_len_ok x : ks_wf x -> length (ks_bytes x) = if truthy_ks (m_ks x) then KS_SIZE else 0.
Proof. unfold ks_wf, ks_bytes, truthy_ks. destruct (m_ks x) as [[|b t]|]; auto. Qed.
Lemma opt_len_ks x : opt_len (m_ks x) = zlen (ks_bytes x).
Proof. unfold opt_len, ks_bytes. now destruct (m_ks x). Qed.

(* certificate-block-v2.1 classes (ECC, manifest) *)
Definition k_v21 (c : mbi_class) : bool :=
  supported c && nodupb (c_mixins c) && has c MixinApp && has c MixinCertBlockV21 && negb (has c MixinCertBlockV1) &&
  xorb (has c MixinManifestCrc) (has c MixinManifestDigest) && negb (has c MixinTrustZone) &&
  negb (has c MixinTrustZoneMandatory) && negb (has c MixinKeyStore) && negb (has c MixinHmac) &&
  negb (has c MixinHmacMandatory) && prov_is c SCollect (Some ExportMixinAppCertBlockManifest) &&
  prov_is c SEncrypt None && prov_is c SPostEncrypt None && prov_is c SSign (Some ExportMixinEccSign) &&
  prov_is c SFinalize (Some ExportMixinAppCertBlockManifest) && prov_is c SUpdateIvt (Some MixinIvt) &&
  ((c_type c =? 4) || (c_type c =? 8) || (c_type c =? 1))%Z.

(* every class of the database (regenerated on every run): plain, or not modelled (BCA / cert block Vx: MC56F81xxx, MCXC),
   or exactly one of the protected kinds the theorems quantify over *)
Definition b2n (b : bool) : nat := if b then 1 else 0.
Definition kind_count (c : mbi_class) : nat := b2n (k_crc c) + b2n (k_v1 c) + b2n (k_v1h c) + b2n (k_enc c) + b2n (k_v21 c).
Definition class_covered (c : mbi_class) : bool :=
  if negb (supported c) then Nat.eqb (kind_count c) 0
  else if (c_type c =? 0)%Z then Nat.eqb (kind_count c) 0 else Nat.eqb (kind_count c) 1.
Definition kinds_histogram : list nat :=
  map (fun k => length (filter k gen_compositions)) [k_crc; k_v1; k_v1h; k_enc; k_v21; (fun c => negb (supported c))].

(* the hypotheses are satisfiable: concrete instances *)
Definition demo_pre : list N := [99; 101; 114; 116; 1; 0; 0; 0; 32; 0; 0; 0; 0; 0; 0; 0; 1; 0; 0; 0]%N.
Definition demo_post : list N := ([1; 0; 0; 0; 8; 0; 0; 0; 4; 0; 0; 0; 48; 2; 5; 0] ++ zeros 128)%N.
Definition demo_certs : list (list N) := [[48; 2; 5; 0]%N].
Definition demo_table : list (list N) := [zeros 32; zeros 32; zeros 32; zeros 32].
Lemma demo_cb_ok : cb_v1_ok demo_pre demo_post demo_certs demo_table.
Proof.
  split; [reflexivity|]. intros w Lw.
  destruct w as [|a [|b [|cc [|d [|e t]]]]]; try discriminate Lw. vm_compute. reflexivity.
Qed.
Definition demo_app (n : nat) : list N := map N.of_nat (seq 1 n).
Definition demo_x (n : nat) : mbi :=
  {| m_app := demo_app n; m_load := 4096; m_imgver := 0; m_subtype := 0; m_fwver := 0; m_tz := TzEnabled; m_hwkey := false;
     m_ks := None; m_hmac := None; m_iv := []; m_table := None; m_cert := None; m_digest := 0 |}.
Definition demo_sign (sg : nat) : list N -> list N := fun m => firstn sg (sha256 m ++ zeros sg).
Definition demo_c_crc : mbi_class := {| c_type := 5; c_mixins := [MixinApp; MixinIvt; MixinTrustZone; ExportMixinAppTrustZone; ExportMixinCrcSign] |}.
Definition demo_c_v1 : mbi_class :=
  {| c_type := 4; c_mixins := [MixinApp; MixinIvt; MixinTrustZone; MixinCertBlockV1; ExportMixinAppTrustZoneCertBlock; ExportMixinRsaSign] |}.
Definition demo_c_v1h : mbi_class :=
  {| c_type := 1; c_mixins := [MixinApp; MixinRelocTable; MixinLoadAddress; MixinIvt; MixinTrustZone; MixinCertBlockV1; MixinHmacMandatory;
                               MixinKeyStore; MixinHwKey; ExportMixinAppTrustZoneCertBlock; ExportMixinRsaSign; ExportMixinHmacKeyStoreFinalize] |}.
Lemma demo_sign_length sg m : length (demo_sign sg m) = sg.
Proof. unfold demo_sign. rewrite firstn_length, app_length, rom_sha256_length, zeros_length. lia. Qed.
Lemma demo_wf n : wf_input (demo_x n).
Proof. unfold wf_input, demo_x. cbn. repeat split; lia. Qed.
Example demo_crc_instance :
  k_crc demo_c_crc = true /\ wf_input (demo_x 60) /\ is_ok (export_mbi (real_crypto (demo_sign 0)) demo_c_crc (demo_x 60)) = true.
Proof. split; [vm_compute; reflexivity|]. split; [apply demo_wf|vm_compute; reflexivity]. Qed.
Example demo_v1_instance :
  let x := set_cert (demo_x 60) (Some (CertV1 demo_pre demo_post 256)) in
  k_v1 demo_c_v1 = true /\ wf_input x /\ tz_ok 464 x /\ (forall m, length (demo_sign 256 m) = 256) /\
  is_ok (export_mbi (real_crypto (demo_sign 256)) demo_c_v1 x) = true.
Proof.
  cbv zeta. split; [vm_compute; reflexivity|]. split; [apply demo_wf|]. split; [exact I|]. split; [|vm_compute; reflexivity].
  intros m. apply demo_sign_length.
Qed.
Example demo_v1h_instance :
  let x := set_hmac (set_cert (demo_x 80) (Some (CertV1 demo_pre demo_post 256))) (Some (zeros 32)) in
  k_v1h demo_c_v1h = true /\ wf_input x /\ ks_wf x /\
  is_ok (export_mbi (real_crypto (demo_sign 256)) demo_c_v1h x) = true.
Proof. cbv zeta. split; [vm_compute; reflexivity|]. split; [apply demo_wf|]. split; [exact I|vm_compute; reflexivity]. Qed.

Lemma okb_block1 : okb (1%N :: zeros 15) /\ okb (2%N :: zeros 15).
Proof. split; split; try reflexivity; repeat constructor. Qed.
Lemma rom_enc_key_ok key : length key = 32 -> wf_bytes key ->
  aes_key_ok (rom_enc_key key) = true /\ wf_bytes (rom_enc_key key).
Proof.
  intros L W. assert (K : aes_key_ok key = true) by (unfold aes_key_ok; rewrite L; reflexivity).
  destruct okb_block1 as [O1 O2].
  pose proof (aes_E_ok key K W (1%N :: zeros 15) O1) as X1. pose proof (aes_E_ok key K W (2%N :: zeros 15) O2) as X2.
  destruct X1 as [L1 W1]. destruct X2 as [L2 W2].
  unfold rom_enc_key, aes_enc_block. change (cipher_rks (key_expansion key)) with (aesE key).
  split; [unfold aes_key_ok; rewrite app_length, L1, L2; reflexivity|now apply wf_bytes_app].
Qed.
(* the builder's AES-CTR under the (derived) key, and the ROM's decryption of it *)
Lemma real_ctr_roundtrip (key : list N) (derive : bool) (iv p : list N) : length key = 32 -> wf_bytes key -> length iv = 16 ->
  let k' := if derive then rom_enc_key key else key in
  real_ctr key derive iv p = ctr_xcrypt (aes_enc_block k') iv p /\
  length (real_ctr key derive iv p) = length p /\
  ctr_xcrypt (aes_enc_block k') iv (real_ctr key derive iv p) = p.
Proof.
  intros L W LI k'. assert (K : aes_key_ok key = true) by (unfold aes_key_ok; rewrite L; reflexivity).
  assert (K' : aes_key_ok k' = true /\ wf_bytes k').
  { unfold k'. destruct derive; [now apply rom_enc_key_ok|auto]. }
  destruct K' as [K1 K2].
  assert (E : real_ctr key derive iv p = ctr_xcrypt (aes_enc_block k') iv p).
  { unfold real_ctr. replace (if derive then match SymWrapModel.derive_enc_image_key key with Ok k => k | Err _ => [] end else key) with k'
      by (unfold k'; destruct derive; [now rewrite real_enc_key_eq|reflexivity]).
    unfold aes_ctr_crypt. rewrite K1, LI. reflexivity. }
  split; [exact E|]. rewrite E. change (aes_enc_block k') with (aesE k'). split.
  - apply ctr_length; [apply (aes_E_len k' K1 K2)|exact LI].
  - apply ctr_involutive_l; [apply (aes_E_len k' K1 K2)|exact LI].
Qed.


(* the ROM reassembles the ciphertext: encrypted header copy | rest of the first 64 bytes | body | encrypted TrustZone *)
Lemma rom_enc_layout (C enc_ivt cbb iv sig : list N) alen :
  64 <= alen -> alen <= length C -> length enc_ivt = 64 -> skipn 56 enc_ivt = slice C 56 64 -> length iv = 16 ->
  let a := enc_ivt ++ slice C 64 alen in
  let tr := firstn 56 C ++ iv ++ skipn alen C in
  let s := (a ++ cbb ++ tr) ++ sig in
  length a = alen /\ length tr = 72 + (length C - alen) /\
  rom_cipher s alen (length cbb) (length (a ++ cbb ++ tr)) = C /\ rom_iv s alen (length cbb) = iv.
Proof.
  intros H1 H2 LE SK LI a tr s.
  assert (La : length a = alen) by (unfold a; rewrite app_length, LE, slice_length; lia).
  assert (L56 : length (firstn 56 C) = 56) by (rewrite firstn_length; lia).
  assert (Lt : length tr = 72 + (length C - alen)) by (unfold tr; rewrite !app_length, L56, LI, skipn_length; lia).
  split; [exact La|]. split; [exact Lt|].
  assert (S1 : forall i j, slice s (alen + length cbb + i) (alen + length cbb + j) = slice (tr ++ sig) i j).
  { intros i j. unfold s. rewrite <- !app_assoc. rewrite slice_app_r by lia. rewrite La.
    replace (alen + length cbb + i - alen) with (length cbb + i) by lia. replace (alen + length cbb + j - alen) with (length cbb + j) by lia.
    rewrite slice_app_r by lia. f_equal; lia. }
  split.
  - unfold rom_cipher.
    replace (alen + length cbb) with (alen + length cbb + 0) at 1 by lia. rewrite S1.
    replace (length (a ++ cbb ++ tr)) with (alen + length cbb + length tr) by (rewrite !app_length, La; lia). rewrite S1.
    rewrite slice_0. rewrite firstn_app_le by lia. unfold tr at 1. rewrite (firstn_app_exact _ _ 56 L56).
    rewrite slice_app_l by lia. rewrite slice_all.
    assert (T72 : skipn 72 tr = skipn alen C) by (unfold tr; now apply (skipn_app_exact2 _ _ _ 56 16)).
    rewrite T72.
    assert (S2 : slice s 56 alen = slice C 56 alen).
    { unfold s. rewrite <- !app_assoc. rewrite slice_app_l by lia. rewrite <- La at 1. rewrite slice_all. unfold a.
      rewrite skipn_app_le by lia. rewrite SK. apply slice_cat; lia. }
    rewrite S2. rewrite app_assoc, firstn_slice_cat by lia. apply firstn_skipn.
  - unfold rom_iv. rewrite (S1 56 72). rewrite slice_app_l by lia. unfold tr. apply slice_app_mid; [exact L56|now rewrite LI].
Qed.

(* Whatever key source the device is configured for, the ROM gets as far as decrypting the builder's ciphertext with ITS image
   key, and accepts iff the result carries the IVT words of the plain header; with the key source the image was built for
   the result is the plaintext. *)
Theorem enc_rom_l sign c x img cfg keys pre post sg certs table :
  k_enc c = true -> wf_input x -> m_cert x = Some (CertV1 pre post sg) -> cb_v1_ok pre post certs table ->
  rk_rkth keys = sha256 (concat table) -> r_cb cfg = CbV1 -> r_hmac cfg = true -> In 3%Z (r_types cfg) ->
  tz_ok (r_tzsize cfg) x -> ks_wf x -> m_hmac x = Some (rk_user keys) -> wf_bytes (rk_user keys) ->
  (forall m, length (sign m) = sg) -> 0 < sg ->
  export_mbi (real_crypto sign) c x = Ok img ->
  exists raw msg, let s := msg ++ sign msg in
    let plain := ctr_xcrypt (aes_enc_block (rom_image_key cfg keys)) (m_iv x)
                            (real_ctr (rk_user keys) (enc_derive x) (m_iv x) (flat raw)) in
    collect c x = Ok raw /\
    img = firstn 64 s ++ hmac_sha256 (rom_hmac_key (rk_user keys)) (firstn 64 s) ++ ks_bytes x ++ skipn 64 s /\
    rom_hmac_ok (rk_user keys) img = true /\
    (r_ks cfg = ks_truthy_obj (m_ks x) -> plain = flat raw) /\
    rom_mbi cfg keys img =
    if ivt_agree plain (flat raw)
    then Some {| ro_plain := plain; ro_msg := msg;
                 ro_obl := v1_obl {| c1_il := zlen msg; c1_certs := certs; c1_table := table |} msg (sign msg) |}
    else None.
Proof.
  intros K WI MC CBOK RK RCB RH TY TZ KW MH WK SL SG E. pose proof WI as (_ & _ & HT).
  unfold k_enc in K.
  apply andb_prop in K as [[[[[[[[[K PC]%andb_prop PE]%andb_prop PP]%andb_prop PF]%andb_prop HKS]%andb_prop HHM]%andb_prop HIV]%andb_prop
    HAK]%andb_prop CT].
  apply prov_is_eq in PC, PE, PP, PF. apply Z.eqb_eq in CT.
  destruct (v1_common_spec c K) as ((_ & HA & _) & HTZ & PS & PU). destruct (v1_lens c x K HT) as (TLC & AL & TL).
  destruct (export_inv _ c x img E) as (_ & V & raw & enc & enc2 & sgn & fin & E1 & E2 & E3 & E4 & E5 & ->).
  pose proof (validate_app_len c x V HA) as L.
  destruct (validate_hmac_key c x V HHM) as (kb & kt & MH' & LK). rewrite MH in MH'. injection MH' as EK. rewrite <- EK in LK. clear kb kt EK.
  pose proof (validate_iv c x V HIV) as LIV.
  destruct (collect_enc_inv c x pre post sg raw PC MC L E1) as (app_p & rs & U & RS & ->).
  rewrite (reloc_none c x _ HT) in RS. apply ok_inj in RS. subst rs. cbn [app].
  exists ([app_p] ++ tz_segment x).
  (* encrypt: one sub-image, the AES-CTR ciphertext C of P = application with IVT ++ TrustZone data *)
  unfold encrypt in E2. rewrite PE, MH in E2.
  destruct (rk_user keys) as [|kb kt] eqn:EK; [discriminate LK|]. rewrite <- EK in *.
  destruct (m_iv x) as [|ib it] eqn:EI; [simpl in LIV; lia|]. rewrite <- EI in *.
  rewrite EK in E2. rewrite <- EK in E2. injection E2 as <-.
  change (k_ctr (real_crypto sign)) with real_ctr in E3. rewrite ?flat_tz_segment in E3.
  replace (flat ([app_p] ++ tz_segment x)) with (app_p ++ tz_export (m_tz x)) in *
    by (now rewrite flat_app, flat_tz_segment, flat_cons, app_nil_r).
  set (tzb := tz_export (m_tz x)) in *. set (P := app_p ++ tzb) in *.
  destruct (real_ctr_roundtrip (rk_user keys) (enc_derive x) (m_iv x) P LK WK LIV) as (_ & LC & RT).
  set (C := real_ctr (rk_user keys) (enc_derive x) (m_iv x) P) in *.
  destruct (post_encrypt_enc_inv c x pre post sg C enc2 PP MC E3) as (enc_ivt & cbb & U2 & CE & ->).
  rewrite (sign_rsa _ c x _ PS) in E4.
  apply ok_inj in E4. subst sgn. unfold fst, snd in E5. change (k_sign (real_crypto sign)) with sign in E5.
  pose proof (finalize_hmac_app_len _ c x _ _ fin PF E5) as AL64.
  (* lengths; the header enc_ivt = the first 64 ciphertext bytes with the IVT words written again *)
  set (alen := natz (app_len c x)) in *.
  assert (Lap : length app_p = length (m_app x)) by (eapply update_ivt_length; eassumption).
  assert (ALn : alen = length (m_app x)) by (unfold alen, natz; rewrite AL; apply Nat2Z.id).
  assert (A64 : 64 <= alen) by (rewrite ALn; rewrite AL in AL64; unfold zlen in AL64; lia).
  assert (LCn : length C = alen + length tzb) by (rewrite LC; unfold P; rewrite app_length; lia).
  assert (LF : 56 <= length (firstn 64 C)) by (rewrite firstn_length; lia).
  destruct (mixin_ivt_words c x _ _ _ enc_ivt PU ltac:(lia) LF U2) as (Lei & I1 & I2 & I3).
  rewrite firstn_length, Nat.min_l in Lei by lia.
  assert (SK : skipn 56 enc_ivt = slice C 56 64).
  { rewrite (update_ivt_tail _ _ _ _ _ _ LF U2). symmetry. apply (firstn_skipn_comm 8 56). }
  (* the sub-images handed to the signature provider and to finalize *)
  set (tail := match tz_export (m_tz x) with [] => [] | _ :: _ => [skipn alen C] end) in *.
  assert (FTl : flat tail = skipn alen C).
  { unfold tail. fold tzb. destruct tzb as [|t0 tt]; [|apply app_nil_r]. symmetry. apply skipn_all2. simpl in LCn. lia. }
  set (a := enc_ivt ++ slice C 64 alen). set (tr := firstn 56 C ++ m_iv x ++ skipn alen C). set (msg := a ++ cbb ++ tr).
  assert (FE : flat ([enc_ivt; slice C 64 alen; cbb; firstn 56 C; m_iv x] ++ tail) = msg).
  { rewrite flat_app, FTl. unfold flat. cbn [concat]. rewrite app_nil_r. unfold msg, a, tr. now rewrite <- !app_assoc. }
  rewrite FE in E5.
  destruct (hmac_finalize_flat (real_crypto sign) c x (([enc_ivt; slice C 64 alen; cbb; firstn 56 C; m_iv x] ++ tail) ++ [sign msg]) msg
              PF AL64) as (fin' & F1 & F2); [rewrite flat_snoc, FE; unfold msg, a; rewrite !app_length, Lei, SL; lia|].
  rewrite F1 in E5. injection E5 as <-. rewrite F2, flat_snoc, FE, (hmac_block_real sign x _ _ _ MH LK).
  exists msg. cbv zeta. split; [exact E1|]. split; [reflexivity|].
  (* what the ROM reads *)
  destruct (rom_enc_layout C enc_ivt cbb (m_iv x) (sign msg) alen A64 ltac:(lia) Lei SK LIV) as (La & Ltr & RCIPH & RIV).
  fold a tr in La, Ltr, RCIPH, RIV. fold msg in RCIPH, RIV.
  assert (Ra : forall o, o + 4 <= 64 -> rd32 o a = rd32 o enc_ivt) by (intros o Ho; unfold a; apply rd32_app; lia).
  assert (R36 : rd32 36 a = create_flags c x) by (now rewrite Ra by lia).
  assert (CT' : (0 <= c_type c < 64)%Z) by lia.
  destruct (cb_v1_export pre post sg certs table _ cbb CBOK CE) as (CB & R20 & LCB).
  assert (IL : (zlen C + Z.of_nat (cert_size (CertV1 pre post sg)) + 56 + zlen (m_iv x))%Z = zlen msg).
  { unfold msg, zlen. rewrite !app_length, La, Ltr, LCn, LCB, LIV. lia. }
  rewrite IL in CB.
  assert (HH : has_hmac cfg 3 = true) by (unfold has_hmac; now rewrite RH).
  pose proof (rom_mbi_v1 cfg keys 3 a cbb tr (sign msg) (ks_bytes x)
                {| c1_il := zlen msg; c1_certs := certs; c1_table := table |} RCB TY) as RM.
  cbv zeta in RM. rewrite HH in RM. fold msg in RM. destruct RM as (HM & RM); trivial.
  - tauto.
  - unfold min_off. rewrite HH. lia.
  - rewrite R36, <- CT. now apply land63_type.
  - rewrite Ra, I3, AL by lia. unfold zlen. now rewrite La, ALn.
  - rewrite (tz_custom_flags c x a) by assumption. rewrite Ltr, LCn. unfold tzb. rewrite (tz_len_ok _ x TZ).
    change (if (3 =? 3)%Z then 72 else 0) with 72. lia.
  - now rewrite SL.
  - intros _. rewrite (ks_flag_flags c x a) by assumption. now apply ks_len_ok.
  - assert (Lmsg : 64 <= length msg) by (unfold msg; rewrite app_length; lia).
    rewrite Ra, I1, TL, (hz_true c _ _ HKS), (hz_true c _ _ HHM), hmac_img_len, zlen_app, opt_len_ks by
      (rewrite ?app_length; try apply hmac_sha256_length; lia).
    rewrite TLC. cbn [mix_len]. rewrite MH, MC, <- LCB.
    unfold msg, zlen. rewrite !app_length, La, Ltr, LCn, SL, ALn. fold tzb. change (Z.of_nat HMAC_SZ) with 32%Z. lia.
  - split; [apply HM; reflexivity|]. split.
    + (* the ROM's image key is the builder's *)
      intros KN. replace (rom_image_key cfg keys) with (if enc_derive x then rom_enc_key (rk_user keys) else rk_user keys)
        by (unfold rom_image_key, enc_derive; rewrite KN; now destruct (ks_truthy_obj (m_ks x))).
      exact RT.
    + rewrite RM. cbv beta iota delta [Z.eqb Pos.eqb]. rewrite La, RCIPH, RIV. cbv zeta.
      (* the header of the signed image carries the IVT words of the plain header *)
      destruct (update_ivt_same_words c x (m_app x) (firstn 64 C) _ _ app_p enc_ivt L LF U U2) as (W1 & W2).
      unfold ivt_agree, P, msg, a. rewrite <- !app_assoc, !(slice_app_l app_p), !(slice_app_l enc_ivt), W1, W2 by lia.
      reflexivity.
Qed.

Definition cb_v21_ok (rkth body : list N) (info : cb21_info) : Prop :=
  16 <= length body /\ firstn 8 body = CHDR_B /\ rd32 8 body = zlen body /\
  rom_cb_v21_body rkth body (length body) = Some info.
Lemma if_none_some {A} (b : bool) (x : option A) y : (if b then None else x) = Some y -> x = Some y.
Proof. destruct b; [discriminate|trivial]. Qed.
Lemma some_inj {A} (x y : A) : Some x = Some y -> x = y.
Proof. now intros [= ->]. Qed.
Lemma rom_cb_v21_body_inv rkth cb size info : rom_cb_v21_body rkth cb size = Some info ->
  c2_size info = size /\ (c2_alg info = 2 \/ c2_alg info = 3)%Z.
Proof.
  unfold rom_cb_v21_body. intros H. cbv zeta in H.
  set (typ := Z.land (rd32 12 cb) 15) in *.
  match type of H with context [Z.land (rd32 ?e cb) 15] => set (ityp := Z.land (rd32 e cb) 15) in * end.
  destruct (negb ((typ =? 1) || (typ =? 2))%Z) eqn:T; [discriminate|].
  assert (TT : (typ = 1 \/ typ = 2)%Z).
  { apply negb_false_iff, orb_true_iff in T as [T|T]; apply Z.eqb_eq in T; auto. }
  clearbody typ ityp. do 3 apply if_none_some in H.
  destruct (zbit (rd32 12 cb) 2147483648).
  - destruct (Nat.eqb _ size); [|discriminate]. apply some_inj in H. subst info. cbn [c2_alg c2_size]. split; [reflexivity|lia].
  - apply if_none_some in H. destruct (negb ((ityp =? 1) || (ityp =? 2))%Z) eqn:T2; [discriminate|].
    assert (TT2 : (ityp = 1 \/ ityp = 2)%Z).
    { apply negb_false_iff, orb_true_iff in T2 as [T2|T2]; apply Z.eqb_eq in T2; auto. }
    do 3 apply if_none_some in H. apply some_inj in H. subst info. cbn [c2_alg c2_size]. split; [reflexivity|lia].
Qed.
Lemma rom_cb_v21_ctx rkth body info (a rest : list N) : cb_v21_ok rkth body info ->
  rom_cb_v21 rkth (a ++ body ++ rest) (length a) = Some info /\ c2_size info = length body /\ (c2_alg info = 2 \/ c2_alg info = 3)%Z.
Proof.
  intros (L16 & MG & SZ & BD). split; [|eapply rom_cb_v21_body_inv; eassumption].
  unfold rom_cb_v21.
  rewrite (proj2 (Nat.ltb_ge (length (a ++ body ++ rest)) (length a + 16))) by (rewrite !app_length; lia).
  assert (S8 : slice (a ++ body ++ rest) (length a) (length a + 8) = CHDR_B).
  { rewrite slice_app_r, Nat.sub_diag by lia. replace (length a + 8 - length a) with 8 by lia.
    rewrite slice_0, firstn_app_le by lia. exact MG. }
  rewrite S8, eqb_list_refl, rd32_mid, SZ by lia. cbn [negb]. rewrite wnat_zlen by (rewrite !app_length; lia).
  rewrite (proj2 (Nat.ltb_ge (length (a ++ body ++ rest)) (length a + length body))) by (rewrite !app_length; lia).
  rewrite slice_app_mid by reflexivity. exact BD.
Qed.

(* the manifest: "imgm", format version, firmware version word, total length, flags, TrustZone data, optional CRC *)
Definition manifest_bytes (w2 : list N) (mlen mflags : N) (tzb w5 : list N) : list N :=
  IMGM_B ++ le_enc 4 65536 ++ w2 ++ le_enc 4 mlen ++ le_enc 4 mflags ++ tzb ++ w5.
Lemma manifest_words w2 l f t w : length w2 = 4 -> (l < 4294967296)%N -> (f < 4294967296)%N ->
  let mf := manifest_bytes w2 l f t w in
  length mf = 20 + length t + length w /\ firstn 4 mf = IMGM_B /\ rd32 4 mf = 65536%Z /\
  rd32 12 mf = Z.of_N l /\ rd32 16 mf = Z.of_N f.
Proof.
  intros L2 Bl Bf mf. unfold mf, manifest_bytes.
  assert (W : forall (p r : list N) v o, length p = o -> (v < 4294967296)%N -> rd32 o (p ++ le_enc 4 v ++ r) = Z.of_N v).
  { intros p r v o <- B. rewrite rd32_at by apply le_enc_length. now rewrite le_dec_enc_small. }
  split; [rewrite !app_length, !le_enc_length, L2; reflexivity|]. split; [reflexivity|]. split; [now apply (W IMGM_B)|].
  split.
  - rewrite 2 app_assoc. apply W; [|exact Bl]. rewrite !app_length, le_enc_length, L2. reflexivity.
  - rewrite 3 app_assoc. apply W; [|exact Bf]. rewrite !app_length, !le_enc_length, L2. reflexivity.
Qed.
Definition klen_of (info : cb21_info) : nat := if (c2_alg info =? 2)%Z then 32 else 48.
Definition v21_obl (info : cb21_info) (msg sig : list N) : list obligation :=
  c2_obl info ++ [ImageSig (c2_alg info) (c2_pub info) msg sig].

(* the structural part of the ROM's walk: certificate block, manifest header, positions of signature and digest *)
Lemma rom_v21_layout cfg keys ty (a body w2 tzb w5 sig dg : list N) (mlen mflags : N) info :
  min_off cfg ty <= length a -> rd32 40 a = zlen a -> 44 <= length a ->
  cb_v21_ok (rk_rkth keys) body info -> length w2 = 4 ->
  length tzb = (if tz_custom a then r_tzsize cfg else 0) ->
  length w5 = (if r_mcrc cfg then 4 else 0) -> N.to_nat mlen = 20 + length tzb + length w5 ->
  (mlen < 4294967296)%N -> (mflags < 4294967296)%N -> length sig = 2 * klen_of info ->
  let mf := manifest_bytes w2 mlen mflags tzb w5 in
  let msg := a ++ body ++ mf in
  let s := msg ++ sig ++ dg in
  rom_signed_v21 cfg keys ty s =
    if r_mcrc cfg && negb (eqb_list (le_enc 4 (crc CRC32_MPEG2 (firstn (length msg - 4) msg))) w5 && (Z.of_N mflags =? 0)%Z)
    then None
    else if (if negb (r_mcrc cfg) && zbit (Z.of_N mflags) 2147483648
             then let alg := Z.land (Z.of_N mflags) 15 in
                  ((alg =? 1) || (alg =? 2) || (alg =? 3))%Z && (Z.of_N mflags =? 2147483648 + alg)%Z &&
                  (alg =? c2_alg info - 1)%Z && eqb_list dg (hash_by alg msg)
             else (r_mcrc cfg || (Z.of_N mflags =? 0)%Z) && Nat.eqb (length dg) 0)
         then Some {| ro_plain := msg; ro_msg := msg; ro_obl := v21_obl info msg sig |}
         else None.
Proof.
  intros MO W40 L44 CB Lw2 LT Lw5 ML MB FB LS mf msg s.
  destruct (manifest_words w2 mlen mflags tzb w5 Lw2 MB FB) as (Lmf & M0 & M4 & M12 & M16). fold mf in Lmf, M0, M4, M12, M16.
  unfold rom_signed_v21.
  assert (Es : s = a ++ body ++ (mf ++ sig ++ dg)) by (unfold s, msg; now rewrite <- !app_assoc).
  assert (Em : s = (a ++ body) ++ mf ++ (sig ++ dg)) by (unfold s, msg; now rewrite <- !app_assoc).
  assert (O : wnat (length s) (rd32 40 s) = length a).
  { rewrite Es at 2. rewrite rd32_app by lia. rewrite W40. apply wnat_zlen. rewrite Es, !app_length. lia. }
  rewrite O. rewrite (proj2 (Nat.ltb_ge (length a) (min_off cfg ty))) by exact MO.
  destruct (rom_cb_v21_ctx (rk_rkth keys) body info a (mf ++ sig ++ dg) CB) as (CBE & CSZ & _).
  rewrite Es at 1. rewrite CBE, CSZ, <- app_length.
  set (m0 := length (a ++ body)).
  assert (Lmsg : length msg = m0 + length mf) by (unfold msg, m0; rewrite !app_length; lia).
  assert (Lsx : length s = m0 + length mf + length sig + length dg) by (unfold m0; rewrite Em, !app_length; lia).
  rewrite (proj2 (Nat.ltb_ge (length s) (m0 + 20))) by lia.
  (* manifest header words *)
  assert (SM : slice s m0 (m0 + 4) = IMGM_B).
  { rewrite Em, slice_app_r by (fold m0; lia). fold m0. rewrite Nat.sub_diag. replace (m0 + 4 - m0) with 4 by lia.
    rewrite slice_0, firstn_app_le by lia. exact M0. }
  rewrite SM. change (eqb_list IMGM_B IMGM_B) with true. cbn [negb].
  assert (RM : forall o, o + 4 <= 20 -> rd32 (m0 + o) s = rd32 o mf) by (intros o Ho; rewrite Em; apply rd32_mid; lia).
  rewrite !RM, M4, M12, M16 by lia. change (65536 =? 65536)%Z with true. cbn [negb].
  replace (tz_custom s) with (tz_custom a) by (unfold tz_custom, rom_word; rewrite Es; now rewrite rd32_app by lia).
  rewrite <- LT.
  assert (MLn : wnat (length s) (Z.of_N mlen) = length mf).
  { rewrite wnat_eq by (rewrite <- (N2Nat.id mlen), nat_N_Z, ML; lia). rewrite <- Z_N_nat, N2Z.id. rewrite ML, Lmf. reflexivity. }
  rewrite MLn.
  rewrite (proj2 (Nat.eqb_eq (length mf) (20 + length tzb + (if r_mcrc cfg then 4 else 0)))) by (rewrite Lmf, Lw5; reflexivity).
  cbn [negb]. rewrite <- Lmsg.
  rewrite (proj2 (Nat.ltb_ge (length s) (length msg))) by lia.
  assert (FM : firstn (length msg) s = msg) by (now apply firstn_app_exact).
  assert (F4 : firstn (length msg - 4) s = firstn (length msg - 4) msg) by (unfold s; apply firstn_app_le; lia).
  assert (SL5 : r_mcrc cfg = true -> slice s (length msg - 4) (length msg) = w5).
  { intros RM'. rewrite RM' in Lw5. unfold s. rewrite slice_app_l by lia. rewrite slice_all.
    unfold msg, mf, manifest_bytes. rewrite !app_assoc. apply skipn_app_exact. rewrite !app_length, !le_enc_length, Lw2, Lw5.
    lia. }
  rewrite F4. fold (klen_of info).
  assert (SS : slice s (length msg) (length msg + 2 * klen_of info) = sig) by (apply slice_app_mid; [reflexivity|now rewrite LS]).
  assert (SD : skipn (length msg + 2 * klen_of info) s = dg) by (rewrite <- LS; now apply skipn_app_exact2).
  rewrite SS, SD, FM.
  rewrite (proj2 (Nat.ltb_ge (length s) (length msg + 2 * klen_of info))) by lia.
  replace (Nat.eqb (length s) (length msg + 2 * klen_of info)) with (Nat.eqb (length dg) 0)
    by (apply eq_true_iff_eq; rewrite !Nat.eqb_eq; lia).
  fold (v21_obl info msg sig).
  destruct (r_mcrc cfg) eqn:RM'.
  - rewrite (SL5 eq_refl). reflexivity.
  - reflexivity.
Qed.

Lemma u32_enc v w : u32 v = Ok w -> w = le_enc 4 (Z.to_N v) /\ (0 <= v < 4294967296)%Z.
Proof.
  unfold u32. destruct ((0 <=? v)%Z && (v <? 4294967296)%Z) eqn:E; [|discriminate]. intros H. injection H as <-.
  apply andb_true_iff in E as [E1 E2]. apply Z.leb_le in E1. apply Z.ltb_lt in E2. auto.
Qed.
Lemma manifest_bytes_split w2 l f t w :
  manifest_bytes w2 l f t w = (IMGM_B ++ le_enc 4 65536 ++ w2 ++ le_enc 4 l ++ le_enc 4 f ++ t) ++ w.
Proof. unfold manifest_bytes. now rewrite <- !app_assoc. Qed.
Lemma manifest_export_bytes c x crc mf : manifest_export c x crc = Ok mf ->
  exists w2 w5, u32 (m_fwver x) = Ok w2 /\ length w2 = 4 /\
    mf = manifest_bytes w2 (Z.to_N (manifest_total c x)) (Z.to_N (manifest_flags_of c x)) (tz_export (m_tz x)) w5 /\
    (0 <= manifest_total c x < 4294967296)%Z /\ (0 <= manifest_flags_of c x < 4294967296)%Z /\
    (if has c MixinManifestCrc then w5 = le_enc 4 (Z.to_N crc) /\ (0 <= crc < 4294967296)%Z else w5 = []).
Proof.
  intros H. destruct (manifest_export_inv c x crc mf H) as (w0 & w1 & w2 & w3 & w4 & w5 & E0 & E1 & E2 & E3 & E4 & E5 & ->).
  change (u32 G_MANIFEST_MAGIC) with (Ok IMGM_B) in E0. change (u32 G_MANIFEST_FORMAT_VERSION) with (Ok (le_enc 4 65536)) in E1.
  apply ok_inj in E0, E1. subst w0 w1. apply u32_enc in E3 as [-> R3]. apply u32_enc in E4 as [-> R4].
  exists w2, w5. split; [exact E2|]. split; [exact (u32_length _ _ E2)|]. split; [reflexivity|]. split; [exact R3|]. split; [exact R4|].
  destruct (has c MixinManifestCrc); [apply u32_enc in E5 as [-> R5]; auto|now apply ok_inj in E5].
Qed.


(* the digest check of collect_data: algorithm of a digest manifest = hash type of the signature size *)
Definition sig_alg (cb : cert) : Z :=
  let sg := Z.of_nat (cert_sig cb) in if (sg =? 64)%Z then 1%Z else if (sg =? 96)%Z then 2%Z else if (sg =? 132)%Z then 3%Z else 0%Z.
Lemma hash_type_of_sig_alg cb : hash_type_of_sig (cert_sig cb) = if (sig_alg cb =? 0)%Z then None else Some (sig_alg cb).
Proof.
  unfold hash_type_of_sig, sig_alg. cbv zeta.
  destruct (Nat.eqb_spec (cert_sig cb) 64) as [->|N1]; [reflexivity|].
  replace (Z.of_nat (cert_sig cb) =? 64)%Z with false by (symmetry; apply Z.eqb_neq; lia).
  destruct (Nat.eqb_spec (cert_sig cb) 96) as [->|N2]; [reflexivity|].
  replace (Z.of_nat (cert_sig cb) =? 96)%Z with false by (symmetry; apply Z.eqb_neq; lia).
  destruct (Nat.eqb_spec (cert_sig cb) 132) as [->|N3]; [reflexivity|].
  replace (Z.of_nat (cert_sig cb) =? 132)%Z with false by (symmetry; apply Z.eqb_neq; lia). reflexivity.
Qed.
Lemma digest_guard_unfold c x cb : has c MixinManifestDigest = true -> (m_digest x <> 0)%Z ->
  digest_guard c x cb = if ((sig_alg cb =? 0) || negb (sig_alg cb =? m_digest x))%Z then Err E_REJECT else Ok tt.
Proof. intros HD D0. unfold digest_guard. rewrite HD. apply Z.eqb_neq in D0. rewrite D0. reflexivity. Qed.
Lemma digest_guard_ok c x cb : has c MixinManifestDigest = true -> digest_guard c x cb = Ok tt ->
  (m_digest x = 0 \/ hash_type_of_sig (cert_sig cb) = Some (m_digest x))%Z.
Proof.
  intros HD G. destruct (Z.eq_dec (m_digest x) 0) as [D0|D0]; [now left|]. right.
  rewrite (digest_guard_unfold c x cb HD D0) in G. rewrite hash_type_of_sig_alg.
  destruct (Z.eqb_spec (sig_alg cb) 0); cbn [orb] in G; [discriminate|].
  destruct (Z.eqb_spec (sig_alg cb) (m_digest x)) as [->|]; cbn [negb] in G; [reflexivity|discriminate].
Qed.

Lemma hash_by_length alg d : (alg = 1 \/ alg = 2 \/ alg = 3)%Z -> Z.of_nat (length (hash_by alg d)) = hash_size alg.
Proof.
  intros [-> | [-> | ->]]; unfold hash_by, hash_size; cbn [Z.eqb Pos.eqb];
    rewrite ?rom_sha256_length, ?rom_sha384_length, ?rom_sha512_length; reflexivity.
Qed.
Lemma real_hash_by alg d : (alg = 1 \/ alg = 2 \/ alg = 3)%Z -> real_hash alg d = hash_by alg d.
Proof. intros [-> | [-> | ->]]; reflexivity. Qed.

Definition v21_digest (c : mbi_class) (x : mbi) (msg : list N) : list N :=
  if has c MixinManifestDigest && negb (m_digest x =? 0)%Z then hash_by (m_digest x) msg else [].

Lemma k_v21_spec c : k_v21 c = true ->
  (nodupb (c_mixins c) = true /\ has c MixinApp = true /\ has c MixinCertBlockV21 = true /\ has c MixinCertBlockV1 = false /\
   has c MixinTrustZone = false /\ has c MixinTrustZoneMandatory = false /\ has c MixinKeyStore = false /\
   has c MixinHmac = false /\ has c MixinHmacMandatory = false) /\
  has c MixinManifestDigest = negb (has c MixinManifestCrc) /\ has_tz c = true /\
  (provider c SCollect = Some ExportMixinAppCertBlockManifest /\ provider c SEncrypt = None /\ provider c SPostEncrypt = None /\
   provider c SSign = Some ExportMixinEccSign /\ provider c SFinalize = Some ExportMixinAppCertBlockManifest /\
   provider c SUpdateIvt = Some MixinIvt) /\
  (c_type c = 4 \/ c_type c = 8 \/ c_type c = 1)%Z.
Proof.
  unfold k_v21.
  intros [[[[[[[[[[[[[[[[[_ ND]%andb_prop HA]%andb_prop HC21]%andb_prop NC1]%andb_prop XM]%andb_prop NT]%andb_prop NTM]%andb_prop
    NKS]%andb_prop NH]%andb_prop NHM]%andb_prop PC]%andb_prop PE]%andb_prop PP]%andb_prop PS]%andb_prop PF]%andb_prop
    PU]%andb_prop CT]%andb_prop.
  apply negb_true_iff in NC1, NT, NTM, NKS, NH, NHM. apply prov_is_eq in PC, PE, PP, PS, PF, PU.
  rewrite !orb_true_iff, !Z.eqb_eq in CT.
  assert (HD : has c MixinManifestDigest = negb (has c MixinManifestCrc))
    by (destruct (has c MixinManifestCrc), (has c MixinManifestDigest); try discriminate XM; reflexivity).
  assert (HTZ : has_tz c = true) by (unfold has_tz, has_manifest; rewrite HD; destruct (has c MixinManifestCrc); apply orb_true_r).
  split; [auto 12|]. split; [exact HD|]. split; [exact HTZ|]. split; [auto 8|tauto].
Qed.

(* for the digest algorithms the constructor admits, the flags word is non-zero, and has its PRESENT bit set, iff one is chosen *)
Lemma manifest_flags_zero dg : (0 <= dg <= 3)%Z ->
  (manifest_flags dg =? 0)%Z = (dg =? 0)%Z /\ (Z.land (manifest_flags dg) G_MANIFEST_DIGEST_PRESENT_FLAG =? 0)%Z = (dg =? 0)%Z.
Proof.
  intros H. assert (D : (dg = 0 \/ dg = 1 \/ dg = 2 \/ dg = 3)%Z) by lia.
  destruct D as [-> | [-> | [-> | ->]]]; split; reflexivity.
Qed.

(* export side: application with IVT | certificate block | manifest | signature | optional digest *)
Lemma k_v21_shape sign c x img body sg :
  k_v21 c = true -> wf_input x -> m_cert x = Some (CertV21 body sg) -> (0 <= m_digest x <= 3)%Z ->
  (forall m, length (sign m) = sg) -> export_c02 (real_crypto sign) c x = Ok img ->
  exists app' w2 w5,
    let mf := manifest_bytes w2 (Z.to_N (manifest_total c x)) (Z.to_N (manifest_flags_of c x)) (tz_export (m_tz x)) w5 in
    let msg := app' ++ body ++ mf in
    img = msg ++ sign msg ++ v21_digest c x msg /\
    56 <= length app' /\ rd32 32 app' = zlen img /\ rd32 36 app' = create_flags c x /\ rd32 40 app' = zlen app' /\
    length w2 = 4 /\ (0 <= manifest_total c x < 4294967296)%Z /\ (0 <= manifest_flags_of c x < 4294967296)%Z /\
    length w5 = (if has c MixinManifestCrc then 4 else 0) /\
    (has c MixinManifestCrc = true -> w5 = le_enc 4 (crc CRC32_MPEG2 (firstn (length msg - 4) msg))) /\
    digest_guard c x (CertV21 body sg) = Ok tt.
Proof.
  intros K (_ & _ & HT) MC DG SL E.
  destruct (k_v21_spec c K) as ((ND & HA & HC21 & NC1 & NT & NTM & NKS & NH & NHM) & HD & _ & (PC & PE & PP & PS & PF & PU) & CTV).
  destruct (manifest_flags_zero _ DG) as (MFZ & PB).
  destruct (export_inv _ c x img E) as (_ & V & raw & enc & enc2 & sgn & fin & E1 & E2 & E3 & E4 & E5 & ->).
  pose proof (validate_app_len c x V HA) as L.
  destruct (collect_v21_inv c x raw PC L E1) as (cb & app' & cbb & mf0 & mf & MC' & G & U & CE & M0 & M1 & ->).
  rewrite MC in MC'. injection MC' as <-. cbn [cert_export] in CE. injection CE as <-.
  rewrite (encrypt_none _ c x _ PE) in E2. injection E2 as <-.
  rewrite (post_encrypt_none c x _ PP) in E3. injection E3 as <-.
  unfold MbiModel.sign in E4. rewrite PS in E4. apply ok_inj in E4. subst sgn. unfold fst, snd in E5.
  change (k_sign (real_crypto sign)) with sign in E5.
  assert (FR : flat [app'; body; mf] = app' ++ body ++ mf) by (unfold flat; simpl; now rewrite app_nil_r).
  rewrite FR in E5. set (msg := app' ++ body ++ mf) in *.
  (* finalize: optional digest *)
  assert (IMG : flat fin = msg ++ sign msg ++ v21_digest c x msg).
  { unfold finalize in E5. rewrite PF, MFZ, <- andb_assoc, andb_diag in E5. unfold v21_digest.
    destruct (has c MixinManifestDigest && negb (m_digest x =? 0)%Z) eqn:CD.
    - rewrite PS in E5. apply ok_inj in E5. subst fin.
      rewrite flat_snoc, flat_snoc, FR. change (k_hash (real_crypto sign)) with real_hash.
      rewrite real_hash_by; [now rewrite <- app_assoc|]. apply andb_true_iff in CD as [_ CD]. apply negb_true_iff, Z.eqb_neq in CD. lia.
    - apply ok_inj in E5. subst fin. rewrite flat_snoc, FR, app_nil_r. reflexivity. }
  rewrite IMG.
  (* manifest: the CRC variant is exported twice, the second time with the CRC of everything before the CRC word *)
  destruct (manifest_export_bytes c x 0 mf0 M0) as (w2 & w50 & UW & Lw2 & EM0 & R1 & R2 & W50).
  assert (MFS : exists w5, mf = manifest_bytes w2 (Z.to_N (manifest_total c x)) (Z.to_N (manifest_flags_of c x)) (tz_export (m_tz x)) w5 /\
            length w5 = (if has c MixinManifestCrc then 4 else 0) /\
            (has c MixinManifestCrc = true -> w5 = le_enc 4 (crc CRC32_MPEG2 (firstn (length msg - 4) msg)))).
  { destruct (has c MixinManifestCrc) eqn:HC.
    - destruct (manifest_export_bytes c x _ mf M1) as (w2' & w5 & UW' & _ & EM & _ & _ & W5). rewrite HC in W5. destruct W5 as [W5 _].
      rewrite UW in UW'. injection UW' as <-. destruct W50 as [W50 _].
      exists w5. split; [exact EM|]. split; [rewrite W5; apply le_enc_length|].
      intros _. rewrite W5, N2Z.id. f_equal.
      destruct (crc_bridge_l (drop_last 4 (app' ++ body ++ mf0)) []) as [-> _]. f_equal.
      unfold drop_last. unfold msg. rewrite EM, EM0. rewrite !manifest_bytes_split.
      assert (A5 : length w50 = 4) by (rewrite W50; apply le_enc_length).
      assert (B5 : length w5 = 4) by (rewrite W5; apply le_enc_length).
      rewrite !(app_assoc body), !(app_assoc app').
      rewrite !(app_length _ w50), !(app_length _ w5), A5, B5.
      rewrite !Nat.add_sub. now rewrite !firstn_app_exact.
    - subst mf. exists w50. split; [exact EM0|]. split; [now rewrite W50|discriminate]. }
  destruct MFS as (w5 & EM & Lw5 & W5C). exists app', w2, w5. cbv zeta. rewrite <- EM. fold msg.
  set (img := msg ++ sign msg ++ v21_digest c x msg).
  (* header words and total length *)
  destruct (mixin_ivt_words c x _ _ _ app' PU ltac:(lia) L U) as (La & I1 & I2 & I3).
  rewrite (app_len_expand c x ND), (hz_true c MixinApp _ HA) in I3. cbn [mix_len] in I3. rewrite HT, hz_0, Z.add_0_r in I3.
  assert (Ld : Z.of_nat (length (v21_digest c x msg)) =
               (if has c MixinManifestDigest && negb (m_digest x =? 0)%Z then hash_size (m_digest x) else 0)%Z).
  { unfold v21_digest. destruct (has c MixinManifestDigest && negb (m_digest x =? 0)%Z) eqn:CD; [|reflexivity].
    apply hash_by_length. apply andb_true_iff in CD as [_ CD]. apply negb_true_iff, Z.eqb_neq in CD. lia. }
  assert (TL : total_len c x = zlen img).
  { rewrite (total_len_split c x ND), (total_len_for_cert_expand c x ND).
    rewrite (hz_true c MixinApp _ HA), (hz_true c MixinCertBlockV21 _ HC21).
    rewrite (hz_false c _ _ NT), (hz_false c _ _ NTM), (hz_false c _ _ NC1), (hz_false c _ _ NKS), (hz_false c _ _ NH),
      (hz_false c _ _ NHM).
    unfold img, zlen at 2. rewrite !app_length, SL. rewrite Nat2Z.inj_add, Nat2Z.inj_add, Ld.
    unfold msg. rewrite EM. unfold manifest_bytes. rewrite !app_length, !le_enc_length, La, Lw2, Lw5.
    cbn [mix_len]. rewrite MC, HT, hz_0, PB. cbn [cert_size cert_sig]. unfold hz, zlen. rewrite HD. change (length IMGM_B) with 4.
    destruct (has c MixinManifestCrc); cbn [negb andb]; destruct (m_digest x =? 0)%Z; cbn [negb]; lia. }
  rewrite <- TL. repeat split; try assumption; try lia. rewrite I3. unfold zlen. now rewrite La.
Qed.

Theorem v21_accept_l sign c x img cfg keys body sg info :
  k_v21 c = true -> wf_input x -> m_cert x = Some (CertV21 body sg) -> cb_v21_ok (rk_rkth keys) body info ->
  r_cb cfg = CbV21 -> r_hmac cfg = false -> r_mcrc cfg = has c MixinManifestCrc -> In (c_type c) (r_types cfg) ->
  tz_ok (r_tzsize cfg) x -> (0 <= m_digest x <= 3)%Z ->
  sg = 2 * klen_of info -> (forall m, length (sign m) = sg) ->
  export_c02 (real_crypto sign) c x = Ok img ->
  exists msg, img = msg ++ sign msg ++ v21_digest c x msg /\
    rom_mbi cfg keys img = Some {| ro_plain := msg; ro_msg := msg; ro_obl := v21_obl info msg (sign msg) |}.
Proof.
  intros K WI MC CB RCB RH RMC TY TZ DG SGE SL E.
  destruct (k_v21_spec c K) as (_ & HD & HTZ & _ & CTV).
  pose proof CB as (L16 & _ & _ & BD). destruct (rom_cb_v21_body_inv _ _ _ _ BD) as (_ & ALG).
  destruct (k_v21_shape sign c x img body sg K WI MC DG SL E)
    as (app' & w2 & w5 & -> & L & R32 & R36 & R40 & Lw2 & R1 & R2 & Lw5 & W5C & G).
  set (tzb := tz_export (m_tz x)) in *. set (mf := manifest_bytes _ _ _ tzb w5) in *. set (msg := app' ++ body ++ mf) in *.
  set (img := msg ++ sign msg ++ v21_digest c x msg) in *. exists msg. split; [reflexivity|].
  assert (CT' : (0 <= c_type c < 64)%Z) by lia.
  assert (RI : forall o, o + 4 <= 56 -> rd32 o img = rd32 o app').
  { intros o Ho. unfold img, msg. rewrite <- !app_assoc. apply rd32_app. lia. }
  assert (HH : has_hmac cfg (c_type c) = false) by (unfold has_hmac; now rewrite RH).
  pose proof (rom_mbi_signed cfg keys (c_type c) img [] TY) as RS. cbv zeta in RS. rewrite HH, RCB in RS.
  destruct RS as (_ & ->);
    [lia|unfold img, msg; rewrite !app_length; lia|rewrite RI, R36 by lia; now apply land63_type|discriminate|now rewrite RI by lia|].
  replace (c_type c =? 3)%Z with false by (destruct CTV as [-> | [-> | ->]]; reflexivity).
  assert (LAY := rom_v21_layout cfg keys (c_type c) app' body w2 tzb w5 (sign msg) (v21_digest c x msg)
             (Z.to_N (manifest_total c x)) (Z.to_N (manifest_flags_of c x)) info).
  cbv zeta in LAY. fold mf msg img in LAY. rewrite LAY; clear LAY; trivial.
  - (* the two variants of the tail check *)
    rewrite RMC, !Z2N.id by lia. unfold v21_digest, manifest_flags_of. rewrite HD.
    destruct (has c MixinManifestCrc) eqn:HC; cbn [negb andb orb].
    + now rewrite (W5C eq_refl), eqb_list_refl.
    + (* the exporter has refused any digest algorithm but the one that goes with the signing key *)
      assert (DM : (m_digest x = 0 \/ m_digest x = c2_alg info - 1)%Z).
      { assert (HD' : has c MixinManifestDigest = true) by (now rewrite HD).
        destruct (digest_guard_ok c x _ HD' G) as [D0|DH]; [now left|]. right. cbn [cert_sig] in DH.
        unfold klen_of in SGE. destruct ALG as [A|A]; rewrite A in SGE; cbn in SGE; subst sg; cbn in DH; injection DH as <-; lia. }
      unfold manifest_flags. change G_MANIFEST_DIGEST_PRESENT_FLAG with 2147483648%Z.
      assert (D : (m_digest x = 0 \/ m_digest x = 1 \/ m_digest x = 2 \/ m_digest x = 3)%Z) by lia.
      destruct DM as [D0|D1]; [rewrite D0; reflexivity|].
      destruct D as [D|[D|[D|D]]]; rewrite D in *; cbn; rewrite <- ?D1; try reflexivity; rewrite eqb_list_refl; reflexivity.
  - unfold min_off. rewrite HH. lia.
  - lia.
  - rewrite (tz_custom_flags c x app') by assumption. now apply tz_len_ok.
  - now rewrite RMC.
  - rewrite Z_N_nat. unfold manifest_total. fold tzb. rewrite Lw5. unfold zlen. destruct (has c MixinManifestCrc); lia.
  - lia.
  - lia.
  - now rewrite SL.
Qed.

(* instances and refutation witnesses for the remaining kinds *)
Definition demo_c_enc : mbi_class :=
  {| c_type := 3; c_mixins := [MixinApp; MixinRelocTable; MixinLoadAddress; MixinIvt; MixinTrustZone; MixinCertBlockV1; MixinHwKey; MixinKeyStore;
                               MixinHmacMandatory; MixinCtrInitVector; ExportMixinAppTrustZoneCertBlockEncrypt; ExportMixinRsaSign;
                               ExportMixinHmacKeyStoreFinalize] |}.
Definition demo_c_v21 : mbi_class :=
  {| c_type := 4; c_mixins := [MixinApp; MixinIvt; MixinLoadAddress; MixinCertBlockV21; MixinManifestDigest;
                               ExportMixinAppCertBlockManifest; ExportMixinEccSign] |}.
Definition demo_key : list N := map N.of_nat (seq 100 32).
Definition demo_x_enc (ks : option (list N)) : mbi :=
  set_ks (set_iv (set_hmac (set_cert (demo_x 80) (Some (CertV1 demo_pre demo_post 256))) (Some demo_key)) (map N.of_nat (seq 7 16))) ks.
Definition demo_cfg_enc (ks : bool) : rom_cfg := {| r_cb := CbV1; r_hmac := true; r_tzsize := 464; r_mcrc := false; r_types := [3%Z]; r_ks := ks |}.
Definition demo_keys_enc : rom_keys := {| rk_rkth := sha256 (concat demo_table); rk_user := demo_key |}.
Definition rom_accepts (cfg : rom_cfg) (keys : rom_keys) (r : res (list N)) : bool :=
  match r with Ok img => match rom_mbi cfg keys img with Some _ => true | None => false end | Err _ => false end.

Lemma is_ok_inv {A} (r : res A) : is_ok r = true -> exists v, r = Ok v.
Proof. destruct r; [eauto|discriminate]. Qed.
(* enc_rom_l for the demonstration image, built with or without a key store object, on a device with either key source *)
Lemma demo_enc_rom ks b : ks = None \/ ks = Some [] ->
  exists img raw, export_mbi (real_crypto (demo_sign 256)) demo_c_enc (demo_x_enc ks) = Ok img /\
    collect demo_c_enc (demo_x_enc ks) = Ok raw /\
    let plain := ctr_xcrypt (aes_enc_block (rom_image_key (demo_cfg_enc b) demo_keys_enc)) (m_iv (demo_x_enc ks))
                            (real_ctr demo_key (enc_derive (demo_x_enc ks)) (m_iv (demo_x_enc ks)) (flat raw)) in
    (b = ks_truthy_obj ks -> plain = flat raw) /\
    rom_accepts (demo_cfg_enc b) demo_keys_enc (Ok img) = ivt_agree plain (flat raw).
Proof.
  intros KS.
  assert (OK : is_ok (export_mbi (real_crypto (demo_sign 256)) demo_c_enc (demo_x_enc ks)) = true)
    by (destruct KS as [-> | ->]; vm_compute; reflexivity).
  destruct (is_ok_inv _ OK) as (img & E). exists img.
  destruct (enc_rom_l (demo_sign 256) demo_c_enc (demo_x_enc ks) img (demo_cfg_enc b) demo_keys_enc demo_pre demo_post 256
              demo_certs demo_table) as (raw & msg & E1 & _ & _ & RT & RM).
  - vm_compute; reflexivity.
  - unfold wf_input. cbn. repeat split; lia.
  - reflexivity.
  - exact demo_cb_ok.
  - reflexivity.
  - reflexivity.
  - reflexivity.
  - now left.
  - exact I.
  - destruct KS as [-> | ->]; exact I.
  - reflexivity.
  - vm_compute; repeat constructor.
  - intros m. apply demo_sign_length.
  - lia.
  - exact E.
  - exists raw. split; [exact E|]. split; [exact E1|]. split; [exact RT|]. unfold rom_accepts. rewrite RM.
    now destruct (ivt_agree _ _).
Qed.
Example demo_enc_instance :
  k_enc demo_c_enc = true /\ wf_input (demo_x_enc None) /\ ks_wf (demo_x_enc None) /\
  rom_accepts (demo_cfg_enc false) demo_keys_enc (export_mbi (real_crypto (demo_sign 256)) demo_c_enc (demo_x_enc None)) = true.
Proof.
  split; [vm_compute; reflexivity|]. split; [apply demo_wf|]. split; [exact I|].
  destruct (demo_enc_rom None false (or_introl eq_refl)) as (img & raw & -> & _ & RT & ->). cbv zeta in RT.
  rewrite (RT eq_refl). unfold ivt_agree. now rewrite !eqb_list_refl.
Qed.
(* the key source decides the image key: an image built WITHOUT key store is refused by a device that takes the user key from
   its key store, and an image built for the KEYSTORE source (here: key store object without embedded data) is refused by a
   device that derives the key from the master key; each is accepted by the matching device *)
Example demo_enc_key_source :
  rom_accepts (demo_cfg_enc true) demo_keys_enc (export_mbi (real_crypto (demo_sign 256)) demo_c_enc (demo_x_enc None)) = false /\
  rom_accepts (demo_cfg_enc true) demo_keys_enc (export_mbi (real_crypto (demo_sign 256)) demo_c_enc (demo_x_enc (Some []))) = true /\
  rom_accepts (demo_cfg_enc false) demo_keys_enc (export_mbi (real_crypto (demo_sign 256)) demo_c_enc (demo_x_enc (Some []))) = false.
Proof.
  (* with the other key only the IVT words of the decrypted header have to be computed *)
  assert (W : forall ks b, ks = None \/ ks = Some [] -> b = negb (ks_truthy_obj ks) ->
            rom_accepts (demo_cfg_enc b) demo_keys_enc (export_mbi (real_crypto (demo_sign 256)) demo_c_enc (demo_x_enc ks)) = false).
  { intros ks b KS ->. destruct (demo_enc_rom ks (negb (ks_truthy_obj ks)) KS) as (img & raw & -> & E1 & _ & ->).
    replace raw with (match collect demo_c_enc (demo_x_enc ks) with Ok r => r | Err _ => [] end) by (now rewrite E1).
    destruct KS as [-> | ->]; vm_compute; reflexivity. }
  split; [apply W; auto|]. split; [|apply W; auto].
  destruct (demo_enc_rom (Some []) true (or_intror eq_refl)) as (img & raw & -> & _ & RT & ->). cbv zeta in RT.
  rewrite (RT eq_refl). unfold ivt_agree. now rewrite !eqb_list_refl.
Qed.

(* certificate block v2.1 with one P-256 root key, no ISK: "chdr" 1 0 2 0 | size 80 | flags 0x80000011 | X || Y *)
Definition demo_body21 : list N := (CHDR_B ++ le_enc 4 80 ++ le_enc 4 2147483665 ++ zeros 64)%N.
Definition demo_info21 : cb21_info := {| c2_size := 80; c2_obl := []; c2_alg := 2; c2_pub := zeros 64 |}.
Definition demo_keys21 : rom_keys := {| rk_rkth := sha256 (zeros 64); rk_user := [] |}.
Definition demo_cfg21 : rom_cfg := {| r_cb := CbV21; r_hmac := false; r_tzsize := 1100; r_mcrc := false; r_types := [4%Z]; r_ks := false |}.
Definition demo_x21 (dg : Z) : mbi :=
  {| m_app := demo_app 60; m_load := 0; m_imgver := 0; m_subtype := 0; m_fwver := 7; m_tz := TzEnabled; m_hwkey := false;
     m_ks := None; m_hmac := None; m_iv := []; m_table := None; m_cert := Some (CertV21 demo_body21 64); m_digest := dg |}.
Lemma demo_cb21_ok : cb_v21_ok (rk_rkth demo_keys21) demo_body21 demo_info21.
Proof. split; [cbn; lia|]. split; [reflexivity|]. split; [vm_compute; reflexivity|vm_compute; reflexivity]. Qed.
Example demo_v21_instance :
  k_v21 demo_c_v21 = true /\ wf_input (demo_x21 1) /\ klen_of demo_info21 = 32 /\
  rom_accepts demo_cfg21 demo_keys21 (export_mbi (real_crypto (demo_sign 64)) demo_c_v21 (demo_x21 1)) = true /\
  rom_accepts demo_cfg21 demo_keys21 (export_mbi (real_crypto (demo_sign 64)) demo_c_v21 (demo_x21 0)) = true.
Proof.
  assert (WF : forall dg, wf_input (demo_x21 dg)) by (intros dg; unfold wf_input, demo_x21; cbn; repeat split; lia).
  assert (A : forall dg, dg = 1%Z \/ dg = 0%Z ->
            rom_accepts demo_cfg21 demo_keys21 (export_mbi (real_crypto (demo_sign 64)) demo_c_v21 (demo_x21 dg)) = true).
  { intros dg DG.
    assert (OK : is_ok (export_mbi (real_crypto (demo_sign 64)) demo_c_v21 (demo_x21 dg)) = true)
      by (destruct DG as [-> | ->]; vm_compute; reflexivity).
    destruct (is_ok_inv _ OK) as (img & E). rewrite E.
    destruct (v21_accept_l (demo_sign 64) demo_c_v21 (demo_x21 dg) img demo_cfg21 demo_keys21 demo_body21 64 demo_info21)
      as (msg & _ & RM).
    - vm_compute; reflexivity.
    - apply WF.
    - reflexivity.
    - exact demo_cb21_ok.
    - reflexivity.
    - reflexivity.
    - reflexivity.
    - now left.
    - exact I.
    - cbn [m_digest demo_x21]. lia.
    - reflexivity.
    - intros m. apply demo_sign_length.
    - exact E.
    - unfold rom_accepts. now rewrite RM. }
  split; [vm_compute; reflexivity|]. split; [apply WF|]. split; [reflexivity|]. split; apply A; auto.
Qed.
Example digest_alg_refused_instance :
  export_c02 (real_crypto (demo_sign 64)) demo_c_v21 (demo_x21 2) = Err E_REJECT /\
  is_ok (export_c02 (real_crypto (demo_sign 64)) demo_c_v21 (demo_x21 1)) = true.
Proof. split; vm_compute; reflexivity. Qed.
