(* Proofs/MbootSpecProofs.v -- C10: FAULTFREE_REFINES_SPEC for the operation families besides read/write memory and for both
   transports.  The transport-free SPECIFICATION of a call is "apply the reference bootloader core (dev_command /
   dev_data_out) to the command packet and the data, read status / values off its answer"; the theorems say that the host
   over the framed link computes exactly that, for whole call sequences.
   The proofs are done once, over a lock-step transport (`lockstep` of Proofs/MbootProofs.v: what one command exchange, one
   read and one data packet do), and instantiated for the serial link (shown there) and for USB-HID (shown here). *)
From Coq Require Import ZArith NArith List Bool Lia.
Require Import Value Bytes BytesProofs GenMboot MbootModel MbootProofs.
Import ListNotations.
Local Open Scope N_scope.

Definition cmd_din (c : dcore) (b : list N) : option (list N * (N * N)) := snd (dev_command c b).
Definition cmd_zfin (c : dcore) (b : list N) : option (list N) := snd (dev_zero_phase (fst (fst (dev_command c b)))).

Inductive fop : Type :=
| FSimple (p : cmdpkt)                     (* command answered by one response, no data phase: fill, erase, set-property, program-once, key-provisioning control ... *)
| FGetProp (tag idx : N)                   (* get_property *)
| FReadOnce (idx count : N)                (* flash_read_once *)
| FOut (p : cmdpkt) (data : list N)        (* command + outgoing data: write_memory, receive_sb_file, kp_set_user_key, kp_write_key_store *)
| FIn (p : cmdpkt) (cls : N).              (* command + incoming data: read_memory, kp_read_key_store, flash_read_resource *)
Definition fop_pkt (f : fop) : cmdpkt :=
  match f with
  | FSimple p => p | FGetProp t i => pkt_get_property t i | FReadOnce i c => pkt_flash_read_once i c | FOut p _ => p | FIn p _ => p
  end.

(* SPEC: the reference bootloader core applied to the command packet (and the data); status / values / data are read off the
   core's answer -- no frames, no reports, no chunks, no ACKs *)
Definition spec_fop (ce : bool) (c : dcore) (f : fop) : (result apival * N) * dcore :=
  match pkt_bytes (fop_pkt f) with
  | RExn x => ((RExn x, 0), c)
  | ROk b =>
      let c1 := cmd_core c b in
      match parse_cmd_response (cmd_first c b) with
      | RExn x => ((RExn x, 0), c1)
      | ROk rs =>
          let st := r_status rs in
          let out (v : apival) : result apival := if ce && negb (st =? SC_SUCCESS) then RExn (XCmd st) else ROk v in
          match f with
          | FSimple _ => ((out (AVBool (st =? SC_SUCCESS)), st), c1)
          | FGetProp _ _ => ((out (if st =? SC_SUCCESS then AVInts (r_values rs) else AVNone), st), c1)
          | FReadOnce _ _ => ((out (if st =? SC_SUCCESS then AVBytes (r_data rs) else AVNone), st), c1)
          | FOut _ data =>
              match dc_phase c1 with
              | Some ph => ((ROk (AVBool true), SC_SUCCESS), phase_done c1 (ph_add ph data))
              | None => ((out (AVBool false), st), c1)
              end
          | FIn _ _ =>
              match cmd_din c b with
              | Some (data, _) => ((ROk (AVBytes data), SC_SUCCESS), c1)
              | None => ((out AVNone, st), c1)
              end
          end
      end
  end.
Fixpoint spec_fops (ce : bool) (c : dcore) (fs : list fop) : list (result apival * N) * dcore :=
  match fs with
  | [] => ([], c)
  | f :: t => let '(r, c1) := spec_fop ce c f in let '(rs, c2) := spec_fops ce c1 t in (r :: rs, c2)
  end.

(* side conditions under which the lock step is proved; fop_ok_generic and Section FamilyOk below establish them for the
   commands answered generically (fill, erase, set-property, program-once, ...), get-property, receive-sb-file and the
   key-store commands *)
Definition fop_ok (maxc : N) (fuel : nat) (c : dcore) (f : fop) : Prop :=
  exists b rs,
    (pkt_bytes (fop_pkt f) = ROk b /\ b <> [] /\ nlen b <= maxc) /\
    (cmd_first c b <> [] /\ nlen (cmd_first c b) <= maxc /\ parse_cmd_response (cmd_first c b) = ROk rs /\ cmd_zfin c b = None) /\
    dc_mps (cmd_core c b) = dc_mps c /\
    match f with
    | FSimple _ => cmd_din c b = None
    | FGetProp _ _ => cmd_din c b = None /\ r_cls rs = 2
    | FReadOnce _ count => cmd_din c b = None /\ r_cls rs = 4 /\ (count = 4 \/ count = 8)
    | FOut p data =>
        cmd_din c b = None /\ rs = generic_resp S_OK (pkt_tag p) /\ data <> [] /\ pkt_tag p <> CT_NO_COMMAND /\
        exists ph, dc_phase (cmd_core c b) = Some ph /\ ph_expected ph = nlen data /\ ph_buf ph = [] /\ ph_fin ph = S_OK /\ ph_tag ph < U32 /\
                   dc_mps (phase_done (cmd_core c b) (ph_add ph data)) = dc_mps c
    | FIn p cls =>
        exists rt data, rs = mkResp cls rt S_OK (nlen data) [] [] /\ cmd_din c b = Some (data, (pkt_tag p, S_OK)) /\ pkt_tag p < U32 /\
                        (length (chunksN (dc_mps c) data) < fuel)%nat
    end.
Fixpoint fops_ok (maxc : N) (ce : bool) (fuel : nat) (c : dcore) (fs : list fop) : Prop :=
  match fs with [] => True | f :: t => fop_ok maxc fuel c f /\ fops_ok maxc ce fuel (snd (spec_fop ce c f)) t end.

Lemma cmd_items_din c b : cmd_zfin c b = None -> cmd_items c b = din_items (cmd_core c b) (cmd_din c b).
Proof. apply cmd_items_open. Qed.

Section Generic.
  Variable LE : Type.
  Variable LI : iface LE.
  Variable ce : bool.
  Variable live : dcore -> list litem -> LE -> Prop.
  Variable maxc : N.
  Hypothesis maxc_ge : 12 <= maxc.
  Hypothesis LS : lockstep LI live maxc.

  (* outcome of _process_cmd as seen by the caller *)
  Definition cmd_outcome {A} (rs : resp) (k : A) : result A :=
    if ce && negb (r_status rs =? SC_SUCCESS) then RExn (XCmd (r_status rs)) else ROk k.

  Lemma process_cmd_nodata c p b rs st mps e :
    live c [] e -> pkt_bytes p = ROk b -> cok maxc b -> cok maxc (cmd_first c b) -> parse_cmd_response (cmd_first c b) = ROk rs ->
    cmd_zfin c b = None -> cmd_din c b = None ->
    exists e', process_cmd LE LI ce p (mkMbs LE st mps e) = (cmd_outcome rs rs, mkMbs LE (r_status rs) mps e') /\ live (cmd_core c b) [] e'.
  Proof.
    intros Hl Hb Hcb Hcf Hp Hz Hd. destruct (process_cmd_ls LE LI ce live maxc LS c b p rs st mps e Hl Hb Hcb Hcf Hp) as (e' & P & L).
    rewrite (cmd_items_din c b Hz), Hd in L. exists e'. split; [|exact L]. rewrite P. unfold finish_cmd, cmd_outcome.
    cbn [set_status mb_status mb_mps mb_env]. destruct (ce && negb (r_status rs =? SC_SUCCESS)); reflexivity.
  Qed.

  Definition run_fop (fuel : nat) (f : fop) : M (mbs LE) apival :=
    match f with
    | FSimple p => simple LE LI ce p
    | FGetProp t i => v <- get_property LE LI ce t i ;; mret (match v with Some l => AVInts l | None => AVNone end)
    | FReadOnce i c => flash_read_once LE LI ce i c
    | FOut p d => cmd_data_out LE LI ce false p d
    | FIn p cls => cmd_data_in LE LI ce fuel p cls
    end.
  Fixpoint fsession (fuel : nat) (fs : list fop) (s : mbs LE) : list (result apival * N) * mbs LE :=
    match fs with
    | [] => ([], s)
    | f :: t => let '(r, s1) := run_fop fuel f s in let '(rs, s2) := fsession fuel t s1 in ((r, mb_status LE s1) :: rs, s2)
    end.

  Lemma run_fop_spec fuel c f st e : 0 < dc_mps c -> dc_mps c <= maxc -> live c [] e -> fop_ok maxc fuel c f ->
    exists e' st', run_fop fuel f (mkMbs LE st (Some (dc_mps c)) e) =
                   (fst (fst (spec_fop ce c f)), mkMbs LE st' (Some (dc_mps c)) e') /\
                   st' = snd (fst (spec_fop ce c f)) /\ live (snd (spec_fop ce c f)) [] e' /\
                   dc_mps (snd (spec_fop ce c f)) = dc_mps c.
  Proof.
    intros Hm0 Hm1 Hl (b & rs & (Hb & Hcb) & (Hf1 & Hf2 & Hp & Hz) & Hmps & Hf). unfold spec_fop. rewrite Hb, Hp.
    pose proof (conj Hf1 Hf2 : cok maxc (cmd_first c b)) as Hcf.
    pose proof (fun Hd => process_cmd_nodata c (fop_pkt f) b rs st (Some (dc_mps c)) e Hl Hb Hcb Hcf Hp Hz Hd) as P.
    destruct f as [p|t i|i cnt|p data|p cls]; cbn [fop_pkt run_fop] in *.
    - destruct (P Hf) as (e' & R & L). exists e', (r_status rs). unfold simple, mbind. rewrite R. unfold cmd_outcome.
      destruct (ce && negb (r_status rs =? SC_SUCCESS)); cbn [fst snd]; auto.
    - destruct Hf as (Hd & Hc). destruct (P Hd) as (e' & R & L). exists e', (r_status rs). unfold get_property, mbind. rewrite R.
      unfold cmd_outcome. destruct (ce && negb (r_status rs =? SC_SUCCESS)); cbn [fst snd]; [auto|].
      destruct (r_status rs =? SC_SUCCESS); [rewrite Hc|]; cbn [fst snd]; auto.
    - destruct Hf as (Hd & Hc & Hcnt). destruct (P Hd) as (e' & R & L). exists e', (r_status rs). unfold flash_read_once.
      replace (negb ((cnt =? 4) || (cnt =? 8))) with false by (destruct Hcnt; subst; reflexivity).
      unfold mbind, is_success. rewrite R. unfold cmd_outcome. destruct (ce && negb (r_status rs =? SC_SUCCESS)); cbn [fst snd]; [auto|].
      destruct (r_status rs =? SC_SUCCESS); [rewrite Hc|]; cbn [fst snd]; auto.
    - destruct Hf as (Hd & Hrs & Hne & Htag & ph & Hph & Hex & Hbuf & Hfin & Hpt & Hm2). subst rs.
      destruct (cmd_data_out_ls LE LI ce live maxc maxc_ge LS c p b data ph st e Hl Hb Hcb Hcf Hp) as (e' & R & L); try assumption.
      { rewrite (cmd_items_din c b Hz), Hd. reflexivity. }
      exists e', SC_SUCCESS. rewrite R, Hph. cbn [fst snd]. auto.
    - destruct Hf as (rt & data & Hrs & Hd & Hpt & Hfu). subst rs.
      destruct (cmd_data_in_ls LE LI ce live maxc maxc_ge LS fuel c p b cls rt data st (Some (dc_mps c)) e Hl Hb Hcb Hcf Hp) as (e' & R & L);
        try (rewrite Hmps; assumption); [rewrite (cmd_items_din c b Hz), Hd; reflexivity|exact Hpt|].
      exists e', SC_SUCCESS. rewrite R, Hd. cbn [fst snd]. auto.
  Qed.

  (* FAULTFREE_REFINES_SPEC, all families: the session over the link equals the transport-free specification *)
  Lemma fsession_spec fuel : forall fs c st e, 0 < dc_mps c -> dc_mps c <= maxc -> live c [] e -> fops_ok maxc ce fuel c fs ->
    exists e' st', fsession fuel fs (mkMbs LE st (Some (dc_mps c)) e) =
                   (fst (spec_fops ce c fs), mkMbs LE st' (Some (dc_mps c)) e') /\ live (snd (spec_fops ce c fs)) [] e'.
  Proof.
    induction fs as [|f t IH]; intros c st e Hm0 Hm1 Hl Hok.
    - exists e, st. split; [reflexivity|exact Hl].
    - destruct Hok as [Hf Ht]. destruct (run_fop_spec fuel c f st e Hm0 Hm1 Hl Hf) as (e1 & st1 & R & Hst & L1 & Hm).
      cbn [fsession spec_fops]. rewrite R. destruct (spec_fop ce c f) as [[r stt] c1] eqn:SP. cbn [fst snd] in *. subst st1.
      rewrite <- Hm in *. destruct (IH c1 stt e1) as (e2 & st2 & R2 & L2); try assumption.
      rewrite R2. destruct (spec_fops ce c1 t) as [rs c2]. cbn [fst snd mb_status] in *. exists e2, st2. split; [reflexivity|exact L2].
  Qed.
End Generic.

(* FAULTFREE_REFINES_SPEC (all families) on the serial link *)
Lemma faultfree_families_serial ce fuel fs c st out cons :
  0 < dc_mps c -> dc_mps c <= 65535 -> fops_ok 65535 ce fuel c fs ->
  exists out' cons' st',
    fsession _ (serial_iface sdev sdev_recv) ce fuel fs (mkMbs _ st (Some (dc_mps c)) (live_env c [] [] out cons)) =
    (fst (spec_fops ce c fs), mkMbs _ st' (Some (dc_mps c)) (live_env (snd (spec_fops ce c fs)) [] [] out' cons')).
Proof.
  intros Hm0 Hm1 Hok.
  destruct (fsession_spec _ (serial_iface sdev sdev_recv) ce live_serial 65535 ltac:(lia) serial_lockstep fuel fs c st
              (live_env c [] [] out cons) Hm0 Hm1) as (e' & st' & R & (o1 & c1 & ->)); [exists out, cons; reflexivity|exact Hok|].
  exists o1, c1, st'. exact R.
Qed.

Definition HID_MAXC : N := 1020.        (* a report read with device.read(1024) carries at most 1020 payload bytes *)
Definition report_of (it : litem) : list N :=
  match it with LData ch => mk_report RID_DATA_IN ch | LResp r => mk_report RID_CMD_IN r end.
Definition live_hid (c : dcore) (items : list litem) (e : henv dcore) : Prop :=
  exists out cons, e = mkHenv dcore c (map report_of items) out cons.

Lemma mk_report_nlen rid p : nlen (mk_report rid p) = 4 + nlen p.
Proof. unfold mk_report. rewrite !nlen_cons, nlen_app, le16_nlen. lia. Qed.

(* report_roundtrip, device side: the reference bootloader decodes what the host encoded *)
Lemma hdev_decode rid p : nlen p < 65536 ->
  (nlen (mk_report rid p) <? 4) = false /\ nth 0 (mk_report rid p) 0 = rid /\
  firstnN (le_dec (firstn 2 (skipn 2 (mk_report rid p)))) (skipn 4 (mk_report rid p)) = p.
Proof.
  intros Hl. split; [apply N.ltb_ge; rewrite mk_report_nlen; lia|]. split; [reflexivity|].
  unfold mk_report.
  assert (S4 : forall (a b : N) l, skipn 4 (a :: b :: l) = skipn 2 l) by reflexivity.
  assert (S2 : forall (a b : N) l, skipn 2 (a :: b :: l) = l) by reflexivity.
  rewrite S4, S2. rewrite (firstn_app_exact (le16 (nlen p))) by reflexivity.
  rewrite le_dec_le16 by exact Hl.
  rewrite (skipn_app_exact (le16 (nlen p))) by reflexivity. apply firstnN_all.
Qed.

Lemma hread_report r rest c out cons : r <> [] -> nlen r <= 1024 ->
  hread dcore (mkHenv dcore c (r :: rest) out cons) = (ROk r, mkHenv dcore c rest out (r :: cons)).
Proof.
  intros Hne Hl. unfold hread. cbn [he_in he_dev he_out he_cons]. rewrite firstnN_ge by exact Hl. destruct r; [contradiction|reflexivity].
Qed.

Lemma h_read_report rid p rest c out cons : p <> [] -> nlen p <= HID_MAXC ->
  h_read dcore (mkHenv dcore c (mk_report rid p :: rest) out cons) =
  (if rid =? RID_CMD_IN then parse_rx p else mret (RxData p)) (mkHenv dcore c rest out (mk_report rid p :: cons)).
Proof.
  intros Hne Hl. unfold HID_MAXC in Hl. unfold h_read, mbind. rewrite hread_report; [|discriminate|rewrite mk_report_nlen; lia].
  rewrite report_roundtrip_lemma by (first [exact Hne|lia]). destruct (rid =? RID_CMD_IN); reflexivity.
Qed.

Definition hid_queue (c2 : dcore) (zfin : option (list N)) (din : option (list N * (N * N))) : list (list N) :=
  (match zfin with Some r => [mk_report RID_CMD_IN r] | None => [] end) ++
  (match din with
   | Some (data, (tag, fin)) => map (mk_report RID_DATA_IN) (chunksN (dc_mps c2) data) ++ [mk_report RID_CMD_IN (generic fin tag)]
   | None => []
   end).
Lemma hdev_recv_cmd c b : nlen b < 65536 ->
  hdev_recv c (mk_report RID_CMD_OUT b) =
  (cmd_core c b, mk_report RID_CMD_IN (cmd_first c b) :: hid_queue (cmd_core c b) (cmd_zfin c b) (cmd_din c b)).
Proof.
  intros Hl. unfold hdev_recv. destruct (hdev_decode RID_CMD_OUT b Hl) as (D4 & D0 & Dp). rewrite D4, D0, Dp.
  change (RID_CMD_OUT =? RID_CMD_OUT) with true. cbv iota.
  unfold cmd_core, cmd_first, cmd_zfin, cmd_din, hid_queue.
  destruct (dev_command c b) as [[c1 first] din]. cbn [fst snd]. destruct (dev_zero_phase c1) as [c2 zfin]. cbn [fst snd].
  destruct din as [[data [tag fin]]|]; reflexivity.
Qed.
Lemma hdev_recv_data c p : nlen p < 65536 ->
  hdev_recv c (mk_report RID_DATA_OUT p) =
  (fst (dev_data_out c p), match snd (dev_data_out c p) with Some r => [mk_report RID_CMD_IN r] | None => [] end).
Proof.
  intros Hl. unfold hdev_recv. destruct (hdev_decode RID_DATA_OUT p Hl) as (D4 & D0 & Dp). rewrite D4, D0, Dp.
  change (RID_DATA_OUT =? RID_CMD_OUT) with false. change (RID_DATA_OUT =? RID_DATA_OUT) with true. cbv iota.
  destruct (dev_data_out c p) as [c1 fin]. reflexivity.
Qed.

Lemma hid_queue_items c b : hid_queue (cmd_core c b) (cmd_zfin c b) (cmd_din c b) = map report_of (cmd_items c b).
Proof.
  unfold hid_queue, cmd_items, cmd_zfin, cmd_din. rewrite map_app.
  destruct (snd (dev_zero_phase _)), (snd (dev_command c b)) as [[data [tag fin]]|]; cbn [fin_items din_items map app];
    rewrite ?map_app, ?map_map; reflexivity.
Qed.

Lemma hid_lockstep : lockstep (hid_iface dcore hdev_recv) live_hid HID_MAXC.
Proof.
  split.
  - intros c b e (out & cons & ->) [Hb Hl] Hcf. unfold HID_MAXC in Hl. cbn [map i_write_command i_read hid_iface].
    unfold mbind at 1. unfold h_write_command, mbind at 1, mlift, create_report.
    replace (65536 <=? nlen b) with false by (symmetry; apply N.leb_gt; lia).
    unfold hwrite. cbn [he_dev he_in he_out he_cons]. rewrite hdev_recv_cmd by lia. cbn [app].
    rewrite h_read_report by apply Hcf. change (RID_CMD_IN =? RID_CMD_IN) with true. cbv iota.
    eexists. split; [reflexivity|]. eexists. eexists. rewrite hid_queue_items. reflexivity.
  - intros c it its e (out & cons & ->) Hc. cbn [map i_read hid_iface].
    destruct it as [ch|r]; cbn [report_of payload] in *; rewrite h_read_report by apply Hc;
      [change (RID_DATA_IN =? RID_CMD_IN) with false|change (RID_CMD_IN =? RID_CMD_IN) with true]; cbv iota;
      (eexists; split; [reflexivity|]; eexists; eexists; reflexivity).
  - intros c ch e (out & cons & ->) [Hne Hl]. unfold HID_MAXC in Hl. cbn [map i_write_data hid_iface].
    unfold h_write_data, mbind at 1, mlift, create_report.
    replace (65536 <=? nlen ch) with false by (symmetry; apply N.leb_gt; lia).
    unfold mbind at 1. unfold mret at 1. unfold hwrite. cbn [he_dev he_in he_out he_cons].
    rewrite hdev_recv_data by lia. cbn [app]. eexists. split; [reflexivity|]. eexists. eexists.
    destruct (snd (dev_data_out c ch)); reflexivity.
Qed.

(* FAULTFREE_REFINES_SPEC (all families) over USB-HID *)
Lemma faultfree_families_hid ce fuel fs c st out cons :
  0 < dc_mps c -> dc_mps c <= HID_MAXC -> fops_ok HID_MAXC ce fuel c fs ->
  exists out' cons' st',
    fsession _ (hid_iface dcore hdev_recv) ce fuel fs (mkMbs _ st (Some (dc_mps c)) (mkHenv dcore c [] out cons)) =
    (fst (spec_fops ce c fs), mkMbs _ st' (Some (dc_mps c)) (mkHenv dcore (snd (spec_fops ce c fs)) [] out' cons')).
Proof.
  intros Hm0 Hm1 Hok.
  destruct (fsession_spec _ (hid_iface dcore hdev_recv) ce live_hid HID_MAXC ltac:(unfold HID_MAXC; lia) hid_lockstep fuel fs c st
              (mkHenv dcore c [] out cons) Hm0 Hm1) as (e' & st' & R & (o1 & c1 & ->)); [exists out, cons; reflexivity|exact Hok|].
  exists o1, c1, st'. exact R.
Qed.

(* the commands the core answers with one generic response and no data phase: all but read/write memory, get-property,
   receive-sb-file, the read-once pair and key provisioning *)
Definition generic_tag (tag : N) : bool := negb (memb tag [3; 4; 7; 8; 15; 16; 21]).

(* the two ends of the cascade of tag tests in dev_command: a branch that answers generically, a tag that is not generic *)
Local Ltac leaf := eexists; eexists; split; [reflexivity|repeat split; reflexivity].
Local Ltac other E Ht := apply N.eqb_eq in E; rewrite E in Ht; discriminate.

Lemma dev_command_generic c b : no_faults c -> generic_tag (nth 0 b 0) = true ->
  exists c1 st, dev_command c b = (c1, generic st (nth 0 b 0), None) /\ dc_phase c1 = dc_phase c /\ dc_mps c1 = dc_mps c /\ st < U32.
Proof.
  intros [Hfc Hff] Ht. unfold dev_command. cbv zeta. cbn [upd_core dc_fail_cmd dc_fail_final]. rewrite Hfc, Hff. cbn [assoc assocd].
  set (tag := nth 0 b 0) in *. set (params := if _ <=? nlen b then _ else _).
  destruct ((tag =? 1) || (tag =? 13)); [leaf|].
  destruct (tag =? 2); [destruct (in_range _ _ _); leaf|].
  destruct (tag =? 3) eqn:E3; [other E3 Ht|]. destruct (tag =? 4) eqn:E4; [other E4 Ht|].
  destruct (tag =? 5); [destruct (negb _); [leaf|destruct (in_range _ _ _); leaf]|].
  destruct (tag =? 7) eqn:E7; [other E7 Ht|].
  destruct (tag =? 12); [destruct (assoc _ _); [destruct (memb _ _); leaf|leaf]|].
  destruct (tag =? 8) eqn:E8; [other E8 Ht|].
  destruct (tag =? 14); [destruct (negb _); leaf|].
  destruct (tag =? 15) eqn:E15; [other E15 Ht|]. destruct (tag =? 16) eqn:E16; [other E16 Ht|].
  destruct (tag =? 21) eqn:E21; [other E21 Ht|].
  destruct (memb tag _); leaf.
Qed.

(* the side conditions hold for every such command, whatever its arguments *)
Lemma fop_ok_generic maxc fuel c tag flags ps :
  12 <= maxc -> Forall (fun x => x < U32) ps -> nlen ps < 256 -> 4 + 4 * nlen ps <= maxc -> tag < U32 -> generic_tag tag = true ->
  no_faults c -> dc_phase c = None -> fop_ok maxc fuel c (FSimple (tag, flags, ps)).
Proof.
  intros Hmx Hps Hn Hl Htg Hg Hnf Hph.
  destruct (dev_command_generic c (tag :: flags :: 0 :: nlen ps :: u32s ps) Hnf Hg) as (c1 & st & Hd & Hp1 & Hm & Hst). cbn [nth] in Hd.
  destruct (pkt_cmd maxc c tag flags ps _ _ _ Hps Hn Hl Hd) as (Hb & Hcb & Hcore & Hfirst & Hz & Hdin); [rewrite Hp1, Hph; exact I|].
  eexists. exists (generic_resp st tag). split; [exact (conj Hb Hcb)|]. rewrite Hcore, Hfirst.
  split; [|split; [exact Hm|exact Hdin]].
  split; [discriminate|]. split; [rewrite generic_nlen; exact Hmx|]. split; [apply parse_generic; assumption|exact Hz].
Qed.

(* what the reference core does on the commands of the families, argument by argument (the side conditions of the
   generic-answer ones need only the shape of the answer, above; the others are used in FamilyOk).
   fill_memory: aligned and in range -> the pattern words are written; otherwise an error status, nothing changes *)
Lemma fill_core c a l pat : no_faults c -> a < U32 -> l < U32 -> pat < U32 ->
  let b := CT_FILL_MEMORY :: CF_NONE :: 0 :: 3 :: u32s [a; l; pat] in
  let lc := log_cmd c (CT_FILL_MEMORY, CF_NONE, [a; l; pat]) in
  dev_command c b =
  if negb ((a mod 4 =? 0) && (l mod 4 =? 0)) then (lc, generic S_ALIGN CT_FILL_MEMORY, None)
  else if in_range c a l
       then (upd_core lc (mem_put c a (flat_map (fun _ => le_enc 4 pat) (repeat tt (N.to_nat (l / 4))))) (dc_props c) (dc_fuses c) (dc_phase c) (dc_cmds lc),
             generic S_OK CT_FILL_MEMORY, None)
       else (lc, generic S_RANGE CT_FILL_MEMORY, None).
Proof.
  intros Hnf Ha Hl Hp b lc. subst b lc. core_eval Hnf. reflexivity.
Qed.

Lemma erase_region_core c a l m : no_faults c -> a < U32 -> l < U32 -> m < U32 ->
  let lc := log_cmd c (CT_FLASH_ERASE_REGION, CF_NONE, [a; l; m]) in
  dev_command c (CT_FLASH_ERASE_REGION :: CF_NONE :: 0 :: 3 :: u32s [a; l; m]) =
  if in_range c a l
  then (upd_core lc (mem_put c a (repeat 255 (N.to_nat l))) (dc_props c) (dc_fuses c) (dc_phase c) (dc_cmds lc), generic S_OK CT_FLASH_ERASE_REGION, None)
  else (lc, generic S_RANGE CT_FLASH_ERASE_REGION, None).
Proof. intros Hnf Ha Hl Hm lc. subst lc. core_eval Hnf. reflexivity. Qed.

Lemma erase_all_core c m : no_faults c -> m < U32 ->
  let lc := log_cmd c (CT_FLASH_ERASE_ALL, CF_NONE, [m]) in
  dev_command c (CT_FLASH_ERASE_ALL :: CF_NONE :: 0 :: 1 :: u32s [m]) =
  (upd_core lc (repeat 255 (length (dc_mem c))) (dc_props c) (dc_fuses c) (dc_phase c) (dc_cmds lc), generic S_OK CT_FLASH_ERASE_ALL, None).
Proof. intros Hnf Hm lc. subst lc. core_eval Hnf. reflexivity. Qed.

Lemma set_property_core c t v : no_faults c -> t < U32 -> v < U32 ->
  let lc := log_cmd c (CT_SET_PROPERTY, CF_NONE, [t; v]) in
  dev_command c (CT_SET_PROPERTY :: CF_NONE :: 0 :: 2 :: u32s [t; v]) =
  match assoc t (dc_props c) with
  | None => (lc, generic S_UNK_PROP CT_SET_PROPERTY, None)
  | Some _ => if memb t WRITABLE_PROPS
              then (upd_core lc (dc_mem c) (aset t [v] (dc_props c)) (dc_fuses c) (dc_phase c) (dc_cmds lc), generic S_OK CT_SET_PROPERTY, None)
              else (lc, generic S_RO_PROP CT_SET_PROPERTY, None)
  end.
Proof. intros Hnf Ht Hv lc. subst lc. core_eval Hnf. reflexivity. Qed.

Lemma get_property_core c t i : no_faults c -> t < U32 -> i < U32 ->
  let lc := log_cmd c (CT_GET_PROPERTY, CF_NONE, [t; i]) in
  dev_command c (CT_GET_PROPERTY :: CF_NONE :: 0 :: 2 :: u32s [t; i]) =
  match assoc t (dc_props c) with
  | Some vals => (lc, response RT_GET_PROPERTY (S_OK :: vals), None)
  | None => (lc, response RT_GET_PROPERTY [S_UNK_PROP], None)
  end.
Proof. intros Hnf Ht Hi lc. subst lc. core_eval Hnf. reflexivity. Qed.

Lemma receive_sb_core c l : no_faults c -> l < U32 ->
  dev_command c (CT_RECEIVE_SB_FILE :: CF_HAS_DATA_PHASE :: 0 :: 1 :: u32s [l]) =
  (with_phase (log_cmd c (CT_RECEIVE_SB_FILE, CF_HAS_DATA_PHASE, [l])) (mkPhase CT_RECEIVE_SB_FILE l [] 1 0 S_OK), generic S_OK CT_RECEIVE_SB_FILE, None).
Proof. intros Hnf Hl. core_eval Hnf. reflexivity. Qed.

Lemma kp_write_key_store_core c l : no_faults c -> l < U32 ->
  dev_command c (CT_KEY_PROVISIONING :: CF_HAS_DATA_PHASE :: 0 :: 3 :: u32s [KPO_WRITE_KEY_STORE; 0; l]) =
  (with_phase (log_cmd c (CT_KEY_PROVISIONING, CF_HAS_DATA_PHASE, [KPO_WRITE_KEY_STORE; 0; l])) (mkPhase CT_KEY_PROVISIONING l [] 3 0 S_OK),
   generic S_OK CT_KEY_PROVISIONING, None).
Proof. intros Hnf Hl. core_eval Hnf. reflexivity. Qed.

Lemma kp_read_key_store_core c : no_faults c ->
  dev_command c (CT_KEY_PROVISIONING :: CF_NONE :: 0 :: 1 :: u32s [KPO_READ_KEY_STORE]) =
  (log_cmd c (CT_KEY_PROVISIONING, CF_NONE, [KPO_READ_KEY_STORE]), response RT_KEY_PROVISIONING_RESPONSE [S_OK; nlen (dc_keystore c)],
   Some (dc_keystore c, (CT_KEY_PROVISIONING, S_OK))).
Proof. intros Hnf. core_eval Hnf. reflexivity. Qed.

Lemma program_once_core c idx v : no_faults c -> idx < U32 -> v < U32 ->
  let lc := log_cmd c (CT_FLASH_PROGRAM_ONCE, CF_NONE, [idx; 4; v]) in
  dev_command c (CT_FLASH_PROGRAM_ONCE :: CF_NONE :: 0 :: 3 :: u32s [idx; 4; v]) =
  (upd_core lc (dc_mem c) (dc_props c) (aset idx (N.lor (assocd idx (dc_fuses c) 0) v) (dc_fuses c)) (dc_phase c) (dc_cmds lc),
   generic S_OK CT_FLASH_PROGRAM_ONCE, None).
Proof. intros Hnf Hi Hv lc. subst lc. core_eval Hnf. reflexivity. Qed.

(* get-property responses parse back: status and ALL values are those the core sent *)
Lemma parse_getprop st vals : st < U32 -> Forall (fun x => x < U32) vals ->
  parse_cmd_response (response RT_GET_PROPERTY (st :: vals)) = ROk (mkResp 2 RT_GET_PROPERTY st 0 vals []).
Proof.
  intros Hs Hv. apply (parse_response RT_GET_PROPERTY st vals 2 1 0 1 1 0); try reflexivity; [constructor; assumption|].
  apply N.ltb_ge. rewrite nlen_cons. lia.
Qed.

Section FamilyOk.
  Variable maxc : N.
  Hypothesis Hmax : 16 <= maxc.
  Variable fuel : nat.
  Variable ce : bool.

  Lemma log_cmd_frame c e : dc_phase (log_cmd c e) = dc_phase c /\ dc_mps (log_cmd c e) = dc_mps c.
  Proof. split; reflexivity. Qed.

  (* get_property: known property -> its values; unknown -> status UNKNOWN_PROPERTY *)
  Lemma get_property_ok c t i : no_faults c -> dc_phase c = None -> t < U32 -> i < U32 ->
    (forall vals, assoc t (dc_props c) = Some vals -> Forall (fun x => x < U32) vals /\ 4 + 4 * (1 + nlen vals) <= maxc) ->
    fop_ok maxc fuel c (FGetProp t i) /\
    spec_fop false c (FGetProp t i) =
      match assoc t (dc_props c) with
      | Some vals => ((ROk (AVInts vals), S_OK), log_cmd c (CT_GET_PROPERTY, CF_NONE, [t; i]))
      | None => ((ROk AVNone, S_UNK_PROP), log_cmd c (CT_GET_PROPERTY, CF_NONE, [t; i]))
      end.
  Proof.
    intros Hnf Hph Ht Hi Hvals. pose proof (get_property_core c t i Hnf Ht Hi) as Hc. cbv zeta in Hc.
    set (lc := log_cmd c (CT_GET_PROPERTY, CF_NONE, [t; i])) in *.
    assert (G : forall st vals, dev_command c (CT_GET_PROPERTY :: CF_NONE :: 0 :: 2 :: u32s [t; i]) = (lc, response RT_GET_PROPERTY (st :: vals), None) ->
                st < U32 -> Forall (fun x => x < U32) vals -> 4 + 4 * (1 + nlen vals) <= maxc ->
                fop_ok maxc fuel c (FGetProp t i) /\
                spec_fop false c (FGetProp t i) = ((ROk (if st =? SC_SUCCESS then AVInts vals else AVNone), st), lc)).
    { intros st vals Hd Hst Hv Hl.
      destruct (pkt_cmd maxc c CT_GET_PROPERTY CF_NONE [t; i] _ _ _ ltac:(repeat constructor; assumption) eq_refl ltac:(cbn; lia) Hd)
        as (Hb & Hcb & Hcore & Hfirst & Hz & Hdin); [change (dc_phase lc) with (dc_phase c); rewrite Hph; exact I|].
      pose proof (parse_getprop st vals Hst Hv) as Hp. split.
      - eexists. exists (mkResp 2 RT_GET_PROPERTY st 0 vals []). split; [exact (conj Hb Hcb)|]. rewrite Hcore, Hfirst.
        split; [|split; [reflexivity|split; [exact Hdin|reflexivity]]].
        split; [discriminate|]. split; [rewrite response_nlen, nlen_cons; exact Hl|]. split; [exact Hp|exact Hz].
      - unfold spec_fop. cbn [fop_pkt]. unfold pkt_get_property. rewrite Hb, Hfirst, Hcore, Hp. reflexivity. }
    destruct (assoc t (dc_props c)) as [vals|] eqn:EA.
    - destruct (Hvals vals eq_refl) as [Hv Hl]. apply (G S_OK vals Hc); [reflexivity|exact Hv|exact Hl].
    - apply (G S_UNK_PROP [] Hc); [reflexivity|constructor|cbn; lia].
  Qed.

  (* introduction rule for command + outgoing data *)
  Lemma fop_ok_out c tag flags ps data kind arg :
    Forall (fun x => x < U32) ps -> nlen ps < 256 -> 4 + 4 * nlen ps <= maxc -> data <> [] -> tag <> CT_NO_COMMAND -> tag < U32 ->
    dev_command c (tag :: flags :: 0 :: nlen ps :: u32s ps) =
      (with_phase (log_cmd c (tag, flags, ps)) (mkPhase tag (nlen data) [] kind arg S_OK), generic S_OK tag, None) ->
    fop_ok maxc fuel c (FOut (tag, flags, ps) data) /\
    spec_fop ce c (FOut (tag, flags, ps) data) =
      ((ROk (AVBool true), SC_SUCCESS), phase_done (log_cmd c (tag, flags, ps)) (mkPhase tag (nlen data) data kind arg S_OK)).
  Proof.
    intros Hps Hn Hl Hd Ht0 Htu Hc.
    set (ph := mkPhase tag (nlen data) [] kind arg S_OK) in *.
    destruct (pkt_cmd maxc c tag flags ps _ _ _ Hps Hn Hl Hc) as (Hb & Hcb & Hcore & Hfirst & Hz & Hdin).
    { rewrite with_phase_phase. intros E. apply nlen_0 in E. contradiction. }
    pose proof (parse_generic S_OK tag eq_refl Htu) as Hp. split.
    - eexists. exists (generic_resp S_OK tag). split; [exact (conj Hb Hcb)|]. rewrite Hcore, Hfirst.
      split; [|split; [reflexivity|]].
      + split; [discriminate|]. split; [rewrite generic_nlen; lia|]. split; [exact Hp|exact Hz].
      + split; [exact Hdin|]. split; [reflexivity|]. split; [exact Hd|]. split; [exact Ht0|]. exists ph. rewrite with_phase_phase.
        repeat split; try reflexivity; try assumption. rewrite phase_done_mps; reflexivity.
    - unfold spec_fop. cbn [fop_pkt]. rewrite Hb, Hfirst, Hcore, Hp. rewrite with_phase_phase, phase_done_with. reflexivity.
  Qed.

  Lemma receive_sb_ok c data : no_faults c -> nlen data < U32 -> data <> [] ->
    fop_ok maxc fuel c (FOut (pkt_receive_sb_file data) data) /\
    dc_sb (snd (spec_fop ce c (FOut (pkt_receive_sb_file data) data))) = dc_sb c ++ [data].
  Proof.
    intros Hnf Hl Hd.
    destruct (fop_ok_out c CT_RECEIVE_SB_FILE CF_HAS_DATA_PHASE [nlen data] data 1 0 ltac:(repeat constructor; assumption) eq_refl ltac:(cbn; lia)
                Hd ltac:(discriminate) eq_refl (receive_sb_core c (nlen data) Hnf Hl)) as [Ho Hs].
    split; [exact Ho|]. unfold pkt_receive_sb_file. rewrite Hs. cbn [snd]. unfold phase_done. cbn [ph_fin ph_kind ph_expected ph_buf].
    rewrite firstnN_all. destruct c; reflexivity.
  Qed.

  Lemma kp_write_key_store_ok c data : no_faults c -> nlen data < U32 -> data <> [] ->
    fop_ok maxc fuel c (FOut (pkt_kp_write_key_store data) data) /\
    dc_keystore (snd (spec_fop ce c (FOut (pkt_kp_write_key_store data) data))) = data.
  Proof.
    intros Hnf Hl Hd.
    destruct (fop_ok_out c CT_KEY_PROVISIONING CF_HAS_DATA_PHASE [KPO_WRITE_KEY_STORE; 0; nlen data] data 3 0
                ltac:(repeat constructor; first [assumption|reflexivity]) eq_refl ltac:(cbn; lia)
                Hd ltac:(discriminate) eq_refl (kp_write_key_store_core c (nlen data) Hnf Hl)) as [Ho Hs].
    split; [exact Ho|]. unfold pkt_kp_write_key_store. rewrite Hs. cbn [snd]. unfold phase_done. cbn [ph_fin ph_kind ph_expected ph_buf].
    rewrite firstnN_all. destruct c; reflexivity.
  Qed.

  (* kp_read_key_store returns exactly the key store of the device *)
  Lemma kp_read_key_store_ok c : no_faults c -> dc_phase c = None -> nlen (dc_keystore c) < U32 ->
    (length (chunksN (dc_mps c) (dc_keystore c)) < fuel)%nat ->
    fop_ok maxc fuel c (FIn pkt_kp_read_key_store 6) /\
    fst (fst (spec_fop ce c (FIn pkt_kp_read_key_store 6))) = ROk (AVBytes (dc_keystore c)).
  Proof.
    intros Hnf Hph Hl Hfu.
    destruct (pkt_cmd maxc c CT_KEY_PROVISIONING CF_NONE [KPO_READ_KEY_STORE] _ _ _ ltac:(repeat constructor; reflexivity) eq_refl ltac:(cbn; lia)
                (kp_read_key_store_core c Hnf)) as (Hb & Hcb & Hcore & Hfirst & Hz & Hdin).
    { change (dc_phase (log_cmd c _)) with (dc_phase c). rewrite Hph. exact I. }
    pose proof (parse_two RT_KEY_PROVISIONING_RESPONSE 6 S_OK (nlen (dc_keystore c)) eq_refl eq_refl eq_refl eq_refl Hl) as Hp. split.
    - eexists. exists (mkResp 6 RT_KEY_PROVISIONING_RESPONSE S_OK (nlen (dc_keystore c)) [] []). split; [exact (conj Hb Hcb)|]. rewrite Hcore, Hfirst.
      split; [|split; [reflexivity|]].
      + split; [discriminate|]. split; [rewrite response_nlen; cbn; lia|]. split; [exact Hp|exact Hz].
      + exists RT_KEY_PROVISIONING_RESPONSE, (dc_keystore c). repeat split; try reflexivity; assumption.
    - unfold spec_fop. cbn [fop_pkt]. change (pkt_bytes pkt_kp_read_key_store) with (pkt_bytes (CT_KEY_PROVISIONING, CF_NONE, [KPO_READ_KEY_STORE])).
      rewrite Hb, Hfirst, Hp. unfold cmd_din. rewrite Hdin. reflexivity.
  Qed.
End FamilyOk.

Inductive fcall : Type :=
| CFill (a l pat : N) | CEraseRegion (a l : N) | CEraseAll (m : N) | CSetProp (t v : N) | CGetProp (t i : N)
| CReceiveSb (data : list N) | CProgramOnce (idx v : N) | CReadOnce (idx cnt : N)
| CKpWriteStore (data : list N) | CKpReadStore | CWrite (a : N) (data : list N) | CReadFast (a l : N).
Definition fcall_call (x : fcall) : call :=
  match x with
  | CFill a l p => Call 5 [a; l; p] [] | CEraseRegion a l => Call 2 [a; l; 0] [] | CEraseAll m => Call 1 [m] []
  | CSetProp t v => Call 12 [t; v] [] | CGetProp t i => Call 7 [t; i] [] | CReceiveSb d => Call 8 [0] d
  | CProgramOnce i v => Call 14 [i; v; 0] [] | CReadOnce i c => Call 16 [i; c] [] | CKpWriteStore d => Call 27 [] d
  | CKpReadStore => Call 28 [] [] | CWrite a d => Call 4 [a; 0] d | CReadFast a l => Call 34 [a; l; 0] []
  end.
Definition fcall_fop (x : fcall) : fop :=
  match x with
  | CFill a l p => FSimple (pkt_fill_memory a l p) | CEraseRegion a l => FSimple (CT_FLASH_ERASE_REGION, CF_NONE, [a; l; 0])
  | CEraseAll m => FSimple (pkt_flash_erase_all m) | CSetProp t v => FSimple (pkt_set_property t v) | CGetProp t i => FGetProp t i
  | CReceiveSb d => FOut (pkt_receive_sb_file d) d | CProgramOnce i v => FSimple (pkt_efuse_program_once i v)
  | CReadOnce i c => FReadOnce i c | CKpWriteStore d => FOut (pkt_kp_write_key_store d) d | CKpReadStore => FIn pkt_kp_read_key_store 6
  | CWrite a d => FOut (CT_WRITE_MEMORY, CF_HAS_DATA_PHASE, [a; nlen d; 0]) d | CReadFast a l => FIn (CT_READ_MEMORY, CF_NONE, [a; l; 0]) 3
  end.

Section ApiFamilies.
  Variable LE : Type.
  Variable LI : iface LE.
  Variable ce : bool.

  Lemma efuse_program_once_noverify idx v s :
    efuse_program_once LE LI ce idx v false s = simple LE LI ce (pkt_efuse_program_once idx v) s.
  Proof.
    unfold efuse_program_once, simple, mbind. destruct (process_cmd LE LI ce (pkt_efuse_program_once idx v) s) as [[rs|x] s1]; [|reflexivity].
    destruct (is_success rs); reflexivity.
  Qed.

  Lemma api_fcall fuel x s : api LE LI ce fuel (fcall_call x) s = run_fop LE LI ce fuel (fcall_fop x) s.
  Proof.
    destruct x; cbn [fcall_call fcall_fop run_fop]; try reflexivity.
    - unfold api. cbn [nth]. apply efuse_program_once_noverify.
    - unfold api. cbn [nth]. unfold read_memory. rewrite andb_false_r. reflexivity.
  Qed.

  Lemma session_fcalls fuel : forall xs s,
    session LE LI ce fuel (map fcall_call xs) s = fsession LE LI ce fuel (map fcall_fop xs) s.
  Proof.
    induction xs as [|x t IH]; intros s; [reflexivity|]. cbn [map session fsession]. rewrite api_fcall.
    destruct (run_fop LE LI ce fuel (fcall_fop x) s) as [r s1]. rewrite IH. reflexivity.
  Qed.
End ApiFamilies.

(* non-vacuity: a device and a list of six calls that satisfy the side conditions on both transports *)
Definition ex_core : dcore :=
  mkCore 4096 (repeat 7 64) 8 [(10, [1]); (11, [8])] [] [1; 2; 3] [] [] [] [] [] None [].
Definition ex_calls : list fcall :=
  [CFill 4096 8 2864434397; CSetProp 10 5; CGetProp 10 0; CReceiveSb [1; 2; 3; 4; 5; 6; 7; 8; 9; 10; 11]; CKpWriteStore [9; 9; 9]; CKpReadStore].
Example families_instance (maxc : N) (H : 16 <= maxc) : fops_ok maxc false 100 ex_core (map fcall_fop ex_calls).
Proof.
  unfold ex_calls. cbn [map fcall_fop fops_ok].
  split; [|split; [|split; [|split; [|split; [|split; [|exact I]]]]]].
  - apply fop_ok_generic; [lia|repeat constructor; reflexivity|reflexivity|cbn; lia|reflexivity..|split; reflexivity|reflexivity].
  - apply fop_ok_generic; [lia|repeat constructor; reflexivity|reflexivity|cbn; lia|reflexivity..|split; vm_compute; reflexivity|vm_compute; reflexivity].
  - apply get_property_ok; [exact H|split; vm_compute; reflexivity|vm_compute; reflexivity|reflexivity..|].
    intros vals E. vm_compute in E. injection E as <-. split; [repeat constructor; reflexivity|cbn; lia].
  - apply (receive_sb_ok maxc H 100 false); [split; vm_compute; reflexivity|reflexivity|discriminate].
  - apply (kp_write_key_store_ok maxc H 100 false); [split; vm_compute; reflexivity|reflexivity|discriminate].
  - apply (kp_read_key_store_ok maxc H 100 false); [split; vm_compute; reflexivity|vm_compute; reflexivity..|vm_compute; lia].
Qed.
Example families_instance_result :
  fst (spec_fops false ex_core (map fcall_fop ex_calls)) =
  [(ROk (AVBool true), 0); (ROk (AVBool true), 0); (ROk (AVInts [5]), 0); (ROk (AVBool true), 0); (ROk (AVBool true), 0); (ROk (AVBytes [9; 9; 9]), 0)].
Proof. vm_compute. reflexivity. Qed.
