(* Proofs/DatEleProofs.v -- C15: round trip of the EdgeLock container-version-1 debug credential
   (RoT meta = flags + AHAB SRK table with four records). *)
From Coq Require Import ZArith NArith List Bool Lia.
Require Import Value Bytes BytesProofs Sha2 GenRot RotModel RotProofs GenDat DatModel DatProofs.
Import ListNotations.
Local Open Scope N_scope.
Local Opaque on_curve curve_p curve_b.

Lemma ks_small k l1 l2 : lookup2 g_ahab1_key_sizes k = Some (l1, l2) -> l1 < 65536 /\ l2 < 65536.
Proof.
  assert (T : forallb (fun r => (fst (snd r) <? 65536) && (snd (snd r) <? 65536)) g_ahab1_key_sizes = true) by reflexivity.
  rewrite forallb_forall in T. induction g_ahab1_key_sizes as [|[a b] t IH]; [discriminate|]. cbn [lookup2].
  destruct (a =? k); [|apply IH; intros x Hx; apply T; now right]. intros H; inversion H; subst.
  specialize (T _ (or_introl eq_refl)). apply andb_true_iff in T as [T1 T2]. now apply N.ltb_lt in T1, T2.
Qed.

Definition wf_rec (r : srk_rec) : Prop :=
  exists l1 l2, lookup2 g_ahab1_key_sizes (sr_ksid r) = Some (l1, l2) /\ sr_len r = 12 + l1 + l2 /\ nlen (sr_params r) = l1 + l2 /\
    sr_len r < 65536 /\ mem_n (sr_alg r) g_srk_v1_algs = true /\ mem_n (sr_hash r) g_srk_v1_hashes = true /\
    sr_alg r < 256 /\ sr_hash r < 256 /\ sr_ksid r < 256 /\ sr_flags r < 256.
Lemma v1_alg_is_v2 a : mem_n a g_srk_v1_algs = true -> mem_n a g_srk_v2_algs = true.
Proof.
  unfold mem_n. rewrite !existsb_exists. intros (x & Hx & E). exists x. split; [|exact E].
  cbn in Hx. cbn. tauto.
Qed.
Lemma rec_roundtrip r : wf_rec r ->
  exists b, srk_rec_export r = Ok b /\ nlen b = sr_len r /\ forall rest, srk_rec_parse (b ++ rest) = Ok r.
Proof.
  destruct r as [len alg hash ksid flags params]. unfold wf_rec. cbn [sr_len sr_alg sr_hash sr_ksid sr_flags sr_params].
  intros (l1 & l2 & HL & Hlen & Hp & Hl & Ha & Hh & Ha8 & Hh8 & Hk8 & Hf8).
  destruct (ks_small _ _ _ HL) as [Hl1 Hl2].
  unfold srk_rec_export. cbn [sr_len sr_alg sr_hash sr_ksid sr_flags sr_params]. rewrite HL.
  assert (G : ((65535 <? len) || (255 <? alg) || (255 <? hash) || (255 <? ksid) || (255 <? flags)) = false).
  { repeat (apply orb_false_iff; split); apply N.ltb_ge; lia. }
  rewrite G. eexists. split; [reflexivity|]. split.
  { unfold le16, nlen. rewrite !app_length, !le_enc_length. cbn [length]. unfold nlen in Hp. lia. }
  intros rest. unfold le16. rewrite !le_enc_2. cbn [app]. unfold srk_rec_parse. set (tail := params ++ rest).
  match goal with |- context [nlen ?l <? 12] => assert (LN : nlen l = 12 + nlen tail) by (unfold nlen; cbn [length]; fold tail; lia) end.
  rewrite LN. replace (12 + nlen tail <? 12) with false by (symmetry; apply N.ltb_ge; lia).
  cbn [nth skipn firstn]. rewrite (le_dec_pair _ Hl), (le_dec_pair _ Hl1), (le_dec_pair _ Hl2).
  rewrite N.eqb_refl, (v1_alg_is_v2 _ Ha). cbn [negb orb].
  replace (12 + nlen tail <? len) with false by (symmetry; apply N.ltb_ge; unfold tail; rewrite nlen_app; lia).
  replace (len <? l1 + l2 + 12) with false by (symmetry; apply N.ltb_ge; lia). rewrite Ha, Hh. cbn [negb orb].
  do 2 f_equal. unfold tail. apply firstn_app_exact. unfold nlen in Hp. lia.
Qed.

Definition wf_table (t : srk_table) : Prop :=
  exists r0 r1 r2 r3 L, st_recs t = [r0; r1; r2; r3] /\ Forall wf_rec [r0; r1; r2; r3] /\
    Forall (fun r => sr_len r = L) [r0; r1; r2; r3] /\ st_len t = 4 + 4 * L /\ st_len t < 65536.
Lemma table_roundtrip t : wf_table t ->
  exists b, srk_table_export t = Ok b /\ nlen b = st_len t /\ forall rest, srk_table_parse (b ++ rest) = Ok t.
Proof.
  destruct t as [len recs]. unfold wf_table. cbn [st_len st_recs].
  intros (r0 & r1 & r2 & r3 & L & -> & HW & HLn & Hlen & Hl).
  apply Forall_cons_iff in HW as [W0 HW]. apply Forall_cons_iff in HW as [W1 HW]. apply Forall_cons_iff in HW as [W2 HW].
  apply Forall_cons_iff in HW as [W3 _].
  apply Forall_cons_iff in HLn as [L0 HLn]. apply Forall_cons_iff in HLn as [L1 HLn]. apply Forall_cons_iff in HLn as [L2 HLn].
  apply Forall_cons_iff in HLn as [L3 _].
  destruct (rec_roundtrip r0 W0) as (b0 & E0 & N0 & P0). destruct (rec_roundtrip r1 W1) as (b1 & E1 & N1 & P1).
  destruct (rec_roundtrip r2 W2) as (b2 & E2 & N2 & P2). destruct (rec_roundtrip r3 W3) as (b3 & E3 & N3 & P3).
  rewrite L0 in N0. rewrite L1 in N1. rewrite L2 in N2. rewrite L3 in N3.
  unfold srk_table_export. cbn [st_recs st_len map_res]. rewrite E0, E1, E2, E3. cbn [bind].
  assert (G : (65535 <? len) = false) by (apply N.ltb_ge; lia). rewrite G. cbn [concat]. rewrite app_nil_r.
  eexists. split; [reflexivity|]. split.
  { unfold le16, nlen in *. rewrite !app_length, le_enc_length. cbn [length]. lia. }
  intros rest. unfold le16. rewrite le_enc_2. cbn [app]. unfold srk_table_parse.
  set (body := cat [b0; b1; b2; b3] rest).
  match goal with |- context [nlen ?l <? 4] => assert (LN : nlen l = 4 + nlen body) by (unfold nlen, body; cbn [length cat]; rewrite <- !app_assoc; lia) end.
  assert (LB : nlen body = 4 * L + nlen rest) by (unfold body; cbn [cat]; rewrite !nlen_app, N0, N1, N2, N3; lia).
  rewrite LN. replace (4 + nlen body <? 4) with false by (symmetry; apply N.ltb_ge; lia). cbn [nth skipn firstn].
  rewrite (le_dec_pair _ Hl), !N.eqb_refl. cbn [negb orb].
  replace (4 + nlen body <? len) with false by (symmetry; apply N.ltb_ge; lia).
  replace (len <? 4) with false by (symmetry; apply N.ltb_ge; lia).
  replace (len - 4) with (L * 4) by lia. rewrite N.mod_mul, N.div_mul, N.eqb_refl by lia. cbn [negb map_res].
  assert (LL : forall b : list N, nlen b = L -> length b = N.to_nat L) by (unfold nlen; lia).
  (* record i starts behind the four header bytes and the i records before it *)
  assert (SK : forall i pre post (a0 a1 a2 a3 : N), length (concat pre) = (i * N.to_nat L)%nat -> body = cat pre post ->
                 skipn (4 + i * N.to_nat L) (a0 :: a1 :: a2 :: a3 :: (b0 ++ b1 ++ b2 ++ b3) ++ rest) = post).
  { intros i pre post a0 a1 a2 a3 Hp E. change (skipn (4 + ?k) (_ :: _ :: _ :: _ :: ?l)) with (skipn k l). rewrite <- !app_assoc.
    change (b0 ++ b1 ++ b2 ++ b3 ++ rest) with body. rewrite E. now apply skipn_cat. }
  rewrite (SK 0%nat [] body), (SK 1%nat [b0] (cat [b1; b2; b3] rest)), (SK 2%nat [b0; b1] (cat [b2; b3] rest)), (SK 3%nat [b0; b1; b2] (cat [b3] rest))
    by (try reflexivity; cbn [concat]; rewrite ?app_length, ?(LL _ N0), ?(LL _ N1), ?(LL _ N2); cbn [length]; lia).
  unfold body. cbn [cat]. now rewrite P0, P1, P2, P3.
Qed.

Definition wf_dc_ele (d : dc) : Prop :=
  version_ok (d_major d) (d_minor d) = true /\ d_major d < 65536 /\ d_minor d < 65536 /\
  u32_ok (d_socc d) /\ length (d_uuid d) = 16%nat /\ u32_ok (d_socu d) /\ u32_ok (d_vu d) /\ u32_ok (d_beacon d) /\
  exists used cnt t keys rb kb,
    d_meta d = RMEle used cnt t /\ flags_validate used cnt = true /\ wf_table t /\ srk_table_verify t = Ok tt /\
    map_res srk_rec_key (st_recs t) = Ok keys /\ nth_error keys (N.to_nat used) = Some (d_rot d) /\
    raw_key (d_rot d) = Ok rb /\ raw_key (d_dck d) = Ok kb /\ length kb = length rb /\ pub_parse kb = Ok (d_dck d) /\
    length (d_sig d) = key_sig_size (d_rot d) /\ d_sig d <> [].

(* non-vacuity: the credential create_from_yaml_config builds for four P-256 keys is well formed *)
Example wf_dc_ele_nontrivial :
  exists c d, dc_create 1 1 1381237916 [g256; g256; g256; g256] 2 g256 (zeros 16) 1 2 3 false = Ok (c, d)
              /\ c = CEle /\ wf_dc_ele (dc_with_sig d (repeat 7 64)).
Proof.
  eexists _, _. split; [vm_compute; reflexivity|]. split; [reflexivity|].
  unfold wf_dc_ele, dc_with_sig, u32_ok. cbn [d_major d_minor d_socc d_uuid d_meta d_dck d_socu d_vu d_beacon d_rot d_sig].
  repeat split; try reflexivity; try lia.
  do 6 eexists. split; [reflexivity|]. split; [reflexivity|]. split.
  { unfold wf_table. cbn [st_recs st_len]. do 5 eexists. split; [reflexivity|]. split.
    - repeat constructor; unfold wf_rec; cbn [sr_len sr_alg sr_hash sr_ksid sr_flags sr_params]; (do 2 eexists); repeat split; try reflexivity; try lia.
    - split; [repeat constructor; reflexivity|]. split; [reflexivity|lia]. }
  split; [vm_compute; reflexivity|].
  (* the four records are one record: its key is restored (and checked against the curve) once *)
  split; [apply (map_res_repeat srk_rec_key _ 4); vm_compute; reflexivity|]. split; [reflexivity|].
  split; [vm_compute; reflexivity|]. split; [vm_compute; reflexivity|]. split; [reflexivity|]. split; [vm_compute; reflexivity|].
  split; [reflexivity|discriminate].
Qed.
