(* Proofs/SymWrapProofs.v -- lemmas about the SPSDK wrapper model (Model/SymWrapModel.v) for C09. *)
From Coq Require Import ZArith NArith List Bool Lia.
Require Import Value Bytes BytesProofs GenMisc MiscModel GenCrypto Sha2 Aes Sm4 Modes Hmac Hkdf Cmac KeyWrap Crc
               CryptoProofs SymWrapModel.
Import ListNotations.
Local Open Scope N_scope.

(* zero padding of the CBC encryptors *)
Definition zero_pad16 (m : list N) : list N :=
  m ++ zeros (Z.to_nat ((16 - Z.of_nat (length m) mod 16) mod 16)).

Lemma zero_pad16_mult m : Nat.modulo (length (zero_pad16 m)) 16 = 0%nat.
Proof.
  unfold zero_pad16, zeros. rewrite app_length, repeat_length. apply Nat2Z.inj. rewrite Nat2Z.inj_mod. dlia.
Qed.

Lemma zero_pad16_wf m : wf_bytes m -> wf_bytes (zero_pad16 m).
Proof. intros. unfold zero_pad16. apply wf_bytes_app; auto using wf_zeros. Qed.

Lemma zero_pad16_aligned m : Nat.modulo (length m) 16 = 0%nat -> zero_pad16 m = m.
Proof.
  intros H. apply (f_equal Z.of_nat) in H. rewrite Nat2Z.inj_mod in H.
  unfold zero_pad16. replace (Z.to_nat ((16 - Z.of_nat (length m) mod 16) mod 16)) with 0%nat by dlia.
  apply app_nil_r.
Qed.

Lemma align_block_zero16 m : MiscModel.align_block m 16 PZeros = Ok (zero_pad16 m).
Proof.
  unfold MiscModel.align_block, py_align. cbn [Z.ltb Z.leb Z.compare orb].
  replace (Z.of_nat (length m) <? 0)%Z with false by (symmetry; apply Z.ltb_ge; lia).
  cbn [orb].
  set (L := Z.of_nat (length m)).
  assert (E : ((L + (16 - 1)) / 16 * 16 - L = (16 - L mod 16) mod 16)%Z) by (subst L; dlia).
  rewrite E. unfold zero_pad16. fold L.
  destruct (Z.to_nat ((16 - L mod 16) mod 16)) as [|k] eqn:Ek.
  - unfold zeros. simpl. now rewrite app_nil_r.
  - reflexivity.
Qed.

Lemma aes_key_len key : aes_key_ok key = true -> length key = 16%nat \/ length key = 24%nat \/ length key = 32%nat.
Proof.
  unfold aes_key_ok. intros H. apply orb_true_iff in H as [H|H]; [apply orb_true_iff in H as [H|H]|];
    apply Nat.eqb_eq in H; auto.
Qed.

Lemma aes_key_bits_ok key : aes_key_ok key = true -> key_bits_ok [128; 192; 256; 512] key = true.
Proof.
  intros H. unfold key_bits_ok, nlen. destruct (aes_key_len key H) as [E|[E|E]]; rewrite E; reflexivity.
Qed.

(* aesE / aesD are the reference cipher with the key schedule shared; its laws are those of CryptoProofs *)
Lemma aes_DE key : aes_key_ok key = true -> wf_bytes key -> forall b, okb b -> aesD key (aesE key b) = b.
Proof. intros Hk W b Hb. exact (proj1 (aes_dec_enc key b Hk W Hb)). Qed.
Lemma aes_E_ok key : aes_key_ok key = true -> wf_bytes key -> forall b, okb b -> okb (aesE key b).
Proof. intros Hk W b Hb. exact (proj2 (aes_dec_enc key b Hk W Hb)). Qed.
Lemma aes_E_len key : aes_key_ok key = true -> wf_bytes key -> forall b, length b = 16%nat -> length (aesE key b) = 16%nat.
Proof. intros Hk W b Hb. now apply aes_enc_length. Qed.

Lemma sm4_DE key : forall b, okb b -> sm4D key (sm4E key b) = b.
Proof. intros b Hb. unfold sm4D, sm4E. now apply sm4_bytes_dec_enc. Qed.
Lemma sm4_E_ok key : forall b, okb b -> okb (sm4E key b).
Proof. intros b Hb. unfold sm4E. now apply sm4_bytes_dec_enc. Qed.

Lemma len_mult16_true l : Nat.modulo (length l) 16 = 0%nat -> len_mult16 l = true.
Proof. intros H. unfold len_mult16. now apply Nat.eqb_eq. Qed.

(* the IV argument as the caller may give it: left out, empty, or one block *)
Definition iv_arg_ok (iv : option (list N)) : Prop :=
  match iv with None => True | Some [] => True | Some v => okb v end.

Lemma choose_iv_ok iv : iv_arg_ok iv -> okb (choose_iv iv 16).
Proof.
  assert (Z16 : okb (zeros 16)) by (split; [reflexivity | apply wf_zeros]).
  destruct iv as [[|b t]|]; simpl; auto.
Qed.

Section CbcWrapper.
Variable lib_ok : list N -> bool.
Variable F G : list N -> blk -> blk.
Variable key : list N.
Hypothesis lib_key : lib_ok key = true.
Hypothesis DE : forall b, okb b -> G key (F key b) = b.
Hypothesis E_ok : forall b, okb b -> okb (F key b).

Lemma cbc_wrapper_roundtrip kb kb' al' m iv :
  key_bits_ok kb key = true -> key_bits_ok kb' key = true -> wf_bytes m -> iv_arg_ok iv ->
  exists c, cbc_wrapper kb 16 128 16 true lib_ok F key m iv = Ok c /\
            cbc_wrapper kb' 16 128 al' false lib_ok G key c iv = Ok (zero_pad16 m).
Proof.
  intros K1 K2 W Hiv. pose proof (choose_iv_ok iv Hiv) as Hv.
  assert (L16 : length (choose_iv iv 16) = 16%nat) by apply Hv.
  pose proof (zero_pad16_wf m W) as Wp. pose proof (zero_pad16_mult m) as Mp.
  destruct (cbc_enc_length (F key) E_ok (choose_iv iv 16) (zero_pad16 m) Hv Wp Mp) as [Lc Wc].
  exists (cbc_enc (F key) (choose_iv iv 16) (zero_pad16 m)). unfold cbc_wrapper.
  rewrite K1, K2, lib_key. unfold nlen. rewrite L16. cbn [negb N.eqb N.of_nat N.mul Pos.of_succ_nat Pos.succ Pos.mul Pos.eqb Nat.eqb].
  change (Z.of_N 16) with 16%Z. rewrite align_block_zero16.
  rewrite (len_mult16_true _ Mp). cbn [negb]. split; [reflexivity|].
  rewrite len_mult16_true by (rewrite Lc; exact Mp). cbn [negb].
  f_equal. apply (cbc_dec_enc_l (F key) (G key)); assumption.
Qed.
End CbcWrapper.

Lemma wrap_cbc_roundtrip_l key m iv : aes_key_ok key = true -> wf_bytes key -> wf_bytes m -> iv_arg_ok iv ->
  exists c, aes_cbc_encrypt key m iv = Ok c /\ aes_cbc_decrypt key c iv = Ok (zero_pad16 m).
Proof.
  intros Hk Wk Wm Hiv. unfold aes_cbc_encrypt, aes_cbc_decrypt.
  apply (cbc_wrapper_roundtrip aes_key_ok aesE aesD key Hk (aes_DE key Hk Wk) (aes_E_ok key Hk Wk));
    auto; now apply aes_key_bits_ok.
Qed.

Lemma sm4_key_bits_ok key : sm4_key_ok key = true -> key_bits_ok [128] key = true.
Proof. unfold sm4_key_ok. intros H. apply Nat.eqb_eq in H. unfold key_bits_ok, nlen. now rewrite H. Qed.

Example wrap_cbc_nonvacuous :
  aes_key_ok (repeat 1 16) = true /\ wf_bytes (repeat 1 16) /\ wf_bytes [1; 2; 3] /\ iv_arg_ok None /\
  aes_cbc_decrypt (repeat 1 16) (match aes_cbc_encrypt (repeat 1 16) [1; 2; 3] None with Ok c => c | Err _ => [] end) None
  = Ok [1; 2; 3; 0; 0; 0; 0; 0; 0; 0; 0; 0; 0; 0; 0; 0].
Proof.
  assert (Wk : wf_bytes (repeat 1 16)) by (unfold wf_bytes, wf_byte; repeat constructor).
  assert (Wm : wf_bytes [1; 2; 3]) by (unfold wf_bytes, wf_byte; repeat constructor).
  split; [reflexivity|]. split; [exact Wk|]. split; [exact Wm|]. split; [exact I|].
  destruct (wrap_cbc_roundtrip_l (repeat 1 16) [1; 2; 3] None eq_refl Wk Wm I) as (c & -> & ->). reflexivity.
Qed.

Lemma xts_half_ok key : xts_key_ok key = true -> wf_bytes key ->
  aes_key_ok (xts_k1 key) = true /\ wf_bytes (xts_k1 key) /\ aes_key_ok (xts_k2 key) = true /\ wf_bytes (xts_k2 key).
Proof.
  unfold xts_key_ok, xts_k1, xts_k2, aes_key_ok. intros H W.
  apply orb_true_iff in H as [H|H]; apply Nat.eqb_eq in H; rewrite H;
    (repeat split; [rewrite firstn_length, H; reflexivity | now apply wf_bytes_firstn
                   | rewrite skipn_length, H; reflexivity | now apply wf_bytes_skipn]).
Qed.

Definition zsum (l : list Z) : Z := fold_right Z.add 0%Z l.
Definition enc32 (big : bool) (c : Z) : list N := (if big then be_enc else le_enc) 4%nat (Z.to_N c).
Definition dec32 (big : bool) (l : list N) : Z := Z.of_N ((if big then be_dec else le_dec) l).

Lemma counter_trace_nth nonce big incs : forall c k, (k <= length incs)%nat ->
  nth k (counter_trace nonce big c incs) (Err 0) = counter_encode nonce big (c + zsum (firstn k incs)).
Proof.
  induction incs as [|i t IH]; intros c k Hk.
  - destruct k; [|simpl in Hk; lia]. simpl. now rewrite Z.add_0_r.
  - destruct k as [|k].
    + cbn [counter_trace nth firstn zsum fold_right]. now rewrite Z.add_0_r.
    + cbn [counter_trace nth firstn]. rewrite IH by (simpl in Hk; lia).
      f_equal. cbn [zsum fold_right]. unfold zsum. lia.
Qed.

Lemma dec32_enc32 big c : (0 <= c < 4294967296)%Z -> dec32 big (enc32 big c) = c.
Proof.
  intros H. unfold dec32, enc32.
  assert (B : Z.to_N c < 2 ^ (8 * N.of_nat 4)) by (change (2 ^ (8 * N.of_nat 4)) with 4294967296; lia).
  destruct big; [rewrite be_dec_enc_small | rewrite le_dec_enc_small]; auto; lia.
Qed.

Lemma land_mask32 c : Z.land c 4294967295 = (c mod 4294967296)%Z.
Proof. change 4294967295%Z with (Z.ones 32). rewrite Z.land_ones by lia. reflexivity. Qed.

Definition str_crc32 : list N := [99; 114; 99; 51; 50].
Definition str_crc32_mpeg : list N := [99; 114; 99; 51; 50; 45; 109; 112; 101; 103].
Definition str_crc16_xmodem : list N := [99; 114; 99; 49; 54; 45; 120; 109; 111; 100; 101; 109].

Lemma crc_table_standard_l :
  map fst crc_table = [str_crc32; str_crc32_mpeg; str_crc16_xmodem] /\
  map (fun e => crcmod_params (snd e)) crc_table = [Some CRC32; Some CRC32_MPEG2; Some CRC16_XMODEM].
Proof. split; vm_compute; reflexivity. Qed.

Lemma spsdk_crc_standard_l data :
  spsdk_crc str_crc32 data = Ok (crc CRC32 data) /\
  spsdk_crc str_crc32_mpeg data = Ok (crc CRC32_MPEG2 data) /\
  spsdk_crc str_crc16_xmodem data = Ok (crc CRC16_XMODEM data).
Proof. repeat split; reflexivity. Qed.

Lemma chunks16_single (i : list N) : length i = 16%nat -> chunks 16 i = [i].
Proof. intros L. rewrite <- (app_nil_r i) at 1. rewrite chunks_cons by (auto; lia). reflexivity. Qed.

Lemma nlen_eq {A} (l : list A) n : nlen l = N.of_nat n -> length l = n.
Proof. unfold nlen. apply Nat2N.inj. Qed.

Definition ks_block (first : N) : list N := first :: zeros 15.

Lemma keystore_derivations_l k : nlen k = 32 ->
  derive_hmac_key k = Ok (aesE k (zeros 16)) /\
  derive_enc_image_key k = Ok (aesE k (ks_block 1) ++ aesE k (ks_block 2)) /\
  derive_sb_kek_key k = Ok (aesE k (ks_block 3) ++ aesE k (ks_block 4)) /\
  (forall i, nlen i = 16 -> derive_otfad_kek_key k i = Ok (aesE k i)).
Proof.
  intros Hn. pose proof (nlen_eq k 32 Hn) as Lk.
  assert (Hk : aes_key_ok k = true) by (unfold aes_key_ok; rewrite Lk; reflexivity).
  unfold derive_hmac_key, derive_enc_image_key, derive_sb_kek_key, derive_otfad_kek_key, keystore_derive.
  change derive_hmac_key_key_len with 32. change derive_enc_image_key_key_len with 32.
  change derive_sb_kek_key_key_len with 32. change derive_otfad_kek_key_key_len with 32.
  rewrite Hn. cbn [N.eqb Pos.eqb negb].
  unfold aes_ecb_encrypt. rewrite Hk. cbn [negb].
  repeat split.
  (* the three fixed inputs are one or two whole blocks: ECB over them is the block function on each *)
  1-3: unfold derive_hmac_key_const, derive_enc_image_key_const, derive_sb_kek_key_const;
    cbv [len_mult16 length Nat.modulo Nat.divmod Nat.eqb negb snd Nat.sub fst];
    cbv [ecb ecb_blocks chunks chunks_fuel BS length firstn skipn map]; cbn [concat]; rewrite ?app_nil_r; reflexivity.
  intros i Hi. pose proof (nlen_eq i 16 Hi) as Li. unfold derive_otfad_kek_key_const.
    change derive_otfad_kek_key_input_len with 16. rewrite Hi. cbn [N.eqb Pos.eqb negb].
    unfold len_mult16. rewrite Li. cbn [Nat.modulo Nat.divmod Nat.eqb negb snd Nat.sub fst].
    unfold ecb, ecb_blocks, BS. rewrite chunks16_single by assumption. cbn [map concat]. now rewrite app_nil_r.
Qed.

Lemma keystore_rejects_l k i : nlen k <> 32 ->
  derive_hmac_key k = Err 1 /\ derive_enc_image_key k = Err 1 /\ derive_sb_kek_key k = Err 1 /\ derive_otfad_kek_key k i = Err 1.
Proof.
  intros Hn. apply N.eqb_neq in Hn.
  unfold derive_hmac_key, derive_enc_image_key, derive_sb_kek_key, derive_otfad_kek_key, keystore_derive.
  change derive_hmac_key_key_len with 32. change derive_enc_image_key_key_len with 32.
  change derive_sb_kek_key_key_len with 32. change derive_otfad_kek_key_key_len with 32.
  rewrite Hn. repeat split; reflexivity.
Qed.

(* SB3.1 KDF: CMAC in counter mode over a fixed 32-byte layout *)
Definition kdf_layout (const rights mode key_length : Z) (iteration : N) : list N :=
  le_enc 12 (Z.to_N const)                                   (* label: derivation constant, 12 bytes little endian *)
  ++ zeros 8 ++ [Z.to_N (rights * 64)]                       (* context: 8 reserved bytes, access rights in bits 7:6 *)
  ++ [if (mode =? 1)%Z then 1 else 16] ++ [0]                (* 0x01 = KDK, 0x10 = block key; reserved *)
  ++ [if (key_length =? 128)%Z then 32 else 33]              (* key option 0x20 / 0x21 *)
  ++ be_enc 4 (Z.to_N key_length) ++ be_enc 4 iteration.     (* L and counter i, big endian *)

Lemma kdf_layout_length c r m kl i : length (kdf_layout c r m kl i) = 32%nat.
Proof. unfold kdf_layout, zeros. rewrite !app_length, le_enc_length, !be_enc_length, repeat_length. reflexivity. Qed.

Lemma sb31_kdf_spec_l key const rights mode key_length :
  (0 <= rights <= 3)%Z -> (key_length = 128 \/ key_length = 256)%Z -> (0 <= const < 2 ^ 96)%Z -> aes_key_ok key = true ->
  kdf_derive key const rights mode key_length =
  Ok (aes_cmac key (kdf_layout const rights mode key_length 1) ++
      (if (key_length =? 256)%Z then aes_cmac key (kdf_layout const rights mode key_length 2) else [])).
Proof.
  intros Hr Hkl Hc Hk. unfold kdf_derive, kdf_data, spsdk_cmac. fold (kdf_layout const rights mode key_length 1).
  fold (kdf_layout const rights mode key_length 2).
  replace ((0 <=? rights) && (rights <=? 3))%Z with true by (symmetry; apply andb_true_iff; split; apply Z.leb_le; lia).
  replace ((key_length =? 128) || (key_length =? 256))%Z with true
    by (symmetry; apply orb_true_iff; destruct Hkl; [left | right]; now apply Z.eqb_eq).
  replace ((const <? 0) || (2 ^ 96 <=? const))%Z with false
    by (symmetry; apply orb_false_iff; split; [apply Z.ltb_ge | apply Z.leb_gt]; lia).
  rewrite Hk. cbn [negb]. destruct (key_length =? 256)%Z; [reflexivity | now rewrite app_nil_r].
Qed.

Lemma sb31_kdf_rejects_l key const rights mode key_length :
  (~ (0 <= rights <= 3) \/ (key_length <> 128 /\ key_length <> 256))%Z ->
  kdf_derive key const rights mode key_length = Err 1.
Proof.
  intros H. unfold kdf_derive, kdf_data.
  destruct ((0 <=? rights) && (rights <=? 3))%Z eqn:E1; [|reflexivity].
  destruct ((key_length =? 128) || (key_length =? 256))%Z eqn:E2; [|reflexivity].
  exfalso. apply andb_true_iff in E1 as [A B]. apply Z.leb_le in A, B.
  apply orb_true_iff in E2. destruct H as [H|[H1 H2]]; [lia|].
  destruct E2 as [E2|E2]; apply Z.eqb_eq in E2; contradiction.
Qed.
