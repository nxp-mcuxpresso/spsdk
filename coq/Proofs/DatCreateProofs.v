(* Proofs/DatCreateProofs.v -- C15 lemmas about created credentials and the challenge codec. *)
From Coq Require Import ZArith NArith List Bool Lia.
Require Import Value Bytes BytesProofs Sha2 GenRot RotModel RotProofs GenDat DatModel DatProofs.
Import ListNotations.
Local Open Scope N_scope.
Local Opaque on_curve curve_p curve_b.

(* what a created credential says about its root of trust: the RoT key is the configured one at the used index, and the
   RoT meta names it -- RSA: its SHA-256 record sits at that index of the table; ECC/EdgeLock: the flags word carries the
   used index and the number of keys, the table holds one digest per configured key *)
Lemma dc_names_rot_key_lemma ele cnt socc ks rot_id dck uuid socu vu beacon fca c d :
  dc_create ele cnt socc ks rot_id dck uuid socu vu beacon fca = Ok (c, d) ->
  nth_error ks (N.to_nat rot_id) = Some (d_rot d) /\ d_dck d = dck /\ d_uuid d = uuid /\ d_socc d = socc /\
  length uuid = 16%nat /\ is_ecc_key dck = is_ecc_key (d_rot d) /\ key_bits dck = key_bits (d_rot d) /\
  match c with
  | CRsa => exists items it, d_meta d = RMRsa items /\ map_res dc_rsa_item ks = Ok items
                             /\ nth_error items (N.to_nat rot_id) = Some it /\ dc_rsa_item (d_rot d) = Ok it
  | CEcc => exists hs items, d_meta d = RMEcc hs rot_id (nlen ks) items /\ dc_ecc_items ks = Ok items
                             /\ flags_validate rot_id (nlen ks) = true
  | CEle => exists t, d_meta d = RMEle rot_id (nlen ks) t /\ flags_validate rot_id (nlen ks) = true /\ nlen ks = 4
  end.
Proof.
  intros H. apply dc_create_iff in H as (rot & v & m & EN & _ & _ & EU & E1 & E2 & EM & ->). cbn [d_rot d_dck d_uuid d_socc d_meta].
  do 7 (split; [reflexivity || assumption|]). destruct c.
  - apply rot_meta_rsa_inv in EM as (_ & items & EI & ->). destruct (map_res_nth _ _ _ _ _ EI EN) as (it & Hn & Hi). now exists items, it.
  - apply rot_meta_ecc_inv in EM as (k0 & t & items & _ & _ & _ & EI & EF & ->). now eexists _, items.
  - unfold rot_meta_create in EM. destruct (flags_validate rot_id (nlen ks)) eqn:EF; [|discriminate]. cbn [negb] in EM.
    destruct (nlen ks =? 4) eqn:E4; [|discriminate]. cbn [negb] in EM.
    destruct (map_res (srk_rec_of_key fca) ks) as [rs|]; [|discriminate]. cbn [bind] in EM.
    destruct (srk_table_verify _) as [u|]; [|discriminate]. cbn [bind] in EM. inversion EM; subst.
    eexists. repeat split. now apply N.eqb_eq.
Qed.

Definition wf_dac (a : dac) : Prop :=
  version_ok (a_major a) (a_minor a) = true /\ a_major a < 65536 /\ a_minor a < 65536 /\ u32_ok (a_socc a) /\
  length (a_uuid a) = 16%nat /\ u32_ok (a_revocation a) /\ u32_ok (a_pinned a) /\ u32_ok (a_default a) /\ u32_ok (a_vu a) /\
  length (a_challenge a) = 32%nat /\
  exists s ele cntv sha, find (fun r => fst r =? a_socc a) g_socc_table = Some (s, (ele, cntv, sha, 0))
                         /\ length (a_rkth a) = dac_hash_len ele sha (a_major a) (a_minor a).
Example wf_dac_nontrivial :
  wf_dac {| a_major := 2; a_minor := 1; a_socc := 4; a_uuid := zeros 16; a_revocation := 1; a_rkth := zeros 48; a_pinned := 2;
            a_default := 3; a_vu := 4; a_challenge := repeat 9 32 |}.
Proof.
  unfold wf_dac, u32_ok. cbn [a_major a_minor a_socc a_uuid a_revocation a_rkth a_pinned a_default a_vu a_challenge].
  repeat split; try lia; try reflexivity. exists 4, 0, 1, 0. split; reflexivity.
Qed.

(* created credentials parse back (outside the recorded classes) *)
Definition rsa_rot_wf (kb : nat) (k : key) : Prop :=
  match k with KRsa n e => N.size n = 8 * N.of_nat kb /\ e < 4294967296 /\ rsa_numbers_ok n e = true | KEcc _ _ _ => False end.
Definition rsa_e3 (k : key) : Prop := match k with KRsa _ e => e < 16777216 | KEcc _ _ _ => False end.

Lemma rsa_rot_key_wf kb k : (kb = 256 \/ kb = 512)%nat -> rsa_rot_wf kb k -> rsa_key_wf kb k /\ key_bits k = 8 * N.of_nat kb.
Proof.
  destruct k as [n e|]; [|contradiction]. intros Hk (Hsz & He & Hok). split; [|exact Hsz]. repeat split; try assumption.
  unfold byte_len. rewrite Hsz. destruct Hk as [-> | ->]; reflexivity.
Qed.

Lemma dc_created_roundtrip_rsa cnt socc ks rot_id dck uuid socu vu beacon fca sig kb mi :
  (kb = 256%nat /\ mi = 0 \/ kb = 512%nat /\ mi = 1) -> (length ks <= 4)%nat ->
  (exists rot, nth_error ks (N.to_nat rot_id) = Some rot /\ rsa_rot_wf kb rot) -> Forall rsa_e3 ks ->
  (forall items, map_res dc_rsa_item ks = Ok items -> Forall (fun it => all_zero it = false) items) ->
  rsa_rot_wf kb dck -> length uuid = 16%nat -> u32_ok socc -> u32_ok socu -> u32_ok vu -> u32_ok beacon -> length sig = kb ->
  exists d b, dc_create 0 cnt socc ks rot_id dck uuid socu vu beacon fca = Ok (CRsa, d)
              /\ dc_export CRsa (dc_with_sig d sig) = Ok b /\ forall extra, dc_parse_class CRsa (b ++ extra) = Ok (dc_with_sig d sig).
Proof.
  intros Hk HL (rot & EN & Hrot) He3 HZ Hdck0 Huuid Hsocc Hsocu Hvu Hbeacon Hsig.
  assert (Hkb : (kb = 256 \/ kb = 512)%nat) by tauto. assert (Ekb : rsa_kb mi = kb) by (destruct Hk as [[-> ->] | [-> ->]]; reflexivity).
  destruct (rsa_rot_key_wf kb rot Hkb Hrot) as [Wrot Brot]. destruct (rsa_rot_key_wf kb dck Hkb Hdck0) as [Wdck Bdck].
  destruct (map_res_total dc_rsa_item ks) as (items & EI).
  { eapply Forall_impl; [|exact He3]. intros [n' e'|] H; [|contradiction]. cbn in H.
    unfold dc_rsa_item. rewrite to_bytes_ok by (simpl; lia). cbn [bind]. now eexists. }
  destruct (map_res_forall dc_rsa_item (fun b => length b = 32%nat) dc_rsa_item_length ks items EI) as [H32 HLi].
  eexists. edestruct (dc_roundtrip_tbs CRsa) as (b & t & _ & E & _ & P); [|exists b; split; [|split; [exact E|exact P]]].
  2:{ apply dc_create_iff. exists rot, (1, mi), (RMRsa items). repeat split; try assumption.
      - destruct rot as [n e|]; [|contradiction]. unfold version_of_key. rewrite (proj1 Hrot). destruct Hk as [[-> ->] | [-> ->]]; reflexivity.
      - destruct rot, dck; try contradiction; reflexivity.
      - congruence.
      - unfold rot_meta_create. replace (4 <? nlen ks) with false by (symmetry; apply N.ltb_ge; unfold nlen; lia). now rewrite EI. }
  unfold wf_dc, wf_dc_rsa, dc_with_sig. cbn [d_major d_minor d_socc d_uuid d_meta d_dck d_socu d_vu d_beacon d_rot d_sig fst snd]. rewrite Ekb.
  split; [reflexivity|]. split; [destruct Hk as [[_ ->] | [_ ->]]; auto|]. split; [assumption|]. split; [assumption|]. split.
  - exists items. split; [reflexivity|]. split; [lia|]. split; [assumption|]. now apply HZ.
  - now repeat split.
Qed.

(* RotMetaEcc.load_from_config on keys of one curve *)
Lemma rot_meta_create_ecc c ks rot_id fca : c = 256 \/ c = 384 \/ c = 521 -> ks <> [] -> Forall (is_ecc c) ks -> Forall key_ok ks ->
  flags_validate rot_id (nlen ks) = true ->
  rot_meta_create CEcc ks rot_id fca = Ok (RMEcc (N.of_nat (coord_size c)) rot_id (nlen ks) (if 1 <? nlen ks then map rkh_spec ks else [])).
Proof.
  intros Hc Hne HF HK F4. unfold rot_meta_create. rewrite (dc_ecc_items_spec c), F4 by assumption.
  destruct ks as [|k0 tl] eqn:EK; [contradiction|]. rewrite <- EK in *. rewrite Forall_forall in HF.
  destruct (is_ecc_inv c k0 (HF k0 ltac:(rewrite EK; now left))) as (x0 & y0 & ->). cbn [key_bits].
  replace (forallb is_ecc_key ks) with true by (symmetry; apply forallb_forall; intros k Hin; now destruct (is_ecc_inv c k (HF k Hin)) as (x & y & ->)).
  replace (forallb _ ks) with true by (symmetry; apply forallb_forall; intros k Hin; destruct (is_ecc_inv c k (HF k Hin)) as (x & y & ->); apply N.eqb_refl).
  now replace (mem_n _ _) with true by (destruct Hc as [-> | [-> | ->]]; reflexivity).
Qed.

Lemma dc_created_roundtrip_ecc cnt socc ks rot_id dck uuid socu vu beacon fca sig c mi :
  (c = 256 /\ mi = 0 \/ c = 384 /\ mi = 1 \/ c = 521 /\ mi = 2) -> ks <> [] -> (length ks <= 4)%nat ->
  (N.to_nat rot_id < length ks)%nat -> Forall (ecc_key_wf c) ks -> ecc_key_wf c dck ->
  length uuid = 16%nat -> u32_ok socc -> u32_ok socu -> u32_ok vu -> u32_ok beacon -> length sig = (2 * coord_size c)%nat ->
  exists d b, dc_create 0 cnt socc ks rot_id dck uuid socu vu beacon fca = Ok (CEcc, d)
              /\ dc_export CEcc (dc_with_sig d sig) = Ok b /\ forall extra, dc_parse_class CEcc (b ++ extra) = Ok (dc_with_sig d sig).
Proof.
  intros Hk Hne HL Hid Hks Hdck Huuid Hsocc Hsocu Hvu Hbeacon Hsig.
  assert (Hc : c = 256 \/ c = 384 \/ c = 521) by (destruct Hk as [[-> _] | [[-> _] | [-> _]]]; auto).
  destruct (nth_error ks (N.to_nat rot_id)) as [rot|] eqn:EN; [|apply nth_error_None in EN; lia].
  assert (Hrot : ecc_key_wf c rot) by (rewrite Forall_forall in Hks; apply Hks; eapply nth_error_In; exact EN).
  destruct (ecc_key_wf_inv c rot Hrot) as (xr & yr & -> & Hor). destruct (ecc_key_wf_inv c dck Hdck) as (xd & yd & -> & Hod).
  destruct (ecc_keys_rot c ks Hc Hks) as [HF HK].
  set (hs := N.of_nat (coord_size c)).
  assert (Ehs : hs = ecc_hs mi) by (unfold hs, ecc_hs; destruct Hk as [[-> ->] | [[-> ->] | [-> ->]]]; reflexivity).
  assert (Ehl : hlen (curve_halg c) = N.to_nat (ecc_hl mi)) by (unfold ecc_hl; destruct Hk as [[-> ->] | [[-> ->] | [-> ->]]]; reflexivity).
  assert (F4 : flags_validate rot_id (nlen ks) = true).
  { unfold flags_validate, nlen. apply andb_true_iff. split; apply negb_true_iff; [apply N.ltb_ge|apply N.ltb_ge]; lia. }
  set (items := if 1 <? nlen ks then map rkh_spec ks else []).
  eexists. edestruct (dc_roundtrip_tbs CEcc) as (b & t & _ & E & _ & P); [|exists b; split; [|split; [exact E|exact P]]].
  2:{ apply dc_create_iff. exists (KEcc c xr yr), (2, mi), (RMEcc hs rot_id (nlen ks) items). repeat split; try assumption; try reflexivity.
      - unfold version_of_key. destruct Hk as [[-> ->] | [[-> ->] | [-> ->]]]; reflexivity.
      - now apply rot_meta_create_ecc. }
  assert (Ecv : ecc_curve mi = c) by (unfold ecc_curve; destruct Hk as [[-> ->] | [[-> ->] | [-> ->]]]; reflexivity).
  unfold wf_dc, wf_dc_ecc, dc_with_sig. cbn [d_major d_minor d_socc d_uuid d_meta d_dck d_socu d_vu d_beacon d_rot d_sig fst snd]. rewrite Ecv, <- Ehs.
  split; [reflexivity|]. split; [destruct Hk as [[_ ->] | [[_ ->] | [_ ->]]]; auto|]. split; [assumption|]. split; [assumption|]. split.
  - exists rot_id, (nlen ks), items. split; [reflexivity|]. split; [exact F4|]. unfold items. split; intros H1.
    + now replace (1 <? nlen ks) with false by (symmetry; apply N.ltb_ge; exact H1).
    + replace (1 <? nlen ks) with true by (symmetry; apply N.ltb_lt; exact H1). rewrite map_length, <- Ehl.
      split; [unfold nlen; lia|now apply rkh_spec_ecc_length].
  - repeat split; try assumption. rewrite Hsig. unfold hs. lia.
Qed.

(* the hypotheses are satisfiable in both branches *)
Example created_rsa_premises :
  rsa_rot_wf 256 (KRsa (2 ^ 2047 + 1) 65537) /\ Forall rsa_e3 [KRsa (2 ^ 2047 + 1) 65537] /\ rsa_rot_wf 256 (KRsa (2 ^ 2047 + 3) 3)
  /\ (forall items, map_res dc_rsa_item [KRsa (2 ^ 2047 + 1) 65537] = Ok items -> Forall (fun it => all_zero it = false) items).
Proof.
  split; [repeat split; vm_compute; reflexivity|]. split; [repeat constructor; vm_compute; reflexivity|].
  split; [repeat split; vm_compute; reflexivity|].
  intros items H. vm_compute in H. inversion H. repeat constructor.
Qed.
Example created_ecc_premises : Forall (ecc_key_wf 521) [g521; g521] /\ (2 <= length [g521; g521] <= 4)%nat.
Proof.
  assert (W : ecc_key_wf 521 g521) by (split; [reflexivity|vm_compute; reflexivity]).
  split; [exact (Forall_cons _ W (Forall_cons _ W (Forall_nil _)))|cbn; lia].
Qed.
