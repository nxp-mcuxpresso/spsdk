(* Proofs/HabHistProofs.v -- C07: HabContainer.update_csf() as a history: the k-th update + export equals the first. *)
From Coq Require Import ZArith NArith List Bool Lia.
Require Import Value Bytes BytesProofs Sha2 Aes Modes CryptoProofs HabModel HabProofs.
Import ListNotations.
Local Open Scope Z_scope.

Definition keeps_auth (f : ccmd -> ccmd) : Prop := forall c, is_auth (f c) = is_auth c.

Lemma set_blocks_keeps bl d : keeps_auth (set_blocks bl d).
Proof. intros c. destruct c; reflexivity. Qed.

Lemma set_blocks_idem bl d c : d <> None -> set_blocks bl d (set_blocks bl d c) = set_blocks bl d c.
Proof. intros Hd. destruct c; cbn [set_blocks]; try reflexivity. destruct d; [reflexivity | congruence]. Qed.

Lemma upd_auth_idem f : keeps_auth f -> (forall c, f (f c) = f c) ->
  forall l n l', upd_auth n f l = Some l' -> upd_auth n f l' = Some l'.
Proof.
  intros Hk Hi. induction l as [|c t IH]; intros n l' H; cbn [upd_auth] in H; [discriminate|].
  destruct (is_auth c) eqn:Ea.
  - destruct n as [|n].
    + inversion H; subst l'. cbn [upd_auth]. rewrite Hk, Ea. now rewrite Hi.
    + destruct (upd_auth n f t) as [t'|] eqn:Et; cbn [option_map] in H; [|discriminate]. inversion H; subst l'.
      cbn [upd_auth]. rewrite Ea. now rewrite (IH _ _ Et).
  - destruct (upd_auth n f t) as [t'|] eqn:Et; cbn [option_map] in H; [|discriminate]. inversion H; subst l'.
    cbn [upd_auth]. rewrite Ea. now rewrite (IH _ _ Et).
Qed.

Lemma upd_auth_comm f g : keeps_auth f -> keeps_auth g ->
  forall l n m l1 l2, n <> m -> upd_auth n f l = Some l1 -> upd_auth m g l1 = Some l2 ->
  exists l1', upd_auth m g l = Some l1' /\ upd_auth n f l1' = Some l2.
Proof.
  intros Hf Hg. induction l as [|c t IH]; intros n m l1 l2 Hnm H1 H2; cbn [upd_auth] in H1; [discriminate|].
  destruct (is_auth c) eqn:Ea.
  - destruct n as [|n].
    + inversion H1; subst l1. cbn [upd_auth] in H2. rewrite Hf, Ea in H2.
      destruct m as [|m]; [congruence|].
      destruct (upd_auth m g t) as [t'|] eqn:Et; cbn [option_map] in H2; [|discriminate]. inversion H2; subst l2.
      exists (c :: t'). split; cbn [upd_auth]; rewrite ?Ea, ?Et; reflexivity.
    + destruct (upd_auth n f t) as [t1|] eqn:Et1; cbn [option_map] in H1; [|discriminate]. inversion H1; subst l1.
      cbn [upd_auth] in H2. rewrite Ea in H2. destruct m as [|m].
      * inversion H2; subst l2. exists (g c :: t). split; cbn [upd_auth]; rewrite ?Hg, ?Ea, ?Et1; reflexivity.
      * destruct (upd_auth m g t1) as [t2|] eqn:Et2; cbn [option_map] in H2; [|discriminate]. inversion H2; subst l2.
        destruct (IH n m t1 t2 ltac:(congruence) Et1 Et2) as (t1' & E1 & E2).
        exists (c :: t1'). split; cbn [upd_auth]; rewrite ?Ea, ?E1, ?E2; reflexivity.
  - destruct (upd_auth n f t) as [t1|] eqn:Et1; cbn [option_map] in H1; [|discriminate]. inversion H1; subst l1.
    cbn [upd_auth] in H2. rewrite Ea in H2.
    destruct (upd_auth m g t1) as [t2|] eqn:Et2; cbn [option_map] in H2; [|discriminate]. inversion H2; subst l2.
    destruct (IH n m t1 t2 Hnm Et1 Et2) as (t1' & E1 & E2).
    exists (c :: t1'). split; cbn [upd_auth]; rewrite ?Ea, ?E1, ?E2; reflexivity.
Qed.

(* so an update of the block list stays in force through a later update of another command *)
Lemma upd_set_after n m bl d g l l1 l2 : keeps_auth g -> n <> m ->
  upd_auth n (set_blocks bl (Some d)) l = Some l1 -> upd_auth m g l1 = Some l2 -> upd_auth n (set_blocks bl (Some d)) l2 = Some l2.
Proof.
  intros Kg Hnm H1 H2. destruct (upd_auth_comm _ _ (set_blocks_keeps bl (Some d)) Kg _ n m _ _ Hnm H1 H2) as (y & _ & E).
  eapply upd_auth_idem; [apply set_blocks_keeps | intros; now apply set_blocks_idem | exact E].
Qed.

(* the overlap refusal looks only at offsets and lengths *)
Lemma segs_ok_len l : forall l' occ, map (fun s => (fst s, hlen (snd s))) l = map (fun s => (fst s, hlen (snd s))) l' ->
  segs_ok occ l = segs_ok occ l'.
Proof.
  induction l as [|s t IH]; intros [|s' t'] occ H; cbn [map] in H; try discriminate; [reflexivity|].
  inversion H as [[H1 H2 H3]]. cbn [segs_ok]. rewrite H1, H2. now rewrite (IH t' _ H3).
Qed.

Lemma all_segs_len c q csf ap ap' : hlen ap = hlen ap' -> segs_ok [] (all_segs c q csf ap) = segs_ok [] (all_segs c q csf ap').
Proof.
  intros H. apply segs_ok_len. unfold all_segs. rewrite !map_app. cbn [map fst snd]. now rewrite H.
Qed.

(* encryption depends on the commands only through the update of the Decrypt Data command *)
Lemma hab_encrypt_upd c cmds img cmds1 ct nonce mac : hab_encrypt c cmds img = Ok (cmds1, ct, nonce, mac) ->
  upd_auth 2 (set_blocks (enc_blocks c) (Some (macimg (h_ver c) nonce mac))) cmds = Some cmds1 /\
  forall cmds' cmds1', upd_auth 2 (set_blocks (enc_blocks c) (Some (macimg (h_ver c) nonce mac))) cmds' = Some cmds1' ->
                       hab_encrypt c cmds' img = Ok (cmds1', ct, nonce, mac).
Proof.
  unfold hab_encrypt. intros H.
  set (nonce0 := match h_nonce c with Some n => n | None => rng_bytes (aead_nonce_len (hlen img)) end) in *.
  set (plain := hslice img (h_ivt_off c + c_app_off c) (h_ivt_off c + c_app_off c + hlen (c_app_bin c))) in *.
  destruct (negb _); [discriminate|].
  set (out := ccm_encrypt (aes_enc (h_dek c)) nonce0 [] (Z.to_nat (h_mac_len c)) plain) in *.
  destruct (upd_auth 2 _ cmds) as [x|] eqn:E; [|discriminate].
  apply ok_inj in H. inversion H; subst. split; [exact E|]. intros cmds' cmds1' H'. now rewrite H'.
Qed.

(* a second update_csf() changes nothing *)
Theorem update_fixpoint c q cmds0 cmds1 b1 : hab_pre c = Ok q -> c_auth c = true -> layout_full c q ->
  (c_enc c = true -> wf_bytes (h_dek c)) ->
  hab_update c q cmds0 = Ok (cmds1, b1) -> hab_update c q cmds1 = Ok (cmds1, b1).
Proof.
  intros Hq Ha W Hw H.
  apply hab_update_inv in H as (csf0 & c1 & app_fin & eb & nonce & mac & c2 & c3 & csf_b & H0 & H1 & H2 & H3 & H4 & H5 & H6 & H7 & Hr).
  inversion Hr; subst cmds1 b1; clear Hr.
  (* the three updates applied to the final command list give it back *)
  assert (F0 : upd_auth 0 (set_blocks [] (Some (sigimg (h_ver c) (h_sig_csf c)))) c3 = Some c3).
  { eapply upd_auth_idem; [apply set_blocks_keeps | intros; now apply set_blocks_idem | exact H4]. }
  pose proof (upd_set_after 1 0 _ _ _ _ _ _ (set_blocks_keeps _ _) ltac:(discriminate) H2 H4) as F1.
  assert (Lapp : hlen app_fin = hlen (c_app_bin c)).
  { destruct (c_enc c) eqn:He.
    - destruct H1 as [Henc _]. pose proof (hab_encrypt_facts c _ _ _ _ _ _ Henc (Hw eq_refl)) as (_ & F2 & _).
      rewrite padded_app_slice in F2 by assumption. unfold hlen. lia.
    - destruct H1 as (_ & -> & _). reflexivity. }
  unfold hab_update. rewrite H5. cbn [bind].
  rewrite (all_segs_len c q csf_b (c_app_bin c) app_fin) by (now symmetry). rewrite H7. cbn [negb].
  assert (Ep : padded_image c q csf_b = padded_image c q csf0) by (now rewrite !padded_image_eq).
  rewrite Ep.
  destruct (c_enc c) eqn:He.
  - destruct H1 as [Henc ->].
    destruct (hab_encrypt_upd c _ _ _ _ _ _ Henc) as [U2 Hch].
    pose proof (upd_set_after 2 1 _ _ _ _ _ _ (set_blocks_keeps _ _) ltac:(discriminate) U2 H2) as F2.
    apply (fun A => upd_set_after 2 0 _ _ _ _ _ _ (set_blocks_keeps _ _) ltac:(discriminate) A H4) in F2.
    rewrite (Hch c3 c3 F2). cbn [res_map bind].
    rewrite F1, H3, F0, H5. cbn [bind]. rewrite H7. reflexivity.
  - destruct H1 as (-> & -> & -> & -> & ->). cbn [bind].
    rewrite F1, H3, F0, H5. cbn [bind]. rewrite H7. reflexivity.
Qed.

Lemma updates_fixpoint c q cmds1 b1 : hab_update c q cmds1 = Ok (cmds1, b1) -> forall k, hab_updates c q k cmds1 = Ok (cmds1, b1).
Proof. intros H. induction k as [|k IH]; cbn [hab_updates]; [exact H|]. rewrite H. cbn [bind fst]. exact IH. Qed.

