(* Proofs/ImageProofs.v -- C16 lemmas about Model/ImageModel.v (BinaryImage). *)
From Coq Require Import ZArith NArith List Bool Lia ZifyBool Sorted Permutation.
Require Import Value Bytes BytesProofs Writes GenMisc GenImage MiscModel MiscProofs ImageModel.
Import ListNotations.
Local Open Scope Z_scope.

(* the accessor of the property statements; the lemmas below work with its twin Writes.zget *)
Definition getz (l : list N) (k : Z) : option N := if k <? 0 then None else nth_error l (Z.to_nat k).

Lemma getz_none_hi l k : zlen l <= k -> getz l k = None.
Proof. apply zget_beyond. Qed.

Lemma getz_some l k : 0 <= k < zlen l -> exists b, getz l k = Some b.
Proof. intros H. destruct (getz l k) as [b|] eqn:E; [now exists b|]. now destruct (zget_inside l k H). Qed.

Lemma getz_app1 l1 l2 k : k < zlen l1 -> getz (l1 ++ l2) k = getz l1 k.
Proof. apply zget_app1. Qed.

Lemma zlen_app {A} (l1 l2 : list A) : zlen (l1 ++ l2) = zlen l1 + zlen l2.
Proof. apply BytesProofs.zlen_app. Qed.

Lemma zlen_nil_iff {A} (l : list A) : zlen l = 0 <-> l = [].
Proof. apply BytesProofs.zlen_nil_iff. Qed.

Lemma mem_at_written ws k cur : mem_at ws k cur = written ws k cur.
Proof.
  revert cur; induction ws as [|[s d] t IH]; intros cur; cbn [mem_at written fst snd]; [reflexivity|]. rewrite IH. f_equal.
  destruct (Z.leb_spec s k); [|reflexivity]. now rewrite zget_nat by lia.
Qed.

Section ImgInd.
  Variable P : img -> Prop.
  Hypothesis H : forall sz al off bin pat subs, Forall P subs -> P (Img sz al off bin pat subs).
  Fixpoint img_ind' (i : img) : P i :=
    match i with
    | Img sz al off bin pat subs =>
        H sz al off bin pat subs
          ((fix go (l : list img) : Forall P l :=
              match l with
              | [] => Forall_nil P
              | c :: t => Forall_cons c (img_ind' c) (go t)
              end) subs)
    end.
End ImgInd.

(* what the constructor guarantees: alignment >= 1, _size >= 0 and a multiple of the alignment;
   patterns are zeros / ones / inc / a non-negative number *)
Definition pat_ok (pat : option pattern) : Prop :=
  match pat with Some (PNum v) => 0 <= v | _ => True end.

Inductive wf : img -> Prop :=
| WF sz al off bin pat subs :
    1 <= al -> 0 <= sz -> sz mod al = 0 -> pat_ok pat -> (forall c, In c subs -> wf c) ->
    wf (Img sz al off bin pat subs).

Lemma wf_inv i : wf i ->
  1 <= ial i /\ 0 <= isz i /\ isz i mod ial i = 0 /\ pat_ok (ipat i) /\ (forall c, In c (isubs i) -> wf c).
Proof. intros H. inversion H; subst. cbn. tauto. Qed.

Lemma zalign_spec n a : 0 <= n -> 0 < a -> n <= zalign n a /\ zalign n a mod a = 0 /\ zalign n a < n + a.
Proof.
  intros Hn Ha. unfold zalign. destruct (align_ok n a Hn Ha) as (r & -> & H). exact H.
Qed.

Lemma py_align_fix n a : 0 <= n -> 0 < a -> n mod a = 0 -> py_align n a = Ok n.
Proof.
  intros Hn Ha Hm. unfold py_align.
  destruct (orb (Z.leb a 0) (Z.ltb n 0)) eqn:E; [lia|].
  f_equal. apply Z.mod_divide in Hm; [|lia]. destruct Hm as [q ->].
  replace (q * a + (a - 1)) with ((a - 1) + q * a) by lia.
  rewrite Z.div_add by lia. rewrite (Z.div_small (a - 1) a) by lia. lia.
Qed.

Lemma zalign_1 n : 0 <= n -> zalign n 1 = n.
Proof. intros. unfold zalign. now rewrite py_align_fix by (lia || apply Z.mod_1_r). Qed.

Lemma max_ends_ge l m : m <= max_ends l m.
Proof.
  revert m; induction l as [|[o n] t IH]; intros m; simpl; [lia|].
  specialize (IH (Z.max (l_child_end o n) m)). unfold l_child_end in *. lia.
Qed.

Lemma max_ends_in l m o n : In (o, n) l -> o + n <= max_ends l m.
Proof.
  revert m; induction l as [|[o' n'] t IH]; intros m H; simpl in *; [tauto|].
  destruct H as [H|H].
  - injection H as -> ->. pose proof (max_ends_ge t (Z.max (l_child_end o n) m)). unfold l_child_end in *. lia.
  - now apply IH.
Qed.

Lemma max_ends_mono l m m' : m <= m' -> max_ends l m <= max_ends l m'.
Proof.
  revert m m'; induction l as [|[o n] t IH]; intros m m' H; simpl; [lia|]. apply IH. unfold l_child_end. lia.
Qed.

Lemma ilen_unfold i : ilen i = if isz i =? 0 then zalign (max_ends (extents (isubs i)) (zlen (ibin i))) (ial i) else isz i.
Proof. now destruct i. Qed.

Lemma ilen_auto i : wf i -> isz i = 0 ->
  zlen (ibin i) <= ilen i /\ (forall c, In c (isubs i) -> ioff c + ilen c <= ilen i).
Proof.
  intros H E. apply wf_inv in H. rewrite ilen_unfold, E. cbn [Z.eqb].
  pose proof (max_ends_ge (extents (isubs i)) (zlen (ibin i))). pose proof (zlen_nonneg (ibin i)).
  pose proof (zalign_spec (max_ends (extents (isubs i)) (zlen (ibin i))) (ial i) ltac:(lia) ltac:(lia)).
  split; [lia|]. intros c Hc.
  pose proof (max_ends_in (extents (isubs i)) (zlen (ibin i)) (ioff c) (ilen c) ltac:(apply in_map_iff; now exists c)). lia.
Qed.

Lemma ilen_nonneg i : wf i -> 0 <= ilen i.
Proof.
  intros H. destruct (Z.eq_dec (isz i) 0) as [E|E].
  - pose proof (proj1 (ilen_auto i H E)). pose proof (zlen_nonneg (ibin i)). lia.
  - apply wf_inv in H. rewrite ilen_unfold. destruct (Z.eqb_spec (isz i) 0); lia.
Qed.

Lemma ilen_mod i : wf i -> ilen i mod ial i = 0.
Proof.
  intros H. apply wf_inv in H. destruct H as (Ha & Hs & Hm & _).
  rewrite ilen_unfold. destruct (isz i =? 0); [|exact Hm].
  pose proof (max_ends_ge (extents (isubs i)) (zlen (ibin i))). pose proof (zlen_nonneg (ibin i)).
  apply (zalign_spec (max_ends (extents (isubs i)) (zlen (ibin i))) (ial i)); lia.
Qed.

Lemma mv_write_fit ret o d : 0 <= o -> o + zlen d <= zlen ret ->
  mv_write ret o d = Ok (splice ret (Z.to_nat o) d).
Proof.
  intros Ho Hfit. unfold mv_write, clamp_idx. pose proof (zlen_nonneg d).
  destruct (o <? 0) eqn:E1; [lia|]. destruct (o + zlen d <? 0) eqn:E2; [lia|].
  replace (Z.min o (zlen ret)) with o by lia.
  replace (Z.min (o + zlen d) (zlen ret)) with (o + zlen d) by lia.
  destruct (Z.max (o + zlen d - o) 0 =? zlen d) eqn:E3; [reflexivity|lia].
Qed.

Lemma write_children_fold ws : forall ret, Forall (fits (zlen ret)) ws ->
  write_children ret (map (fun w => (fst w, Ok (snd w))) ws)
  = Ok (fold_left (fun b w => splice b (Z.to_nat (fst w)) (snd w)) ws ret).
Proof.
  induction ws as [|w t IH]; intros ret H; [reflexivity|]. inversion H as [|? ? (F1 & F2) Ht]; subst.
  cbn [map write_children fold_left]. rewrite mv_write_fit by assumption. apply IH.
  unfold zlen in *. now rewrite splice_length by lia.
Qed.

Lemma pattern_block_ok p n : pat_ok (Some p) -> exists blk, pattern_block p n = Ok blk /\ length blk = n.
Proof.
  intros H. destruct (pattern_block p n) as [blk|k] eqn:E.
  - exists blk. split; [reflexivity|]. now apply pattern_block_length in E.
  - exfalso. destruct p as [| | |v]; cbn [pattern_block] in E; try discriminate.
    simpl in H. destruct (value_to_bytes_total v false true H) as (bs & Hb & _). rewrite Hb in E. discriminate.
Qed.

Lemma pat_or_zeros_ok pat : pat_ok pat -> pat_ok (Some (pat_or_zeros pat)).
Proof. destruct pat as [p|]; simpl; auto. Qed.

Lemma firstn_inc_block n m s : (n <= m)%nat -> firstn n (inc_block m s) = inc_block n s.
Proof.
  revert m s; induction n as [|n IH]; intros m s H; [reflexivity|].
  destruct m as [|m]; [lia|]. simpl. f_equal. apply IH. lia.
Qed.

Lemma firstn_cycle_fuel n m pat cur : (n <= m)%nat -> firstn n (cycle_fuel m pat cur) = cycle_fuel n pat cur.
Proof.
  revert m cur; induction n as [|n IH]; intros m cur H; [reflexivity|].
  destruct m as [|m]; [lia|]. cbn [cycle_fuel].
  destruct cur as [|c t].
  - destruct pat as [|c t]; [reflexivity|]. simpl. f_equal. apply IH. lia.
  - simpl. f_equal. apply IH. lia.
Qed.

(* a shorter fill block is a prefix of a longer one: the pattern depends on the position only *)
Lemma pattern_block_prefix p n m b2 : (n <= m)%nat -> pattern_block p m = Ok b2 -> pattern_block p n = Ok (firstn n b2).
Proof.
  intros H. destruct p as [| | |v]; cbn [pattern_block].
  - intros E; injection E as <-. now rewrite firstn_repeat, Nat.min_l.
  - intros E; injection E as <-. now rewrite firstn_repeat, Nat.min_l.
  - intros E; injection E as <-. now rewrite firstn_inc_block.
  - destruct (value_to_bytes_int v false 0 true) as [pat|k]; [|discriminate].
    intros E; injection E as <-. now rewrite firstn_cycle_fuel.
Qed.

Lemma align_block_noop r al p : 0 < al -> zlen r mod al = 0 -> align_block r al p = Ok r.
Proof.
  intros Ha Hm. unfold align_block, zlen in *. destruct (al <? 0) eqn:E; [lia|].
  rewrite py_align_fix by lia. rewrite Z.sub_diag. reflexivity.
Qed.

(* position-based disjointness of two extents (offset, length): the code's test, for every length *)
Definition disj (x y : Z * Z) : Prop := fst x + snd x <= fst y \/ fst y + snd y <= fst x.

Lemma no_overlap_iff x y : no_overlap x y = true <-> disj x y.
Proof. destruct x as [b1 l1], y as [b2 l2]. unfold no_overlap, v_siblings_apart, disj. simpl. lia. Qed.

Lemma disj_sym x y : disj x y -> disj y x.
Proof. unfold disj. tauto. Qed.

Lemma fits_in_iff L x : fits_in L x = true <-> fst x + snd x <= L.
Proof. destruct x as [b l]. unfold fits_in, v_child_sticks_out. simpl. lia. Qed.

Lemma sib_check_iff l : forall pre,
  sib_check pre l = true <-> (ForallOrdPairs disj l /\ forall x y, In x l -> In y pre -> disj x y).
Proof.
  induction l as [|x t IH]; intros pre.
  - simpl. split; [intros _; split; [constructor|intros ? ? []]|reflexivity].
  - cbn [sib_check]. rewrite !andb_true_iff, !forallb_forall, IH. split.
    + intros [[H1 H2] [H3 H4]]. split.
      * constructor; [|exact H3]. apply Forall_forall. intros y Hy. apply no_overlap_iff. now apply H2.
      * intros x0 y [<-|Hx0] Hy.
        -- apply no_overlap_iff. now apply H1.
        -- apply H4; [exact Hx0|]. apply in_or_app. now left.
    + intros [H1 H2]. inversion H1 as [|? ? Hf Ht]; subst. rewrite Forall_forall in Hf.
      split; [split|split].
      * intros y Hy. apply no_overlap_iff. apply H2; [now left|exact Hy].
      * intros y Hy. apply no_overlap_iff. now apply Hf.
      * exact Ht.
      * intros x0 y Hx0 Hy. apply in_app_or in Hy. destruct Hy as [Hy|[<-|[]]].
        -- apply H2; [now right|exact Hy].
        -- apply disj_sym. now apply Hf.
Qed.

Lemma validate_inv i :
  validate i = true <->
  0 <= ioff i /\ (ibin i = [] \/ zlen (ibin i) <= ilen i) /\
  (forall c, In c (isubs i) -> validate c = true) /\
  (forall c, In c (isubs i) -> ioff c + ilen c <= ilen i) /\
  ForallOrdPairs disj (extents (isubs i)).
Proof.
  destruct i as [sz al off bin pat subs]. set (i := Img sz al off bin pat subs).
  change (validate i) with (negb (v_offset_negative off) && negb (negb (isnil bin) && v_binary_too_long (zlen bin) (ilen i))
                            && forallb validate subs && forallb (fits_in (ilen i)) (extents subs) && sib_check [] (extents subs)).
  cbn [ioff ibin isubs i]. fold i. set (L := ilen i).
  rewrite !andb_true_iff, !forallb_forall, sib_check_iff.
  assert (Hbin : negb (negb (isnil bin) && v_binary_too_long (zlen bin) L) = true <-> (bin = [] \/ zlen bin <= L)).
  { unfold v_binary_too_long. destruct bin as [|b t]; simpl.
    - split; [now left|reflexivity].
    - split; intros H.
      + right. destruct (L <? zlen (b :: t)) eqn:E; [discriminate|lia].
      + destruct H as [H|H]; [discriminate|]. destruct (L <? zlen (b :: t)) eqn:E; [lia|reflexivity]. }
  rewrite Hbin. unfold extents, v_offset_negative. split.
  - intros [[[[H1 H2] H3] H4] [H5 _]]. repeat split; try assumption.
    + lia.
    + intros c Hc. specialize (H4 (ioff c, ilen c)). rewrite fits_in_iff in H4. apply H4.
      apply in_map_iff. now exists c.
  - intros (H1 & H2 & H3 & H4 & H5). repeat split; try assumption.
    + lia.
    + intros x Hx. apply in_map_iff in Hx. destruct Hx as (c & <- & Hc). apply fits_in_iff. now apply H4.
    + intros ? ? ? [].
Qed.

Lemma child_facts i c : wf i -> validate i = true -> In c (isubs i) ->
  wf c /\ validate c = true /\ 0 <= ioff c /\ ioff c + ilen c <= ilen i.
Proof.
  intros Hw Hv Hc. apply wf_inv in Hw. apply validate_inv in Hv. destruct Hv as (_ & _ & Hvc & Hfit & _).
  repeat split; [now apply Hw|now apply Hvc|apply validate_inv; now apply Hvc|now apply Hfit].
Qed.

Lemma fop_nth {A} (R : A -> A -> Prop) (l : list A) : (forall x y, R x y -> R y x) ->
  (ForallOrdPairs R l <->
   forall a b x y, a <> b -> nth_error l a = Some x -> nth_error l b = Some y -> R x y).
Proof.
  intros Hsym. induction l as [|h t IH].
  - split; [intros _ a b x y _ Ha; destruct a; discriminate|constructor].
  - split.
    + intros H. inversion H as [|? ? Hf Ht]; subst. rewrite Forall_forall in Hf.
      intros [|a] [|b] x y Hab Ha Hb; simpl in *.
      * congruence.
      * injection Ha as <-. apply Hf. eapply nth_error_In; eauto.
      * injection Hb as <-. apply Hsym. apply Hf. eapply nth_error_In; eauto.
      * apply (proj1 IH Ht a b); auto.
    + intros H. constructor.
      * apply Forall_forall. intros y Hy. apply In_nth_error in Hy. destruct Hy as [n Hn].
        apply (H 0%nat (S n)); auto.
      * apply IH. intros a b x y Hab Ha Hb. apply (H (S a) (S b)); auto.
Qed.

Lemma disj_extents_nth subs :
  ForallOrdPairs disj (extents subs) <->
  (forall a b ca cb, a <> b -> nth_error subs a = Some ca -> nth_error subs b = Some cb ->
                     ioff ca + ilen ca <= ioff cb \/ ioff cb + ilen cb <= ioff ca).
Proof.
  rewrite (fop_nth disj (extents subs) disj_sym). unfold extents. split.
  - intros H a b ca cb Hab Ha Hb.
    apply (H a b (ioff ca, ilen ca) (ioff cb, ilen cb) Hab); rewrite nth_error_map; [now rewrite Ha|now rewrite Hb].
  - intros H a b x y Hab Ha Hb. rewrite nth_error_map in Ha, Hb.
    destruct (nth_error subs a) as [ca|] eqn:Ea; [|discriminate].
    destruct (nth_error subs b) as [cb|] eqn:Eb; [|discriminate].
    injection Ha as <-. injection Hb as <-. exact (H a b ca cb Hab Ea Eb).
Qed.

Lemma siblings_apart subs c c' k : ForallOrdPairs disj (extents subs) -> In c subs -> In c' subs ->
  ioff c <= k < ioff c + ilen c -> ioff c' <= k < ioff c' + ilen c' -> c' = c.
Proof.
  intros Hd Hc Hc' Hk Hk'. destruct (In_nth_error _ _ Hc) as (b & Eb). destruct (In_nth_error _ _ Hc') as (a & Ea).
  destruct (Nat.eq_dec a b) as [->|Hab]; [congruence|].
  pose proof (proj1 (disj_extents_nth subs) Hd a b c' c Hab Ea Eb). lia.
Qed.

Definition xbytes (c : img) : list N := match export c with Ok d => d | Err _ => [] end.
Definition cwrites (subs : list img) : list (Z * list N) := map (fun c => (ioff c, xbytes c)) subs.
Definition fill_block (i : img) : list N :=
  match pattern_block (pat_or_zeros (ipat i)) (Z.to_nat (ilen i)) with Ok b => b | Err _ => [] end.
Definition base_byte (i : img) (k : Z) : option N :=
  if k <? zlen (ibin i) then zget (ibin i) k else zget (fill_block i) k.

Lemma export_unfold sz al off bin pat subs :
  export (Img sz al off bin pat subs) =
  let n := ilen (Img sz al off bin pat subs) in
  if negb (isnil bin) && (n =? zlen bin) && isnil subs then Ok bin
  else match pattern_block (pat_or_zeros pat) (Z.to_nat n) with
       | Err e => Err e
       | Ok blk =>
           let ret := if isnil bin then blk else splice blk 0 bin in
           match write_children ret (map (fun c => (ioff c, export c)) subs) with
           | Err e => Err e
           | Ok r => align_block r al (pat_or_zeros pat)
           end
       end.
Proof. reflexivity. Qed.

(* export succeeds, has the length of the image, and holds at every position what the last sub-image covering it
   exported, else the own binary, else the fill pattern *)
Lemma export_valid i : wf i -> validate i = true ->
  exists b, export i = Ok b /\ zlen b = ilen i /\
            forall k, 0 <= k < ilen i -> zget b k = written (cwrites (isubs i)) k (base_byte i k).
Proof.
  induction i as [sz al off bin pat subs IH] using img_ind'. intros Hwf Hval. rewrite Forall_forall in IH.
  pose proof (ilen_nonneg _ Hwf) as HL0. pose proof (ilen_mod _ Hwf) as HLm.
  assert (Hx : forall c, In c subs -> export c = Ok (xbytes c) /\ fits (ilen (Img sz al off bin pat subs)) (ioff c, xbytes c)).
  { intros c Hc. destruct (child_facts _ c Hwf Hval Hc) as (Hwc & Hvc & Ho & Hfit).
    destruct (IH c Hc Hwc Hvc) as (d & Hd & Hdl & _). unfold xbytes, fits. rewrite Hd. cbn [fst snd]. rewrite Hdl. auto. }
  apply wf_inv in Hwf. destruct Hwf as (Hal & _ & _ & Hpat & _). apply validate_inv in Hval. destruct Hval as (_ & Hbin & _).
  cbn [ial ipat ibin isubs] in *.
  rewrite export_unfold. set (L := ilen (Img sz al off bin pat subs)) in *. cbv zeta.
  destruct (negb (isnil bin) && (L =? zlen bin) && isnil subs) eqn:Efast.
  - (* fast path: the binary itself *)
    exists bin. split; [reflexivity|]. split; [lia|].
    intros k Hk. destruct subs; [|rewrite andb_false_r in Efast; discriminate].
    cbn [cwrites map written]. unfold base_byte. cbn [ibin]. now replace (k <? zlen bin) with true by lia.
  - destruct (pattern_block_ok (pat_or_zeros pat) (Z.to_nat L) (pat_or_zeros_ok _ Hpat)) as (blk & Eblk & Hblk).
    rewrite Eblk.
    set (ret := if isnil bin then blk else splice blk 0 bin).
    assert (Hret : zlen ret = L /\ forall k, 0 <= k -> zget ret k = base_byte (Img sz al off bin pat subs) k).
    { unfold base_byte, fill_block. cbn [ibin ipat]. fold L. rewrite Eblk.
      subst ret. destruct bin as [|b0 bt] eqn:Ebin; cbn [isnil].
      - split; [unfold zlen; lia|]. intros k Hk. now replace (k <? zlen []) with false by (unfold zlen; cbn; lia).
      - destruct Hbin as [Hbin|Hbin]; [discriminate|]. change 0%nat with (Z.to_nat 0).
        split; [unfold zlen in *; rewrite splice_length; lia|].
        intros k Hk. rewrite zget_splice by (unfold zlen in *; lia).
        rewrite Z.sub_0_r, Z.add_0_l. now replace (0 <=? k) with true by lia. }
    destruct Hret as [Hretl Hretk].
    assert (Hmap : map (fun c => (ioff c, export c)) subs = map (fun w => (fst w, Ok (snd w))) (cwrites subs)).
    { unfold cwrites. rewrite map_map. apply map_ext_in. intros c Hc. simpl. now rewrite (proj1 (Hx c Hc)). }
    assert (Hfit : Forall (fits (zlen ret)) (cwrites subs)).
    { rewrite Hretl. apply Forall_forall. intros w Hw. apply in_map_iff in Hw. destruct Hw as (c & <- & Hc). apply (Hx c Hc). }
    rewrite Hmap, write_children_fold by exact Hfit.
    destruct (fold_splice_written _ ret Hfit) as (Hrl & Hrk). cbv zeta in Hrl, Hrk.
    rewrite align_block_noop by (try lia; rewrite Hrl, Hretl; exact HLm).
    eexists. split; [reflexivity|]. split; [lia|].
    intros k Hk. cbn [isubs]. now rewrite Hrk, Hretk by lia.
Qed.

Lemma export_xbytes i : wf i -> validate i = true -> export i = Ok (xbytes i) /\ zlen (xbytes i) = ilen i.
Proof.
  intros Hw Hv. destruct (export_valid i Hw Hv) as (b & Hb & Hl & _). unfold xbytes. rewrite Hb. auto.
Qed.

Lemma written_child i c k cur : wf i -> validate i = true -> In c (isubs i) -> ioff c <= k < ioff c + ilen c ->
  written (cwrites (isubs i)) k cur = zget (xbytes c) (k - ioff c).
Proof.
  intros Hw Hv Hc Hk. pose proof (proj2 (proj2 (proj2 (proj2 (proj1 (validate_inv i) Hv))))) as Hd.
  assert (Hl : forall c', In c' (isubs i) -> zlen (xbytes c') = ilen c').
  { intros c' Hc'. destruct (child_facts i c' Hw Hv Hc') as (Hwc & Hvc & _). now apply export_xbytes. }
  apply written_agree.
  - intros x Hx Hcx. apply in_map_iff in Hx. destruct Hx as (c' & <- & Hc'). unfold covers in Hcx. cbn [fst snd] in *.
    rewrite (Hl c' Hc') in Hcx. now rewrite (siblings_apart _ c c' k Hd Hc Hc' Hk Hcx).
  - right. exists (ioff c, xbytes c). split; [exact (in_map (fun c => (ioff c, xbytes c)) _ c Hc)|]. unfold covers. cbn [fst snd]. now rewrite (Hl c Hc).
Qed.

Lemma child_bytes_at i c j : wf i -> validate i = true -> In c (isubs i) -> 0 <= j < ilen c ->
  zget (xbytes i) (ioff c + j) = zget (xbytes c) j.
Proof.
  intros Hw Hv Hc Hj. destruct (export_valid i Hw Hv) as (b & Hb & Hl & Hk).
  destruct (child_facts i c Hw Hv Hc) as (_ & _ & Ho & Hfit).
  unfold xbytes at 1. rewrite Hb, Hk, (written_child i c) by (assumption || lia). f_equal. lia.
Qed.

(* every descendant: o is the sum of the offsets on the path from i down to d *)
Inductive desc_at : img -> img -> Z -> Prop :=
| DHere i : desc_at i i 0
| DStep i c d o : In c (isubs i) -> desc_at c d o -> desc_at i d (ioff c + o).

Lemma desc_bytes_at i d o : desc_at i d o -> wf i -> validate i = true ->
  wf d /\ validate d = true /\ 0 <= o /\ o + ilen d <= ilen i /\
  forall j, 0 <= j < ilen d -> zget (xbytes i) (o + j) = zget (xbytes d) j.
Proof.
  induction 1 as [i|i c d o Hc Hd IH]; intros Hw Hv.
  - repeat split; auto; try lia.
  - destruct (child_facts i c Hw Hv Hc) as (Hwc & Hvc & Ho & Hfit).
    destruct (IH Hwc Hvc) as (Hwd & Hvd & Ho' & Hfit' & Hk).
    repeat split; auto; try lia.
    intros j Hj. rewrite <- Hk by assumption. rewrite <- Z.add_assoc. apply child_bytes_at; auto. lia.
Qed.

Lemma export_places_descendants_lemma i d o : wf i -> validate i = true -> desc_at i d o ->
  exists b x, export i = Ok b /\ export d = Ok x /\ zlen x = ilen d /\ 0 <= o /\ o + ilen d <= zlen b /\
              slice b (Z.to_nat o) (Z.to_nat (o + ilen d)) = x.
Proof.
  intros Hw Hv Hd. destruct (desc_bytes_at i d o Hd Hw Hv) as (Hwd & Hvd & Ho & Hfit & Hk).
  destruct (export_xbytes i Hw Hv) as [Hb Hbl]. destruct (export_xbytes d Hwd Hvd) as [Hx Hxl].
  exists (xbytes i), (xbytes d). repeat split; auto; try lia.
  rewrite <- Hxl. apply slice_zget; [exact Ho|lia|]. intros j Hj. apply Hk. lia.
Qed.

Lemma export_places_children_lemma i c : wf i -> validate i = true -> In c (isubs i) ->
  exists b d, export i = Ok b /\ export c = Ok d /\ zlen d = ilen c /\
              slice b (Z.to_nat (ioff c)) (Z.to_nat (ioff c + ilen c)) = d.
Proof.
  intros Hw Hv Hc.
  destruct (export_places_descendants_lemma i c (ioff c + 0) Hw Hv (DStep i c c 0 Hc (DHere c))) as (b & d & Hb & Hd & Hl & _ & _ & Hs).
  rewrite Z.add_0_r in Hs. now exists b, d.
Qed.

Lemma nth_error_inc_block n s j : (j < n)%nat -> nth_error (inc_block n s) j = Some ((s + N.of_nat j) mod 256)%N.
Proof.
  revert s j; induction n as [|n IH]; intros s j H; [lia|].
  destruct j as [|j]; simpl.
  - f_equal. f_equal. lia.
  - rewrite IH by lia. f_equal. f_equal. lia.
Qed.

Lemma export_fill_lemma (i : img) (k : Z) : wf i -> validate i = true -> 0 <= k < ilen i ->
  (forall c, In c (isubs i) -> ~ (ioff c <= k < ioff c + ilen c)) ->
  (exists b, export i = Ok b /\
             zget b k = (if k <? zlen (ibin i) then zget (ibin i) k else zget (fill_block i) k)) /\
  match ipat i with
  | None | Some PZeros => zget (fill_block i) k = Some 0%N
  | Some POnes => zget (fill_block i) k = Some 255%N
  | Some PInc => zget (fill_block i) k = Some (Z.to_N (k mod 256))
  | Some (PNum _) => True
  end.
Proof.
  intros Hw Hv Hk Hnc. split.
  - destruct (export_valid i Hw Hv) as (b & Hb & Hl & Hkk). exists b. split; [exact Hb|]. rewrite Hkk by assumption.
    apply written_nocover. intros w Hin. apply in_map_iff in Hin. destruct Hin as (c & <- & Hin).
    destruct (child_facts i c Hw Hv Hin) as (Hwc & Hvc & _).
    unfold covers. cbn [fst snd]. rewrite (proj2 (export_xbytes c Hwc Hvc)). now apply Hnc.
  - unfold fill_block. destruct (ipat i) as [[| | |v]|]; cbn [pat_or_zeros pattern_block]; auto; try (apply zget_repeat; lia).
    rewrite zget_nat, nth_error_inc_block, Z2N.inj_mod by lia. f_equal. f_equal. lia.
Qed.

(* SPECIFICATION of a valid layout, stated independently of the code's loops:
   the offset is not negative, the own binary fits into the image, every sub-image is valid, lies inside the
   parent, and two DISTINCT sub-images (by position in sub_images) never overlap.
   Extents are compared by position (offset + length <= other offset), which for non-empty extents is exactly
   "no byte in common" / "every byte inside" (property validate_nonempty_bytes); for a zero-length
   sub-image it is the code's rule (inside a sibling = overlap, at its first byte or behind its end = fine). *)
Inductive layout_ok : img -> Prop :=
| LayoutOk sz al off bin pat subs :
    0 <= off ->
    (bin <> [] -> zlen bin <= ilen (Img sz al off bin pat subs)) ->
    (forall c, In c subs -> layout_ok c) ->
    (forall c, In c subs -> ioff c + ilen c <= ilen (Img sz al off bin pat subs)) ->
    (forall a b ca cb, a <> b -> nth_error subs a = Some ca -> nth_error subs b = Some cb ->
                       ioff ca + ilen ca <= ioff cb \/ ioff cb + ilen cb <= ioff ca) ->
    layout_ok (Img sz al off bin pat subs).

Definition off_le (a b : img) : Prop := ioff a <= ioff b.

(* insertion is stable: behind every sub-image with the same or a smaller offset, before the first bigger one *)
Lemma insert_img_split c l :
  exists l1 l2, l = l1 ++ l2 /\ insert_img c l = l1 ++ c :: l2 /\
                Forall (fun x => ioff x <= ioff c) l1 /\
                match l2 with x :: _ => ioff c < ioff x | [] => True end.
Proof.
  induction l as [|x t IH].
  - exists [], []. simpl. auto.
  - simpl. destruct (ioff c <? ioff x) eqn:E.
    + exists [], (x :: t). simpl. repeat split; auto. lia.
    + destruct IH as (l1 & l2 & -> & Hins & Hf & Hh).
      exists (x :: l1), l2. simpl. rewrite Hins. repeat split; auto. constructor; [lia|exact Hf].
Qed.

Lemma in_insert_img c x l : In x (insert_img c l) -> x = c \/ In x l.
Proof.
  destruct (insert_img_split c l) as (l1 & l2 & -> & -> & _). rewrite !in_app_iff. cbn [In]. intuition.
Qed.

Lemma insert_img_sorted c l : Sorted off_le l -> Sorted off_le (insert_img c l).
Proof.
  induction l as [|x t IH]; intros H.
  - simpl. constructor; constructor.
  - simpl. destruct (ioff c <? ioff x) eqn:E.
    + constructor; [exact H|]. constructor. unfold off_le. lia.
    + inversion H as [|? ? Hs Hh]; subst. constructor; [now apply IH|].
      destruct t as [|y t']; simpl.
      * constructor. unfold off_le. lia.
      * destruct (ioff c <? ioff y) eqn:E2; constructor; unfold off_le; try lia.
        inversion Hh; subst. assumption.
Qed.

Lemma align_only_extends_lemma size a off bin pat subs :
  1 <= a -> 0 <= size -> pat_ok pat -> (forall c, In c subs -> wf c) ->
  validate (Img size 1 off bin pat subs) = true ->
  exists b1 pad,
    export (Img size 1 off bin pat subs) = Ok b1 /\
    export (Img (zalign size a) a off bin pat subs) = Ok (b1 ++ pad) /\
    validate (Img (zalign size a) a off bin pat subs) = true /\
    forall j, 0 <= j < zlen pad ->
              zget pad j = zget (fill_block (Img (zalign size a) a off bin pat subs)) (zlen b1 + j).
Proof.
  intros Ha Hs Hp Hsubs Hv1.
  set (i1 := Img size 1 off bin pat subs) in *. set (ia := Img (zalign size a) a off bin pat subs).
  assert (Hw1 : wf i1) by (constructor; auto; try lia; apply Z.mod_1_r).
  pose proof (zalign_spec size a Hs ltac:(lia)) as (Hz1 & Hz2 & Hz3).
  assert (Hwa : wf ia) by (constructor; auto; lia).
  pose proof (max_ends_ge (extents subs) (zlen bin)) as HM. pose proof (zlen_nonneg bin) as Hb0.
  set (M := max_ends (extents subs) (zlen bin)) in *.
  assert (HL : ilen i1 <= ilen ia).
  { unfold i1, ia. rewrite !ilen_unfold. cbn [isz ial isubs ibin]. fold M.
    destruct (Z.eqb_spec size 0) as [->|E].
    - replace (zalign 0 a) with 0 by (pose proof (zalign_spec 0 a ltac:(lia) ltac:(lia)) as (_ & Q & _); rewrite Z.mod_small in Q; lia).
      cbn [Z.eqb]. rewrite zalign_1 by lia. apply (zalign_spec M a); lia.
    - destruct (zalign size a =? 0) eqn:E2; lia. }
  pose proof (proj1 (validate_inv i1) Hv1) as (H1 & H2 & H3 & H4 & H5). cbn [ioff ibin isubs i1] in H1, H2, H3, H4, H5. fold i1 in H2, H4.
  assert (Hva : validate ia = true).
  { apply validate_inv. cbn [ioff ibin isubs ia]. fold ia. repeat split; auto.
    - destruct H2; [now left|right; lia].
    - intros c Hc. specialize (H4 c Hc). lia. }
  destruct (export_valid i1 Hw1 Hv1) as (b1 & Hb1 & Hl1 & Hk1).
  destruct (export_valid ia Hwa Hva) as (ba & Hba & Hla & Hka).
  pose proof (ilen_nonneg i1 Hw1) as HL0.
  assert (Hfill : forall k, 0 <= k < ilen i1 -> zget (fill_block i1) k = zget (fill_block ia) k).
  { intros k Hk. unfold fill_block. cbn [ipat i1 ia]. fold i1 ia.
    destruct (pattern_block_ok (pat_or_zeros pat) (Z.to_nat (ilen ia)) (pat_or_zeros_ok _ Hp)) as (blk & Eblk & _).
    assert (Hle : (Z.to_nat (ilen i1) <= Z.to_nat (ilen ia))%nat) by lia.
    rewrite Eblk. rewrite (pattern_block_prefix _ _ _ _ Hle Eblk).
    rewrite zget_firstn. now replace (k <? Z.of_nat (Z.to_nat (ilen i1))) with true by lia. }
  assert (Hpre : firstn (length b1) ba = b1).
  { apply zget_ext.
    - unfold zlen in *. rewrite firstn_length. lia.
    - intros k Hk. assert (Hk' : 0 <= k < ilen i1) by (unfold zlen in *; rewrite firstn_length in Hk; lia).
      rewrite zget_firstn. replace (k <? Z.of_nat (length b1)) with true by (unfold zlen in *; lia).
      rewrite Hk1, Hka by lia. cbn [isubs i1 ia]. f_equal. unfold base_byte. cbn [ibin i1 ia].
      destruct (k <? zlen bin); [reflexivity|symmetry; now apply Hfill]. }
  exists b1, (skipn (length b1) ba). split; [exact Hb1|]. split; [|split; [exact Hva|]].
  - rewrite Hba. f_equal. rewrite <- Hpre at 1. symmetry. apply firstn_skipn.
  - intros j Hj. rewrite zget_skipn by lia. fold (zlen b1).
    assert (Hj' : 0 <= zlen b1 + j < ilen ia) by (unfold zlen in *; rewrite skipn_length in Hj; lia).
    rewrite Hka by lia. cbn [isubs ia].
    rewrite written_nocover.
    + unfold base_byte. cbn [ibin ia]. destruct (Z.ltb_spec (zlen b1 + j) (zlen bin)); [|reflexivity].
      destruct H2 as [->|H2]; [unfold zlen in *; cbn in *; lia|lia].
    + intros w Hw. apply in_map_iff in Hw. destruct Hw as (c & <- & Hin). unfold covers. cbn [fst snd].
      rewrite (proj2 (export_xbytes c (Hsubs c Hin) (H3 c Hin))). specialize (H4 c Hin). lia.
Qed.

Lemma py_align_ok_inv size al sz : py_align size al = Ok sz -> 1 <= al /\ 0 <= sz /\ sz mod al = 0.
Proof.
  unfold py_align. destruct (orb (Z.leb al 0) (Z.ltb size 0)) eqn:E; [discriminate|].
  intros H; injection H as <-. split; [lia|]. split; [|apply Z.mod_mul; lia].
  apply Z.mul_nonneg_nonneg; [apply Z.div_pos|]; lia.
Qed.

Lemma wf_set_off c o : wf c -> wf (set_off c o).
Proof. destruct c. intros H. apply wf_inv in H. constructor; tauto. Qed.

Lemma wf_add_image p c : wf p -> wf c -> wf (add_image p c).
Proof.
  destruct p as [sz al off bin pat subs]. intros Hp Hc. apply wf_inv in Hp.
  destruct Hp as (H1 & H2 & H3 & H4 & H5). constructor; auto.
  intros x Hx. apply in_insert_img in Hx. destruct Hx as [->|Hx]; auto.
Qed.

Lemma wf_append_image p c : wf p -> wf c -> wf (append_image p c).
Proof. intros. unfold append_image. apply wf_add_image; auto. now apply wf_set_off. Qed.

Fixpoint spec_ok (s : spec) : Prop :=
  match s with
  | Spec size al off bin pat kids =>
      pat_ok pat /\ (fix all (l : list (bool * spec)) : Prop :=
                       match l with [] => True | (_, k) :: t => spec_ok k /\ all t end) kids
  end.

Section SpecInd.
  Variable P : spec -> Prop.
  Hypothesis H : forall size al off bin pat kids, Forall (fun k => P (snd k)) kids -> P (Spec size al off bin pat kids).
  Fixpoint spec_ind' (s : spec) : P s :=
    match s with
    | Spec size al off bin pat kids =>
        H size al off bin pat kids
          ((fix go (l : list (bool * spec)) : Forall (fun k => P (snd k)) l :=
              match l with
              | [] => Forall_nil _
              | k :: t => Forall_cons k (spec_ind' (snd k)) (go t)
              end) kids)
    end.
End SpecInd.

Lemma build_wf s : forall i, spec_ok s -> build s = Ok i -> wf i.
Proof.
  induction s as [size al off bin pat kids IH] using spec_ind'. intros i [Hp Hk] Hb.
  cbn [build] in Hb. destruct (py_align size al) as [sz|e] eqn:Ea; [|discriminate].
  apply py_align_ok_inv in Ea. destruct Ea as (Ha1 & Ha2 & Ha3).
  assert (Hw0 : wf (Img sz al off bin pat [])) by (constructor; auto; intros ? []).
  revert Hw0 Hb. generalize (Img sz al off bin pat []). revert Hk IH.
  induction kids as [|[ap k] t IHt]; intros Hk IH p Hw Hb.
  - injection Hb as <-. exact Hw.
  - destruct Hk as [Hk1 Hk2]. inversion IH as [|? ? IH1 IH2]; subst. simpl in IH1.
    destruct (build k) as [c|e] eqn:Ek; [|discriminate].
    pose proof (IH1 c Hk1 eq_refl) as Hwc.
    destruct ap.
    + exact (IHt Hk2 IH2 _ (wf_append_image p c Hw Hwc) Hb).
    + exact (IHt Hk2 IH2 _ (wf_add_image p c Hw Hwc) Hb).
Qed.

(* what bincopy hands over: segments by ascending address that do not run into each other *)
Inductive segs_sorted : list (Z * list N) -> Prop :=
| SS_nil : segs_sorted []
| SS_one s d : segs_sorted [(s, d)]
| SS_cons s d s' d' t : s + zlen d <= s' -> segs_sorted ((s', d') :: t) -> segs_sorted ((s, d) :: (s', d') :: t).

Definition seg_base (segs : list (Z * list N)) : Z := match segs with [] => 0 | (s, _) :: _ => s end.

Lemma segs_sorted_tail w t : segs_sorted (w :: t) -> segs_sorted t.
Proof. intros H. inversion H; subst; [constructor|assumption]. Qed.

Lemma segs_sorted_head_end t : forall s d, segs_sorted ((s, d) :: t) -> Forall (fun w => s + zlen d <= fst w) t.
Proof.
  induction t as [|[s' d'] t IH]; intros s d H; [constructor|].
  inversion H as [| |? ? ? ? ? Hle Hs]; subst. constructor; [exact Hle|].
  eapply Forall_impl; [|apply (IH s' d' Hs)]. intros w Hw. simpl in *. pose proof (zlen_nonneg d'). lia.
Qed.

Lemma insert_img_last c l : Forall (fun x => ioff x <= ioff c) l -> insert_img c l = l ++ [c].
Proof.
  destruct (insert_img_split c l) as (l1 & l2 & -> & -> & _ & Hh). intros H. apply Forall_app in H as (_ & H2).
  destruct l2 as [|x t]; [now rewrite app_nil_r|]. inversion H2; subst. lia.
Qed.

Lemma fold_add_sorted segs : forall sz al off bin pat subs, segs_sorted segs ->
  (forall x w, In x subs -> In w segs -> ioff x <= fst w) ->
  fold_left (fun p s => add_image p (seg_img s)) segs (Img sz al off bin pat subs)
  = Img sz al off bin pat (subs ++ map seg_img segs).
Proof.
  induction segs as [|[s d] t IH]; intros sz al off bin pat subs Hs Hle.
  - simpl. now rewrite app_nil_r.
  - cbn [fold_left add_image]. rewrite insert_img_last.
    + rewrite IH.
      * simpl. now rewrite <- app_assoc.
      * eapply segs_sorted_tail; eauto.
      * intros x w Hx Hw. apply in_app_or in Hx. destruct Hx as [Hx|[<-|[]]].
        -- apply Hle; [exact Hx|now right].
        -- simpl. pose proof (segs_sorted_head_end t s d Hs) as Hf. rewrite Forall_forall in Hf.
           specialize (Hf w Hw). pose proof (zlen_nonneg d). lia.
    + apply Forall_forall. intros x Hx. simpl. apply (Hle x (s, d) Hx). now left.
Qed.

Lemma fold_min_head (l : list img) m : Forall (fun c => m <= ioff c) l -> fold_left (fun m c => Z.min m (ioff c)) l m = m.
Proof.
  revert m; induction l as [|x t IH]; intros m H; [reflexivity|]. inversion H; subst. simpl.
  replace (Z.min m (ioff x)) with m by lia. auto.
Qed.

Definition seg_child (m : Z) (w : Z * list N) : img := Img (zlen (snd w)) 1 (fst w - m) (snd w) None [].

Lemma load_segments_shape offset segs : segs_sorted segs -> segs <> [] ->
  load_segments offset segs = Ok (Img 0 1 (offset + seg_base segs) [] None (map (seg_child (seg_base segs)) segs)).
Proof.
  intros Hs Hne. destruct segs as [|[s d] t]; [congruence|]. unfold load_segments.
  rewrite (fold_add_sorted ((s, d) :: t) 0 1 offset [] None [] Hs) by (intros ? ? []).
  f_equal. cbn [app update_offsets seg_base]. 
  assert (Hm : min_off (map seg_img ((s, d) :: t)) = s).
  { cbn [map min_off seg_img ioff fst]. apply fold_min_head.
    pose proof (segs_sorted_head_end t s d Hs) as Hf. apply Forall_forall. intros c Hc.
    apply in_map_iff in Hc. destruct Hc as (w & <- & Hw). rewrite Forall_forall in Hf. specialize (Hf w Hw).
    simpl. pose proof (zlen_nonneg d). lia. }
  rewrite Hm. f_equal. rewrite map_map. apply map_ext. intros [s' d']. reflexivity.
Qed.

Lemma ilen_seg_child m w : ilen (seg_child m w) = zlen (snd w).
Proof.
  unfold seg_child. rewrite ilen_unfold. cbn [isz ial isubs ibin]. destruct (zlen (snd w) =? 0) eqn:E; [|reflexivity].
  simpl. rewrite zalign_1 by apply zlen_nonneg. reflexivity.
Qed.

Lemma wf_seg_child m w : wf (seg_child m w).
Proof.
  unfold seg_child. constructor; simpl; auto; try lia; try apply zlen_nonneg; apply Z.mod_1_r.
Qed.

Lemma validate_seg_child m w : m <= fst w -> validate (seg_child m w) = true.
Proof.
  intros H. apply validate_inv. rewrite ilen_seg_child. cbn [seg_child ioff ibin isubs].
  split; [lia|]. split; [right; lia|]. split; [intros ? []|]. split; [intros ? []|]. simpl. constructor.
Qed.

Lemma export_seg_child m w : export (seg_child m w) = Ok (snd w).
Proof.
  destruct w as [s d]. simpl snd. destruct d as [|b t].
  - reflexivity.
  - unfold seg_child. rewrite export_unfold. fold (seg_child m (s, b :: t)). rewrite ilen_seg_child.
    cbv zeta. simpl snd. rewrite Z.eqb_refl. reflexivity.
Qed.

Lemma segs_extents_disj segs m : segs_sorted segs -> ForallOrdPairs disj (extents (map (seg_child m) segs)).
Proof.
  induction segs as [|[s d] t IH]; intros Hs; [constructor|].
  cbn [map extents]. fold (extents (map (seg_child m) t)). constructor.
  - pose proof (segs_sorted_head_end t s d Hs) as Hf. apply Forall_forall. intros x Hx.
    unfold extents in Hx. rewrite map_map in Hx. apply in_map_iff in Hx. destruct Hx as (w & <- & Hw).
    rewrite Forall_forall in Hf. specialize (Hf w Hw). left. rewrite ilen_seg_child. simpl in *. lia.
  - apply IH. eapply segs_sorted_tail; eauto.
Qed.

Example load_example :
  exists i, load_segments 0 [(4096, [1;2;3]%N); (4100, [9]%N)] = Ok i /\ ioff i = 4096 /\
            export i = Ok [1;2;3;0;9]%N.
Proof. eexists. split; [reflexivity|]. split; reflexivity. Qed.

(* is position k of image i written by the HEX/S19 writer (given that an ancestor has already written data: f)? *)
Fixpoint covered (f : bool) (i : img) (k : Z) : bool :=
  match i with
  | Img sz al off bin pat subs =>
      f || has_pat pat || (k <? zlen bin)
      || existsb (fun c => (ioff c <=? k) && (k <? ioff c + ilen c)
                           && covered (f || has_pat pat || negb (isnil bin)) c (k - ioff c)) subs
  end.

Lemma covered_true c k : covered true c k = true.
Proof. destruct c. reflexivity. Qed.

Lemma writes_unfold f base sz al off bin pat subs :
  writes f base (Img sz al off bin pat subs) =
  (if (has_pat pat || f) && negb (ilen (Img sz al off bin pat subs) =? 0) then
     match pattern_block (pat_or_zeros pat) (Z.to_nat (ilen (Img sz al off bin pat subs))) with
     | Ok b => [(base + off, b)] | Err _ => [] end
   else [])
  ++ (if isnil bin then [] else [(base + off, bin)])
  ++ flat_map (writes (f || has_pat pat || negb (isnil bin)) (base + off)) subs.
Proof. reflexivity. Qed.

Lemma writes_within i : wf i -> validate i = true ->
  forall f base s d, In (s, d) (writes f base i) -> d <> [] ->
                     base + ioff i <= s /\ s + zlen d <= base + ioff i + ilen i.
Proof.
  induction i as [sz al off bin pat subs IH] using img_ind'. intros Hw Hv f base s d Hin Hne.
  rewrite Forall_forall in IH. pose proof (ilen_nonneg _ Hw) as HL0.
  pose proof (proj1 (validate_inv _) Hv) as (_ & Hbin & _). cbn [ibin] in Hbin.
  rewrite writes_unfold in Hin. set (L := ilen (Img sz al off bin pat subs)) in *. simpl ioff.
  apply in_app_or in Hin. destruct Hin as [Hin|Hin]; [|apply in_app_or in Hin; destruct Hin as [Hin|Hin]].
  - destruct ((has_pat pat || f) && negb (L =? 0)); [|destruct Hin].
    destruct (pattern_block (pat_or_zeros pat) (Z.to_nat L)) as [blk|] eqn:E; [|destruct Hin].
    destruct Hin as [Hin|[]]. injection Hin as <- <-. apply pattern_block_length in E. unfold zlen. lia.
  - destruct bin as [|b0 bt]; [destruct Hin|]. destruct Hin as [Hin|[]]. injection Hin as <- <-.
    destruct Hbin as [Hbin|Hbin]; [discriminate|]. lia.
  - apply in_flat_map in Hin. destruct Hin as (c & Hc & Hin).
    destruct (child_facts _ c Hw Hv Hc) as (Hwc & Hvc & Ho & Hfit).
    pose proof (IH c Hc Hwc Hvc _ _ s d Hin Hne) as [H1 H2]. pose proof (ilen_nonneg c Hwc). lia.
Qed.

Lemma written_outside i f base x cur : wf i -> validate i = true ->
  ~ (base + ioff i <= x < base + ioff i + ilen i) -> written (writes f base i) x cur = cur.
Proof.
  intros Hw Hv Hx. apply written_nocover. intros (s, d) Hin Hc. unfold covers in Hc. cbn [fst snd] in Hc.
  assert (Hne : d <> []) by (intros ->; unfold zlen in Hc; simpl in Hc; lia).
  pose proof (writes_within i Hw Hv f base s d Hin Hne). lia.
Qed.

Definition in_range (k : Z) (c : img) : bool := (ioff c <=? k) && (k <? ioff c + ilen c).

(* among pairwise disjoint sub-images at most one contains position k: the view of the children's writes at k
   is the view of that sub-image's writes (or nothing) *)
Lemma children_view f a k subs :
  (forall c, In c subs -> wf c) -> (forall c, In c subs -> validate c = true) ->
  ForallOrdPairs disj (extents subs) ->
  forall cur0,
  (existsb (in_range k) subs = false ->
     written (flat_map (writes f a) subs) (a + k) cur0 = cur0 /\
     existsb (fun c => in_range k c && covered f c (k - ioff c)) subs = false) /\
  (forall c, In c subs -> in_range k c = true ->
     written (flat_map (writes f a) subs) (a + k) cur0 = written (writes f a c) (a + k) cur0 /\
     existsb (fun c => in_range k c && covered f c (k - ioff c)) subs = in_range k c && covered f c (k - ioff c)).
Proof.
  induction subs as [|x t IHt]; intros Hsubs Hvc Hd cur0.
  - split; [intros _; split; reflexivity|intros c []].
  - simpl in Hd. inversion Hd as [|? ? Hf Ht]; subst. rewrite Forall_forall in Hf.
    assert (Hx : In x (x :: t)) by now left.
    assert (Hsubs' : forall c, In c t -> wf c) by (intros c Hc; apply Hsubs; now right).
    assert (Hvc' : forall c, In c t -> validate c = true) by (intros c Hc; apply Hvc; now right).
    cbn [flat_map existsb]. rewrite written_app.
    assert (Hout : in_range k x = false -> written (writes f a x) (a + k) cur0 = cur0).
    { intros E. apply written_outside; auto. unfold in_range in E. lia. }
    assert (Hone : forall c, In c t -> in_range k x = true -> in_range k c = true -> False).
    { intros c Hc E1 E2. assert (Hin : In (ioff c, ilen c) (extents t)) by (apply in_map_iff; now exists c).
      specialize (Hf _ Hin). unfold disj, in_range in *. simpl in Hf. lia. }
    split.
    + intros E. apply orb_false_iff in E. destruct E as [E1 E2]. rewrite (Hout E1), E1.
      destruct (IHt Hsubs' Hvc' Ht cur0) as [H1 _]. destruct (H1 E2) as [H1a H1b]. rewrite H1a, H1b. auto.
    + intros c [<-|Hc] Hr.
      * assert (E2 : existsb (in_range k) t = false).
        { destruct (existsb (in_range k) t) eqn:E; [|reflexivity]. apply existsb_exists in E.
          destruct E as (y & Hy & Hry). now destruct (Hone y Hy Hr Hry). }
        destruct (IHt Hsubs' Hvc' Ht (written (writes f a x) (a + k) cur0)) as [H1 _].
        destruct (H1 E2) as [H1a H1b]. rewrite H1a, H1b, orb_false_r. auto.
      * assert (E1 : in_range k x = false) by (destruct (in_range k x) eqn:E; [now destruct (Hone c Hc eq_refl Hr)|reflexivity]).
        rewrite (Hout E1), E1. simpl.
        destruct (IHt Hsubs' Hvc' Ht cur0) as [_ H2]. exact (H2 c Hc Hr).
Qed.

(* the memory the HEX/S19 writer builds holds, at every position it writes, the byte of export(); a position
   it leaves out holds 0 in export() *)
Lemma hex_view_lemma i : wf i -> validate i = true ->
  forall f base k cur, 0 <= k < ilen i ->
  written (writes f base i) (base + ioff i + k) cur = (if covered f i k then zget (xbytes i) k else cur) /\
  (covered f i k = false -> zget (xbytes i) k = Some 0%N).
Proof.
  induction i as [sz al off bin pat subs IH] using img_ind'. intros Hw Hv f base k cur Hk.
  rewrite Forall_forall in IH.
  destruct (export_valid _ Hw Hv) as (b & Hb & Hl & Hkk). unfold xbytes. rewrite Hb. rewrite Hkk by assumption.
  pose proof (wf_inv _ Hw) as (_ & _ & _ & Hp & Hsubs).
  pose proof (proj1 (validate_inv _) Hv) as (_ & Hbin & Hvc & Hfit & Hdisj). cbn [ipat ibin isubs] in Hp, Hsubs, Hbin, Hvc, Hfit, Hdisj.
  rewrite writes_unfold. cbn [ioff isubs].
  set (i := Img sz al off bin pat subs) in *. set (a := base + off).
  set (f' := f || has_pat pat || negb (isnil bin)).
  replace (negb (ilen i =? 0)) with true by lia. rewrite andb_true_r.
  destruct (pattern_block_ok (pat_or_zeros pat) (Z.to_nat (ilen i)) (pat_or_zeros_ok _ Hp)) as (blk & Eblk & Hblk).
  rewrite Eblk. rewrite !written_app.
  (* value after the node's own block and binary *)
  set (cur0 := written (if isnil bin then [] else [(a, bin)]) (a + k)
                 (written (if has_pat pat || f then [(a, blk)] else []) (a + k) cur)).
  assert (Hfill : fill_block i = blk) by (unfold fill_block; cbn [ipat i]; fold i; now rewrite Eblk).
  assert (Hown : forall (d : list N) c, written [(a, d)] (a + k) c = if k <? zlen d then zget d k else c).
  { intros d c. cbn [written fst snd]. replace (a + k - a) with k by lia.
    destruct (Z.ltb_spec k (zlen d)); [now replace ((a <=? a + k) && (a + k <? a + zlen d)) with true by lia|].
    now replace ((a <=? a + k) && (a + k <? a + zlen d)) with false by lia. }
  assert (Hcur0 : cur0 = if f || has_pat pat || (k <? zlen bin) then base_byte i k else cur).
  { unfold cur0, base_byte. cbn [ibin i]. rewrite Hfill, (orb_comm f).
    assert (Hb0 : written (if has_pat pat || f then [(a, blk)] else []) (a + k) cur = if has_pat pat || f then zget blk k else cur).
    { destruct (has_pat pat || f); [|reflexivity]. rewrite Hown. now replace (k <? zlen blk) with true by (unfold zlen; lia). }
    rewrite Hb0. destruct bin as [|b0 bt]; cbn [isnil].
    - replace (k <? zlen []) with false by (unfold zlen; simpl; lia). now rewrite orb_false_r.
    - rewrite Hown. destruct (k <? zlen (b0 :: bt)); [now rewrite orb_true_r|now rewrite orb_false_r]. }
  fold cur0. clearbody cur0.
  assert (Hcov : covered f i k = f || has_pat pat || (k <? zlen bin)
                 || existsb (fun c => in_range k c && covered f' c (k - ioff c)) subs) by reflexivity.
  rewrite Hcov. clear Hcov.
  destruct (children_view f' a k subs Hsubs Hvc Hdisj cur0) as [HA HB].
  destruct (existsb (in_range k) subs) eqn:Er.
  - (* exactly one sub-image contains k *)
    apply existsb_exists in Er. destruct Er as (c & Hc & Hr).
    destruct (HB c Hc Hr) as [H1 H2]. rewrite H1, H2, Hr. cbn [andb].
    assert (Hrc : ioff c <= k < ioff c + ilen c) by (clear - Hr; unfold in_range in Hr; lia).
    assert (Hk' : 0 <= k - ioff c < ilen c) by (clear - Hrc; lia).
    destruct (IH c Hc (Hsubs c Hc) (Hvc c Hc) f' a (k - ioff c) cur0 Hk') as [Hc1 Hc2].
    replace (a + ioff c + (k - ioff c)) with (a + k) in Hc1 by ring. rewrite Hc1.
    rewrite (written_child i c k) by assumption.
    destruct (covered f' c (k - ioff c)) eqn:Ec.
    + rewrite orb_true_r. split; [reflexivity|discriminate].
    + rewrite orb_false_r.
      assert (Hf' : f' = false).
      { destruct f' eqn:E; [|reflexivity]. rewrite covered_true in Ec. discriminate. }
      unfold f' in Hf'. apply orb_false_iff in Hf'. destruct Hf' as [Hf' Hb']. apply orb_false_iff in Hf'.
      destruct Hf' as [Hf1 Hf2]. rewrite Hf1, Hf2 in *. destruct bin; [|discriminate]. cbn [orb] in *.
      replace (k <? zlen []) with false in * by (clear - Hk; unfold zlen; simpl; lia).
      split; [exact Hcur0|]. intros _. apply Hc2. reflexivity.
  - (* no sub-image contains k *)
    destruct (HA eq_refl) as [H1 H2]. rewrite H1, H2, orb_false_r.
    rewrite written_nocover.
    + split; [exact Hcur0|].
      intros E. apply orb_false_iff in E. destruct E as [E E3]. apply orb_false_iff in E. destruct E as [E1 E2].
      unfold base_byte. cbn [ibin i]. rewrite E3, Hfill.
      destruct pat; [discriminate|]. cbn [pat_or_zeros pattern_block] in Eblk.
      assert (Hz : blk = repeat 0%N (Z.to_nat (ilen i))) by congruence. rewrite Hz. apply zget_repeat. clear - Hk. lia.
    + intros w Hw'. apply in_map_iff in Hw'. destruct Hw' as (c & <- & Hin). unfold covers. cbn [fst snd].
      rewrite (proj2 (export_xbytes c (Hsubs c Hin) (Hvc c Hin))).
      assert (in_range k c = false).
      { destruct (in_range k c) eqn:E; [|reflexivity]. exfalso.
        assert (existsb (in_range k) subs = true) by (apply existsb_exists; eauto). congruence. }
      clear - H. unfold in_range in H. lia.
Qed.

(* the HEX/S19 view of a valid image is its export wherever the writer writes; outside the image nothing is written *)
Lemma hex_view_is_export_lemma (i : img) (f : bool) (base : Z) : wf i -> validate i = true ->
  (forall k cur, 0 <= k < ilen i ->
     exists b, export i = Ok b /\
               mem_at (writes f base i) (base + ioff i + k) cur = (if covered f i k then zget b k else cur) /\
               (covered f i k = false -> zget b k = Some 0%N)) /\
  (forall x cur, ~ (base + ioff i <= x < base + ioff i + ilen i) -> mem_at (writes f base i) x cur = cur).
Proof.
  intros Hw Hv. split.
  - intros k cur Hk. exists (xbytes i). split; [apply (export_xbytes i Hw Hv)|]. rewrite mem_at_written.
    exact (hex_view_lemma i Hw Hv f base k cur Hk).
  - intros x cur Hx. rewrite mem_at_written. exact (written_outside i f base x cur Hw Hv Hx).
Qed.

(* the witness of finding C16-F1 (repaired in /repo): the HEX view equals export() *)
Definition f1_witness : img := Img 16 1 4096 [] (Some POnes) [Img 8 1 4 [170; 187]%N None []].

Example f1_witness_repaired :
  mem_at (writes false 0 f1_witness) (0 + ioff f1_witness + 6) None = Some 0%N /\
  getz (xbytes f1_witness) 6 = Some 0%N.
Proof. split; reflexivity. Qed.

Lemma group_cons_some a b t :
  group a (Some b :: t) =
  match group (a + 1) t with
  | (s, d) :: r => if s =? a + 1 then (a, b :: d) :: r else (a, [b]) :: (s, d) :: r
  | [] => [(a, [b])]
  end.
Proof. reflexivity. Qed.

Lemma group_props l : forall a,
  segs_sorted (group a l) /\
  (forall s d, In (s, d) (group a l) ->
     a <= s /\ d <> [] /\
     forall j, (j < length d)%nat -> nth_error l (Z.to_nat (s - a) + j) = Some (nth_error d j)).
Proof.
  induction l as [|h t IH]; intros a; [simpl; split; [constructor|intros ? ? []]|].
  destruct (IH (a + 1)) as [Hs Hp].
  (* a segment of the tail, seen from one address earlier *)
  assert (Hshift : forall s d, In (s, d) (group (a + 1) t) -> a <= s /\ d <> [] /\
            forall j, (j < length d)%nat -> nth_error (h :: t) (Z.to_nat (s - a) + j) = Some (nth_error d j)).
  { intros s d Hin. destruct (Hp s d Hin) as (H1 & H2 & H3). split; [lia|]. split; [exact H2|]. intros j Hj.
    replace (Z.to_nat (s - a) + j)%nat with (S (Z.to_nat (s - (a + 1)) + j)) by lia. exact (H3 j Hj). }
  destruct h as [b|]; [|split; [exact Hs|exact Hshift]].
  (* a segment that starts here: one byte, or one byte in front of the tail's first segment *)
  assert (Hhead : forall d, (forall j, (j < length d)%nat -> nth_error t j = Some (nth_error d j)) ->
            a <= a /\ b :: d <> [] /\
            forall j, (j < length (b :: d))%nat -> nth_error (Some b :: t) (Z.to_nat (a - a) + j) = Some (nth_error (b :: d) j)).
  { intros d H. split; [lia|]. split; [discriminate|]. rewrite Z.sub_diag. intros [|j] Hj; [reflexivity|]. apply H. simpl in Hj. lia. }
  rewrite group_cons_some. destruct (group (a + 1) t) as [|[s0 d0] r] eqn:Eg.
  - split; [constructor|]. intros s d [Hin|[]]. injection Hin as <- <-. apply Hhead. intros j Hj. simpl in Hj. lia.
  - destruct (Hp s0 d0 (or_introl eq_refl)) as (H0a & H0b & H0c). destruct (Z.eqb_spec s0 (a + 1)) as [->|E].
    + split.
      * inversion Hs as [| |? ? ? ? ? Hle Hs']; subst; constructor; auto. unfold zlen in *. simpl length. lia.
      * intros s d [Hin|Hin]; [|apply Hshift; now right]. injection Hin as <- <-. apply Hhead.
        intros j Hj. specialize (H0c j Hj). now rewrite Z.sub_diag in H0c.
    + split; [constructor; [unfold zlen; simpl; lia|exact Hs]|].
      intros s d [Hin|Hin]; [|now apply Hshift]. injection Hin as <- <-. apply Hhead. intros j Hj. simpl in Hj. lia.
Qed.

Lemma group_complete l : forall a n b, nth_error l n = Some (Some b) ->
  exists s d, In (s, d) (group a l) /\ s <= a + Z.of_nat n < s + zlen d.
Proof.
  induction l as [|[b0|] t IH]; intros a n b Hn.
  - destruct n; discriminate.
  - rewrite group_cons_some. destruct n as [|n].
    + destruct (group (a + 1) t) as [|[s0 d0] r]; [|destruct (s0 =? a + 1)];
        eexists; eexists; (split; [left; reflexivity|]); unfold zlen; simpl length; lia.
    + simpl in Hn. destruct (IH (a + 1) n b Hn) as (s & d & Hin & Hr).
      destruct (group (a + 1) t) as [|[s0 d0] r]; [destruct Hin|].
      destruct (s0 =? a + 1) eqn:E.
      * destruct Hin as [Hin|Hin].
        -- injection Hin as <- <-. exists a, (b0 :: d0). split; [now left|]. unfold zlen in *. simpl length. lia.
        -- exists s, d. split; [now right|lia].
      * exists s, d. split; [now right|lia].
  - destruct n as [|n]; [discriminate|]. simpl in Hn.
    destruct (IH (a + 1) n b Hn) as (s & d & Hin & Hr). exists s, d. split; [exact Hin|lia].
Qed.

Lemma nth_error_scan ws fuel a n :
  nth_error (scan ws fuel a) n = if Nat.ltb n fuel then Some (mem_at ws (a + Z.of_nat n) None) else None.
Proof.
  revert a n; induction fuel as [|f IH]; intros a n.
  - destruct n; reflexivity.
  - destruct n as [|n]; simpl scan.
    + simpl. f_equal. f_equal. lia.
    + cbn [nth_error]. rewrite IH. replace (Nat.ltb (S n) (S f)) with (Nat.ltb n f) by reflexivity.
      destruct (Nat.ltb n f); [|reflexivity]. f_equal. f_equal. lia.
Qed.

Lemma mem_at_some ws x : forall cur b, mem_at ws x cur = Some b ->
  cur = Some b \/ exists s d, In (s, d) ws /\ s <= x < s + zlen d.
Proof.
  induction ws as [|[s d] t IH]; intros cur b H; simpl in H; [now left|].
  destruct (IH _ _ H) as [Hc|(s' & d' & Hin & Hr)].
  - destruct ((s <=? x) && (x <? s + zlen d)) eqn:E; [|now left].
    right. exists s, d. split; [now left|lia].
  - right. exists s', d'. split; [now right|exact Hr].
Qed.

Lemma fold_min_bound (l : list (Z * list N)) : forall m,
  fold_left (fun m w => Z.min m (fst w)) l m <= m /\
  forall w, In w l -> fold_left (fun m w => Z.min m (fst w)) l m <= fst w.
Proof.
  induction l as [|x t IH]; intros m; simpl; [split; [lia|intros ? []]|].
  destruct (IH (Z.min m (fst x))) as [H1 H2]. split; [lia|].
  intros w [<-|Hw]; [lia|auto].
Qed.

Lemma ws_bounds ws s d : In (s, d) ws -> ws_lo ws <= s /\ s + zlen d <= ws_hi ws.
Proof.
  destruct ws as [|[s0 d0] t]; [intros []|]. intros Hin. unfold ws_lo, ws_hi.
  destruct (fold_min_bound t s0) as [H1 H2]. destruct (writes_end_bound t (s0 + zlen d0)) as [H3 H4].
  destruct Hin as [Hin|Hin].
  - injection Hin as <- <-. lia.
  - specialize (H2 _ Hin). specialize (H4 _ Hin). simpl in *. lia.
Qed.

(* segments are sorted and separated; every byte of every segment is the content of the memory at that address;
   every defined address belongs to a segment *)
Lemma segments_sound_lemma (ws : list (Z * list N)) :
  segs_sorted (segments ws) /\
  (forall s d, In (s, d) (segments ws) ->
     d <> [] /\ forall j, 0 <= j < zlen d -> mem_at ws (s + j) None = zget d j /\ zget d j <> None) /\
  (forall x b, mem_at ws x None = Some b -> exists s d, In (s, d) (segments ws) /\ s <= x < s + zlen d).
Proof.
  unfold segments. cbv zeta. set (lo := ws_lo (nonempty_ws ws)). set (fuel := Z.to_nat (ws_hi (nonempty_ws ws) - lo)).
  destruct (group_props (scan ws fuel lo) lo) as [Hs Hp]. split; [exact Hs|]. split.
  - intros s d Hin. destruct (Hp s d Hin) as (H1 & H2 & H3). split; [exact H2|].
    intros j Hj. unfold zlen in Hj. specialize (H3 (Z.to_nat j) ltac:(lia)).
    rewrite nth_error_scan in H3.
    destruct (Nat.ltb (Z.to_nat (s - lo) + Z.to_nat j) fuel); [|discriminate].
    injection H3 as H3. replace (lo + Z.of_nat (Z.to_nat (s - lo) + Z.to_nat j)) with (s + j) in H3 by lia.
    rewrite zget_nat by lia. split; [exact H3|]. apply nth_error_Some. lia.
  - intros x b H. destruct (mem_at_some ws x None b H) as [Hc|(s0 & d0 & Hin & Hr)]; [discriminate|].
    assert (Hin' : In (s0, d0) (nonempty_ws ws)).
    { unfold nonempty_ws. apply filter_In. split; [exact Hin|]. simpl. destruct d0; [unfold zlen in Hr; simpl in Hr; lia|reflexivity]. }
    destruct (ws_bounds (nonempty_ws ws) s0 d0 Hin') as [Hlo Hhi]. fold lo in Hlo.
    destruct (group_complete (scan ws fuel lo) lo (Z.to_nat (x - lo)) b) as (s & d & Hin2 & Hr').
    + rewrite nth_error_scan. replace (Nat.ltb (Z.to_nat (x - lo)) fuel) with true by (symmetry; apply Nat.ltb_lt; unfold fuel; lia).
      f_equal. rewrite <- H. f_equal. lia.
    + exists s, d. split; [exact Hin2|lia].
Qed.

Lemma validate_set_off c o : validate c = true -> 0 <= o -> validate (set_off c o) = true.
Proof.
  destruct c as [sz al off bin pat subs]. intros Hv Ho. simpl set_off.
  apply validate_inv in Hv. apply validate_inv.
  change (ilen (Img sz al o bin pat subs)) with (ilen (Img sz al off bin pat subs)). tauto.
Qed.

Lemma fop_insert {A} (R : A -> A -> Prop) (c : A) l1 : forall l2,
  ForallOrdPairs R (l1 ++ l2) -> (forall x, In x (l1 ++ l2) -> R x c /\ R c x) ->
  ForallOrdPairs R (l1 ++ c :: l2).
Proof.
  induction l1 as [|h t IH]; intros l2 Hf Hc; simpl in *.
  - constructor; [|exact Hf]. apply Forall_forall. intros x Hx. now apply Hc.
  - inversion Hf as [|? ? Hh Ht]; subst. constructor.
    + rewrite Forall_forall in *. intros x Hx. apply in_app_or in Hx. destruct Hx as [Hx|[<-|Hx]].
      * apply Hh. apply in_or_app. now left.
      * apply Hc. now left.
      * apply Hh. apply in_or_app. now right.
    + apply IH; auto.
Qed.

Definition ex_spec : spec :=
  Spec 0 4 256 [1; 2]%N (Some PInc)
       [(false, Spec 0 1 4 [9; 9; 9]%N None [(false, Spec 0 1 1 [7]%N (Some POnes) [])]);
        (true, Spec 2 2 0 [] (Some (PNum 4660)) [])].

Example ex_nonvacuous :
  exists i, build ex_spec = Ok i /\ wf i /\ validate i = true /\ ilen i = 12 /\
            export i = Ok [1; 2; 2; 3; 9; 7; 9; 7; 18; 52; 10; 11]%N.
Proof.
  eexists. split; [reflexivity|]. split.
  - apply (build_wf ex_spec); [|reflexivity]. simpl. repeat split; lia.
  - split; [reflexivity|]. split; reflexivity.
Qed.

(* a sparse image: positions 0..1 are not written to the HEX file, position 2 is *)
Example ex_sparse :
  exists i, wf i /\ validate i = true /\ covered false i 0 = false /\ covered false i 2 = true /\ isubs i <> [].
Proof.
  exists (Img 8 1 0 [] None [Img 0 1 2 [5; 6]%N (Some PZeros) []]). split.
  - constructor; simpl; auto; try lia. intros c [<-|[]]. constructor; simpl; auto; try lia.
  - split; [reflexivity|]. split; [reflexivity|]. split; [reflexivity|discriminate].
Qed.

Example ex_d11_shape :
  (* BinaryImage("a", size=4, binary=8 bytes): len 4, validate raises (D11 repaired), export still 8 bytes *)
  run_case 1 [VList [VInt 4; VInt 1; VInt 0; VBytes [0;1;2;3;4;5;6;7]%N; VList []; VList []]]
  = VList [VInt 4; VInt 0; VBytes [0;1;2;3;4;5;6;7]%N; VList [VList [VInt 0; VInt 4]]].
Proof. vm_compute. reflexivity. Qed.
