(* Proofs/RotProofs.v -- lemmas about Model/RotModel.v (C03). *)
From Coq Require Import ZArith NArith List Bool Lia.
Require Import Value Bytes BytesProofs Sha2 GenRot RotModel.
Import ListNotations.
Local Open Scope N_scope.

Lemma le_encf_eq w n : le_encf w n = le_enc w n.
Proof.
  revert n; induction w as [|w IH]; intros n; [reflexivity|].
  cbn [le_encf le_enc]. rewrite IH. f_equal.
  - change 255 with (N.ones 8). rewrite N.land_ones. reflexivity.
  - rewrite N.shiftr_div_pow2. reflexivity.
Qed.
Lemma be_encf_eq w n : be_encf w n = be_enc w n.
Proof. unfold be_encf, be_enc. now rewrite le_encf_eq. Qed.
Lemma be_encf_length w n : length (be_encf w n) = w.
Proof. rewrite be_encf_eq. apply be_enc_length. Qed.
Lemma be_encf_wf w n : wf_bytes (be_encf w n).
Proof. rewrite be_encf_eq. apply be_enc_wf. Qed.
Lemma be_dec_be_encf w v : v < 2 ^ (8 * N.of_nat w) -> be_dec (be_encf w v) = v.
Proof. intros H. rewrite be_encf_eq. now apply be_dec_enc_small. Qed.

Lemma to_bytes_ok len v : v < 2 ^ (8 * N.of_nat len) -> to_bytes len v = Ok (be_encf len v).
Proof. intros H. unfold to_bytes. apply N_size_le_iff, N.leb_le in H. now rewrite H. Qed.
Lemma to_bytes_inv len v b : to_bytes len v = Ok b -> b = be_encf len v /\ v < 2 ^ (8 * N.of_nat len).
Proof.
  unfold to_bytes. destruct (N.size v <=? 8 * N.of_nat len) eqn:E; [|discriminate].
  intros H; inversion H; subst. split; [reflexivity|]. apply N_size_le_iff. now apply N.leb_le.
Qed.

Lemma byte_len_spec v : N.size v <= 8 * N.of_nat (byte_len v) < N.size v + 8.
Proof. unfold byte_len. rewrite N2Nat.id. dlia. Qed.
Lemma byte_len_bound v : v < 2 ^ (8 * N.of_nat (byte_len v)).
Proof. apply N_size_le_iff, byte_len_spec. Qed.
Lemma be_min_length v : length (be_min v) = byte_len v.
Proof. apply be_encf_length. Qed.
Lemma be_dec_be_min v : be_dec (be_min v) = v.
Proof. apply be_dec_be_encf, byte_len_bound. Qed.
Lemma be_min_minimal v w : (w < byte_len v)%nat -> be_dec (be_encf w v) <> v.
Proof.
  intros Hw. rewrite be_encf_eq, be_dec_enc. pose proof (byte_len_spec v) as B.
  assert (HP : 2 ^ (8 * N.of_nat w) <= v) by (apply N_size_gt_iff; lia).
  pose proof (N.mod_lt v (2 ^ (8 * N.of_nat w))) as M. lia.
Qed.

Lemma digest_bytes_length c s : length (digest_bytes c s) = (8 * wbytes c)%nat.
Proof.
  destruct s as [[[[[[[a b] cc] d] e] f] g] h]. unfold digest_bytes. cbn [map concat].
  rewrite !app_length, !be_enc_length. simpl. lia.
Qed.
Lemma sha256_length m : length (sha256 m) = 32%nat.
Proof. unfold sha256, sha2. rewrite firstn_length, digest_bytes_length. reflexivity. Qed.
Lemma sha384_length m : length (sha384 m) = 48%nat.
Proof. unfold sha384, sha2. rewrite firstn_length, digest_bytes_length. reflexivity. Qed.
Lemma sha512_length m : length (sha512 m) = 64%nat.
Proof. unfold sha512, sha2. rewrite firstn_length, digest_bytes_length. reflexivity. Qed.
Lemma hash_length a m : length (hash a m) = hlen a.
Proof. destruct a; [apply sha256_length|apply sha384_length|apply sha512_length]. Qed.
Lemma nlen_sha256 m : nlen (sha256 m) = 32.
Proof. unfold nlen. now rewrite sha256_length. Qed.
(* from here on the hash functions are black boxes for unification (vm_compute still evaluates them) *)
Global Opaque sha256 sha384 sha512.

Lemma nlen_nat {A} (a : list A) : N.to_nat (nlen a) = length a.
Proof. unfold nlen. apply Nat2N.id. Qed.

Lemma map_res_ok {A B} (f : A -> res B) (g : A -> B) l :
  (forall a, In a l -> f a = Ok (g a)) -> map_res f l = Ok (map g l).
Proof.
  induction l as [|a t IH]; intros H; [reflexivity|].
  cbn [map_res map]. rewrite (H a (or_introl eq_refl)). rewrite IH; [reflexivity|].
  intros b Hb. apply H. now right.
Qed.
Lemma map_res_ext {A B} (f g : A -> res B) l : (forall a, In a l -> f a = g a) -> map_res f l = map_res g l.
Proof.
  induction l as [|a t IH]; intros H; [reflexivity|].
  cbn [map_res]. rewrite (H a (or_introl eq_refl)). rewrite IH; [reflexivity|]. intros b Hb. apply H. now right.
Qed.
Lemma map_res_total {A B} (f : A -> res B) l : Forall (fun a => exists b, f a = Ok b) l -> exists r, map_res f l = Ok r.
Proof.
  induction 1 as [|a l (b & Hb) _ (r & Hr)]; [now exists []|]. exists (b :: r). cbn [map_res]. now rewrite Hb, Hr.
Qed.
Lemma map_res_repeat {A B} (f : A -> res B) x n y : f x = Ok y -> map_res f (repeat x n) = Ok (repeat y n).
Proof. intros H. induction n as [|n IH]; [reflexivity|]. cbn [repeat map_res]. now rewrite H, IH. Qed.
Lemma map_res_nth {A B} (f : A -> res B) : forall l r i a,
  map_res f l = Ok r -> nth_error l i = Some a -> exists b, nth_error r i = Some b /\ f a = Ok b.
Proof.
  induction l as [|x l IH]; intros r i a; cbn [map_res]; [destruct i; discriminate|].
  destruct (f x) as [y|] eqn:E; [|discriminate]. destruct (map_res f l) as [ys|]; [|discriminate].
  intros H; inversion H; subst. destruct i as [|i]; cbn [nth_error]; [|apply (IH ys i a eq_refl)].
  intros H2; inversion H2; subst. now exists y.
Qed.
Lemma map_res_in {A B} (f : A -> res B) l r a : map_res f l = Ok r -> In a l -> exists b, f a = Ok b.
Proof. intros H Ha. apply In_nth_error in Ha as [i Hi]. destruct (map_res_nth f l r i a H Hi) as (b & _ & Hb). now exists b. Qed.
Lemma map_res_forall {A B} (f : A -> res B) (P : B -> Prop) : (forall a b, f a = Ok b -> P b) ->
  forall l r, map_res f l = Ok r -> Forall P r /\ length r = length l.
Proof.
  intros HP. induction l as [|a l IH]; intros r; cbn [map_res].
  - intros H; inversion H. split; [constructor|reflexivity].
  - destruct (f a) as [b|] eqn:E; [|discriminate]. destruct (map_res f l) as [bs|]; [|discriminate].
    intros H; inversion H; subst. destruct (IH bs eq_refl) as [HF HL]. split; [constructor; [now apply (HP a)|assumption]|cbn; lia].
Qed.

Definition key_ok (k : key) : Prop :=
  match k with
  | KRsa _ _ => True
  | KEcc c x y => x < 2 ^ (8 * N.of_nat (coord_size c)) /\ y < 2 ^ (8 * N.of_nat (coord_size c))
  end.
Definition is_rsa (k : key) : Prop := match k with KRsa _ _ => True | _ => False end.
Definition is_ecc (c : N) (k : key) : Prop := match k with KEcc c' _ _ => c' = c | _ => False end.

Lemma is_ecc_inv c k : is_ecc c k -> exists x y, k = KEcc c x y.
Proof. destruct k as [|c' x y]; [contradiction|]. intros <-. now exists x, y. Qed.
Lemma is_rsa_key_ok ks : Forall is_rsa ks -> Forall key_ok ks.
Proof. apply Forall_impl. intros [|] H; [exact I|contradiction]. Qed.

Lemma raw_key_ecc c x y : key_ok (KEcc c x y) ->
  raw_key (KEcc c x y) = Ok (be_encf (coord_size c) x ++ be_encf (coord_size c) y).
Proof. intros [Hx Hy]. unfold raw_key. rewrite (to_bytes_ok _ _ Hx), (to_bytes_ok _ _ Hy). reflexivity. Qed.

(* NXP raw keys: fixed-width coordinates, minimal RSA numbers, decode (encode k) = k *)
Definition raw_ok (k : key) : Prop :=
  match k with
  | KRsa n e => (byte_len n = 256 \/ byte_len n = 384 \/ byte_len n = 512)%nat /\ (byte_len e = 3 \/ byte_len e = 4)%nat
  | KEcc c x y => (c = 256 \/ c = 384 \/ c = 521) /\ on_curve c x y = true
  end.

Lemma curve_p_bound c : c = 256 \/ c = 384 \/ c = 521 -> curve_p c <= 2 ^ (8 * N.of_nat (coord_size c)).
Proof. intros [-> | [-> | ->]]; vm_compute; discriminate. Qed.
Lemma on_curve_key_ok c x y : c = 256 \/ c = 384 \/ c = 521 -> on_curve c x y = true -> key_ok (KEcc c x y).
Proof.
  intros Hc H. unfold on_curve in H. apply andb_true_iff in H as [H _]. apply andb_true_iff in H as [Hx Hy].
  apply N.ltb_lt in Hx, Hy. pose proof (curve_p_bound c Hc). split; lia.
Qed.

Lemma raw_decode_ecc c x y : c = 256 \/ c = 384 \/ c = 521 -> on_curve c x y = true ->
  raw_decode (be_encf (coord_size c) x ++ be_encf (coord_size c) y) = Ok (KEcc c x y).
Proof.
  intros Hc HO. destruct (on_curve_key_ok c x y Hc HO) as [Hx Hy]. unfold raw_decode.
  set (cs := coord_size c) in *.
  assert (L : length (be_encf cs x ++ be_encf cs y) = (2 * cs)%nat) by (rewrite app_length, !be_encf_length; lia).
  unfold nlen. rewrite L, (Nat.mul_comm 2 cs), Nat.div_mul by discriminate.
  rewrite firstn_app_exact, skipn_app_exact by apply be_encf_length. rewrite !be_dec_be_encf by assumption.
  destruct Hc as [-> | [-> | ->]]; subst cs; cbn [coord_size]; simpl N.of_nat; cbv iota beta; cbn [N.eqb Pos.eqb]; now rewrite HO.
Qed.
Lemma raw_decode_rsa m d : (m = 256 \/ m = 384 \/ m = 512)%nat -> (length d = m + 3 \/ length d = m + 4)%nat ->
  raw_decode d = Ok (KRsa (be_dec (firstn m d)) (be_dec (skipn m d))).
Proof. intros Hm Hd. unfold raw_decode, nlen. destruct Hm as [-> | [-> | ->]]; destruct Hd as [-> | ->]; reflexivity. Qed.

Lemma raw_key_roundtrip_lemma k : raw_ok k -> bind (raw_key k) raw_decode = Ok k.
Proof.
  destruct k as [n e|c x y].
  - intros [Hn He]. cbn [raw_key bind]. rewrite (raw_decode_rsa (byte_len n)).
    + rewrite firstn_app_exact, skipn_app_exact by apply be_min_length. now rewrite !be_dec_be_min.
    + exact Hn.
    + rewrite app_length, !be_min_length. lia.
  - intros [Hc HO]. rewrite raw_key_ecc by now apply on_curve_key_ok. now apply raw_decode_ecc.
Qed.
(* P-256 base point is a valid key with this property; so is the 2048-bit modulus 2^2047 + 1 with e = 65537 *)
Example raw_ok_nontrivial :
  raw_ok (KEcc 256 0x6B17D1F2E12C4247F8BCE6E563A440F277037D812DEB33A0F4A13945D898C296 0x4FE342E2FE1A7F9B8EE7EB4A7C0F9E162BCE33576B315ECECBB6406837BF51F5)
  /\ raw_ok (KRsa (2 ^ 2047 + 1) 65537).
Proof. split; [split; [now left|vm_compute; reflexivity]|split; [left; vm_compute; reflexivity|left; vm_compute; reflexivity]]. Qed.

Definition supply_ok (p : key * supply) : Prop :=
  match snd p with SPlain => True | SCaBytes => True | SRaw => raw_ok (fst p) | SCaObj => True end.
Definition is_ca (s : supply) : bool := match s with SCaBytes | SCaObj => true | _ => false end.

(* an admissible input reaches the tables as the key it stands for; only the CA attribute records how it came in *)
Lemma convert_all_spec inp : Forall supply_ok inp -> convert_all inp = Ok (map (fun p => (fst p, is_ca (snd p))) inp).
Proof.
  intros H. apply map_res_ok. intros [k s] Hp. rewrite Forall_forall in H. specialize (H _ Hp).
  unfold supply_ok, convert_key in *. cbn [fst snd] in *. destruct s; try reflexivity.
  pose proof (raw_key_roundtrip_lemma k H) as E. destruct (raw_key k) as [d|]; [|discriminate]. cbn [bind] in *. now rewrite E.
Qed.
Lemma convert_all_plain ks : convert_all (map (fun k => (k, SPlain)) ks) = Ok (map (fun k => (k, false)) ks).
Proof. rewrite convert_all_spec, map_map; [reflexivity|]. apply Forall_forall. intros p Hp. apply in_map_iff in Hp as (k & <- & _). exact I. Qed.

Example supply_ok_nontrivial : Forall supply_ok [(KRsa (2 ^ 2047 + 1) 65537, SRaw); (KRsa 7 3, SCaBytes); (KRsa 7 3, SPlain); (KRsa 7 3, SCaObj)].
Proof. repeat constructor; apply raw_ok_nontrivial. Qed.

(* the key sets the RKHT classes accept: RSA keys, or ECC keys of one curve P-256 / P-384 *)
Definition uniform (ks : list key) : Prop :=
  Forall is_rsa ks \/ exists c, (c = 256 \/ c = 384) /\ Forall (is_ecc c) ks.
(* digest of an ECC key by curve; rkh_spec (KEcc c x y) is hash (curve_halg c) (X || Y) by definition *)
Definition curve_halg (c : N) : halg := if c =? 256 then A256 else if c =? 384 then A384 else A512.

Lemma calc_key_hash_spec k a : key_ok k -> key_halg k = Ok a -> calc_key_hash k = Ok (rkh_spec k).
Proof.
  destruct k as [n e|c x y]; intros Hk Ha; [reflexivity|].
  destruct Hk as [Hx Hy]. unfold calc_key_hash. rewrite (to_bytes_ok _ _ Hy), (to_bytes_ok _ _ Hx). cbn [bind].
  unfold key_halg in *. unfold rkh_spec.
  destruct (c =? 256); [inversion Ha; reflexivity|]. destruct (c =? 384); [inversion Ha; reflexivity|discriminate].
Qed.

Lemma rkh_spec_length k : length (rkh_spec k) = match k with KEcc c _ _ => hlen (curve_halg c) | _ => 32%nat end.
Proof. destruct k as [n e|c x y]; [apply sha256_length|apply hash_length]. Qed.
Lemma rkh_spec_ecc_length c ks : Forall (is_ecc c) ks -> Forall (fun h => length h = hlen (curve_halg c)) (map rkh_spec ks).
Proof.
  intros H. apply Forall_map. eapply Forall_impl; [|exact H]. intros k Hk. destruct (is_ecc_inv c k Hk) as (x & y & ->). apply rkh_spec_length.
Qed.

Lemma uniform_halg ks k0 : uniform (k0 :: ks) ->
  exists a0, key_halg k0 = Ok a0 /\ forall k, In k (k0 :: ks) -> key_halg k = Ok a0 /\ same_class k0 k = true.
Proof.
  intros [H|(c & Hc & H)]; rewrite Forall_forall in H; pose proof (H k0 (or_introl eq_refl)) as H0.
  - exists A256. destruct k0; [|contradiction]. split; [reflexivity|]. intros k Hk. specialize (H k Hk). destruct k; [|contradiction]. split; reflexivity.
  - destruct (is_ecc_inv c k0 H0) as (x0 & y0 & ->). exists (curve_halg c).
    assert (E : forall x y, key_halg (KEcc c x y) = Ok (curve_halg c)) by (intros; destruct Hc as [-> | ->]; reflexivity).
    split; [apply E|]. intros k Hk. destruct (is_ecc_inv c k (H k Hk)) as (x & y & ->). split; [apply E|reflexivity].
Qed.

Lemma halg_eqb_refl a : halg_eqb a a = true.
Proof. destruct a; reflexivity. Qed.

Lemma rkht_from_keys_ok ks : uniform ks -> Forall key_ok ks -> (length ks <= 4)%nat ->
  rkht_from_keys ks = Ok (map rkh_spec ks).
Proof.
  intros HU HK HL. destruct ks as [|k0 t]; [reflexivity|].
  destruct (uniform_halg t k0 HU) as (a0 & H0 & Hall).
  unfold rkht_from_keys.
  assert (E1 : forallb (same_class k0) (k0 :: t) = true).
  { apply forallb_forall. intros k Hk. apply (Hall k Hk). }
  rewrite E1. cbn [negb]. rewrite H0.
  assert (E2 : forallb (fun k => match key_halg k with Ok a => halg_eqb a a0 | Err _ => false end) (k0 :: t) = true).
  { apply forallb_forall. intros k Hk. destruct (Hall k Hk) as [-> _]. apply halg_eqb_refl. }
  rewrite E2. cbn [negb].
  rewrite (map_res_ok calc_key_hash rkh_spec).
  - cbn [bind]. unfold nlen. rewrite map_length.
    destruct (4 <? N.of_nat (length (k0 :: t))) eqn:E; [apply N.ltb_lt in E; lia|reflexivity].
  - intros k Hk. rewrite Forall_forall in HK. apply (calc_key_hash_spec k a0); [apply HK, Hk|apply (Hall k Hk)].
Qed.

(* every hash of an accepted RSA / P-256 set is 32 bytes: RKHTv1.__init__ passes *)
Definition v1_set (ks : list key) : Prop := Forall is_rsa ks \/ Forall (is_ecc 256) ks.
Lemma v1_set_uniform ks : v1_set ks -> uniform ks.
Proof. intros [H|H]; [now left|right; exists 256; split; [now left|assumption]]. Qed.
Lemma v1_hash_len ks : v1_set ks -> Forall (fun h => length h = 32%nat) (map rkh_spec ks).
Proof.
  intros [H|H]; [|now apply (rkh_spec_ecc_length 256)]. apply Forall_map. eapply Forall_impl; [|exact H].
  intros [|] Hk; [apply sha256_length|contradiction].
Qed.
Lemma rkht_v1_ok ks : v1_set ks -> Forall key_ok ks -> (length ks <= 4)%nat -> rkht_v1 ks = Ok (map rkh_spec ks).
Proof.
  intros HV HK HL. unfold rkht_v1. rewrite rkht_from_keys_ok by (try apply v1_set_uniform; assumption). cbn [bind].
  assert (E : forallb (fun h => nlen h =? g_rkh_size) (map rkh_spec ks) = true).
  { apply forallb_forall. apply Forall_forall. eapply Forall_impl; [|exact (v1_hash_len ks HV)]. intros h Hh. unfold nlen. now rewrite Hh. }
  now rewrite E.
Qed.

(* RKHTv1.export of up to four 32-byte hashes = the hashes followed by zero slots *)
Lemma export_v1_spec (hs : list (list N)) : (length hs <= 4)%nat -> Forall (fun h => length h = 32%nat) hs ->
  export_v1 hs = concat hs ++ zeros (32 * (4 - length hs)).
Proof.
  intros HL HH. unfold export_v1. change (N.to_nat g_rkht_size) with 4%nat. cbn [seq map concat].
  assert (S : forall i h, nth_error hs i = Some h -> slot_v1 hs i = h).
  { intros i h E. unfold slot_v1. rewrite E. rewrite Forall_forall in HH. pose proof (HH h (nth_error_In _ _ E)) as L. destruct h; [discriminate|reflexivity]. }
  assert (Z : forall i, nth_error hs i = None -> slot_v1 hs i = zeros 32).
  { intros i E. unfold slot_v1. now rewrite E. }
  destruct hs as [|h0 [|h1 [|h2 [|h3 [|h4 t]]]]]; cbn [length] in HL; try lia;
    rewrite ?(S 0%nat h0), ?(S 1%nat h1), ?(S 2%nat h2), ?(S 3%nat h3), ?Z by reflexivity; cbn [concat length]; rewrite ?app_nil_r, <- ?app_assoc; reflexivity.
Qed.

Lemma rkth_v1_spec ks : v1_set ks -> (length ks <= 4)%nat -> rkth_v1 (map rkh_spec ks) = rot_spec_v1 ks.
Proof. intros HV HL. unfold rkth_v1, rot_spec_v1. rewrite export_v1_spec, map_length; [reflexivity|now rewrite map_length|now apply v1_hash_len]. Qed.

Lemma rot_v1_plain ks : v1_set ks -> Forall key_ok ks -> (length ks <= 4)%nat ->
  rot_v1 (map (fun k => (k, SPlain)) ks) = Ok (rot_spec_v1 ks).
Proof.
  intros HV HK HL. unfold rot_v1. rewrite convert_all_plain. cbn [bind]. rewrite map_map. cbn [fst]. rewrite map_id.
  rewrite rkht_v1_ok by assumption. cbn [bind]. now rewrite rkth_v1_spec.
Qed.

Lemma key_hash256_v1 ks k : v1_set ks -> Forall key_ok ks -> In k ks -> key_hash256 k = Ok (rkh_spec k).
Proof.
  intros HV HK Hk. rewrite Forall_forall in HK. specialize (HK k Hk).
  destruct HV as [H|H]; rewrite Forall_forall in H; specialize (H k Hk).
  - destruct k; [reflexivity|contradiction].
  - destruct (is_ecc_inv _ _ H) as (x & y & ->). unfold key_hash256. now rewrite raw_key_ecc.
Qed.
Lemma cb1_rkh_ok ks : v1_set ks -> Forall key_ok ks -> (length ks <= 4)%nat ->
  cb1_rkh_of_keys (map Some ks) = Ok (map rkh_spec ks).
Proof.
  intros HV HK HL. unfold cb1_rkh_of_keys. unfold nlen. rewrite map_length.
  destruct (4 <? N.of_nat (length ks)) eqn:E; [apply N.ltb_lt in E; lia|].
  rewrite map_res_ok with (g := fun o : option key => match o with Some k => rkh_spec k | None => zeros 32 end).
  - now rewrite map_map.
  - intros o Ho. apply in_map_iff in Ho as (k & <- & Hk). apply (key_hash256_v1 ks k HV HK Hk).
Qed.

Lemma pfr_v1_ok ks : v1_set ks -> Forall key_ok ks -> (length ks <= 4)%nat -> ks <> [] ->
  pfr_rotkh 1 256 ks = Ok (rot_spec_v1 ks).
Proof.
  intros HV HK HL HN. unfold pfr_rotkh. change (1 =? 1) with true. cbv iota.
  rewrite rkht_v1_ok by assumption. cbn [bind]. pose proof (v1_hash_len ks HV) as L. destruct ks as [|k0 t]; [contradiction|].
  cbn [map] in *. inversion L as [|? ? L0 _]; subst. unfold nlen. rewrite L0. change (256 <? 8 * N.of_nat 32) with false. cbv iota. cbn [bind].
  change (rkh_spec k0 :: map rkh_spec t) with (map rkh_spec (k0 :: t)). rewrite rkth_v1_spec by assumption.
  unfold rot_spec_v1 at 2. rewrite sha256_length. apply f_equal, app_nil_r.
Qed.

(* debug credential, RSA: the exponent is written in exactly three bytes *)
Definition rsa_e3 (k : key) : Prop := match k with KRsa _ e => byte_len e = 3%nat | _ => False end.
Lemma dc_rsa_item_ok k : rsa_e3 k -> dc_rsa_item k = Ok (rkh_spec k).
Proof.
  destruct k as [n e|]; [|contradiction]. intros H. simpl in H. unfold dc_rsa_item.
  assert (B : e < 2 ^ (8 * N.of_nat 3)) by (rewrite <- H; apply byte_len_bound).
  rewrite (to_bytes_ok _ _ B). cbn [bind]. unfold rkh_spec, be_min. now rewrite H.
Qed.
Lemma rsa_e3_is_rsa ks : Forall rsa_e3 ks -> Forall is_rsa ks.
Proof. apply Forall_impl. intros [|] H; [exact I|contradiction]. Qed.
Lemma dc_rsa_ok ks : Forall rsa_e3 ks -> (length ks <= 4)%nat -> dc_rsa_hash ks = Ok (rot_spec_v1 ks).
Proof.
  intros HE HL. unfold dc_rsa_hash, dc_rsa_meta. unfold nlen.
  destruct (4 <? N.of_nat (length ks)) eqn:E; [apply N.ltb_lt in E; lia|].
  rewrite (map_res_ok dc_rsa_item rkh_spec).
  - cbn [bind]. unfold rot_spec_v1. do 2 f_equal.
    rewrite (concat_length_uniform 32) by (apply v1_hash_len; left; now apply rsa_e3_is_rsa). rewrite map_length. do 2 f_equal. lia.
  - intros k Hk. rewrite Forall_forall in HE. apply dc_rsa_item_ok, HE, Hk.
Qed.

(* every tool path gives the documented value *)
Example paths_agree_v1_nontrivial : Forall is_rsa [KRsa 143 65537; KRsa 187 65537] /\ Forall rsa_e3 [KRsa 143 65537; KRsa 187 65537].
Proof. split; repeat constructor. Qed.

(* without the three-byte exponent the debug-credential path disagrees (e = 3) *)
Lemma dc_rsa_e3_refuted : exists k, is_rsa k /\ ~ rsa_e3 k /\ dc_rsa_hash [k] <> rot_v1 [(k, SPlain)].
Proof.
  exists (KRsa 143 3). split; [exact I|]. split.
  - simpl. vm_compute. discriminate.
  - vm_compute. discriminate.
Qed.

Definition ecc_set (c : N) (ks : list key) : Prop := (c = 256 \/ c = 384) /\ Forall (is_ecc c) ks.
Lemma ecc_set_uniform c ks : ecc_set c ks -> uniform ks.
Proof. intros [Hc H]. right. exists c. now split. Qed.

(* the documented value for several keys: the curve's digest of the table of hashes *)
Lemma rot_spec_v21_table c ks : ecc_set c ks -> (2 <= length ks)%nat -> rot_spec_v21 ks = hash (curve_halg c) (concat (map rkh_spec ks)).
Proof.
  intros [Hc HF] HL. destruct ks as [|k0 [|k1 t]]; cbn [length] in HL; try lia.
  inversion HF as [|? ? H0 _]; subst. destruct (is_ecc_inv c k0 H0) as (x & y & ->). destruct Hc as [-> | ->]; reflexivity.
Qed.

Lemma rkth_v21_spec c ks : ecc_set c ks -> ks <> [] -> rkth_v21 (map rkh_spec ks) = Ok (rot_spec_v21 ks).
Proof.
  intros HS HN. destruct ks as [|k0 [|k1 t]] eqn:EK; [contradiction|reflexivity|]. rewrite <- EK in *.
  rewrite (rot_spec_v21_table c) by (subst ks; cbn [length]; auto with arith).
  pose proof (rkh_spec_ecc_length c ks (proj2 HS)) as L. rewrite EK in L |- *. cbn [map] in *. inversion L as [|? ? L0 _]; subst.
  unfold rkth_v21, nlen. rewrite L0.
  assert (EH : halg_of_len (N.of_nat (hlen (curve_halg c))) = Ok (curve_halg c)) by (destruct HS as [[-> | ->] _]; reflexivity).
  rewrite EH. cbn [bind]. unfold export_v21, nlen. cbn [length].
  now replace (1 <? N.of_nat (S (S (length (map rkh_spec t))))) with true by (symmetry; apply N.ltb_lt; lia).
Qed.

Lemma rot_v21_plain c ks : ecc_set c ks -> Forall key_ok ks -> (length ks <= 4)%nat -> ks <> [] ->
  rot_v21 (map (fun k => (k, SPlain)) ks) = Ok (rot_spec_v21 ks).
Proof.
  intros HS HK HL HN. unfold rot_v21. rewrite convert_all_plain. cbn [bind]. rewrite map_map. cbn [fst]. rewrite map_id.
  rewrite rkht_from_keys_ok by (try apply (ecc_set_uniform c); assumption). cbn [bind]. now apply (rkth_v21_spec c).
Qed.

Lemma ecc_only_set c ks : Forall (is_ecc c) ks -> ecc_only ks = true.
Proof.
  intros H. apply forallb_forall. intros k Hk. rewrite Forall_forall in H. destruct (is_ecc_inv c k (H k Hk)) as (x & y & ->). reflexivity.
Qed.

Definition rkr_flags (ca : bool) (used n nib : N) : N :=
  N.lor (N.lor (N.lor (if ca then 2 ^ 31 else 0) (N.shiftl used 8)) (N.shiftl n 4)) nib.

Lemma rkr_calc_ok c ca used ks : ecc_set c ks -> Forall key_ok ks -> (length ks <= 4)%nat -> (N.to_nat used < length ks)%nat ->
  exists x y, nth_error ks (N.to_nat used) = Some (KEcc c x y) /\ key_ok (KEcc c x y) /\
    rkr_calc ca used ks = Ok (rkr_flags ca used (nlen ks) (curve_nibble c), map rkh_spec ks,
                              be_encf (coord_size c) x ++ be_encf (coord_size c) y).
Proof.
  intros HS HK HL HU. destruct (nth_error ks (N.to_nat used)) as [k|] eqn:EN; [|apply nth_error_None in EN; lia].
  pose proof (nth_error_In _ _ EN) as Hk. pose proof HK as HK'. rewrite Forall_forall in HK'. pose proof (HK' k Hk) as KO.
  pose proof (proj2 HS) as HF. rewrite Forall_forall in HF. destruct (is_ecc_inv c k (HF k Hk)) as (x & y & ->).
  exists x, y. split; [reflexivity|]. split; [exact KO|].
  unfold rkr_calc. destruct ks as [|k0 t] eqn:EK; [cbn in HU; lia|]. rewrite <- EK in *.
  rewrite (ecc_only_set c ks (proj2 HS)). cbn [negb].
  rewrite rkht_from_keys_ok by (try apply (ecc_set_uniform c); assumption). cbn [bind]. rewrite EN, raw_key_ecc by assumption. cbn [bind].
  destruct (is_ecc_inv c k0 (HF k0 ltac:(rewrite EK; now left))) as (x0 & y0 & ->). reflexivity.
Qed.

Lemma cb21_rkth_ok c ca used ks isk fam : ecc_set c ks -> Forall key_ok ks -> (length ks <= 4)%nat -> (N.to_nat used < length ks)%nat ->
  cb21_rkth {| b_ca := ca; b_used := used; b_keys := ks; b_isk := isk; b_family := fam |} = Ok (rot_spec_v21 ks).
Proof.
  intros HS HK HL HU. destruct (rkr_calc_ok c ca used ks HS HK HL HU) as (x & y & _ & _ & E).
  unfold cb21_rkth. cbn [b_ca b_used b_keys]. rewrite E. cbn [bind]. apply (rkth_v21_spec c); [assumption|].
  intros ->. simpl in HU. lia.
Qed.

Lemma pfr_v21_ok c ks : ecc_set c ks -> Forall key_ok ks -> (length ks <= 4)%nat -> ks <> [] ->
  pfr_rotkh 21 384 ks = Ok (rot_spec_v21 ks ++ zeros (48 - length (rot_spec_v21 ks))).
Proof.
  intros HS HK HL HN. unfold pfr_rotkh. change (21 =? 1) with false. cbv iota.
  rewrite rkht_from_keys_ok by (try apply (ecc_set_uniform c); assumption). cbn [bind].
  pose proof (rkh_spec_ecc_length c ks (proj2 HS)) as L. destruct ks as [|k0 t]; [contradiction|]. cbn [map] in *.
  inversion L as [|? ? L0 _]; subst. unfold nlen at 1. rewrite L0.
  assert (W : (384 <? 8 * N.of_nat (hlen (curve_halg c))) = false) by (destruct HS as [[-> | ->] _]; reflexivity).
  rewrite W. change (rkh_spec k0 :: map rkh_spec t) with (map rkh_spec (k0 :: t)).
  rewrite (rkth_v21_spec c) by assumption. reflexivity.
Qed.

(* debug credential, ECC (RotMetaEcc; P-521 has its own subclass with HASH_SIZE 66 and SHA-512) *)
Lemma div_mul_cancel_nat n : n <> 0 -> 32 * n / n = 32 /\ 48 * n / n = 48.
Proof. intros H. split; apply N.div_mul; assumption. Qed.

(* RotMetaEcc.load_from_config: one digest per key when there are several keys, no table for a single key *)
Lemma dc_ecc_items_spec c ks : c = 256 \/ c = 384 \/ c = 521 -> ks <> [] -> Forall (is_ecc c) ks -> Forall key_ok ks ->
  dc_ecc_items ks = Ok (if 1 <? nlen ks then map rkh_spec ks else []).
Proof.
  intros Hc HN HF HK. unfold dc_ecc_items. destruct ks as [|k0 t] eqn:EK; [contradiction|]. rewrite <- EK in *.
  fold (ecc_only ks). rewrite (ecc_only_set c ks HF). cbn [negb]. rewrite Forall_forall in HF, HK.
  destruct (is_ecc_inv c k0 (HF k0 ltac:(rewrite EK; now left))) as (x0 & y0 & ->). cbn [key_bits].
  assert (E2 : forallb (fun k => N.of_nat (coord_size (key_bits k)) =? N.of_nat (coord_size c)) ks = true).
  { apply forallb_forall. intros k Hk. destruct (is_ecc_inv c k (HF k Hk)) as (x & y & ->). apply N.eqb_refl. }
  rewrite E2. cbn [negb].
  assert (EH : dc_hash_of_size (N.of_nat (coord_size c)) = Ok (curve_halg c)) by (destruct Hc as [-> | [-> | ->]]; reflexivity).
  rewrite EH. cbn [bind]. destruct (1 <? nlen ks); [|reflexivity]. apply map_res_ok.
  intros k Hk. destruct (is_ecc_inv c k (HF k Hk)) as (x & y & ->). now rewrite raw_key_ecc by (apply HK, Hk).
Qed.
(* several keys: the subclass' digest of the table, whichever key is used *)
Lemma dc_ecc_hash_table c ks rot_id : c = 256 \/ c = 384 \/ c = 521 -> Forall (is_ecc c) ks -> Forall key_ok ks ->
  (2 <= length ks <= 4)%nat -> (N.to_nat rot_id < length ks)%nat ->
  dc_ecc_hash ks rot_id = Ok (hash (curve_halg c) (concat (map rkh_spec ks))).
Proof.
  intros Hc HF HK HL HU. unfold dc_ecc_hash. rewrite (dc_ecc_items_spec c) by (try assumption; intros ->; cbn in HL; lia).
  assert (E1 : (1 <? nlen ks) = true) by (apply N.ltb_lt; unfold nlen; lia). rewrite E1. cbn [bind].
  assert (LN : (4 <? nlen ks) || (nlen ks <? rot_id + 1) = false) by (unfold nlen; apply orb_false_iff; split; apply N.ltb_ge; lia).
  rewrite LN. unfold nlen in *. rewrite map_length, E1.
  pose proof (concat_length_uniform _ _ (rkh_spec_ecc_length c ks HF)) as LC. rewrite map_length in LC.
  destruct (concat (map rkh_spec ks)) as [|b0 tb] eqn:EC.
  { exfalso. cbn [length] in LC. destruct Hc as [-> | [-> | ->]]; cbn in LC; lia. }
  rewrite <- EC. destruct ks as [|k0 t]; [cbn in HL; lia|]. inversion HF as [|? ? H0 _]; subst.
  destruct (is_ecc_inv c k0 H0) as (x0 & y0 & ->). cbn [key_bits].
  now replace (dc_hash_of_size (N.of_nat (coord_size c))) with (Ok (curve_halg c)) by (destruct Hc as [-> | [-> | ->]]; reflexivity).
Qed.
(* a single key: its own hash, by the algorithm RKHT would pick (none for P-521) *)
Lemma dc_ecc_hash_single c x y : c = 256 \/ c = 384 -> key_ok (KEcc c x y) -> dc_ecc_hash [KEcc c x y] 0 = Ok (rkh_spec (KEcc c x y)).
Proof.
  intros Hc KO. unfold dc_ecc_hash. rewrite (dc_ecc_items_spec c); [|tauto|discriminate|repeat constructor|constructor; [exact KO|constructor]].
  cbn [bind nlen length N.of_nat N.ltb N.compare orb N.add Pos.compare Pos.compare_cont N.to_nat nth_error].
  rewrite raw_key_ecc by assumption. destruct Hc as [-> | ->]; reflexivity.
Qed.

Lemma dc_ecc_ok c ks rot_id : ecc_set c ks -> Forall key_ok ks -> (length ks <= 4)%nat -> (N.to_nat rot_id < length ks)%nat ->
  dc_ecc_hash ks rot_id = Ok (rot_spec_v21 ks).
Proof.
  intros HS HK HL HU. pose proof HS as [Hc HF]. destruct ks as [|k0 [|k1 t]] eqn:EK; [cbn in HU; lia| |]; rewrite <- EK in *.
  - subst ks. inversion HF as [|? ? H0 _]; subst. destruct (is_ecc_inv c k0 H0) as (x & y & ->). inversion HK; subst.
    replace rot_id with 0 by (cbn in HU; lia). now apply dc_ecc_hash_single.
  - assert (2 <= length ks)%nat by (subst ks; cbn; lia).
    rewrite (rot_spec_v21_table c) by assumption. apply dc_ecc_hash_table; try assumption; [tauto|lia].
Qed.

(* P-521: the table of SHA-512 key hashes is hashed with SHA-512 *)
Example dc_ecc_p521_table :
  dc_ecc_hash [KEcc 521 1 2; KEcc 521 3 4] 1 =
  Ok (sha512 (sha512 (be_encf 66 1 ++ be_encf 66 2) ++ sha512 (be_encf 66 3 ++ be_encf 66 4))).
Proof.
  rewrite (dc_ecc_hash_table 521); [cbn [map concat]; now rewrite app_nil_r|tauto| | |cbn; lia|cbn; lia];
    repeat constructor; vm_compute; reflexivity.
Qed.

(* independence of the signer (used root index, certificates), for all key lists *)
Lemma calc_ok_raw_ok k h : calc_key_hash k = Ok h -> exists p, raw_key k = Ok p.
Proof.
  destruct k as [n e|c x y]; intros H; [eexists; reflexivity|].
  unfold calc_key_hash in H. destruct (to_bytes (coord_size c) y) as [yb|] eqn:Ey; [|discriminate].
  cbn [bind] in H. destruct (to_bytes (coord_size c) x) as [xb|] eqn:Ex; [|discriminate].
  unfold raw_key. rewrite Ex, Ey. eexists; reflexivity.
Qed.
Lemma rkht_from_keys_in ks hs k : rkht_from_keys ks = Ok hs -> In k ks -> exists p, raw_key k = Ok p.
Proof.
  intros H Hk. unfold rkht_from_keys in H. destruct ks as [|k0 t] eqn:EK; [contradiction|]. rewrite <- EK in *.
  destruct (negb (forallb (same_class k0) ks)); [discriminate|]. destruct (key_halg k0); [|discriminate].
  destruct (negb _); [discriminate|]. destruct (map_res calc_key_hash ks) as [hs'|] eqn:EM; [|discriminate].
  destruct (map_res_in _ _ _ k EM Hk) as (h & Eh). apply (calc_ok_raw_ok k h Eh).
Qed.

(* what a successful RootKeyRecord.calculate has computed *)
Lemma rkr_calc_inv ca used ks f hs rp : rkr_calc ca used ks = Ok (f, hs, rp) ->
  rkht_from_keys ks = Ok hs /\ exists k, nth_error ks (N.to_nat used) = Some k /\ raw_key k = Ok rp.
Proof.
  unfold rkr_calc. destruct ks as [|k0 t]; [discriminate|]. destruct (negb _); [discriminate|].
  destruct (rkht_from_keys (k0 :: t)) as [hs'|]; [|discriminate]. cbn [bind].
  destruct (nth_error (k0 :: t) (N.to_nat used)) as [k|] eqn:EN; [|discriminate].
  destruct (raw_key k) as [p|] eqn:EP; [|discriminate]. cbn [bind]. intros H; inversion H; subst. split; [reflexivity|]. now exists k.
Qed.

Lemma cb21_rkth_general ca used ks isk fam : (N.to_nat used < length ks)%nat ->
  cb21_rkth {| b_ca := ca; b_used := used; b_keys := ks; b_isk := isk; b_family := fam |}
  = if ecc_only ks then bind (rkht_from_keys ks) rkth_v21 else Err 1.
Proof.
  intros HU. unfold cb21_rkth, rkr_calc. cbn [b_ca b_used b_keys]. destruct ks as [|k0 t] eqn:EK; [simpl in HU; lia|]. rewrite <- EK in *.
  destruct (ecc_only ks); cbn [negb bind]; [|reflexivity].
  destruct (rkht_from_keys ks) as [hs|] eqn:ER; cbn [bind]; [|reflexivity].
  destruct (nth_error ks (N.to_nat used)) as [k|] eqn:EN; [|apply nth_error_None in EN; lia].
  destruct (rkht_from_keys_in ks hs k ER (nth_error_In _ _ EN)) as (p & Ep). rewrite Ep. reflexivity.
Qed.

(* a record is its header around the crypto parameters; a table is its header around the records *)
Definition srk_record_of (c : ahab_cfg) (si : srk_info) (ca : bool) (p : list N) : list N :=
  [a_rec_tag c] ++ le16 (12 + nlen p) ++ [si_alg si; hash_tag c (si_hash si); si_ksid si; 0; srk_flags c ca]
  ++ le16 (si_l1 si) ++ le16 (si_l2 si) ++ p.
Definition srk_table_of (c : ahab_cfg) (recs : list (list N)) : list N :=
  [a_tab_tag c] ++ le16 (4 + nlen (concat recs)) ++ [a_tab_version c] ++ concat recs.

(* v2 parameters are a digest padded to 64 bytes, whatever the record number *)
Lemma srk_params_length c si id : length (srk_params c si id) = if a_v2 c then 64%nat else length (si_data si).
Proof.
  unfold srk_params. destruct (a_v2 c); [|reflexivity]. rewrite app_length, zeros_length, hash_length.
  change (N.to_nat g_ahab2_crypto_params_len) with 64%nat. destruct (halg_of_id (si_hash si)); reflexivity.
Qed.
Lemma srk_record_of_length c si ca p : length (srk_record_of c si ca p) = (12 + length p)%nat.
Proof. unfold srk_record_of, le16. rewrite !app_length, !le_enc_length. reflexivity. Qed.
Lemma srk_table_of_length c k recs : Forall (fun r => length r = k) recs -> length (srk_table_of c recs) = (4 + k * length recs)%nat.
Proof. intros H. unfold srk_table_of, le16. rewrite !app_length, le_enc_length, (concat_length_uniform k) by assumption. reflexivity. Qed.

Lemma number_from_repeat {A} (x : A) n : forall i, number_from (N.of_nat i) (repeat x n) = map (fun j => (N.of_nat j, x)) (seq i n).
Proof.
  induction n as [|n IH]; intros i; [reflexivity|]. cbn [repeat number_from seq map].
  replace (N.of_nat i + 1) with (N.of_nat (S i)) by lia. now rewrite IH.
Qed.
Lemma sig_eqb_refl s : sig_eqb s s = true.
Proof. destruct s as [[[[a b] c] d] e]. cbn. now rewrite !N.eqb_refl. Qed.

(* the table made from one key given count times in one way: the records differ in their number only *)
Lemma ahab_table_one_key c k ca si n : srk_of_key c k = Ok si -> srk_record_ok c si = true -> N.of_nat (S n) = a_count c ->
  ahab_table c (repeat (k, ca) (S n))
  = Ok (srk_table_of c (map (fun j => srk_record_of c si ca (srk_params c si (if a_v2 c then N.of_nat j else 0))) (seq 0 (S n)))).
Proof.
  intros ES EO EC. unfold ahab_table. rewrite (number_from_repeat (k, ca) (S n) 0 : number_from 0 _ = _).
  rewrite (map_res_ok _ (fun p => (fst p, si, snd (snd p)))), map_map.
  2:{ intros p Hp. apply in_map_iff in Hp as (j & <- & _). cbn [fst snd]. now rewrite ES. }
  cbn [bind fst snd]. set (recs := map _ (seq 0 (S n))). unfold recs at 1. cbn [seq map].
  assert (Ln : (nlen recs =? a_count c) = true) by (apply N.eqb_eq; unfold recs, nlen; now rewrite map_length, seq_length).
  rewrite Ln. cbn [negb].
  assert (In_recs : forall r, In r recs -> exists j, r = (N.of_nat j, si, ca)).
  { intros r Hr. apply in_map_iff in Hr as (j & <- & _). now exists j. }
  assert (F1 : forallb (fun r => let '(_, si', _) := r in srk_record_ok c si') recs = true).
  { apply forallb_forall. intros r Hr. destruct (In_recs r Hr) as (j & ->). exact EO. }
  rewrite F1. cbn [negb].
  assert (F2 : forallb (fun r => let '(id, si', ca') := r in
                 sig_eqb (srk_sig c si' ca' (if a_v2 c then id else 0)) (srk_sig c si ca (if a_v2 c then N.of_nat 0 else 0))) recs = true).
  { apply forallb_forall. intros r Hr. destruct (In_recs r Hr) as (j & ->). unfold srk_sig, nlen. rewrite !srk_params_length. apply sig_eqb_refl. }
  rewrite F2. cbn [negb]. unfold srk_table_of, recs. now rewrite map_map.
Qed.
Lemma rot_ahab_one_key c k s si n : s <> SRaw -> srk_of_key c k = Ok si -> srk_record_ok c si = true -> N.of_nat (S n) = a_count c ->
  let t := srk_table_of c (map (fun j => srk_record_of c si (is_ca s) (srk_params c si (if a_v2 c then N.of_nat j else 0))) (seq 0 (S n))) in
  rot_ahab_export c (map (fun k => (k, s)) (repeat k (S n))) = Ok t /\
  rot_ahab c (map (fun k => (k, s)) (repeat k (S n))) = Ok (hash (halg_of_id (a_hash c)) t) /\
  length t = (4 + (12 + if a_v2 c then 64 else length (si_data si)) * S n)%nat.
Proof.
  intros Hs ES EO EC t. unfold rot_ahab, rot_ahab_export. rewrite convert_all_spec.
  2:{ apply Forall_forall. intros p Hp. apply in_map_iff in Hp as (k' & <- & _). unfold supply_ok. cbn [snd]. now destruct s. }
  rewrite map_map. cbn [fst snd bind]. rewrite map_repeat, (ahab_table_one_key c k _ si n) by assumption. fold t.
  split; [reflexivity|]. split; [reflexivity|]. unfold t. erewrite srk_table_of_length; [now rewrite map_length, seq_length|].
  apply Forall_map, Forall_forall. intros j _. now rewrite srk_record_of_length, srk_params_length.
Qed.

(* the hash depends on the CA attribute the key picked up on the way in *)
Definition p256_g : key :=
  KEcc 256 0x6B17D1F2E12C4247F8BCE6E563A440F277037D812DEB33A0F4A13945D898C296 0x4FE342E2FE1A7F9B8EE7EB4A7C0F9E162BCE33576B315ECECBB6406837BF51F5.

Lemma ahab_supply_dependence_lemma :
  exists ks h1 h2,
    length ks = 4%nat /\
    rot_ahab ahab1 (map (fun k => (k, SPlain)) ks) = Ok h1 /\
    rot_ahab ahab1 (map (fun k => (k, SCaBytes)) ks) = Ok h2 /\ h1 <> h2.
Proof.
  exists (repeat p256_g 4).
  edestruct (rot_ahab_one_key ahab1 p256_g SPlain) with (n := 3%nat) as (_ & -> & _); [discriminate|vm_compute; reflexivity..|].
  edestruct (rot_ahab_one_key ahab1 p256_g SCaBytes) with (n := 3%nat) as (_ & -> & _); [discriminate|vm_compute; reflexivity..|].
  eexists. eexists. split; [reflexivity|]. split; [vm_compute; reflexivity|]. split; [vm_compute; reflexivity|]. discriminate.
Qed.
(* the v2 records carry a digest of the key data: the four digests are evaluated once for both tables *)
Lemma ahab2_supply_dependence_lemma :
  exists ks h1 h2,
    rot_ahab ahab2 (map (fun k => (k, SPlain)) ks) = Ok h1 /\
    rot_ahab ahab2 (map (fun k => (k, SCaBytes)) ks) = Ok h2 /\ h1 <> h2.
Proof.
  exists (repeat p256_g 4).
  edestruct (rot_ahab_one_key ahab2 p256_g SPlain) with (n := 3%nat) as (_ & -> & _); [discriminate|vm_compute; reflexivity..|].
  edestruct (rot_ahab_one_key ahab2 p256_g SCaBytes) with (n := 3%nat) as (_ & -> & _); [discriminate|vm_compute; reflexivity..|].
  cbn [a_v2 ahab2 is_ca]. rewrite <- !(map_map (fun j => srk_params _ _ (N.of_nat j))).
  remember (map (fun j => srk_params _ _ (N.of_nat j)) (seq 0 4)) as ps eqn:E. vm_compute in E. subst ps.
  eexists. eexists. split; [vm_compute; reflexivity|]. split; [vm_compute; reflexivity|]. discriminate.
Qed.

(* outside the known class (no CA certificate among the inputs) the AHAB paths depend on the keys only *)
Definition no_ca (p : key * supply) : Prop := match snd p with SPlain => True | SRaw => raw_ok (fst p) | _ => False end.
Lemma convert_all_no_ca inp : Forall no_ca inp -> convert_all inp = Ok (map (fun k => (k, false)) (map fst inp)).
Proof.
  intros H. rewrite convert_all_spec, map_map.
  - f_equal. apply map_ext_in. intros [k s] Hp. rewrite Forall_forall in H. specialize (H _ Hp). now destruct s.
  - eapply Forall_impl; [|exact H]. intros [k s]. unfold no_ca, supply_ok. cbn [snd]. now destruct s.
Qed.

(* the four fields occupy disjoint bits below 2^32: checked on all 2 * 16^3 values *)
Definition range16 : list N := map N.of_nat (seq 0 16).
Definition flags_ok (ca : bool) (used n nib : N) : bool :=
  let f := rkr_flags ca used n nib in
  (f <? 2 ^ 32) && Bool.eqb (N.testbit f 31) ca && (N.shiftr (N.land f 3840) 8 =? used) && (N.shiftr (N.land f 240) 4 =? n)
  && (N.land f 15 =? nib).
Lemma in_range16 x : x < 16 -> In x range16.
Proof. intros H. apply in_map_iff. exists (N.to_nat x). split; [lia|apply in_seq; lia]. Qed.
Lemma flags_fields ca used n nib : used < 16 -> n < 16 -> nib < 16 ->
  let f := rkr_flags ca used n nib in
  f < 2 ^ 32 /\ N.testbit f 31 = ca /\ N.shiftr (N.land f 3840) 8 = used /\ N.shiftr (N.land f 240) 4 = n /\ N.land f 15 = nib.
Proof.
  intros Hu Hn Hb.
  assert (C : forallb (fun ca => forallb (fun used => forallb (fun n => forallb (flags_ok ca used n) range16) range16) range16) [true; false] = true)
    by (vm_compute; reflexivity).
  rewrite forallb_forall in C. specialize (C ca (ltac:(destruct ca; simpl; tauto))).
  rewrite forallb_forall in C. specialize (C used (in_range16 _ Hu)).
  rewrite forallb_forall in C. specialize (C n (in_range16 _ Hn)).
  rewrite forallb_forall in C. specialize (C nib (in_range16 _ Hb)).
  unfold flags_ok in C. rewrite !andb_true_iff, N.ltb_lt, !N.eqb_eq in C. destruct C as ((((C0 & C1) & C2) & C3) & C4).
  apply Bool.eqb_prop in C1. cbv zeta. auto.
Qed.
Lemma flags_decode ca used n nib : used < 16 -> n < 16 -> nib < 16 ->
  let f := rkr_flags ca used n nib in
  N.testbit f 31 = ca /\ N.shiftr (N.land f 3840) 8 = used /\ N.shiftr (N.land f 240) 4 = n /\ N.land f 15 = nib.
Proof. intros Hu Hn Hb. apply (flags_fields ca used n nib Hu Hn Hb). Qed.

(* database facts (regenerated on every run) *)
Definition fam_ok (row : list N * (N * (N * (N * N)))) : bool :=
  let '(_, (rt, (cls, (lim, al)))) := row in
  existsb (N.eqb rt) [1; 21; 3; 4; 5; 6] && (if rt =? 6 then cls =? 0 else (cls =? rt) && existsb (N.eqb rt) g_rot_classes)
  && (al mod 4 =? 0) && negb (al =? 0).
Definition pfr_ok (row : list N * (N * N)) : bool :=
  let '(_, (w, v)) := row in ((w =? 0) && (v =? 0)) || ((v =? 1) && (w =? 256)) || ((v =? 21) && (w =? 384)).
Lemma db_rot_types_known_lemma : Forall (fun r => fam_ok r = true) g_families /\ Forall (fun r => pfr_ok r = true) g_pfr.
Proof. split; apply Forall_forall; apply forallb_forall; vm_compute; reflexivity. Qed.

(* without a family limit the heuristic does fire: a valid block that does not survive export/parse *)
Definition heur_block : cb21_in :=
  {| b_ca := false; b_used := 0; b_keys := [p256_g; p256_g]; b_family := None;
     b_isk := Some {| i_constraints := 0; i_key := p256_g; i_user_data := repeat 165 (N.to_nat 19703) |} |}.

(* what the ISK signature covers *)
Lemma ok_pair_inj {A B} (a a' : A) (b b' : B) : @Ok (A * B) (a, b) = Ok (a', b') -> a = a' /\ b = b'.
Proof. intros H. injection H. auto. Qed.

