(* Proofs/AhabParseProofs.v -- C06: parse (export c) = c for whole version-1 containers. *)
From Coq Require Import ZArith NArith List Bool Lia.
Require Import Value Bytes BytesProofs Sha2 Aes Modes CryptoProofs GenMisc GenAhab AhabModel AhabProofs Ahab2Model Ahab2Proofs
               AhabParseModel.
Import ListNotations.
Local Open Scope Z_scope.

(* the alignment gaps of the version-1 signature block, in bytes: before the signature and before the blob *)
Definition gap1 (rs : list srk_rec) : nat := Z.to_nat (zalign (16 + srk_table_len rs) gen_container_alignment - 16 - srk_table_len rs).
Definition gap2 (rs : list srk_rec) (s : list N) : nat :=
  let so := zalign (16 + srk_table_len rs) gen_container_alignment in
  Z.to_nat (zalign (so + (8 + zlen' s)) gen_container_alignment - so - 8 - zlen' s).

Lemma sigblock_bytes_concat rs s bl :
  rs <> [] -> blob_ok bl ->
  let sb := sigblock_update rs (Some s) bl in
  sigblock_bytes false sb
  = sigblock_header false sb ++ srk_table_bytes false (srk_table_len rs) rs ++ repeat 0%N (gap1 rs)
    ++ signature_bytes (8 + zlen' s) s
    ++ match bl with Some b => repeat 0%N (gap2 rs s) ++ blob_bytes b | None => [] end.
Proof. exact (sigblock_concat false rs s bl). Qed.

Definition srk_rec_wf (r : srk_rec) : Prop :=
  let '(l1, l2) := key_sizes (sr_ksize r) in
  zlen' (sr_params r) = l1 + l2 /\ fits 2 l1 = true /\ fits 2 l2 = true /\ sr_length r = 12 + zlen' (sr_params r) /\
  fits 2 (sr_length r) = true /\ In (sr_alg r) [33; 34; 39; 40] /\ In (sr_hash r) [0; 1; 2; 3] /\
  fits 1 (sr_ksize r) = true /\ fits 1 (sr_flags r) = true.

Lemma srk_rec_roundtrip_l r rest : srk_rec_wf r -> srk_rec_parse (srk_rec_bytes r ++ rest) = Ok r.
Proof.
  unfold srk_rec_wf. pose proof (srk_rec_fields r rest) as F. destruct (key_sizes (sr_ksize r)) as [l1 l2]. cbn [fst snd] in F.
  intros (HP & F1 & F2 & HL & FL & HA & HH & HK & HF).
  destruct F as (R0 & R1 & R3 & R4 & R5 & R7 & R8 & R10 & SK & Ll);
    try assumption; [eapply fits1_of_In; [exact HA | reflexivity] | eapply fits1_of_In; [exact HH | reflexivity] |].
  assert (HA6 : In (sr_alg r) [33; 34; 39; 40; 209; 210]) by (cbn in HA |- *; tauto).
  unfold srk_rec_parse.
  rewrite R0, R1, R3, R4, R5, R7, R8, R10, Z.eqb_refl, (existsb_In_Z _ _ HA6), (existsb_In_Z _ _ HA), (existsb_In_Z _ _ HH) by assumption.
  rewrite (proj2 (Nat.leb_le _ _)), (proj2 (Z.leb_le _ _)), (proj2 (Z.ltb_ge _ _)) by len. cbn [andb negb].
  rewrite (slice_at _ _ _ 12 _ SK) by len.
  destruct r; cbn in *; subst; reflexivity.
Qed.

Lemma srk_rec_wf_len r : srk_rec_wf r -> srk_rec_len r = sr_length r.
Proof. unfold srk_rec_wf, srk_rec_len. destruct (key_sizes (sr_ksize r)). intros (_ & _ & _ & HL & _). lia. Qed.

Lemma srk_rec_bytes_length r : srk_rec_wf r -> length (srk_rec_bytes r) = Z.to_nat (sr_length r).
Proof. intros W. pose proof (srk_rec_bytes_len r) as L. rewrite (srk_rec_wf_len r W) in L. unfold zlen' in L. lia. Qed.

(* records of one length L: the table is 4 + n * L bytes long *)
Lemma srk_table_len_uniform rs L :
  Forall (fun r => srk_rec_wf r /\ sr_length r = L) rs -> srk_table_len rs = 4 + Z.of_nat (length rs) * L.
Proof.
  unfold srk_table_len. induction 1 as [|r t [W HL] _ IH]; [reflexivity|]. cbn [fold_right length].
  rewrite (srk_rec_wf_len r W), HL. lia.
Qed.

Lemma srk_recs_roundtrip rs L : forall rest,
  Forall (fun r => srk_rec_wf r /\ sr_length r = L) rs ->
  srk_recs_parse (length rs) (concat (map srk_rec_bytes rs) ++ rest) (Z.to_nat L) = Ok rs.
Proof.
  induction rs as [|r t IH]; intros rest H; [reflexivity|]. inversion H as [|? ? [W HL] Ht]; subst.
  cbn [length srk_recs_parse map concat]. rewrite <- app_assoc. rewrite srk_rec_roundtrip_l by assumption. cbn [bind].
  rewrite skipn_app_exact by (now apply srk_rec_bytes_length). rewrite IH by assumption. reflexivity.
Qed.

Lemma srk_table_roundtrip_l rs rest :
  length rs = 4%nat -> (exists L, Forall (fun r => srk_rec_wf r /\ sr_length r = L) rs) -> fits 2 (srk_table_len rs) = true ->
  srk_table_parse (srk_table_bytes false (srk_table_len rs) rs ++ rest) = Ok (srk_table_len rs, rs).
Proof.
  intros H4 (L & HF) FT. unfold srk_table_parse. pose proof (srk_table_bytes_len false (srk_table_len rs) rs) as LT.
  pose proof (srk_table_len_pos rs) as TP. set (l := _ ++ rest).
  pose proof (srk_table_len_uniform rs L HF) as TL. rewrite H4 in TL.
  rewrite (rd_field l 0 1 gen_tag_srk_table), (rd_field l 1 2 (srk_table_len rs)), (rd_field l 3 1 (gen_version_srk_table false))
    by (reflexivity || assumption).
  rewrite !Z.eqb_refl, (proj2 (Nat.leb_le _ _)), (proj2 (Z.leb_le _ _)) by (unfold l; len). cbn [andb negb].
  replace ((srk_table_len rs - 4) mod 4 =? 0) with true by (symmetry; apply Z.eqb_eq; dlia). cbn [negb].
  replace ((srk_table_len rs - 4) / 4) with L by dlia.
  change (skipn 4 l) with (concat (map srk_rec_bytes rs) ++ rest).
  rewrite <- H4. rewrite srk_recs_roundtrip by assumption. reflexivity.
Qed.

Lemma signature_roundtrip_l s rest :
  fits 2 (8 + zlen' s) = true -> signature_parse (signature_bytes (8 + zlen' s) s ++ rest) = Ok (8 + zlen' s, s).
Proof.
  intros F. unfold signature_parse, signature_bytes.
  rewrite (head_ok_export _ _ gen_version_ContainerSignature (8 + zlen' s)) by first [assumption | reflexivity | now left | len].
  set (l := _ ++ rest). rewrite (rd_field l 1 2 (8 + zlen' s)) by (reflexivity || assumption).
  cbn [negb]. do 2 f_equal. apply (slice_at _ _ rest); [reflexivity | len].
Qed.

Definition blob_wf (b : blob) : Prop :=
  b_length b = 8 + zlen' (b_keyblob b) /\ fits 2 (b_length b) = true /\ fits 1 (b_flags b) = true /\ fits 1 (b_size b / 8) = true /\
  b_size b / 8 * 8 = b_size b /\ In (b_alg b) [3; 4] /\ fits 1 (b_mode b) = true.

Lemma blob_roundtrip_l b rest : blob_wf b -> blob_parse (blob_bytes b ++ rest) (b_keyid b) = Ok (blob_wire b).
Proof.
  intros (HL & FL & FF & FS & HS & HA & FM). unfold blob_parse, blob_bytes.
  assert (FA : fits 1 (b_alg b) = true) by (apply (fits1_of_In _ _ HA); reflexivity).
  rewrite (head_ok_export _ _ gen_version_AhabBlob (b_length b)) by first [assumption | reflexivity | now left | len].
  set (l := _ ++ rest). rewrite (rd_field l 1 2 (b_length b)), (rd_field l 4 1 (b_flags b)), (rd_field l 5 1 (b_size b / 8)), (rd_field l 6 1 (b_alg b)),
    (rd_field l 7 1 (b_mode b)) by (reflexivity || assumption).
  rewrite (existsb_In_Z _ _ HA), (slice_at l (b_keyblob b) rest 8) by (reflexivity || len).
  rewrite HS. reflexivity.
Qed.

Definition sigblock_wf (rs : list srk_rec) (s : list N) (bl : option blob) : Prop :=
  length rs = 4%nat /\ (exists L, Forall (fun r => srk_rec_wf r /\ sr_length r = L) rs) /\ fits 2 (srk_table_len rs) = true /\
  fits 2 (8 + zlen' s) = true /\ fits 2 (sb_length (sigblock_update rs (Some s) bl)) = true /\
  match bl with Some b => blob_wf b /\ fits 4 (b_keyid b) = true | None => True end.

Lemma blob_wf_len b : blob_wf b -> zlen' (blob_bytes b) = b_length b.
Proof. intros (HL & _). unfold blob_bytes. len. Qed.

Lemma sigblock_wf_blob_ok rs s bl : sigblock_wf rs s bl -> blob_ok bl.
Proof. intros (_ & _ & _ & _ & _ & HB) b ->. now apply blob_wf_len. Qed.

Lemma sigblock_roundtrip_l rs s bl rest :
  sigblock_wf rs s bl ->
  sigblock_parse (sigblock_bytes false (sigblock_update rs (Some s) bl) ++ rest) = Ok (sigblock_wire (sigblock_update rs (Some s) bl)).
Proof.
  intros W. pose proof (sigblock_wf_blob_ok rs s bl W) as Hbo. destruct W as (H4 & HR & FT & FS & FL & HB).
  assert (Hr : rs <> []) by (intros ->; discriminate).
  pose proof (sb_length_ge rs s bl Hr Hbo) as Lsb. rewrite sigblock_bytes_concat by assumption.
  destruct (sigblock_update_exact rs s bl Hr) as (E1 & E2 & E3 & E4 & E5 & E6 & E7 & E8 & E9).
  set (sb := sigblock_update rs (Some s) bl) in *.
  pose proof (srk_table_len_pos rs) as TP. pose proof (sig_off_ge rs) as G1. pose proof (blob_off_ge rs s) as G2.
  pose proof (srk_table_bytes_len false (srk_table_len rs) rs) as LT. pose proof (signature_bytes_len (8 + zlen' s) s) as LS.
  set (T := srk_table_bytes false (srk_table_len rs) rs) in *. set (S := signature_bytes (8 + zlen' s) s) in *.
  set (G := repeat 0%N (gap1 rs)). assert (LG : zlen' G = sig_off rs - 16 - srk_table_len rs) by (unfold G, gap1; fold (sig_off rs); len).
  set (tail := match bl with Some b => repeat 0%N (gap2 rs s) ++ blob_bytes b | None => [] end).
  assert (Ltail : zlen' tail = sb_length sb - sig_off rs - (8 + zlen' s)).
  { unfold tail, gap2. fold (sig_off rs) (blob_off rs s). destruct bl as [b|]; destruct E9 as [_ ->]; [specialize (Hbo b eq_refl)|]; len. }
  assert (FSO : fits 2 (sb_sig_off sb) = true) by (apply fits_spec in FL; rewrite E2; apply fits_spec; len).
  assert (FBO : fits 2 (sb_blob_off sb) = true).
  { destruct bl as [b|]; destruct E9 as [-> E10]; [|reflexivity]. specialize (Hbo b eq_refl). apply fits_spec in FL. apply fits_spec. len. }
  assert (K : fits 4 (match sb_blob sb with Some b => b_keyid b | None => 0 end) = true)
    by (rewrite E8; destruct bl as [b|]; [apply HB | reflexivity]).
  pose proof (sigblock_header_len false sb) as LH. unfold sigblock_parse. set (l := _ ++ rest).
  rewrite (head_ok_export _ _ (gen_version_sigblock false) (sb_length sb)) by first [assumption | reflexivity | now left | unfold l; len].
  rewrite (rd_field l 1 2 (sb_length sb)), (rd_field l 4 2 (sb_cert_off sb)), (rd_field l 6 2 (sb_srk_off sb)),
    (rd_field l 8 2 (sb_sig_off sb)), (rd_field l 10 2 (sb_blob_off sb)), (rd_field l 12 4 _ eq_refl K)
    by first [reflexivity | assumption | now rewrite E3 | now rewrite E1].
  rewrite E3, E1, E2. cbn [negb]. change (16 =? 0) with false. change (0 =? 0) with true. cbn [negb].
  rewrite (proj2 (Z.eqb_neq (sig_off rs) 0)) by lia.
  change (skipn (Z.to_nat 16) l) with ((T ++ G ++ S ++ tail) ++ rest). rewrite <- app_assoc.
  unfold T at 1. rewrite srk_table_roundtrip_l by assumption. cbn [bind].
  assert (KSO : skipn (Z.to_nat (sig_off rs)) l = S ++ tail ++ rest).
  { change l with ((sigblock_header false sb ++ T ++ G ++ S ++ tail) ++ rest).
    rewrite <- !app_assoc, (app_assoc T), app_assoc. apply skipn_app_exact. len. }
  rewrite KSO. unfold S at 1. rewrite signature_roundtrip_l by assumption. cbn [bind res_map].
  destruct bl as [b|]; destruct E9 as [E9 E10]; rewrite E9.
  - destruct HB as [WB FK]. specialize (Hbo b eq_refl). rewrite E8, (proj2 (Z.eqb_neq (blob_off rs s) 0)) by len.
    assert (KBO : skipn (Z.to_nat (blob_off rs s)) l = blob_bytes b ++ rest).
    { change l with ((sigblock_header false sb ++ T ++ G ++ S ++ repeat 0%N (gap2 rs s) ++ blob_bytes b) ++ rest).
      rewrite <- !app_assoc. do 4 rewrite app_assoc. apply skipn_app_exact.
      unfold gap2. fold (sig_off rs) (blob_off rs s). len. }
    rewrite KBO, blob_roundtrip_l by assumption. cbn [bind res_map option_map fst snd].
    unfold sigblock_wire. rewrite E1, E2, E3, E4, E5, E6, E7, E8, E9. reflexivity.
  - cbn [bind res_map option_map fst snd]. unfold sigblock_wire. rewrite E1, E2, E3, E4, E5, E6, E7, E8, E9. reflexivity.
Qed.

Definition iae_ok (e : iae) : Prop :=
  iae_fmt_ok e = true /\ length (i_hash e) = 64%nat /\ length (i_iv e) = 32%nat /\
  (flags_enc false (i_flags e) = false -> i_iv e = repeat 0%N 32).

Lemma iae_bytes_length e : length (iae_bytes e) = 128%nat.
Proof. unfold iae_bytes. rewrite !app_length, !le_length, !fit_s_length. reflexivity. Qed.

Lemma iae_parse_obj_roundtrip e rest : iae_ok e -> iae_parse_obj (iae_bytes e ++ rest) = iae_wire' e.
Proof.
  intros (F & H & I & Z0). unfold iae_parse_obj. rewrite iae_roundtrip_l by assumption. unfold iae_wire, iae_wire'. cbn [i_flags].
  destruct (flags_enc false (i_flags e)) eqn:E; [reflexivity|]. cbn. now rewrite Z0.
Qed.

Lemma iaes_parse_roundtrip : forall l rest, Forall iae_ok l ->
  iaes_parse (length l) (concat (map iae_bytes l) ++ rest) = map iae_wire' l.
Proof.
  induction l as [|e t IH]; intros rest H; [reflexivity|]. inversion H; subst.
  cbn [length iaes_parse map concat]. rewrite <- app_assoc. rewrite iae_parse_obj_roundtrip by assumption.
  rewrite skipn_app_exact by apply iae_bytes_length. now rewrite IH.
Qed.

Definition container_wf (c : container) (rs : list srk_rec) (s : list N) (bl : option blob) : Prop :=
  c_version c = gen_version_container false /\ c_sb c = sigblock_update rs (Some s) bl /\ sigblock_wf rs s bl /\
  c_length c = header_length c /\ header_fmt_ok c = true /\ Forall iae_ok (c_images c).

(* the hypotheses are satisfiable: the signed container of the demo image (AhabProofs.demo_cfg) *)
Example container_parse_export_nonvacuous :
  exists cs c, ahab_update demo_params demo_cfg = Ok cs /\ nth_error cs 1 = Some c /\
    c_sb c = sigblock_update (sb_srk (c_sb c)) (Some (repeat 7%N 64)) None /\ c_version c = gen_version_container false /\
    c_length c = header_length c /\ header_fmt_ok c = true /\ length (sb_srk (c_sb c)) = 4%nat /\
    container_parse (c_coff c) (container_bytes false c) = Ok (container_wire c).
Proof. exists demo_cs. eexists. split; [exact demo_update|]. split; [reflexivity|]. vm_compute. repeat split. Qed.
