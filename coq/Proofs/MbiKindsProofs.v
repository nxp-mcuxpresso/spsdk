(* Proofs/MbiKindsProofs.v -- C01: parse (export x) = x for the signed class kinds (certificate block v2.1 + manifest,
   certificate block v1, HMAC / key store, encrypted).  Signature, HMAC, cipher and hash are the functions of the [crypto]
   record (only their output sizes and, for the cipher, the involution law are assumed); certificate blocks are byte
   strings with the header words the parser looks at.  Depends on MbiProofs.v and MbiRtProofs.v. *)
From Coq Require Import ZArith NArith List Bool Lia.
Require Import Value Bytes BytesProofs MbiMixinModel GenMbi MbiModel MbiProofs MbiRtProofs.
Import ListNotations.
Local Open Scope Z_scope.

(* ------------------------------------------------------------------ shared by the signed kinds *)
Lemma natz_zlen (a : list N) : natz (zlen a) = length a.
Proof. unfold natz, zlen. apply Nat2Z.id. Qed.

(* update_ivt and check_total_length are provided by the same mixin: one of the two IVT mixins, or none *)
Lemma ivt_provider l :
  provider_in l SCheckTotalLength = provider_in l SUpdateIvt /\
  (provider_in l SUpdateIvt = None \/ provider_in l SUpdateIvt = Some MixinIvt \/
   provider_in l SUpdateIvt = Some MixinIvtZeroTotalLength).
Proof. induction l as [|m l [IH1 IH2]]; [auto|]. destruct m; cbn [provider_in definer]; auto. Qed.

Lemma check_total_ok c data T :
  (56 <= length data)%nat -> rd32 OFF_LEN data = ivt_total c T -> T <= zlen data -> 0 <= T -> check_total_length c data = Ok tt.
Proof.
  intros L W LeT T0. unfold check_total_length, ivt_total, provider in *.
  destruct (ivt_provider (c_mixins c)) as [-> [P|[P|P]]]; rewrite P in *; rewrite W; [| |reflexivity];
    (replace (Nat.ltb (length data) MIN_APP) with false by (symmetry; apply Nat.ltb_ge; exact L));
    (replace (zlen data <? T) with false by (symmetry; apply Z.ltb_ge; exact LeT)); reflexivity.
Qed.

(* the certificate-block offset is read from a header the image shares with what update_ivt wrote *)
Lemma cert_offset_ok c data hdr T :
  (56 <= length data)%nat -> (forall o, (o + 4 <= 56)%nat -> rd32 o data = rd32 o hdr) ->
  rd32 OFF_LEN hdr = ivt_total c T -> 0 <= T <= zlen data ->
  get_cert_block_offset c data = Ok (rd32 OFF_CRC hdr).
Proof.
  intros L PFX W RT. unfold get_cert_block_offset. rewrite (check_total_ok c data T); try lia.
  - cbn [bind]. now rewrite PFX by (rewrite off_crc_eq; lia).
  - now rewrite PFX by (rewrite off_len_eq; lia).
Qed.

(* what the parser reads in the header of a signed image: the words update_ivt wrote, and through them the place of the
   certificate block *)
Lemma signed_header c x app T hdr data :
  (56 <= length app)%nat -> update_ivt c x app T (app_len c x) = Ok hdr -> c_type c <> 0 ->
  (56 <= length data)%nat -> (forall o, (o + 4 <= 56)%nat -> rd32 o data = rd32 o hdr) -> 0 <= T <= zlen data ->
  get_flags data = create_flags c x /\ rd32 OFF_LOAD data = ivt_load c x /\ get_cert_block_offset c data = Ok (app_len c x).
Proof.
  intros L U T0 Ld PFX RT. destruct (ivt_header c x _ _ _ _ L U) as (_ & _ & IW1 & IW2 & IW3 & IW4).
  split; [unfold get_flags; now rewrite PFX by (rewrite off_flags_eq; lia)|]. split; [now rewrite PFX by (rewrite off_load_eq; lia)|].
  rewrite <- (ivt_crc_nonzero c (app_len c x) T0), <- IW3. now apply (cert_offset_ok c data hdr T).
Qed.

(* sign(revert=True) drops the signature, whose size comes from the parsed certificate block *)
Lemma sign_revert_sign c st cb A sig :
  m_cert st = Some cb -> provider c SSign = Some (if cert_is_v1 cb then ExportMixinRsaSign else ExportMixinEccSign) ->
  (0 < cert_sig cb)%nat -> length sig = cert_sig cb -> sign_revert c st (A ++ sig) = Ok A.
Proof.
  intros HC PS SP Ls. unfold sign_revert. rewrite PS, HC.
  destruct cb as [p q sg|b sg]; cbn [cert_is_v1 cert_sig] in *;
    (destruct (A ++ sig) eqn:Q; [apply (f_equal (@length N)) in Q; rewrite app_length in Q; simpl in Q; lia|]);
    rewrite <- Q; (destruct sg; [lia|]); f_equal; rewrite <- Ls; apply drop_last_app.
Qed.

(* MasterBootImage.parse of a signed image as far as the signature: every mixin parsed, the certificate block of x found,
   finalize and sign reverted; what is left are the stages behind the signature *)
Lemma parse_signed k c x dek tzsize sigsz data cb A sig :
  supported c = true -> parse_ok c x dek tzsize sigsz data (c_mixins c) ->
  existsb is_cert_mixin (c_mixins c) = true -> m_cert x = Some cb ->
  provider c SSign = Some (if cert_is_v1 cb then ExportMixinRsaSign else ExportMixinEccSign) ->
  (0 < cert_sig cb)%nat -> length sig = cert_sig cb ->
  let st := rounds_state c x dek in
  m_cert st = Some cb /\
  (finalize_revert c st data = Ok (A ++ sig) ->
   parse_mbi k c tzsize sigsz dek data =
   bind (post_encrypt_revert c st A) (fun d3 => bind (encrypt_revert k c st d3) (fun d4 => disassemble c tzsize st d4))).
Proof.
  intros SUP PO CM HC PS SP Ls st.
  assert (STC : m_cert st = Some cb) by (unfold st, rounds_state; cbn [m_cert]; now rewrite CM).
  split; [exact STC|]. intros FR. unfold parse_mbi. rewrite SUP. cbn [negb].
  rewrite (rounds_result c x dek tzsize sigsz data PO) by (intros _; eauto). cbn [bind]. fold st. rewrite FR. cbn [bind].
  now rewrite (sign_revert_sign c st cb A sig STC PS SP Ls).
Qed.

Lemma ks_flag_image c x data :
  0 <= c_type c < 64 -> 0 <= m_subtype x < 4 -> 0 <= m_imgver x < 65536 -> get_flags data = create_flags c x ->
  (forall b, m_ks x = Some b -> length b = 1424%nat /\ has_attr c AKeyStore = true) ->
  flag_set data G_KEY_STORE_FLAG = ks_truthy_obj (m_ks x).
Proof.
  intros R1 R2 R3 DF KSL. pose proof (flags_decode_lemma c x R1 R2 R3) as (_ & _ & _ & _ & _ & F5 & _).
  unfold flag_set. rewrite DF, F5. destruct (m_ks x) as [b0|]; [|apply andb_false_r].
  destruct (KSL b0 eq_refl) as [Lb ->]. destruct b0; [simpl in Lb; lia | reflexivity].
Qed.

Lemma hmac_bytes_length x hm :
  length hm = 32%nat -> (forall b, m_ks x = Some b -> length b = 1424%nat) ->
  length (hmac_bytes x hm) = (32 + if ks_truthy_obj (m_ks x) then 1424 else 0)%nat.
Proof.
  intros Lh Lk. unfold hmac_bytes. rewrite app_length, Lh. destruct (m_ks x) as [b|]; [rewrite (Lk b eq_refl)|]; reflexivity.
Qed.

Lemma keystore_len c x :
  (forall b, m_ks x = Some b -> length b = 1424%nat /\ has_attr c AKeyStore = true) ->
  hz c MixinKeyStore (opt_len (m_ks x)) = Z.of_nat (if ks_truthy_obj (m_ks x) then 1424 else 0).
Proof.
  intros KSL. unfold hz. destruct (m_ks x) as [b0|]; [|destruct (has c MixinKeyStore); reflexivity].
  destruct (KSL b0 eq_refl) as [Lb HAk]. rewrite has_attr_ks in HAk. rewrite HAk. cbn [opt_len ks_truthy_obj]. unfold zlen. now rewrite Lb.
Qed.

(* total length of a class with certificate block v1 and one TrustZone mixin: application, TrustZone data, relocation
   table, certificate block, key store, HMAC *)
Lemma total_len_cert_v1 c x pre post sg tb s :
  nodupb (c_mixins c) = true -> has c MixinApp = true -> has c MixinCertBlockV1 = true ->
  xorb (has c MixinTrustZone) (has c MixinTrustZoneMandatory) = true ->
  has c MixinManifestCrc = false -> has c MixinManifestDigest = false -> has c MixinCertBlockV21 = false -> has c MixinHmac = false ->
  m_cert x = Some (CertV1 pre post sg) -> table_part c x s = Ok tb -> 0 <= s ->
  (forall b, m_ks x = Some b -> length b = 1424%nat /\ has_attr c AKeyStore = true) ->
  total_len c x = zlen (m_app x) + zlen (tz_export (m_tz x)) + zlen tb + Z.of_nat (length pre + 4 + length post) +
                  Z.of_nat (if ks_truthy_obj (m_ks x) then 1424 else 0) + hz c MixinHmacMandatory (mix_len x MixinHmac).
Proof.
  intros ND Wa Wv1 Wtz N1 N2 N3 N4 HC TB Hs KSL.
  rewrite (total_len_expand c x ND), (hz_true _ _ _ Wa), (hz_true _ _ _ Wv1), <- (table_part_len c x s tb TB Hs), (keystore_len c x KSL),
    (hz_false _ _ _ N1), (hz_false _ _ _ N2), (hz_false _ _ _ N3), (hz_false _ _ _ N4).
  cbn [mix_len]. rewrite HC. cbn [cert_size]. unfold hz.
  destruct (has c MixinTrustZone), (has c MixinTrustZoneMandatory); try discriminate Wtz; lia.
Qed.

Lemma mix_parse_cert_v1 c tzsize sg dek data st off cb rest pre post :
  get_cert_block_offset c data = Ok off -> skipn (natz (off + hmac_ks_shift c data)) data = cb ++ rest ->
  cert_v1_parse sg (cb ++ rest) = Ok (CertV1 pre post sg) ->
  mix_parse c tzsize sg dek data MixinCertBlockV1 st = Ok (set_cert st (Some (CertV1 pre post sg))).
Proof. intros OFF SK CP. unfold mix_parse. rewrite OFF. cbn [bind]. now rewrite SK, CP. Qed.

(* ------------------------------------------------------------------ manifest: parse (export) *)
Definition manifest_total (c : mbi_class) (x : mbi) : Z :=
  20 + zlen (tz_export (m_tz x)) + (if has c MixinManifestCrc then 4 else 0).
Definition manifest_flags_of (c : mbi_class) (x : mbi) : Z := if has c MixinManifestCrc then 0 else manifest_flags (m_digest x).

Lemma manifest_export_inv c x crc mf :
  manifest_export c x crc = Ok mf ->
  exists w0 w1 w2 w3 w4 w5,
    u32 G_MANIFEST_MAGIC = Ok w0 /\ u32 G_MANIFEST_FORMAT_VERSION = Ok w1 /\ u32 (m_fwver x) = Ok w2 /\
    u32 (manifest_total c x) = Ok w3 /\ u32 (manifest_flags_of c x) = Ok w4 /\
    (if has c MixinManifestCrc then u32 crc else Ok []) = Ok w5 /\
    mf = w0 ++ w1 ++ w2 ++ w3 ++ w4 ++ tz_export (m_tz x) ++ w5.
Proof.
  unfold manifest_export. fold (manifest_total c x) (manifest_flags_of c x). intros H.
  apply bind_ok in H as (w0 & E0 & H). apply bind_ok in H as (w1 & E1 & H). apply bind_ok in H as (w2 & E2 & H).
  apply bind_ok in H as (w3 & E3 & H). apply bind_ok in H as (w4 & E4 & H). apply bind_ok in H as (w5 & E5 & H).
  injection H as <-. exists w0, w1, w2, w3, w4, w5. auto 10.
Qed.

Lemma manifest_export_length c x crc mf : manifest_export c x crc = Ok mf -> zlen mf = manifest_total c x.
Proof.
  intros H. destruct (manifest_export_inv c x crc mf H) as (w0 & w1 & w2 & w3 & w4 & w5 & E0 & E1 & E2 & E3 & E4 & E5 & ->).
  apply u32_length in E0, E1, E2, E3, E4. unfold manifest_total, zlen. rewrite !app_length, E0, E1, E2, E3, E4.
  destruct (has c MixinManifestCrc); [apply u32_length in E5 | injection E5 as <-]; rewrite ?E5; cbn [length]; lia.
Qed.

Definition tz_opt (t : tz) : option tz := match t with TzCustom d => Some (TzCustom d) | _ => None end.

Lemma manifest_parse_export c x crc mf rest tzsize :
  manifest_export c x crc = Ok mf -> rest <> [] ->
  (forall d, m_tz x = TzCustom d -> length d = tzsize /\ (0 < tzsize)%nat) ->
  0 <= m_digest x <= 3 -> (has c MixinManifestCrc = true -> m_digest x = 0) ->
  manifest_parse c tzsize (mf ++ rest) = Ok (m_fwver x, tz_opt (m_tz x), m_digest x).
Proof.
  intros H NR HZ RD DC. pose proof (manifest_export_length c x crc mf H) as Lm.
  destruct (manifest_export_inv c x crc mf H) as (w0 & w1 & w2 & w3 & w4 & w5 & E0 & E1 & E2 & E3 & E4 & E5 & ->).
  pose proof (u32_length _ _ E0) as L0. pose proof (u32_length _ _ E1) as L1. pose proof (u32_length _ _ E2) as L2.
  pose proof (u32_length _ _ E3) as L3. pose proof (u32_length _ _ E4) as L4.
  set (tzb := tz_export (m_tz x)) in *. unfold zlen in Lm. rewrite !app_length in Lm.
  assert (Lr : (0 < length rest)%nat) by (destruct rest; [contradiction | simpl; lia]).
  assert (Ltot : 20 <= manifest_total c x) by (unfold manifest_total; pose proof (zlen_nonneg tzb); fold tzb; destruct (has c MixinManifestCrc); lia).
  unfold manifest_parse. rewrite <- !app_assoc. set (D := w0 ++ w1 ++ w2 ++ w3 ++ w4 ++ tzb ++ w5 ++ rest).
  assert (LD : length D = (20 + length tzb + length w5 + length rest)%nat) by (unfold D; rewrite !app_length; lia).
  replace (Nat.ltb (length D) 20) with false by (symmetry; apply Nat.ltb_ge; lia).
  assert (V : rd32 0 D = G_MANIFEST_MAGIC /\ rd32 4 D = G_MANIFEST_FORMAT_VERSION /\ rd32 8 D = m_fwver x /\
              rd32 12 D = manifest_total c x /\ rd32 16 D = manifest_flags_of c x)
    by (unfold D; repeat split; rewrite ?rd32_skip by lia; apply rd32_word; (lia || assumption)).
  destruct V as (-> & -> & -> & -> & ->). rewrite !Z.eqb_refl. cbn [negb].
  replace (zlen D <=? manifest_total c x) with false by (symmetry; apply Z.leb_gt; unfold zlen; lia).
  assert (EX : sub D 20 (natz (manifest_total c x)) = tzb ++ w5).
  { replace D with ((w0 ++ w1 ++ w2 ++ w3 ++ w4) ++ (tzb ++ w5) ++ rest) by (unfold D; now rewrite <- !app_assoc).
    apply slice_app_mid; rewrite !app_length; unfold natz; lia. }
  rewrite EX.
  assert (TZP : tz_opt (m_tz x) = match tzb with [] => None | _ => Some (m_tz x) end /\
                (tzb <> [] -> tz_from_binary tzsize tzb = Ok (m_tz x))).
  { unfold tzb. destruct (m_tz x) as [|d|] eqn:Et; cbn [tz_export tz_opt]; try (split; [reflexivity | congruence]).
    destruct (HZ d eq_refl) as [<- Lz]. destruct d; [simpl in Lz; lia|]. split; [reflexivity | intros _; apply tz_from_binary_exact]. }
  destruct TZP as [-> TZP].
  destruct (has c MixinManifestCrc) eqn:HC.
  - apply u32_length in E5. rewrite (DC eq_refl).
    replace (Nat.ltb (length (tzb ++ w5)) 4) with false by (symmetry; apply Nat.ltb_ge; rewrite app_length; lia).
    rewrite <- E5, drop_last_app. destruct tzb; [reflexivity|]. now rewrite TZP.
  - injection E5 as <-. rewrite app_nil_r. unfold manifest_flags_of. rewrite HC.
    assert (DG : (if Z.land (manifest_flags (m_digest x)) G_MANIFEST_DIGEST_PRESENT_FLAG =? 0 then Ok 0
                  else if Z.land (manifest_flags (m_digest x)) G_MANIFEST_HASH_TYPE_MASK <=? 3
                       then Ok (Z.land (manifest_flags (m_digest x)) G_MANIFEST_HASH_TYPE_MASK) else Err E_CRASH)
                 = Ok (m_digest x)).
    { assert (Q : m_digest x = 0 \/ m_digest x = 1 \/ m_digest x = 2 \/ m_digest x = 3) by lia.
      destruct Q as [-> | [-> | [-> | ->]]]; reflexivity. }
    rewrite DG. cbn [bind]. destruct tzb; [reflexivity|]. now rewrite TZP.
Qed.

(* ------------------------------------------------------------------ collect_data of the signed kinds, inverted *)
Lemma collect_v21_inv c x raw : provider c SCollect = Some ExportMixinAppCertBlockManifest ->
  (56 <= length (m_app x))%nat -> collect c x = Ok raw ->
  exists cb app' cbb mf0 mf, m_cert x = Some cb /\ digest_guard c x cb = Ok tt /\
    update_ivt c x (m_app x) (total_len c x) (app_len c x) = Ok app' /\ cert_export cb 1 = Ok cbb /\
    manifest_export c x 0 = Ok mf0 /\
    (if has c MixinManifestCrc
     then manifest_export c x (Z.of_N (mbi_crc32_mpeg (drop_last 4 (app' ++ cbb ++ mf0)))) = Ok mf else mf = mf0) /\
    raw = [app'; cbb; mf].
Proof.
  intros PC L C. unfold collect in C. rewrite PC in C. destruct (m_app x) as [|b0 t0] eqn:Ea; [simpl in L; lia|]. rewrite <- Ea in *.
  destruct (m_cert x) as [cb|]; [|discriminate C]. apply bind_ok in C as ([] & G & C). apply bind_ok in C as (app' & U & C).
  apply bind_ok in C as (cbb & CE & C). apply bind_ok in C as (mf0 & M0 & C). exists cb, app', cbb, mf0.
  destruct (has c MixinManifestCrc); [apply bind_ok in C as (mf & M & C); exists mf | exists mf0]; apply ok_inj in C; subst raw; auto 10.
Qed.

Lemma collect_v1_inv c x pre post sg raw : provider c SCollect = Some ExportMixinAppTrustZoneCertBlock ->
  m_cert x = Some (CertV1 pre post sg) -> (56 <= length (m_app x))%nat -> collect c x = Ok raw ->
  exists app' rs cb, cert_export (CertV1 pre post sg) (total_len_for_cert c x) = Ok cb /\
    update_ivt c x (m_app x) (total_len c x + Z.of_nat sg) (app_len c x) = Ok app' /\
    reloc_segment c x (zlen app') = Ok rs /\ raw = [app'] ++ rs ++ [cb] ++ tz_segment x.
Proof.
  intros PC HC L C. unfold collect in C. rewrite PC, HC in C. destruct (m_app x) as [|b0 t0] eqn:Ea; [simpl in L; lia|]. rewrite <- Ea in *.
  apply bind_ok in C as (cb & CB & C). apply bind_ok in C as (app' & U & C). apply bind_ok in C as (rs & RS & C). apply ok_inj in C.
  exists app', rs, cb. auto.
Qed.

Lemma collect_enc_inv c x pre post sg raw : provider c SCollect = Some ExportMixinAppTrustZoneCertBlockEncrypt ->
  m_cert x = Some (CertV1 pre post sg) -> (56 <= length (m_app x))%nat -> collect c x = Ok raw ->
  exists app' rs, update_ivt c x (m_app x) (total_len c x + Z.of_nat sg + 56 + 16) (app_len c x) = Ok app' /\
    reloc_segment c x (zlen app') = Ok rs /\ raw = [app'] ++ rs ++ tz_segment x.
Proof.
  intros PC HC L C. unfold collect in C. rewrite PC, HC in C. destruct (m_app x) as [|b0 t0] eqn:Ea; [simpl in L; lia|]. rewrite <- Ea in *.
  apply bind_ok in C as (app' & U & C). apply bind_ok in C as (rs & RS & C). apply ok_inj in C. exists app', rs. auto.
Qed.

Lemma post_encrypt_enc_inv c x pre post sg (C : list N) enc2 :
  provider c SPostEncrypt = Some ExportMixinAppTrustZoneCertBlockEncrypt -> m_cert x = Some (CertV1 pre post sg) ->
  post_encrypt c x [C] = Ok enc2 ->
  exists enc_ivt cbb,
    update_ivt c x (firstn 64 C) (total_len c x + Z.of_nat sg + 56 + 16) (app_len c x) = Ok enc_ivt /\
    cert_export (CertV1 pre post sg) (zlen C + Z.of_nat (cert_size (CertV1 pre post sg)) + 56 + zlen (m_iv x)) = Ok cbb /\
    enc2 = [enc_ivt; slice C 64 (natz (app_len c x)); cbb; firstn 56 C; m_iv x]
           ++ (match tz_export (m_tz x) with [] => [] | _ => [skipn (natz (app_len c x)) C] end).
Proof.
  intros PP HC PO. unfold post_encrypt in PO. rewrite PP, HC in PO.
  replace (flat [C]) with C in PO by (unfold flat; cbn [concat]; now rewrite app_nil_r).
  apply bind_ok in PO as (enc_ivt & UI & PO). apply bind_ok in PO as (cbb & CB & PO). apply ok_inj in PO. exists enc_ivt, cbb. auto.
Qed.

(* ================================================================== certificate block v2.1 + manifest (ECC signed) *)
Definition allowed_v21 (m : mixin) : bool :=
  match m with
  | MixinApp | MixinIvt | MixinIvtZeroTotalLength | MixinLoadAddress | MixinLoadAddressOptional | MixinFwVersion
  | MixinImageVersion | MixinImageSubType | MixinHwKey | MixinCertBlockV21 | MixinManifestCrc | MixinManifestDigest
  | ExportMixinAppCertBlockManifest | ExportMixinEccSign => true
  | _ => false
  end.
Definition wf_v21 (c : mbi_class) : bool :=
  forallb allowed_v21 (c_mixins c) && nodupb (c_mixins c) && has c MixinApp && has_attr c AIvtTable &&
  (0 <? c_type c) && (c_type c <? 64) && has c MixinCertBlockV21 &&
  xorb (has c MixinManifestCrc) (has c MixinManifestDigest) &&
  (opt_mixin_id (provider c SCollect) =? mixin_id ExportMixinAppCertBlockManifest) &&
  (opt_mixin_id (provider c SDisassemble) =? mixin_id ExportMixinAppCertBlockManifest) &&
  (opt_mixin_id (provider c SFinalize) =? mixin_id ExportMixinAppCertBlockManifest) &&
  (opt_mixin_id (provider c SSign) =? mixin_id ExportMixinEccSign).

Lemma wf_v21_spec c : wf_v21 c = true ->
  forallb allowed_v21 (c_mixins c) = true /\ nodupb (c_mixins c) = true /\ has c MixinApp = true /\ has_attr c AIvtTable = true /\
  0 < c_type c < 64 /\ has c MixinCertBlockV21 = true /\ xorb (has c MixinManifestCrc) (has c MixinManifestDigest) = true /\
  provider c SCollect = Some ExportMixinAppCertBlockManifest /\ provider c SDisassemble = Some ExportMixinAppCertBlockManifest /\
  provider c SFinalize = Some ExportMixinAppCertBlockManifest /\ provider c SSign = Some ExportMixinEccSign.
Proof.
  unfold wf_v21. rewrite !andb_true_iff, !Z.ltb_lt, !Z.eqb_eq. intros H. decompose [and] H.
  repeat split; try assumption; now apply opt_id_eq.
Qed.

Lemma v21_class c : forallb allowed_v21 (c_mixins c) = true ->
  supported c = true /\ provider c SEncrypt = None /\ provider c SPostEncrypt = None /\ has c MixinRelocTable = false.
Proof.
  intros H. unfold supported. rewrite (existsb_allowed allowed_v21 _ _ H).
  repeat split; try (apply (provider_none_if _ _ _ H); intros [] Q; try discriminate Q; reflexivity).
  now apply (has_allowed allowed_v21).
Qed.

(* certificate block v2.1 as the parser sees it: "chdr" and its own size at offset 8 *)
Definition cert21_wf (b : list N) : Prop := (12 <= length b)%nat /\ rd32 0 b = CHDR_MAGIC /\ rd32 8 b = zlen b.

Definition digest_on (c : mbi_class) (x : mbi) : bool :=
  has c MixinManifestDigest && negb (manifest_flags (m_digest x) =? 0) && negb (m_digest x =? 0).
Definition digest_part (k : crypto) (c : mbi_class) (x : mbi) (dts : list N) : list N :=
  if digest_on c x then k_hash k (m_digest x) dts else [].

Lemma export_v21_shape k c x im b sg :
  wf_v21 c = true -> (56 <= length (m_app x))%nat -> m_cert x = Some (CertV21 b sg) ->
  export_mbi k c x = Ok im ->
  exists app' mf crc,
    update_ivt c x (m_app x) (total_len c x) (app_len c x) = Ok app' /\
    manifest_export c x crc = Ok mf /\
    im = (app' ++ b ++ mf) ++ k_sign k (app' ++ b ++ mf) ++ digest_part k c x (app' ++ b ++ mf).
Proof.
  intros W L HC E. destruct (wf_v21_spec c W) as (WA & _ & _ & _ & _ & _ & _ & Pcol & _ & Pfin & Psign).
  destruct (v21_class c WA) as (_ & PE & PP & _).
  apply export_inv in E as (_ & _ & raw & enc & enc2 & sg0 & fin & C & EN & PO & SG & FI & ->).
  rewrite encrypt_none in EN by exact PE. injection EN as <-. rewrite post_encrypt_none in PO by exact PP. injection PO as <-.
  destruct (collect_v21_inv c x raw Pcol L C) as (cb & app' & cbb & mf0 & mf & HC' & _ & U & CE & M0 & M & ->).
  rewrite HC in HC'. injection HC' as <-. apply ok_inj in CE. subst cbb.
  assert (SH : exists crc, manifest_export c x crc = Ok mf) by (destruct (has c MixinManifestCrc); [|subst mf]; eauto).
  destruct SH as (crc & M'). exists app', mf, crc. split; [exact U|]. split; [exact M'|].
  unfold sign in SG. rewrite Psign in SG. injection SG as <-. cbn [fst snd] in FI.
  unfold finalize in FI. rewrite Pfin, Psign in FI. fold (digest_on c x) in FI. unfold digest_part.
  rewrite !app_nil_r in FI. destruct (digest_on c x); injection FI as <-; unfold flat; cbn [concat app];
    now rewrite ?app_nil_r, <- ?app_assoc.
Qed.

(* the manifest mixins are validated with TrustZone not disabled *)
Lemma manifest_tz_enabled c x : validate c x = Ok tt -> has_manifest c = true -> tz_is_disabled (m_tz x) = false.
Proof.
  unfold has_manifest. intros V H. apply orb_true_iff in H as [H|H]; pose proof (validate_mix c x _ V H) as Q; cbn in Q;
    destruct (tz_is_disabled (m_tz x)); (discriminate Q || reflexivity).
Qed.

Lemma total_len_v21 c x b sg : wf_v21 c = true -> m_cert x = Some (CertV21 b sg) -> 0 <= m_digest x <= 3 ->
  total_len c x = zlen (m_app x) + (zlen b + Z.of_nat sg) + manifest_total c x +
                  (if digest_on c x then Z.of_nat (natz (hash_size (m_digest x))) else 0).
Proof.
  intros W HC RD. destruct (wf_v21_spec c W) as (WA & Wnd & Wa & _ & _ & Wv21 & Wx & _).
  assert (NO : forall m, allowed_v21 m = false -> forall v, hz c m v = 0)
    by (intros m Hm v; apply hz_false, (has_allowed allowed_v21 c m WA Hm)).
  rewrite (total_len_expand c x Wnd), (hz_true _ _ _ Wa), (hz_true _ _ _ Wv21).
  rewrite (NO MixinTrustZone), (NO MixinTrustZoneMandatory), (NO MixinRelocTable), (NO MixinCertBlockV1), (NO MixinKeyStore),
    (NO MixinHmac), (NO MixinHmacMandatory) by reflexivity.
  cbn [mix_len]. rewrite HC. cbn [cert_size cert_sig]. unfold hz, manifest_total, digest_on, zlen.
  assert (DF : (if Z.land (manifest_flags (m_digest x)) G_MANIFEST_DIGEST_PRESENT_FLAG =? 0 then 0 else hash_size (m_digest x))
               = if negb (manifest_flags (m_digest x) =? 0) && negb (m_digest x =? 0) then Z.of_nat (natz (hash_size (m_digest x))) else 0).
  { assert (Q : m_digest x = 0 \/ m_digest x = 1 \/ m_digest x = 2 \/ m_digest x = 3) by lia.
    destruct Q as [-> | [-> | [-> | ->]]]; reflexivity. }
  rewrite DF. destruct (has c MixinManifestCrc), (has c MixinManifestDigest); try discriminate Wx; cbn [andb]; lia.
Qed.

Lemma v21_image_len k c x b sg app' mf crc :
  wf_v21 c = true -> m_cert x = Some (CertV21 b sg) -> 0 <= m_digest x <= 3 ->
  length app' = length (m_app x) -> manifest_export c x crc = Ok mf ->
  (forall d, length (k_sign k d) = sg) -> (forall a d, length (k_hash k a d) = natz (hash_size a)) ->
  let A := app' ++ b ++ mf in zlen (A ++ k_sign k A ++ digest_part k c x A) = total_len c x.
Proof.
  intros W HC RD La M KS KH A. rewrite (total_len_v21 c x b sg W HC RD). unfold A, digest_part.
  rewrite !zlen_app, (manifest_export_length c x crc mf M). unfold zlen. rewrite La, KS.
  destruct (digest_on c x); [rewrite KH|]; cbn [length]; lia.
Qed.

(* the manifest mixins find the manifest behind the certificate block *)
Lemma mix_parse_manifest c x tzsize sigsz dek data m st b sg off mf crc rest :
  m = MixinManifestCrc \/ m = MixinManifestDigest -> m_cert st = Some (CertV21 b sg) ->
  get_cert_block_offset c data = Ok off -> skipn (natz (off + zlen b)) data = mf ++ rest -> rest <> [] ->
  manifest_export c x crc = Ok mf ->
  (forall d, m_tz x = TzCustom d -> length d = tzsize /\ (0 < tzsize)%nat) ->
  0 <= m_digest x <= 3 -> (has c MixinManifestCrc = true -> m_digest x = 0) -> tz_is_disabled (m_tz x) = false ->
  mix_parse c tzsize sigsz dek data m st = Ok (upd x dek m st).
Proof.
  intros Hm Ec OFF SK NR M HZ RD DC TZD.
  replace (mix_parse c tzsize sigsz dek data m st) with (mix_parse c tzsize sigsz dek data MixinManifestCrc st) by (destruct Hm as [-> | ->]; reflexivity).
  replace (upd x dek m st) with (upd x dek MixinManifestCrc st) by (destruct Hm as [-> | ->]; reflexivity).
  unfold mix_parse, upd. rewrite Ec, OFF. cbn [bind]. rewrite SK, (manifest_parse_export c x crc mf rest tzsize M) by assumption.
  cbn [bind]. destruct (m_tz x); try discriminate TZD; reflexivity.
Qed.

Lemma mix_parse_cert_v21 c tzsize sg dek data st off b rest :
  get_cert_block_offset c data = Ok off -> skipn (natz off) data = b ++ rest -> cert21_wf b ->
  mix_parse c tzsize sg dek data MixinCertBlockV21 st = Ok (set_cert st (Some (CertV21 b sg))).
Proof.
  intros OFF SK (CW1 & CW2 & CW3). unfold mix_parse. rewrite OFF. cbn [bind]. rewrite SK. unfold cert_v21_parse.
  replace (Nat.ltb (length (b ++ rest)) 12) with false by (symmetry; apply Nat.ltb_ge; rewrite app_length; lia).
  rewrite !rd32_app by lia. rewrite CW2, CW3, Z.eqb_refl. cbn [negb bind]. now rewrite natz_zlen, firstn_app_exact by reflexivity.
Qed.

(* finalize(revert=True) of a manifest class drops the digest, if one was appended *)
Lemma finalize_revert_digest k c x st A dts :
  provider c SFinalize = Some ExportMixinAppCertBlockManifest -> m_digest st = m_digest x ->
  (forall a d, length (k_hash k a d) = natz (hash_size a)) ->
  finalize_revert c st (A ++ digest_part k c x dts) = Ok A.
Proof.
  intros P SD KH. unfold finalize_revert, digest_part. rewrite P, SD. fold (digest_on c x).
  destruct (digest_on c x); f_equal; [rewrite <- (KH (m_digest x) dts); apply drop_last_app | apply app_nil_r].
Qed.

(* ------------------------------------------------------------------ settings a class does not carry are at their defaults
   (and the decryption key handed to parse is the HMAC key): then the parsed object is x with the IVT words zeroed, and
   re-export reproduces the image (reexport_stable) *)
Definition canonical (c : mbi_class) (x : mbi) (dek : option (list N)) : Prop :=
  let l := c_mixins c in
  (has_attr c ALoadAddress = false -> m_load x = 0) /\ (has_attr c AImageVersion = false -> m_imgver x = 0) /\
  (has_attr c AImageSubtype = false -> m_subtype x = 0) /\ (has_attr c AHwKey = false -> m_hwkey x = false) /\
  (existsb is_tz_giver l = false -> m_tz x = TzEnabled) /\
  (existsb is_manifest_mixin l = false -> m_fwver x = 0 /\ m_digest x = 0) /\
  (has_attr c AKeyStore = false -> m_ks x = None) /\
  m_hmac x = (if existsb is_hmac_mixin l then dek else None) /\
  (has_attr c ACtrIv = false -> m_iv x = []) /\
  (existsb is_cert_mixin l = false -> m_cert x = None).

Lemma parsed_canonical c x dek : canonical c x dek -> parsed c x dek = set_app x (clean_ivt (m_app x)).
Proof.
  intros (C1 & C2 & C3 & C4 & C5 & C6 & C7 & C8 & C9 & C10).
  unfold parsed, rounds_state. apply mbi_ext; cbn; try reflexivity; try (symmetry; exact C8);
    match goal with |- (if ?b then _ else _) = _ => destruct b eqn:Hb; [reflexivity|symmetry; auto] end;
    try (apply C6; reflexivity).
Qed.

Theorem reexport_parsed k c x dek im :
  (56 <= length (m_app x))%nat -> has_attr c AIvtTable = true -> canonical c x dek ->
  export_mbi k c x = Ok im -> export_mbi k c (parsed c x dek) = Ok im.
Proof. intros L HI C E. rewrite (parsed_canonical c x dek C). now rewrite export_clean_app. Qed.

(* ================================================================== certificate block v1 (RSA signed), with or without
   relocation table, HMAC / key store (RT5xx/RT6xx signed load-to-RAM) *)
(* certificate block v1 as the parser sees it: "cert", header length 32, certificate table length; total size 4-aligned *)
Definition cert1_wf (pre post : list N) : Prop :=
  length pre = 20%nat /\ rd32 0 pre = CERT_MAGIC /\ rd32 8 pre = 32 /\ (8 <= length post)%nat /\
  0 <= rd32 4 post /\
  Z.of_nat (24 + length post) = (let raw := 32 + rd32 4 post + 128 in raw + (4 - raw mod 4) mod 4).

Lemma cert_export_v1_len pre post sg il cb : cert_export (CertV1 pre post sg) il = Ok cb -> length cb = (length pre + 4 + length post)%nat.
Proof.
  cbn [cert_export]. destruct (il <=? 0); [discriminate|]. intros E. apply bind_ok in E as (w & Ew & E). injection E as <-.
  apply u32_length in Ew. rewrite !app_length. lia.
Qed.

Lemma cert_v1_parse_export pre post sg il cb rest :
  cert1_wf pre post -> cert_export (CertV1 pre post sg) il = Ok cb ->
  cert_v1_parse sg (cb ++ rest) = Ok (CertV1 pre post sg) /\ length cb = (24 + length post)%nat.
Proof.
  intros (W1 & W2 & W3 & W4 & W5 & W6) E. pose proof (cert_export_v1_len _ _ _ _ _ E) as Lcb. rewrite W1 in Lcb.
  split; [|exact Lcb]. cbn [cert_export] in E.
  destruct (il <=? 0); [discriminate|]. apply bind_ok in E as (w & Ew & E). injection E as <-.
  pose proof (u32_length _ _ Ew) as Lw. unfold cert_v1_parse. rewrite <- !app_assoc. set (d := pre ++ w ++ post ++ rest).
  assert (Ld : length d = (24 + length post + length rest)%nat) by (unfold d; rewrite !app_length; lia).
  replace (Nat.ltb (length d) 32) with false by (symmetry; apply Nat.ltb_ge; lia).
  assert (P0 : rd32 0 d = CERT_MAGIC) by (unfold d; rewrite rd32_app by lia; exact W2).
  assert (P8 : rd32 8 d = 32) by (unfold d; rewrite rd32_app by lia; exact W3).
  assert (P28 : rd32 28 d = rd32 4 post) by (unfold d; rewrite !rd32_skip, rd32_app by lia; f_equal; lia).
  rewrite P0, P8, P28, !Z.eqb_refl. cbn [negb]. cbv zeta in W6. set (raw := 32 + rd32 4 post + 128) in *.
  pose proof (Z.mod_pos_bound (4 - raw mod 4) 4 eq_refl) as M.
  replace (zlen d <? rd32 4 post + 128) with false by (symmetry; apply Z.ltb_ge; unfold zlen; lia).
  f_equal. rewrite <- W6. unfold natz. rewrite Nat2Z.id.
  assert (F20 : firstn 20 d = pre) by (now apply firstn_app_exact).
  assert (S24 : sub d 24 (24 + length post) = post).
  { unfold d. rewrite (app_assoc pre w). apply slice_app_mid; rewrite ?app_length; lia. }
  now rewrite F20, S24.
Qed.

Definition allowed_v1 (m : mixin) : bool :=
  match m with
  | MixinApp | MixinIvt | MixinIvtZeroTotalLength | MixinTrustZone | MixinTrustZoneMandatory | MixinLoadAddress
  | MixinLoadAddressOptional | MixinHwKey | MixinRelocTable | MixinCertBlockV1 | MixinHmacMandatory | MixinKeyStore
  | ExportMixinAppTrustZoneCertBlock | ExportMixinRsaSign | ExportMixinHmacKeyStoreFinalize => true
  | _ => false
  end.
Definition wf_v1 (c : mbi_class) : bool :=
  forallb allowed_v1 (c_mixins c) && nodupb (c_mixins c) && has c MixinApp && has_attr c AIvtTable &&
  (0 <? c_type c) && (c_type c <? 64) && has c MixinCertBlockV1 &&
  xorb (has c MixinTrustZone) (has c MixinTrustZoneMandatory) &&
  (opt_mixin_id (provider c SCollect) =? mixin_id ExportMixinAppTrustZoneCertBlock) &&
  (opt_mixin_id (provider c SDisassemble) =? mixin_id ExportMixinAppTrustZoneCertBlock) &&
  (opt_mixin_id (provider c SSign) =? mixin_id ExportMixinRsaSign) &&
  (opt_mixin_id (provider c SFinalize) =? (if has c MixinHmacMandatory then mixin_id ExportMixinHmacKeyStoreFinalize else 0)) &&
  implb (has c MixinKeyStore) (has c MixinHmacMandatory).

Lemma wf_v1_spec c : wf_v1 c = true ->
  forallb allowed_v1 (c_mixins c) = true /\ nodupb (c_mixins c) = true /\ has c MixinApp = true /\ has_attr c AIvtTable = true /\
  0 < c_type c < 64 /\ has c MixinCertBlockV1 = true /\ xorb (has c MixinTrustZone) (has c MixinTrustZoneMandatory) = true /\
  provider c SCollect = Some ExportMixinAppTrustZoneCertBlock /\ provider c SDisassemble = Some ExportMixinAppTrustZoneCertBlock /\
  provider c SSign = Some ExportMixinRsaSign /\
  provider c SFinalize = (if has c MixinHmacMandatory then Some ExportMixinHmacKeyStoreFinalize else None) /\
  (has c MixinKeyStore = true -> has c MixinHmacMandatory = true).
Proof.
  unfold wf_v1. rewrite !andb_true_iff, !Z.ltb_lt, !Z.eqb_eq. intros H. decompose [and] H.
  repeat split; try assumption; try (now apply opt_id_eq).
  - destruct (has c MixinHmacMandatory); [now apply opt_id_eq|]. destruct (provider c SFinalize) as [[]|]; (discriminate || reflexivity).
  - intros Q. rewrite Q in *. assumption.
Qed.

Lemma cert_v1_family c :
  has c MixinHmac = false -> has c MixinCertBlockV21 = false -> has_manifest c = false ->
  has_attr c AHmacKey = has c MixinHmacMandatory /\ existsb is_hmac_mixin (c_mixins c) = has c MixinHmacMandatory /\
  existsb is_cert_mixin (c_mixins c) = has c MixinCertBlockV1 /\
  existsb is_tz_giver (c_mixins c) = has_attr c ATrustZone /\ has_tz c = has_attr c ATrustZone.
Proof.
  intros H1 H2 H3. unfold has_tz. rewrite has_attr_hmac, hmac_mixins, cert_mixins, tz_givers, has_attr_tz, H1, H2, H3, !orb_false_r. auto.
Qed.
Lemma v1_class c : forallb allowed_v1 (c_mixins c) = true ->
  supported c = true /\ provider c SEncrypt = None /\ provider c SPostEncrypt = None /\
  has_attr c AHmacKey = has c MixinHmacMandatory /\ existsb is_hmac_mixin (c_mixins c) = has c MixinHmacMandatory /\
  existsb is_cert_mixin (c_mixins c) = has c MixinCertBlockV1 /\
  existsb is_tz_giver (c_mixins c) = has_attr c ATrustZone /\ has_tz c = has_attr c ATrustZone.
Proof.
  intros H. unfold supported. rewrite (existsb_allowed allowed_v1 _ _ H).
  split; [reflexivity|]. split; [|split]; try (apply (provider_none_if _ _ _ H); intros [] Q; try discriminate Q; reflexivity).
  apply cert_v1_family; unfold has_manifest; rewrite ?(has_allowed allowed_v1 c _ H) by reflexivity; reflexivity.
Qed.

Lemma sum_len_cert_v1 x l cbn_ :
  forallb allowed_v1 l = true -> nodupb l = true -> (forall cb, m_cert x = Some cb -> Z.of_nat (cert_size cb) = cbn_) ->
  sumz (map (fun m => if legacy_len m then mix_len x m else 0) l) =
  (if hasl l MixinApp then zlen (m_app x) else 0) + (if hasl l MixinTrustZone then zlen (tz_export (m_tz x)) else 0) +
  (if hasl l MixinTrustZoneMandatory then zlen (tz_export (m_tz x)) else 0) +
  (if hasl l MixinRelocTable then (match m_table x with Some es => table_len es | None => 0 end) else 0) +
  (if hasl l MixinCertBlockV1 then (match m_cert x with Some _ => cbn_ | None => 0 end) else 0).
Proof.
  intros Ha Hn Hc. rewrite (sumz_nodup _ _ Hn).
  assert (NO : forall m, allowed_v1 m = false -> hasl l m = false)
    by (intros m Hm; apply (has_allowed allowed_v1 {| c_type := 0; c_mixins := l |} m Ha Hm)).
  cbn [all_mixins map sumz fold_right legacy_len mix_len]. rewrite (NO MixinManifestCrc), (NO MixinManifestDigest), (NO MixinCertBlockV21) by reflexivity.
  rewrite ?if_same0. destruct (m_cert x) as [cb|]; [rewrite (Hc cb eq_refl)|rewrite if_same0]; ring.
Qed.

Definition tzb_of (x : mbi) : list N := tz_export (m_tz x).

(* image before finalize *)
Definition v1_inner (k : crypto) (app' tb cb : list N) (x : mbi) : list N :=
  (app' ++ tb ++ cb ++ tzb_of x) ++ k_sign k (app' ++ tb ++ cb ++ tzb_of x).
Definition with_hmac (k : crypto) (c : mbi_class) (x : mbi) (F : list N) : list N :=
  if has c MixinHmacMandatory then firstn 64 F ++ hmac_bytes x (k_hmac k (hmac_key_of x) (firstn 64 F)) ++ skipn 64 F else F.

Lemma validate_hmac_key c x : validate c x = Ok tt -> has c MixinHmacMandatory = true ->
  exists kb kt, m_hmac x = Some (kb :: kt) /\ length (kb :: kt) = 32%nat.
Proof.
  intros V H. pose proof (validate_mix c x _ V H) as Q. cbn [mix_validate] in Q. destruct (m_hmac x) as [[|kb kt]|]; try discriminate Q.
  exists kb, kt. split; [reflexivity|]. destruct (Nat.eqb_spec (length (kb :: kt)) (natz G_HMAC_KEY_LENGTH)); [assumption | discriminate Q].
Qed.

(* RSA signature, then the HMAC / key store block if the class has one: the signature follows what was collected, the
   block goes in at byte 64, and finalize(revert=True) takes it out again whatever the parsed object is *)
Lemma sign_finalize_rsa_hmac k c x segs sg0 fin :
  provider c SSign = Some ExportMixinRsaSign ->
  provider c SFinalize = (if has c MixinHmacMandatory then Some ExportMixinHmacKeyStoreFinalize else None) ->
  0 <= c_type c < 64 -> 0 <= m_subtype x < 4 -> 0 <= m_imgver x < 65536 -> validate c x = Ok tt ->
  (forall key data, length (k_hmac k key data) = 32%nat) ->
  (forall b, m_ks x = Some b -> length b = 1424%nat /\ has_attr c AKeyStore = true) ->
  (40 <= length (flat segs))%nat -> (64 <= app_len c x -> (64 < length (flat segs))%nat) ->
  get_flags (flat segs) = create_flags c x ->
  sign k c x segs = Ok sg0 -> finalize k c x (fst sg0) (snd sg0) = Ok fin ->
  let G := flat segs ++ k_sign k (flat segs) in
  flat fin = with_hmac k c x G /\ (forall st, finalize_revert c st (flat fin) = Ok G) /\
  (has c MixinHmacMandatory = true -> 64 <= app_len c x /\ exists kb kt, m_hmac x = Some (kb :: kt)).
Proof.
  intros Psign Pfin R1 R2 R3 V KH KSL L40 L64 FF SG FI G.
  unfold sign in SG. rewrite Psign in SG. apply ok_inj in SG. subst sg0. cbn [fst snd] in FI.
  assert (FI' : flat (segs ++ [k_sign k (flat segs)]) = G) by (rewrite flat_app; unfold G, flat; cbn [concat]; now rewrite app_nil_r).
  unfold with_hmac. destruct (has c MixinHmacMandatory) eqn:HM.
  - destruct (Z.ltb_spec (app_len c x) 64) as [Lt|Ge].
    { rewrite (proj1 (hmac_finalize_inverse k c x x _ _ Pfin) Lt) in FI. discriminate FI. }
    destruct (validate_hmac_key c x V HM) as (kb & kt & HK & _).
    destruct (hmac_finalize k c x (segs ++ [k_sign k (flat segs)]) (flat segs) Pfin Ge) as (im' & FE & FL & FR);
      [ | exists kb, kt; exact HK | exact KH | | | ].
    + rewrite FI'. unfold G. rewrite app_length. specialize (L64 Ge). lia.
    + intros b Hb. apply (KSL b Hb).
    + apply (ks_flag_image c x); try assumption. rewrite FI'. unfold G. now rewrite get_flags_prefix.
    + rewrite FE in FI. apply ok_inj in FI. subst fin. rewrite FL, FI'. split; [reflexivity|]. split; [|intros _; eauto].
      intros st. rewrite <- FI', <- FL. apply FR.
  - rewrite finalize_none in FI by exact Pfin. apply ok_inj in FI. subst fin. split; [exact FI'|]. split; [|discriminate].
    intros st. rewrite finalize_revert_none by exact Pfin. now rewrite FI'.
Qed.

Lemma export_v1_shape k c x im pre post sg :
  wf_v1 c = true -> (56 <= length (m_app x))%nat -> m_cert x = Some (CertV1 pre post sg) ->
  (forall key data, length (k_hmac k key data) = 32%nat) -> (forall d, length (k_sign k d) = sg) ->
  (forall b, m_ks x = Some b -> length b = 1424%nat /\ has_attr c AKeyStore = true) ->
  0 <= m_subtype x < 4 -> 0 <= m_imgver x < 65536 ->
  export_mbi k c x = Ok im ->
  exists app' tb cb,
    update_ivt c x (m_app x) (total_len c x + Z.of_nat sg) (app_len c x) = Ok app' /\
    table_part c x (zlen app') = Ok tb /\
    cert_export (CertV1 pre post sg) (total_len_for_cert c x) = Ok cb /\
    im = with_hmac k c x (v1_inner k app' tb cb x) /\
    (forall st, finalize_revert c st im = Ok (v1_inner k app' tb cb x)) /\
    (has c MixinHmacMandatory = true -> 64 <= app_len c x /\ exists kb kt, m_hmac x = Some (kb :: kt)).
Proof.
  intros W L HC KH KS KSL R2 R3 E.
  destruct (wf_v1_spec c W) as (WA & Wnd & Wa & Wi & Wt & Wv1 & Wtz & Pcol & Pdis & Psign & Pfin & Wks).
  destruct (v1_class c WA) as (_ & PE & PP & _).
  apply export_inv in E as (_ & V & raw & enc & enc2 & sg0 & fin & C & EN & PO & SG & FI & ->).
  rewrite encrypt_none in EN by exact PE. injection EN as <-. rewrite post_encrypt_none in PO by exact PP. injection PO as <-.
  destruct (collect_v1_inv c x pre post sg raw Pcol HC L C) as (app' & rs & cb & CB & U & RS & ->).
  exists app', (flat rs), cb. pose proof (reloc_segment_flat' c x (zlen app') rs RS) as TB.
  split; [exact U|]. split; [exact TB|]. split; [exact CB|].
  set (segs := [app'] ++ rs ++ [cb] ++ tz_segment x) in *.
  assert (FS : flat segs = app' ++ flat rs ++ cb ++ tzb_of x).
  { unfold segs. rewrite !flat_app, flat_tz_segment. unfold flat at 1 3. cbn [concat]. now rewrite !app_nil_r. }
  destruct (ivt_header c x _ _ _ _ L U) as (La & _ & _ & IW2 & _).
  unfold v1_inner. rewrite <- FS. apply (sign_finalize_rsa_hmac k c x segs sg0 fin); try assumption; try lia; rewrite FS, ?app_length.
  - lia.
  - intros Ge. rewrite (app_len_table c x (flat rs) app' Wnd Wa La TB) in Ge. unfold zlen in Ge.
    pose proof (cert_export_v1_len _ _ _ _ _ CB). lia.
  - rewrite get_flags_prefix by lia. exact IW2.
Qed.

(* the TrustZone mixins of a class with certificate block read [tzsize] bytes behind the certificate block (and the
   HMAC / key store); what they find there replaces custom data *)
Definition tz_seen (x : mbi) (g : list N) : tz := match m_tz x with TzCustom _ => TzCustom g | t => t end.

Lemma mix_parse_tz_cert c x tzsize sigsz dek data m st cb off :
  0 <= c_type c < 64 -> 0 <= m_subtype x < 4 -> 0 <= m_imgver x < 65536 ->
  get_flags data = create_flags c x -> has_attr c ACertBlock = true -> has_attr c ATrustZone = true ->
  m_cert st = Some cb -> get_cert_block_offset c data = Ok off ->
  let o := natz (off + Z.of_nat (cert_size cb) + hmac_ks_shift c data) in
  (tz_is_custom (m_tz x) = true -> length (sub data o (o + tzsize)) = tzsize) ->
  m = MixinTrustZone \/ m = MixinTrustZoneMandatory ->
  mix_parse c tzsize sigsz dek data m st = Ok (set_tz st (tz_seen x (sub data o (o + tzsize)))).
Proof.
  intros R1 R2 R3 DF HACB HTZ Ec OFF o Lg Hm. pose proof (flags_decode_lemma c x R1 R2 R3) as (_ & _ & FT & _).
  unfold has_tz in FT. rewrite HTZ in FT.
  destruct Hm as [-> | ->]; unfold mix_parse, tz_seen; rewrite DF, FT, HACB, Ec;
    (destruct (m_tz x) as [|d|]; cbn [tz_tag]; try reflexivity;
     change (G_TZ_CUSTOM =? G_TZ_CUSTOM) with true; cbv iota; rewrite OFF; cbn [bind]; fold o;
     rewrite <- (Lg eq_refl) at 1; rewrite tz_from_binary_exact; reflexivity).
Qed.

(* the key store sits behind the HMAC at byte 96 *)
Lemma mix_parse_keystore c x tzsize sigsz dek (F hm : list N) st :
  (64 <= length F)%nat -> length hm = 32%nat ->
  (forall b, m_ks x = Some b -> length b = 1424%nat) ->
  flag_set (firstn 64 F ++ hmac_bytes x hm ++ skipn 64 F) G_KEY_STORE_FLAG = ks_truthy_obj (m_ks x) ->
  mix_parse c tzsize sigsz dek (firstn 64 F ++ hmac_bytes x hm ++ skipn 64 F) MixinKeyStore st = Ok (set_ks st (m_ks x)).
Proof.
  intros LF Lh KSL KSF. unfold mix_parse. rewrite KSF. unfold hmac_bytes. destruct (m_ks x) as [b0|] eqn:Eb; [|reflexivity].
  pose proof (KSL b0 eq_refl) as Lb. cbn [ks_truthy_obj]. change (HMAC_OFF + HMAC_SZ)%nat with 96%nat. change KS_SZ with 1424%nat.
  replace (sub (firstn 64 F ++ (hm ++ b0) ++ skipn 64 F) 96 (96 + 1424)) with b0.
  - destruct b0; [simpl in Lb; lia|]. now rewrite Lb, Nat.eqb_refl.
  - rewrite <- app_assoc, (app_assoc (firstn 64 F) hm). symmetry. apply slice_app_mid; rewrite ?app_length, ?firstn_length; lia.
Qed.

(* what the parser reads from an image with (or, for a class without HMAC, without) the HMAC block at byte 64: S bytes are
   inserted; the header words and everything from byte 64 on are where they were, S further on; the key store is found *)
Lemma with_hmac_image k c x F :
  0 <= c_type c < 64 -> 0 <= m_subtype x < 4 -> 0 <= m_imgver x < 65536 ->
  (forall key data, length (k_hmac k key data) = 32%nat) ->
  (forall b, m_ks x = Some b -> length b = 1424%nat /\ has_attr c AKeyStore = true) ->
  has_attr c AHmacKey = has c MixinHmacMandatory -> (has c MixinKeyStore = true -> has c MixinHmacMandatory = true) ->
  (64 <= length F)%nat -> get_flags F = create_flags c x ->
  let data := with_hmac k c x F in
  let S := if has c MixinHmacMandatory then (32 + if ks_truthy_obj (m_ks x) then 1424 else 0)%nat else 0%nat in
  length data = (length F + S)%nat /\
  (forall o, (o + 4 <= 64)%nat -> rd32 o data = rd32 o F) /\
  (forall n, (has c MixinHmacMandatory = true -> 64 <= n)%nat -> skipn (n + S) data = skipn n F) /\
  flag_set data G_KEY_STORE_FLAG = ks_truthy_obj (m_ks x) /\ hmac_ks_shift c data = Z.of_nat S /\
  (forall tzsize sigsz dek st, mix_parse c tzsize sigsz dek data MixinKeyStore st = Ok (set_ks st (m_ks x))).
Proof.
  intros R1 R2 R3 KH KSL HMA Wks LF FF data S.
  assert (KSL1 : forall b, m_ks x = Some b -> length b = 1424%nat) by (intros b Hb; apply (KSL b Hb)).
  assert (PFX : forall o, (o + 4 <= 64)%nat -> rd32 o data = rd32 o F).
  { intros o Ho. unfold data, with_hmac. destruct (has c MixinHmacMandatory); [now apply rd32_inserted | reflexivity]. }
  assert (KSF : flag_set data G_KEY_STORE_FLAG = ks_truthy_obj (m_ks x)).
  { apply (ks_flag_image c x); try assumption. unfold get_flags. rewrite PFX by (rewrite off_flags_eq; lia). exact FF. }
  pose proof (hmac_bytes_length x _ (KH (hmac_key_of x) (firstn 64 F)) KSL1) as LHB.
  split; [|split; [exact PFX|split; [|split; [exact KSF|split]]]].
  - subst data S. unfold with_hmac. destruct (has c MixinHmacMandatory); [|lia].
    rewrite !app_length, firstn_length, skipn_length, LHB. lia.
  - intros n Hn. subst data S. unfold with_hmac. destruct (has c MixinHmacMandatory); [|now rewrite Nat.add_0_r].
    rewrite <- LHB. apply skipn_inserted; auto.
  - unfold hmac_ks_shift. rewrite HMA, KSF. subst S. destruct (has c MixinHmacMandatory); [|reflexivity].
    change (Z.of_nat HMAC_SZ) with 32. change (Z.of_nat KS_SZ) with 1424. destruct (ks_truthy_obj (m_ks x)); lia.
  - intros tzsize sigsz dek st. subst data. unfold with_hmac in *. destruct (has c MixinHmacMandatory) eqn:HM.
    + apply mix_parse_keystore; auto.
    + unfold mix_parse. rewrite KSF. destruct (m_ks x) as [b0|] eqn:Eb; [|reflexivity].
      destruct (KSL b0 eq_refl) as [_ HAk]. rewrite has_attr_ks in HAk. discriminate (Wks HAk).
Qed.

Theorem roundtrip_v21_full :
  forall (k : crypto) (c : mbi_class) (x : mbi) (tzsize sigsz : nat) (dek : option (list N)) (im b : list N) (sg : nat),
    wf_v21 c = true ->
    (56 <= length (m_app x))%nat -> (length (m_app x) mod 4 = 0)%nat ->
    0 <= m_subtype x < 4 -> 0 <= m_imgver x < 65536 ->
    m_cert x = Some (CertV21 b sg) -> cert21_wf b -> sigsz = sg -> (0 < sg)%nat ->
    (forall d, length (k_sign k d) = sg) -> (forall a d, length (k_hash k a d) = natz (hash_size a)) ->
    (forall d, m_tz x = TzCustom d -> length d = tzsize /\ (0 < tzsize)%nat) ->
    0 <= m_digest x <= 3 -> (has c MixinManifestCrc = true -> m_digest x = 0) ->
    m_table x = None ->
    export_mbi k c x = Ok im ->
    parse_mbi k c tzsize sigsz dek im = Ok (parsed c x dek) /\
    (canonical c x dek -> parsed c x dek = set_app x (clean_ivt (m_app x)) /\ export_mbi k c (parsed c x dek) = Ok im).
Proof.
  intros k c x tzsize sigsz dek im b sg W L L4 R2 R3 HC CW SGE SGP KS KH HZ RD DC HT E. subst sigsz. split.
  2:{ intros C. split; [now apply parsed_canonical | apply reexport_parsed; try assumption; apply (wf_v21_spec c W)]. }
  pose proof (proj1 (proj2 (export_inv _ _ _ _ E))) as V.
  destruct (export_v21_shape k c x im b sg W L HC E) as (app' & mf & crc & U & M & ->).
  destruct (wf_v21_spec c W) as (WA & Wnd & Wa & Wi & Wt & Wv21 & Wx & Pcol & Pdis & Pfin & Psign).
  destruct (v21_class c WA) as (SUP & PE & PP & NR).
  assert (MAN : has_manifest c = true)
    by (unfold has_manifest; destruct (has c MixinManifestCrc), (has c MixinManifestDigest); (discriminate Wx || reflexivity)).
  destruct (ivt_header c x _ _ _ _ L U) as (La & CL & _ & _ & IW3 & _).
  pose proof (app_len_no_table c x Wnd Wa NR) as AL.
  set (A := app' ++ b ++ mf). set (sig := k_sign k A). set (dgp := digest_part k c x A). set (data := A ++ sig ++ dgp).
  pose proof (v21_image_len k c x b sg app' mf crc W HC RD La M KS KH) as LD. cbv zeta in LD. fold A sig dgp data in LD.
  destruct (signed_header c x _ _ app' data L U) as (DF & DL & OFF);
    [lia | unfold data, A; rewrite !app_length; lia | intros o Ho; unfold data, A; rewrite <- !app_assoc; apply rd32_app; lia
    | rewrite LD; pose proof (zlen_nonneg data); lia |].
  rewrite AL in OFF.
  assert (PO : parse_ok c x dek tzsize sg data (c_mixins c)).
  { intros m Hi st Inv Wt'.
    assert (Hal : allowed_v21 m = true) by (eapply forallb_forall in WA; eauto).
    destruct (simple_mixin m) eqn:Sm; [apply mix_parse_simple; (assumption || lia)|].
    assert (MP : m = MixinManifestCrc \/ m = MixinManifestDigest -> mix_parse c tzsize sg dek data m st = Ok (upd x dek m st)).
    { intros Hm. pose proof (waits_cert c x m st (has_gives_attr c ACertBlock _ Wv21 eq_refl)) as Ec. rewrite HC in Ec.
      specialize (Ec ltac:(destruct Hm as [-> | ->]; reflexivity) Wt' Inv).
      apply (mix_parse_manifest c x tzsize sg dek data m st b sg _ mf crc (sig ++ dgp) Hm Ec OFF); try assumption.
      - unfold data, A. rewrite <- !app_assoc, (app_assoc app' b). apply skipn_app_exact. unfold natz, zlen. rewrite app_length. lia.
      - intros Q. apply (f_equal (@length N)) in Q. unfold sig in Q. rewrite app_length, KS in Q. simpl in Q. lia.
      - now apply (manifest_tz_enabled c x). }
    destruct m; try discriminate Hal; try discriminate Sm; [apply MP; now left | apply MP; now right|].
    unfold upd. rewrite HC. apply (mix_parse_cert_v21 c tzsize sg dek data st _ b (mf ++ sig ++ dgp) OFF); [|exact CW].
    unfold data, A. rewrite natz_zlen, <- !app_assoc. now apply skipn_app_exact. }
  destruct (parse_signed k c x dek tzsize sg data (CertV21 b sg) A sig SUP PO) as (STC & PM); try assumption;
    [now rewrite cert_mixins, Wv21, orb_true_r | apply KS |].
  rewrite PM.
  2:{ unfold data. rewrite app_assoc. apply finalize_revert_digest; [exact Pfin | | exact KH].
      unfold rounds_state; cbn [m_digest]. now rewrite manifest_mixins, MAN. }
  rewrite post_encrypt_revert_none by exact PP. cbn [bind]. rewrite encrypt_revert_none by exact PE. cbn [bind].
  replace A with ((app' ++ []) ++ b ++ mf) by (unfold A; now rewrite app_nil_r).
  rewrite (disassemble_cert_cut c x tzsize _ (rounds_state c x dek)); try (rewrite La; assumption).
  - unfold parsed. rewrite HT. reflexivity.
  - right. split; [exact Pdis | rewrite STC; discriminate].
  - rewrite app_nil_r, IW3, ivt_crc_nonzero, AL by lia. unfold zlen. now rewrite La.
  - unfold reloc_cut, provider. rewrite reloc_provider_has. unfold has in NR. unfold hasl. now rewrite NR, app_nil_r.
  - exact CL.
Qed.

Theorem roundtrip_v1_full :
  forall (k : crypto) (c : mbi_class) (x : mbi) (tzsize sigsz : nat) (dek : option (list N)) (im pre post : list N) (sg : nat),
    wf_v1 c = true ->
    (56 <= length (m_app x))%nat -> (length (m_app x) mod 4 = 0)%nat ->
    0 <= m_subtype x < 4 -> 0 <= m_imgver x < 65536 ->
    m_cert x = Some (CertV1 pre post sg) -> cert1_wf pre post -> sigsz = sg -> (0 < sg)%nat ->
    (forall d, length (k_sign k d) = sg) -> (forall key data, length (k_hmac k key data) = 32%nat) ->
    (forall b, m_ks x = Some b -> length b = 1424%nat /\ has_attr c AKeyStore = true) ->
    (forall d, m_tz x = TzCustom d -> length d = tzsize /\ (0 < tzsize)%nat) ->
    (forall es, m_table x = Some es -> has_attr c AAppTable = true /\ entries_ok es) ->
    export_mbi k c x = Ok im ->
    parse_mbi k c tzsize sigsz dek im = Ok (parsed c x dek) /\
    (canonical c x dek -> parsed c x dek = set_app x (clean_ivt (m_app x)) /\ export_mbi k c (parsed c x dek) = Ok im).
Proof.
  intros k c x tzsize sigsz dek im pre post sg W L L4 R2 R3 HC CW SGE SGP KS KH KSL HZ HTb E. split.
  2:{ intros C. split; [now apply parsed_canonical | apply reexport_parsed; try assumption; apply (wf_v1_spec c W)]. }
  destruct (export_v1_shape k c x im pre post sg W L HC KH KS KSL R2 R3 E) as (app' & tb & cb & U & TB & CB & -> & FREV & HMF).
  destruct (wf_v1_spec c W) as (WA & Wnd & Wa & Wi & Wt & Wv1 & Wtz & Pcol & Pdis & Psign & Pfin & Wks).
  destruct (v1_class c WA) as (SUP & PE & PP & HMA & G7 & G5 & GIV & HTZ).
  assert (R1 : 0 <= c_type c < 64) by lia.
  destruct (ivt_header c x _ _ _ _ L U) as (La & CL & IW1 & IW2 & IW3 & IW4).
  pose proof (app_len_table c x tb app' Wnd Wa La TB) as AL.
  destruct (cert_v1_parse_export pre post sg _ cb (tzb_of x ++ k_sign k (app' ++ tb ++ cb ++ tzb_of x)) CW CB) as [CP Lcb].
  set (A := app' ++ tb ++ cb ++ tzb_of x) in *. set (sig := k_sign k A) in *.
  assert (Lsig : length sig = sg) by apply KS.
  set (F := v1_inner k app' tb cb x) in *.
  assert (FE : F = A ++ sig) by reflexivity.
  pose proof (has_gives_attr c ACertBlock _ Wv1 eq_refl) as HACB.
  assert (LF : (length F = length (m_app x) + length tb + length cb + length (tzb_of x) + sg)%nat)
    by (rewrite FE; unfold A; rewrite !app_length; lia).
  assert (PFX : forall o, (o + 4 <= 56)%nat -> rd32 o F = rd32 o app') by (intros o Ho; rewrite FE; unfold A; rewrite <- !app_assoc; apply rd32_app; lia).
  destruct (with_hmac_image k c x F R1 R2 R3 KH KSL HMA Wks) as (Ldata & PFX0 & SKP0 & KSF & SHIFT & PKS);
    [lia | unfold get_flags; rewrite PFX by (rewrite off_flags_eq; lia); exact IW2|].
  set (data := with_hmac k c x F) in *.
  set (S := if has c MixinHmacMandatory then (32 + if ks_truthy_obj (m_ks x) then 1424 else 0)%nat else 0%nat) in *.
  assert (SKP : forall n, (natz (app_len c x) <= n)%nat -> skipn (n + S) data = skipn n F).
  { intros n Hn. apply SKP0. intros Q. destruct (HMF Q). unfold natz in Hn. lia. }
  assert (TL : total_len c x + Z.of_nat sg = zlen data).
  { assert (N : forall m, allowed_v1 m = false -> has c m = false) by (intros m; apply (has_allowed allowed_v1 c m WA)).
    rewrite (total_len_cert_v1 c x pre post sg tb (zlen app') Wnd Wa Wv1 Wtz) by (first [assumption | apply zlen_nonneg | apply N; reflexivity]).
    destruct CW as (Wp & _). unfold zlen. rewrite Ldata, LF, Lcb, Wp. unfold S, hz, tzb_of. cbn [mix_len].
    destruct (has c MixinHmacMandatory) eqn:HM.
    - destruct (proj2 (HMF eq_refl)) as (kb & kt & ->). change (Z.of_nat HMAC_SZ) with 32. lia.
    - replace (ks_truthy_obj (m_ks x)) with false.
      2:{ destruct (m_ks x) as [b0|] eqn:Eb; [|reflexivity]. destruct (KSL b0 eq_refl) as [_ HAk]. rewrite has_attr_ks in HAk. discriminate (Wks HAk). }
      lia. }
  destruct (signed_header c x _ _ app' data L U) as (DF & DL & OFF);
    [lia | rewrite Ldata, LF; lia | intros o Ho; rewrite PFX0, PFX by lia; reflexivity | pose proof (zlen_nonneg data); lia |].
  assert (NAL : natz (app_len c x) = (length app' + length tb)%nat) by (rewrite AL; unfold natz, zlen; lia).
  assert (NSH : forall n, natz (app_len c x + Z.of_nat n + hmac_ks_shift c data) = (length app' + length tb + n + S)%nat)
    by (intros n; rewrite SHIFT, AL; unfold natz, zlen; lia).
  assert (SKC : skipn (natz (app_len c x + hmac_ks_shift c data)) data = cb ++ tzb_of x ++ sig).
  { rewrite <- (Z.add_0_r (app_len c x)). change 0 with (Z.of_nat 0). rewrite NSH, Nat.add_0_r, SKP by lia.
    rewrite FE. unfold A. rewrite <- !app_assoc, (app_assoc app' tb). apply skipn_app_exact. now rewrite app_length. }
  assert (PO : parse_ok c x dek tzsize sigsz data (c_mixins c)).
  { intros m Hi st Inv Wt'.
    assert (Hal : allowed_v1 m = true) by (eapply forallb_forall in WA; eauto).
    destruct (simple_mixin m) eqn:Sm; [now apply mix_parse_simple|].
    assert (TZP : m = MixinTrustZone \/ m = MixinTrustZoneMandatory ->
                  mix_parse c tzsize sigsz dek data m st = Ok (upd x dek m st)).
    { intros Hm. pose proof (waits_cert c x m st HACB) as Ec. rewrite HC in Ec. specialize (Ec ltac:(destruct Hm as [-> | ->]; reflexivity) Wt' Inv).
      set (o := natz (app_len c x + Z.of_nat (cert_size (CertV1 pre post sg)) + hmac_ks_shift c data)).
      assert (GD : forall d, m_tz x = TzCustom d -> sub data o (o + tzsize) = d).
      { intros d Et. destruct (HZ d Et) as [Ld _]. unfold o. cbn [cert_size]. destruct CW as (Wp & _).
        replace (length pre + 4 + length post)%nat with (length cb) by lia. rewrite NSH. unfold sub, slice. rewrite SKP by lia.
        replace (length app' + length tb + length cb + S + tzsize - (length app' + length tb + length cb + S))%nat with tzsize by lia.
        rewrite FE. unfold A, tzb_of. rewrite Et. cbn [tz_export]. rewrite <- !app_assoc, (app_assoc app' tb), (app_assoc (app' ++ tb) cb).
        rewrite skipn_app_exact by (rewrite !app_length; lia). now apply firstn_app_exact. }
      rewrite (mix_parse_tz_cert c x tzsize sigsz dek data m st _ _ R1 R2 R3 DF HACB (has_tz_mixin_attr c m Hi Hm) Ec OFF).
      - fold o. unfold tz_seen. destruct Hm as [-> | ->]; unfold upd; (destruct (m_tz x) as [|d|] eqn:Et; [reflexivity | now rewrite (GD d eq_refl) | reflexivity]).
      - fold o. intros Q. destruct (m_tz x) as [|d|] eqn:Et; try discriminate Q. rewrite (GD d eq_refl). apply (HZ d eq_refl).
      - exact Hm. }
    destruct m; try discriminate Hal; try discriminate Sm; [apply TZP; now left | apply TZP; now right | |].
    - (* MixinCertBlockV1 *)
      unfold upd. rewrite HC. subst sigsz. exact (mix_parse_cert_v1 c tzsize sg dek data st _ cb (tzb_of x ++ sig) pre post OFF SKC CP).
    - apply PKS. }
  destruct (parse_signed k c x dek tzsize sigsz data (CertV1 pre post sg) A sig SUP PO) as (STC & PM); try assumption;
    [now rewrite G5|].
  rewrite PM by (rewrite FREV; now rewrite FE).
  rewrite post_encrypt_revert_none by exact PP. cbn [bind]. rewrite encrypt_revert_none by exact PE. cbn [bind].
  unfold A. rewrite (app_assoc app' tb).
  rewrite (disassemble_cert_cut c x tzsize _ (set_table (rounds_state c x dek) (m_table x))); try (rewrite La; assumption); auto.
  - rewrite IW3, ivt_crc_nonzero, AL, zlen_app by lia. unfold zlen. now rewrite La.
  - apply (reloc_cut_ok c x); try assumption; [lia | reflexivity].
Qed.

(* the hypotheses are satisfiable: database classes, concrete certificate blocks *)
Definition k_ex (sg : nat) : crypto :=
  {| k_sign := fun _ => zeros sg; k_hmac := fun _ _ => zeros 32; k_ctr := fun _ _ _ d => d;
     k_hash := fun a _ => zeros (natz (hash_size a)) |}.
Example cert1_wf_instance : cert1_wf ([99; 101; 114; 116; 1; 0; 0; 0; 32; 0; 0; 0] ++ zeros 8)%N (zeros 136).
Proof.
  unfold cert1_wf. split; [reflexivity|]. split; [reflexivity|]. split; [reflexivity|].
  split; [rewrite zeros_length; lia|]. split; [vm_compute; discriminate | vm_compute; reflexivity].
Qed.
Example cert21_wf_instance : cert21_wf ([99; 104; 100; 114; 1; 0; 2; 0; 16; 0; 0; 0] ++ zeros 4)%N.
Proof. unfold cert21_wf. split; [simpl; lia|]. split; vm_compute; reflexivity. Qed.
Example wf_v1_instance :
  wf_v1 {| c_type := 1; c_mixins := [MixinApp; MixinRelocTable; MixinLoadAddress; MixinIvt; MixinTrustZone; MixinCertBlockV1;
                                     MixinHmacMandatory; MixinKeyStore; MixinHwKey; ExportMixinAppTrustZoneCertBlock;
                                     ExportMixinRsaSign; ExportMixinHmacKeyStoreFinalize] |} = true /\
  wf_v21 {| c_type := 4; c_mixins := [MixinApp; MixinIvt; MixinLoadAddress; MixinCertBlockV21; MixinManifestDigest;
                                      ExportMixinAppCertBlockManifest; ExportMixinEccSign] |} = true.
Proof. split; vm_compute; reflexivity. Qed.

(* ================================================================== encrypted + signed load-to-RAM images (RT5xx / RT6xx) *)
Definition allowed_enc (m : mixin) : bool :=
  match m with
  | MixinApp | MixinIvt | MixinIvtZeroTotalLength | MixinTrustZone | MixinTrustZoneMandatory | MixinLoadAddress
  | MixinLoadAddressOptional | MixinHwKey | MixinRelocTable | MixinCertBlockV1 | MixinHmacMandatory | MixinKeyStore
  | MixinCtrInitVector
  | ExportMixinAppTrustZoneCertBlockEncrypt | ExportMixinRsaSign | ExportMixinHmacKeyStoreFinalize => true
  | _ => false
  end.
Definition wf_enc (c : mbi_class) : bool :=
  forallb allowed_enc (c_mixins c) && nodupb (c_mixins c) && has c MixinApp && has_attr c AIvtTable &&
  (0 <? c_type c) && (c_type c <? 64) && has c MixinCertBlockV1 &&
  xorb (has c MixinTrustZone) (has c MixinTrustZoneMandatory) && has c MixinHmacMandatory && has c MixinCtrInitVector &&
  (opt_mixin_id (provider c SCollect) =? mixin_id ExportMixinAppTrustZoneCertBlockEncrypt) &&
  (opt_mixin_id (provider c SDisassemble) =? mixin_id ExportMixinAppTrustZoneCertBlockEncrypt) &&
  (opt_mixin_id (provider c SEncrypt) =? mixin_id ExportMixinAppTrustZoneCertBlockEncrypt) &&
  (opt_mixin_id (provider c SPostEncrypt) =? mixin_id ExportMixinAppTrustZoneCertBlockEncrypt) &&
  (opt_mixin_id (provider c SSign) =? mixin_id ExportMixinRsaSign) &&
  (opt_mixin_id (provider c SFinalize) =? mixin_id ExportMixinHmacKeyStoreFinalize).

Lemma wf_enc_spec c : wf_enc c = true ->
  forallb allowed_enc (c_mixins c) = true /\ nodupb (c_mixins c) = true /\ has c MixinApp = true /\ has_attr c AIvtTable = true /\
  0 < c_type c < 64 /\ has c MixinCertBlockV1 = true /\ xorb (has c MixinTrustZone) (has c MixinTrustZoneMandatory) = true /\
  has c MixinHmacMandatory = true /\ has c MixinCtrInitVector = true /\
  provider c SCollect = Some ExportMixinAppTrustZoneCertBlockEncrypt /\
  provider c SDisassemble = Some ExportMixinAppTrustZoneCertBlockEncrypt /\
  provider c SEncrypt = Some ExportMixinAppTrustZoneCertBlockEncrypt /\
  provider c SPostEncrypt = Some ExportMixinAppTrustZoneCertBlockEncrypt /\
  provider c SSign = Some ExportMixinRsaSign /\ provider c SFinalize = Some ExportMixinHmacKeyStoreFinalize.
Proof.
  unfold wf_enc. rewrite !andb_true_iff, !Z.ltb_lt, !Z.eqb_eq. intros H. decompose [and] H.
  repeat split; try assumption; now apply opt_id_eq.
Qed.

Lemma enc_class c : forallb allowed_enc (c_mixins c) = true ->
  supported c = true /\
  has_attr c AHmacKey = has c MixinHmacMandatory /\ existsb is_hmac_mixin (c_mixins c) = has c MixinHmacMandatory /\
  existsb is_cert_mixin (c_mixins c) = has c MixinCertBlockV1 /\
  existsb is_tz_giver (c_mixins c) = has_attr c ATrustZone /\ has_tz c = has_attr c ATrustZone.
Proof.
  intros H. unfold supported. rewrite (existsb_allowed allowed_enc _ _ H). split; [reflexivity|].
  apply cert_v1_family; unfold has_manifest; rewrite ?(has_allowed allowed_enc c _ H) by reflexivity; reflexivity.
Qed.

(* the encrypted image before the HMAC insertion *)
Definition enc_inner (k : crypto) (enc_ivt E cb iv : list N) (alen : nat) : list N :=
  (enc_ivt ++ sub E 64 alen ++ cb ++ firstn 56 E ++ iv ++ skipn alen E) ++
  k_sign k (enc_ivt ++ sub E 64 alen ++ cb ++ firstn 56 E ++ iv ++ skipn alen E).

Lemma export_enc_shape k c x im pre post sg :
  wf_enc c = true -> (56 <= length (m_app x))%nat -> m_cert x = Some (CertV1 pre post sg) ->
  (forall key data, length (k_hmac k key data) = 32%nat) -> (forall d, length (k_sign k d) = sg) ->
  (forall key dv iv d, length (k_ctr k key dv iv d) = length d) ->
  (forall b, m_ks x = Some b -> length b = 1424%nat /\ has_attr c AKeyStore = true) ->
  0 <= m_subtype x < 4 -> 0 <= m_imgver x < 65536 ->
  export_mbi k c x = Ok im ->
  exists app' tb cb enc_ivt kb kt,
    m_hmac x = Some (kb :: kt) /\ length (m_iv x) = 16%nat /\
    update_ivt c x (m_app x) (total_len c x + Z.of_nat sg + 56 + 16) (app_len c x) = Ok app' /\
    table_part c x (zlen app') = Ok tb /\
    let P := app' ++ tb ++ tzb_of x in
    let E := k_ctr k (kb :: kt) (enc_derive x) (m_iv x) P in
    update_ivt c x (firstn 64 E) (total_len c x + Z.of_nat sg + 56 + 16) (app_len c x) = Ok enc_ivt /\
    cert_export (CertV1 pre post sg) (zlen E + Z.of_nat (cert_size (CertV1 pre post sg)) + 56 + zlen (m_iv x)) = Ok cb /\
    64 <= app_len c x /\
    let G := enc_inner k enc_ivt E cb (m_iv x) (natz (app_len c x)) in
    im = with_hmac k c x G /\ (forall st, finalize_revert c st im = Ok G).
Proof.
  intros W L HC KH KS KC KSL R2 R3 E.
  destruct (wf_enc_spec c W) as (WA & Wnd & Wa & Wi & Wt & Wv1 & Wtz & Whm & Wiv & Pcol & Pdis & Penc & Ppost & Psign & Pfin).
  assert (R1 : 0 <= c_type c < 64) by lia.
  apply export_inv in E as (_ & V & raw & enc & enc2 & sg0 & fin & C & EN & PO & SG & FI & ->).
  destruct (validate_hmac_key c x V Whm) as (kb & kt & HK & _).
  assert (Liv : length (m_iv x) = 16%nat).
  { pose proof (validate_mix c x _ V Wiv) as Q. unfold mix_validate in Q.
    destruct (Nat.eqb (length (m_iv x)) IV_SZ) eqn:Q2; [apply Nat.eqb_eq in Q2; exact Q2 | discriminate Q]. }
  destruct (collect_enc_inv c x pre post sg raw Pcol HC L C) as (app' & rs & U & RS & ->).
  pose proof (reloc_segment_flat' c x (zlen app') rs RS) as TB.
  assert (FS : flat ([app'] ++ rs ++ tz_segment x) = app' ++ flat rs ++ tzb_of x).
  { rewrite !flat_app, flat_tz_segment. unfold flat at 1. cbn [concat]. now rewrite app_nil_r. }
  unfold encrypt in EN. rewrite Penc, HK, FS in EN.
  destruct (m_iv x) as [|iv0 ivt] eqn:HIV; [discriminate Liv|]. rewrite <- HIV in *. apply ok_inj in EN. subst enc.
  set (P := app' ++ flat rs ++ tzb_of x) in *. set (EE := k_ctr k (kb :: kt) (enc_derive x) (m_iv x) P) in *.
  destruct (post_encrypt_enc_inv c x pre post sg EE enc2 Ppost HC PO) as (enc_ivt & cb & UI & CB & ->).
  exists app', (flat rs), cb, enc_ivt, kb, kt.
  split; [exact HK|]. split; [exact Liv|]. split; [exact U|]. split; [exact TB|]. cbv zeta. fold P EE.
  split; [exact UI|]. split; [exact CB|].
  set (alen := natz (app_len c x)) in *.
  set (segs2 := [enc_ivt; sub EE 64 alen; cb; firstn 56 EE; m_iv x] ++ match tz_export (m_tz x) with [] => [] | _ :: _ => [skipn alen EE] end) in *.
  destruct (ivt_header c x _ _ _ _ L U) as (La & _).
  pose proof (app_len_table c x (flat rs) app' Wnd Wa La TB) as AL.
  assert (LE : length EE = (length app' + length (flat rs) + length (tzb_of x))%nat) by (unfold EE; rewrite KC; unfold P; rewrite !app_length; lia).
  assert (NAL : alen = (length app' + length (flat rs))%nat) by (unfold alen; rewrite AL; unfold natz, zlen; lia).
  assert (FS2 : flat segs2 = enc_ivt ++ sub EE 64 alen ++ cb ++ firstn 56 EE ++ m_iv x ++ skipn alen EE).
  { unfold segs2. rewrite flat_app. unfold flat at 1. cbn [concat]. rewrite app_nil_r, <- !app_assoc. do 5 f_equal.
    unfold tzb_of in LE. destruct (tz_export (m_tz x)) as [|t0' tt0] eqn:Etz.
    - cbn [length] in LE. symmetry. apply skipn_all2. lia.
    - unfold flat. cbn [concat]. apply app_nil_r. }
  assert (L64' : (56 <= length (firstn 64 EE))%nat) by (rewrite firstn_length; lia).
  destruct (ivt_header c x _ _ _ _ L64' UI) as (Lei & _ & _ & IW2 & _). rewrite firstn_length in Lei.
  destruct (sign_finalize_rsa_hmac k c x segs2 sg0 fin Psign) as (FL & FR & HM); try assumption; try (now rewrite Whm);
    rewrite ?FS2, ?app_length.
  - lia.
  - intros Ge. rewrite AL in Ge. unfold zlen in Ge. pose proof (cert_export_v1_len _ _ _ _ _ CB). lia.
  - rewrite get_flags_prefix by lia. exact IW2.
  - split; [apply (HM Whm)|]. unfold enc_inner. rewrite <- FS2. split; [exact FL | exact FR].
Qed.

Lemma split4 (l : list N) a : (64 <= a)%nat -> firstn 56 l ++ sub l 56 64 ++ sub l 64 a ++ skipn a l = l.
Proof. intros H. unfold sub. rewrite !app_assoc, !firstn_slice_cat by lia. apply firstn_skipn. Qed.
Lemma skipn_firstn_sub (l : list N) a b : skipn a (firstn b l) = sub l a b.
Proof. unfold sub, slice. apply skipn_firstn_comm. Qed.
