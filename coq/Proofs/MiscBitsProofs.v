(* reverse_bits: the bit-mirror inside the declared width, and what happens outside it. *)
From Coq Require Import ZArith NArith List Bool Lia ZifyBool.
Require Import Value Bytes BytesProofs GenMisc MiscModel MiscProofs.
Import ListNotations.
Local Open Scope Z_scope.

(* reading a list of bits, most significant first, onto acc: the list's bits below, acc's bits above *)
Lemma of_bits_msb_testbit l : forall acc i,
  N.testbit (of_bits_msb l acc) (N.of_nat i) =
    if (i <? length l)%nat then nth (length l - 1 - i) l false else N.testbit acc (N.of_nat (i - length l)).
Proof.
  induction l as [|b t IH]; intros acc i; cbn [of_bits_msb length].
  - now rewrite Nat.sub_0_r.
  - rewrite IH. change (if b then 1 else 0)%N with (N.b2n b).
    destruct (Nat.ltb_spec i (length t)) as [Hlt|Hge].
    + replace (i <? S (length t))%nat with true by lia.
      replace (S (length t) - 1 - i)%nat with (S (length t - 1 - i)) by lia. reflexivity.
    + destruct (Nat.eq_dec i (length t)) as [->|Hne].
      * replace (length t <? S (length t))%nat with true by lia.
        replace (S (length t) - 1 - length t)%nat with 0%nat by lia. rewrite Nat.sub_diag. cbn [nth].
        apply N.testbit_0_r.
      * replace (i <? S (length t))%nat with false by lia.
        replace (i - length t)%nat with (S (i - S (length t))) by lia. rewrite Nat2N.inj_succ. apply N.testbit_succ_r.
Qed.

Lemma of_bits_msb_bound l : forall acc, (of_bits_msb l acc < (acc + 1) * 2 ^ N.of_nat (length l))%N.
Proof.
  induction l as [|b t IH]; intros acc; cbn [of_bits_msb length].
  - change (2 ^ N.of_nat 0)%N with 1%N. lia.
  - eapply N.lt_le_trans; [apply IH|]. rewrite Nat2N.inj_succ, N.pow_succ_r'. destruct b; nia.
Qed.

Lemma bits_lsb_length w : forall x, length (bits_lsb w x) = w.
Proof. induction w as [|w IH]; intros x; cbn [bits_lsb length]; [reflexivity|]. now rewrite IH. Qed.

Lemma bits_lsb_nth w : forall x i, (i < w)%nat ->
  nth i (bits_lsb w x) false = N.testbit x (N.of_nat i).
Proof.
  induction w as [|w IH]; intros x i Hi; [lia|].
  destruct i as [|i]; cbn [bits_lsb nth].
  - symmetry. apply N.bit0_odd.
  - rewrite IH by lia. rewrite Nat2N.inj_succ, N.testbit_succ_r_div2 by lia. reflexivity.
Qed.

(* the mirror at a fixed width *)
Definition rev_w (w : nat) (x : N) : N := of_bits_msb (bits_lsb w x) 0.

Lemma rev_w_bound w x : (rev_w w x < 2 ^ N.of_nat w)%N.
Proof.
  unfold rev_w. pose proof (of_bits_msb_bound (bits_lsb w x) 0) as H.
  now rewrite bits_lsb_length, N.mul_1_l in H.
Qed.

Lemma rev_w_testbit w x i : (i < w)%nat ->
  N.testbit (rev_w w x) (N.of_nat i) = N.testbit x (N.of_nat (w - 1 - i)).
Proof.
  intros Hi. unfold rev_w. rewrite of_bits_msb_testbit, bits_lsb_length.
  replace (i <? w)%nat with true by lia. now rewrite bits_lsb_nth by lia.
Qed.

Lemma rev_w_involutive w x : (x < 2 ^ N.of_nat w)%N -> rev_w w (rev_w w x) = x.
Proof.
  intros Hx. apply N.bits_inj. intros n.
  rewrite <- (N2Nat.id n). destruct (lt_dec (N.to_nat n) w) as [Hlt|Hge].
  - rewrite rev_w_testbit by exact Hlt. rewrite rev_w_testbit by lia. f_equal. lia.
  - rewrite (N_testbit_high _ (N.of_nat w)) by (try apply rev_w_bound; lia).
    rewrite (N_testbit_high _ (N.of_nat w)) by (try exact Hx; lia).
    reflexivity.
Qed.

Lemma rev_w_bound_Z n xn : 0 <= Z.of_N (rev_w n xn) < 2 ^ Z.of_nat n.
Proof.
  split; [lia|]. rewrite <- pow2_N2Z. apply N2Z.inj_lt, rev_w_bound.
Qed.

(* The model in Z: the width is max(bits, bit length of x, 1), the result the mirror image at that width; everything
   below is derived from these four facts. *)
Definition width (x bits : Z) : Z := Z.max (Z.max bits (Z.log2 x + 1)) 1.
Definition zrev (w x : Z) : Z := Z.of_N (rev_w (Z.to_nat w) (Z.to_N x)).

Lemma reverse_bits_eq x bits : 0 <= x -> 0 <= bits -> reverse_bits x bits = Ok (zrev (width x bits) x).
Proof.
  intros Hx Hb. unfold reverse_bits, zrev, width, rev_w. replace ((x <? 0) || (bits <? 0)) with false by lia.
  cbv zeta. do 4 f_equal.
  destruct (Z.eq_dec x 0) as [->|Hn]; [cbn; lia|]. rewrite (Z_log2_size x) by lia. lia.
Qed.

Lemma zrev_bound w x : 0 <= w -> 0 <= zrev w x < 2 ^ w.
Proof. intros Hw. pose proof (rev_w_bound_Z (Z.to_nat w) (Z.to_N x)) as H. now rewrite Z2Nat.id in H. Qed.

Lemma zrev_testbit w x i : 0 <= x -> 0 <= i < w -> Z.testbit (zrev w x) i = Z.testbit x (w - 1 - i).
Proof.
  intros Hx Hi. unfold zrev. rewrite Z.testbit_of_N' by lia.
  replace (Z.to_N i) with (N.of_nat (Z.to_nat i)) by lia. rewrite rev_w_testbit by lia.
  rewrite <- (Z2N.id x) at 2 by lia. rewrite Z.testbit_of_N' by lia. f_equal. lia.
Qed.

Lemma zrev_involutive w x : 0 <= w -> 0 <= x < 2 ^ w -> zrev w (zrev w x) = x.
Proof.
  intros Hw Hx. unfold zrev. rewrite N2Z.id, rev_w_involutive by (apply lt_pow_to_N; lia). lia.
Qed.

Lemma width_small x bits : 0 < bits -> 0 <= x < 2 ^ bits -> width x bits = bits.
Proof.
  intros Hb Hx. unfold width. destruct (Z.eq_dec x 0) as [->|Hn]; [cbn; lia|].
  assert (Z.log2 x < bits) by (apply Z.log2_lt_pow2; lia). lia.
Qed.

Lemma width_large x bits : 0 <= bits -> 2 ^ bits <= x -> width x bits = Z.log2 x + 1.
Proof.
  intros Hb Hx. unfold width. assert (0 < 2 ^ bits) by (apply Z.pow_pos_nonneg; lia).
  assert (bits <= Z.log2 x) by (apply Z.log2_le_pow2; lia). lia.
Qed.

Lemma testbit_true_ge y k : 0 <= k -> 0 <= y -> Z.testbit y k = true -> 2 ^ k <= y.
Proof.
  intros Hk Hy H. destruct (Z.lt_ge_cases y (2 ^ k)) as [Hlt|]; [|assumption].
  destruct (Z.eq_dec y 0) as [->|Hn]; [now rewrite Z.bits_0 in H|].
  rewrite Z.bits_above_log2 in H; [discriminate|lia|apply Z.log2_lt_pow2; lia].
Qed.

Lemma testbit_false_lt y k : 0 <= k -> 0 <= y < 2 ^ (k + 1) -> Z.testbit y k = false -> y < 2 ^ k.
Proof.
  intros Hk Hy H. destruct (Z.lt_ge_cases y (2 ^ k)) as [|Hge]; [assumption|].
  assert (0 < 2 ^ k) by (apply Z.pow_pos_nonneg; lia).
  rewrite <- (Z.log2_unique y k), Z.bit_log2 in H by lia. discriminate.
Qed.

(* 1. in range: the width is the declared one, the result is the mirror image, and mirroring twice is the identity *)
Lemma reverse_bits_involution_l x bits : 0 <= bits -> 0 <= x < 2 ^ bits ->
  exists y, reverse_bits x bits = Ok y /\ 0 <= y < 2 ^ bits /\
    (forall i, 0 <= i < bits -> Z.testbit y i = Z.testbit x (bits - 1 - i)) /\
    reverse_bits y bits = Ok x.
Proof.
  intros Hb Hx. destruct (Z.eq_dec bits 0) as [->|Hnz].
  - replace x with 0 by (change (2 ^ 0) with 1 in Hx; lia). exists 0. repeat split; lia.
  - pose proof (zrev_bound bits x Hb) as Hy.
    rewrite reverse_bits_eq, width_small by lia. eexists. split; [reflexivity|]. split; [exact Hy|]. split.
    + intros i Hi. apply zrev_testbit; lia.
    + rewrite reverse_bits_eq, width_small, zrev_involutive by lia. reflexivity.
Qed.

Lemma reverse_bits_mirror x bits : 0 <= bits -> 0 <= x < 2 ^ bits ->
  exists y, reverse_bits x bits = Ok y /\ 0 <= y < 2 ^ bits /\
    (forall i, 0 <= i < bits -> Z.testbit y i = Z.testbit x (bits - 1 - i)).
Proof. intros Hb Hx. destruct (reverse_bits_involution_l x bits Hb Hx) as (y & E & B & M & _). now exists y. Qed.

Lemma reverse_bits_involutive x bits : 0 <= bits -> 0 <= x < 2 ^ bits ->
  exists y, reverse_bits x bits = Ok y /\ 0 <= y < 2 ^ bits /\ reverse_bits y bits = Ok x.
Proof. intros Hb Hx. destruct (reverse_bits_involution_l x bits Hb Hx) as (y & E & B & _ & I). now exists y. Qed.

(* 2. out of range: the width is the bit length of x, so the image is odd; a second application sees that width again
   exactly when x is odd too *)
Lemma reverse_bits_large x bits : 0 <= bits -> 2 ^ bits <= x ->
  exists y, reverse_bits x bits = Ok y /\ Z.odd y = true /\
    reverse_bits x bits = reverse_bits x (Z.log2 x + 1) /\
    (reverse_bits y bits = Ok x <-> Z.odd x = true).
Proof.
  intros Hb Hx. assert (Hpos : 0 < x) by (pose proof (Z.pow_pos_nonneg 2 bits); lia).
  pose proof (Z.log2_nonneg x) as Hl. destruct (Z.log2_spec x Hpos) as [Hlo Hhi].
  assert (Hbl : bits <= Z.log2 x) by (apply Z.log2_le_pow2; lia).
  set (W := Z.log2 x + 1) in *. replace (Z.succ (Z.log2 x)) with W in Hhi by lia.
  pose proof (zrev_bound W x ltac:(lia)) as Hy.
  assert (Hy0 : Z.odd (zrev W x) = true).
  { rewrite <- Z.bit0_odd, zrev_testbit by lia. replace (W - 1 - 0) with (Z.log2 x) by lia. now apply Z.bit_log2. }
  assert (Hytop : Z.testbit (zrev W x) (W - 1) = Z.odd x).
  { rewrite zrev_testbit by lia. replace (W - 1 - (W - 1)) with 0 by lia. apply Z.bit0_odd. }
  rewrite reverse_bits_eq, width_large by lia. fold W. exists (zrev W x). split; [reflexivity|]. split; [exact Hy0|]. split.
  { rewrite reverse_bits_eq by lia. do 2 f_equal. unfold width. lia. }
  assert (Hy1 : 1 <= zrev W x) by (destruct (Z.eq_dec (zrev W x) 0) as [E|]; [rewrite E in Hy0; discriminate|lia]).
  rewrite reverse_bits_eq by lia. destruct (Z.odd x) eqn:Hodd.
  - (* odd: the mirror keeps its top bit, so the second width is again W *)
    apply testbit_true_ge in Hytop; try lia.
    assert (Z.log2 (zrev W x) = W - 1) by (apply Z.log2_unique; [lia|]; replace (Z.succ (W - 1)) with W by lia; lia).
    replace (width (zrev W x) bits) with W by (unfold width; lia). now rewrite zrev_involutive by lia.
  - (* even: the mirror loses a bit, the second width is smaller, the result is below x *)
    assert (2 <= x) by (destruct (Z.eq_dec x 1) as [E|]; [rewrite E in Hodd; discriminate|lia]).
    assert (1 <= Z.log2 x) by (apply Z.log2_le_pow2; lia).
    apply testbit_false_lt in Hytop; [|lia|now replace (W - 1 + 1) with W by lia].
    assert (Z.log2 (zrev W x) < W - 1) by (apply Z.log2_lt_pow2; lia).
    set (w' := width (zrev W x) bits). assert (1 <= w' <= W - 1) by (unfold w', width; lia).
    pose proof (zrev_bound w' (zrev W x) ltac:(lia)).
    assert (2 ^ w' <= 2 ^ (W - 1)) by (apply Z.pow_le_mono_r; lia).
    replace (W - 1) with (Z.log2 x) in * by lia.
    split; [|discriminate]. intros E. injection E as E. lia.
Qed.

Lemma reverse_bits_negative x bits : x < 0 \/ bits < 0 -> reverse_bits x bits = Err 2%N.
Proof.
  intros H. unfold reverse_bits.
  destruct ((x <? 0) || (bits <? 0)) eqn:E; [reflexivity|lia].
Qed.

Example reverse_bits_ex1 : reverse_bits 6 8 = Ok 96.
Proof. vm_compute. reflexivity. Qed.
Example reverse_bits_ex2 : reverse_bits 6 2 = Ok 3.      (* out of range, even: 6 -> '110' -> '011' = 3 *)
Proof. vm_compute. reflexivity. Qed.
Example reverse_bits_ex3 : reverse_bits 3 2 = Ok 3 /\ reverse_bits 3 1 = Ok 3.
Proof. vm_compute. split; reflexivity. Qed.
Example reverse_bits_ex4 : reverse_bits 0 0 = Ok 0.
Proof. vm_compute. reflexivity. Qed.

Print Assumptions reverse_bits_mirror.
Print Assumptions reverse_bits_involutive.
Print Assumptions reverse_bits_large.

Lemma reverse_bits_out_of_range_l x bits :
  (0 <= bits -> 2 ^ bits <= x ->
     exists y, reverse_bits x bits = Ok y /\ Z.odd y = true /\
       reverse_bits x bits = reverse_bits x (Z.log2 x + 1) /\
       (reverse_bits y bits = Ok x <-> Z.odd x = true)) /\
  (x < 0 \/ bits < 0 -> reverse_bits x bits = Err 2%N).
Proof. split; [apply reverse_bits_large|apply reverse_bits_negative]. Qed.

Example reverse_bits_ex5 : 0 <= 8 /\ 0 <= 6 < 2 ^ 8 /\ 2 ^ 2 <= 6.
Proof. lia. Qed.
Print Assumptions reverse_bits_involution_l.
Print Assumptions reverse_bits_out_of_range_l.
