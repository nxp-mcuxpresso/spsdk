(* Proofs/DatV2Proofs.v -- C15: EdgeLock container version 2 credentials (AHAB certificate). *)
From Coq Require Import ZArith NArith List Bool Lia.
Require Import Value Bytes BytesProofs Sha2 GenRot RotModel GenDat DatModel GenDatV2 DatV2Model DatProofs.
Import ListNotations.
Local Open Scope N_scope.
Local Opaque on_curve curve_p curve_b.

Lemma u16_ok v : v < 65536 -> u16 v = Ok [v mod 256; (v / 256) mod 256].
Proof. intros H. unfold u16. apply N.ltb_lt in H. now rewrite H. Qed.
Lemma u8_ok v : v < 256 -> u8 v = Ok [v].
Proof. intros H. unfold u8. apply N.ltb_lt in H. now rewrite H. Qed.
Lemma extend_exact n d : length d = n -> extend_block n d = Ok d.
Proof.
  intros <-. unfold extend_block. rewrite Nat.ltb_irrefl, Nat.sub_diag. unfold zeros. cbn [repeat]. now rewrite app_nil_r.
Qed.
Lemma nth_after {A} (a r : list A) (x d : A) n : n = length a -> nth n (a ++ x :: r) d = x.
Proof. intros ->. apply nth_middle. Qed.
Lemma mem_n_in x l : mem_n x l = true <-> In x l.
Proof.
  unfold mem_n. rewrite existsb_exists. split.
  - intros (y & Hy & E). apply N.eqb_eq in E. now subst.
  - intros H. exists x. split; [assumption|apply N.eqb_refl].
Qed.

Definition wf_srk2 (r : srk2) : Prop :=
  k_len r = 76 /\ In (k_alg r) g_v2_algs /\ In (k_hash r) g_v2_hashes /\ k_ksid r < 256 /\ k_flags r < 256 /\
  (exists l, lookup2 g_v2_key_sizes (k_ksid r) = Some l) /\ length (k_params r) = 64%nat.
Lemma algs_small a : In a g_v2_algs -> a < 256 /\ mem_n a g_v2_rec_versions = true /\ mem_n a g_v2_algs = true.
Proof. intros H. cbn in H. repeat (destruct H as [<- | H]; [repeat split; reflexivity|]). contradiction. Qed.
Lemma hashes_small h : In h g_v2_hashes -> h < 256 /\ mem_n h g_v2_hashes = true.
Proof. intros H. cbn in H. repeat (destruct H as [<- | H]; [repeat split; reflexivity|]). contradiction. Qed.

Lemma srk2_roundtrip r : wf_srk2 r ->
  exists b, srk2_export r = Ok b /\ length b = 76%nat /\ forall rest, srk2_parse (b ++ rest) = Ok r.
Proof.
  destruct r as [len alg hash ksid flags params]. unfold wf_srk2. cbn [k_len k_alg k_hash k_ksid k_flags k_params].
  intros (-> & Ha & Hh & Hk & Hf & ([l1 l2] & HL) & Hp).
  destruct (algs_small _ Ha) as (Ha1 & Ha2 & Ha3). destruct (hashes_small _ Hh) as (Hh1 & Hh2).
  unfold srk2_export. cbn [k_len k_alg k_hash k_ksid k_flags k_params]. rewrite HL.
  rewrite (u16_ok 76) by lia. rewrite !u8_ok by assumption. cbn [bind].
  eexists. split; [reflexivity|]. split.
  { rewrite !app_length, !le_enc_length, Hp. reflexivity. }
  intros rest. rewrite !le_enc_2. cbn [app]. unfold srk2_parse.
  set (tail := params ++ rest).
  assert (LT : (64 <= length tail)%nat) by (unfold tail; rewrite app_length; lia).
  match goal with |- context [nlen ?l <? g_v2_rec_size] => assert (LN : nlen l = 12 + nlen tail) by (unfold nlen; cbn [length]; fold tail; lia) end.
  rewrite LN. assert (E1 : (12 + nlen tail <? g_v2_rec_size) = false) by (apply N.ltb_ge; change g_v2_rec_size with 12; lia).
  rewrite E1. cbn [nth skipn firstn]. rewrite (le_dec_pair 76) by lia. rewrite N.eqb_refl, Ha2. cbn [negb orb].
  assert (E2 : (12 + nlen tail <? 76) = false) by (apply N.ltb_ge; unfold nlen; lia). rewrite E2.
  change (76 <? g_v2_params_len + g_v2_rec_size) with false. cbv iota. rewrite Ha3, Hh2. cbn [negb orb].
  do 2 f_equal. change (N.to_nat g_v2_params_len) with 64%nat. change (N.to_nat g_v2_rec_size) with 12%nat. cbn [skipn].
  unfold tail. now apply firstn_app_exact.
Qed.

Definition wf_srkdata (d : srkdata) : Prop :=
  sd_len d = 8 + nlen (sd_data d) /\ sd_len d < 65536 /\ sd_id d < 65536 /\ (4 <= length (sd_data d))%nat.
Lemma srkdata_roundtrip d : wf_srkdata d ->
  exists b, srkdata_export d = Ok b /\ length b = (8 + length (sd_data d))%nat /\ forall rest, srkdata_parse (b ++ rest) = Ok d.
Proof.
  destruct d as [len id data]. unfold wf_srkdata. cbn [sd_len sd_id sd_data]. intros (-> & Hl & Hi & Hd).
  unfold srkdata_export. cbn [sd_len sd_id sd_data]. rewrite !u16_ok by assumption. cbn [bind].
  eexists. split; [reflexivity|]. split; [cbn [app length]; lia|].
  intros rest. cbn [app]. unfold srkdata_parse, head_ok.
  set (tail := data ++ rest).
  match goal with |- context [g_v2_data_size <=? nlen ?l] => assert (LN : nlen l = 8 + nlen tail) by (unfold nlen; cbn [length]; fold tail; lia) end.
  rewrite LN. cbn [nth skipn firstn]. rewrite (le_dec_pair _ Hl), (le_dec_pair _ Hi).
  assert (E1 : (g_v2_data_size <=? 8 + nlen tail) = true) by (apply N.leb_le; change g_v2_data_size with 8; lia).
  assert (E2 : (8 + nlen data <=? 8 + nlen tail) = true) by (apply N.leb_le; unfold tail; rewrite nlen_app; lia).
  rewrite E1, E2. change (93 =? g_v2_data_tag) with true. change (0 =? g_v2_data_version) with true. cbn [andb negb].
  assert (E3 : (8 + nlen data <? g_v2_data_size) = false) by (apply N.ltb_ge; change g_v2_data_size with 8; lia). rewrite E3.
  change (N.to_nat g_v2_data_size) with 8%nat. cbn [skipn].
  replace (N.to_nat (8 + nlen data - g_v2_data_size)) with (length data) by (change g_v2_data_size with 8; unfold nlen; lia).
  unfold tail. rewrite firstn_app_exact by reflexivity.
  assert (E4 : (nlen data <? 4) = false) by (apply N.ltb_ge; unfold nlen; lia). rewrite E4. reflexivity.
Qed.

Lemma sigc_roundtrip len sig : sig <> [] -> len = 8 + nlen sig -> len < 65536 ->
  exists b, sigc_export len sig = Ok b /\ length b = (8 + length sig)%nat /\
    forall rest, head_ok g_v2_sig_size g_v2_sig_tag g_v2_sig_version (b ++ rest) = true
                 /\ le_dec (firstn 2 (skipn 1 (b ++ rest))) = len
                 /\ firstn (N.to_nat (len - 8)) (skipn 8 (b ++ rest)) = sig.
Proof.
  intros Hne -> Hl. unfold sigc_export. destruct sig as [|s0 sg] eqn:ES; [contradiction|]. rewrite <- ES in *.
  rewrite u16_ok by assumption. cbn [bind]. eexists. split; [reflexivity|]. split; [cbn [app length]; lia|].
  intros rest. cbn [app]. unfold head_ok. set (tail := sig ++ rest).
  match goal with |- context [g_v2_sig_size <=? nlen ?l] => assert (LN : nlen l = 8 + nlen tail) by (unfold nlen; cbn [length]; fold tail; lia) end.
  rewrite LN. cbn [nth skipn firstn]. rewrite (le_dec_pair _ Hl).
  assert (E1 : (g_v2_sig_size <=? 8 + nlen tail) = true) by (apply N.leb_le; change g_v2_sig_size with 8; lia).
  assert (E2 : (8 + nlen sig <=? 8 + nlen tail) = true) by (apply N.leb_le; unfold tail; rewrite nlen_app; lia).
  rewrite E1, E2. split; [reflexivity|]. split; [reflexivity|].
  replace (N.to_nat (8 + nlen sig - 8)) with (length sig) by (unfold nlen; lia). unfold tail. now apply firstn_app_exact.
Qed.

Definition wf_cert (c : cert) : Prop :=
  c_perm c < 256 /\ c_fuse c < 256 /\ length (c_permdata c) = 12%nat /\ length (c_uuid c) = 16%nat /\
  wf_srk2 (c_pk c) /\ wf_srkdata (c_pkd c) /\
  c_sigoff c = 40 + 76 + 8 + nlen (sd_data (c_pkd c)) /\
  c_sig c <> [] /\ c_siglen c = 8 + nlen (c_sig c) /\ c_len c = c_sigoff c + c_siglen c /\ c_len c < 65536.

Lemma cert_roundtrip_lemma c : wf_cert c ->
  exists b t s, cert_tbs c = Ok t /\ sigc_export (c_siglen c) (c_sig c) = Ok s /\ cert_export c = Ok b /\ b = t ++ s
                /\ nlen t = c_sigoff c /\ firstn (length t) b = t /\ forall extra, cert_parse (b ++ extra) = Ok c.
Proof.
  destruct c as [len sigoff perm pd fuse uuid pk pkd siglen sig]. unfold wf_cert.
  cbn [c_len c_sigoff c_perm c_permdata c_fuse c_uuid c_pk c_pkd c_siglen c_sig].
  intros (Hperm & Hfuse & Hpd & Huu & Hpk & Hpkd & Hso & Hsig & Hsl & Hlen & Hl).
  destruct (srk2_roundtrip pk Hpk) as (rb & Erb & Lrb & Prb).
  destruct (srkdata_roundtrip pkd Hpkd) as (db & Edb & Ldb & Pdb).
  assert (Hsl2 : siglen < 65536) by lia.
  destruct (sigc_roundtrip siglen sig Hsig Hsl Hsl2) as (sb & Esb & Lsb & Psb).
  assert (Hso2 : sigoff < 65536) by lia.
  set (hdr := [2; len mod 256; (len / 256) mod 256; 175; sigoff mod 256; (sigoff / 256) mod 256; N.land (N.lxor perm 255) 255; perm]
              ++ pd ++ [fuse; 0; 0; 0] ++ uuid).
  assert (Lh : length hdr = 40%nat) by (unfold hdr; rewrite !app_length, Hpd, Huu; reflexivity).
  set (c0 := {| c_len := len; c_sigoff := sigoff; c_perm := perm; c_permdata := pd; c_fuse := fuse; c_uuid := uuid; c_pk := pk;
                c_pkd := pkd; c_siglen := siglen; c_sig := sig |}).
  assert (Eh : cert_header c0 = Ok hdr).
  { unfold cert_header, c0. cbn [c_len c_sigoff c_perm c_permdata c_fuse c_uuid]. rewrite !u16_ok by assumption.
    rewrite !u8_ok by assumption. rewrite !extend_exact by assumption. cbn [bind app]. unfold hdr. cbn [app]. repeat rewrite <- app_assoc. reflexivity. }
  assert (Et : cert_tbs c0 = Ok (hdr ++ rb ++ db)).
  { unfold cert_tbs. rewrite Eh. cbn [bind]. unfold c0. cbn [c_pk c_pkd]. now rewrite Erb, Edb. }
  assert (Lt : nlen (hdr ++ rb ++ db) = sigoff).
  { unfold nlen. rewrite !app_length, Lh, Lrb, Ldb. unfold nlen in Hso. lia. }
  exists ((hdr ++ rb ++ db) ++ sb), (hdr ++ rb ++ db), sb. split; [exact Et|]. split; [exact Esb|]. split.
  { unfold cert_export. rewrite Et. cbn [bind]. change (c_siglen c0) with siglen. change (c_sig c0) with sig. rewrite Esb. cbn [bind].
    assert (E : (nlen ((hdr ++ rb ++ db) ++ sb) =? c_len c0) = true).
    { apply N.eqb_eq. rewrite nlen_app, Lt. unfold c0. cbn [c_len]. unfold nlen. rewrite Lsb. unfold nlen in Hsl. lia. }
    now rewrite E. }
  split; [reflexivity|]. split; [exact Lt|]. split; [now apply firstn_app_exact|].
  intros extra. unfold cert_parse. unfold head_ok at 1.
  set (b := ((hdr ++ rb ++ db) ++ sb) ++ extra).
  assert (Eb : b = [2; len mod 256; (len / 256) mod 256; 175; sigoff mod 256; (sigoff / 256) mod 256; N.land (N.lxor perm 255) 255; perm]
                   ++ pd ++ [fuse; 0; 0; 0] ++ uuid ++ rb ++ db ++ sb ++ extra).
  { unfold b, hdr. now rewrite <- !app_assoc. }
  assert (Lb : nlen b = len + nlen extra).
  { unfold b. rewrite (nlen_app _ extra), (nlen_app _ sb), Lt. unfold nlen. rewrite Lsb. unfold nlen in Hsl. lia. }
  assert (N0 : nth 0 b 0 = 2) by (rewrite Eb; reflexivity).
  assert (N3 : nth 3 b 0 = 175) by (rewrite Eb; reflexivity).
  assert (N6 : nth 6 b 0 = N.land (N.lxor perm 255) 255) by (rewrite Eb; reflexivity).
  assert (N7 : nth 7 b 0 = perm) by (rewrite Eb; reflexivity).
  assert (D1 : le_dec (firstn 2 (skipn 1 b)) = len) by (rewrite Eb; cbn [app skipn firstn]; now apply le_dec_pair).
  assert (D4 : le_dec (firstn 2 (skipn 4 b)) = sigoff) by (rewrite Eb; cbn [app skipn firstn]; now apply le_dec_pair).
  set (A8 := [2; len mod 256; (len / 256) mod 256; 175; sigoff mod 256; (sigoff / 256) mod 256; N.land (N.lxor perm 255) 255; perm]) in *.
  assert (P8 : firstn 12 (skipn 8 b) = pd).
  { rewrite Eb. rewrite (skipn_app_exact A8) by reflexivity. now apply firstn_app_exact. }
  assert (N20 : nth 20 b 0 = fuse).
  { rewrite Eb. rewrite (app_assoc A8 pd). apply nth_after. rewrite app_length, Hpd. reflexivity. }
  assert (S24 : skipn 24 b = uuid ++ rb ++ db ++ sb ++ extra).
  { rewrite Eb. rewrite (app_assoc A8 pd). rewrite (app_assoc (A8 ++ pd) [fuse; 0; 0; 0]).
    apply skipn_app_exact. rewrite !app_length, Hpd. reflexivity. }
  assert (S40 : skipn 40 b = rb ++ db ++ sb ++ extra).
  { change 40%nat with (24 + 16)%nat. rewrite skipn_add, S24. now apply skipn_app_exact. }
  rewrite N0, N3, D1, Lb. change (g_v2_cert_size <=? len + nlen extra) with (40 <=? len + nlen extra).
  assert (E1 : (40 <=? len + nlen extra) = true) by (apply N.leb_le; unfold nlen in *; lia).
  assert (E2 : (len <=? len + nlen extra) = true) by (apply N.leb_le; lia).
  rewrite E1, E2. change (175 =? g_v2_cert_tag) with true. change (2 =? g_v2_cert_version) with true. cbn [andb negb].
  rewrite N6, N7, N.eqb_refl. cbn [negb]. rewrite S40, Prb. cbn [bind].
  assert (Lp : length (k_params pk) = 64%nat) by (destruct Hpk as (_ & _ & _ & _ & _ & _ & H); exact H). rewrite Lp.
  assert (S116 : skipn (40 + 12 + 64) b = db ++ sb ++ extra).
  { change (40 + 12 + 64)%nat with (40 + 76)%nat. rewrite skipn_add, S40. now apply skipn_app_exact. }
  rewrite S116, Pdb. cbn [bind].
  assert (E3 : (N.of_nat (40 + 12 + 64 + 8 + length (sd_data pkd)) <? sigoff) = false).
  { apply N.ltb_ge. rewrite Hso. unfold nlen. lia. }
  rewrite D4, E3.
  assert (SS : skipn (N.to_nat sigoff) b = sb ++ extra).
  { unfold b. rewrite <- app_assoc. apply skipn_app_exact. unfold nlen in Lt. lia. }
  rewrite SS. destruct (Psb extra) as (Q1 & Q2 & Q3). rewrite Q1. cbn [negb]. rewrite Q2.
  assert (E4 : (siglen <? 8) = false) by (apply N.ltb_ge; lia). rewrite E4, Q3, P8, N20.
  rewrite S24. rewrite (firstn_app_exact uuid _ 16) by exact Huu. reflexivity.
Qed.

(* non-vacuity: a concrete well-formed certificate *)
Example wf_cert_nontrivial :
  wf_cert {| c_len := 260; c_sigoff := 188; c_perm := 2; c_permdata := le_enc 4 1297612894 ++ le_enc 4 1023 ++ le_enc 4 0; c_fuse := 1;
             c_uuid := repeat 7 16;
             c_pk := {| k_len := 76; k_alg := 39; k_hash := 0; k_ksid := 1; k_flags := 0; k_params := repeat 5 64 |};
             c_pkd := {| sd_len := 72; sd_id := 0; sd_data := repeat 9 64 |}; c_siglen := 72; c_sig := repeat 3 64 |}.
Proof.
  unfold wf_cert, wf_srk2, wf_srkdata. cbn [c_len c_sigoff c_perm c_permdata c_fuse c_uuid c_pk c_pkd c_siglen c_sig k_len k_alg k_hash k_ksid k_flags k_params sd_len sd_id sd_data].
  repeat split; try reflexivity; try lia; try (cbn; tauto); try discriminate.
  - eexists; reflexivity.
  - cbn [repeat length]. lia.
Qed.
