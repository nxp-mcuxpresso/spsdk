(* Proofs/MbiRtProofs.v -- C01: re-export stability; how a class is read off its mixin list; the PRE_PARSED loop of
   MasterBootImage.parse; one lemma per export / parse stage; parse (export x) = x for the plain / CRC class kind
   (the signed kinds follow in MbiKindsProofs.v and MbiEncProofs.v).  Depends on MbiProofs.v. *)
From Coq Require Import ZArith NArith List Bool Lia.
Require Import Value Bytes BytesProofs MbiMixinModel GenMbi MbiModel MbiProofs.
Import ListNotations.
Local Open Scope Z_scope.

(* ------------------------------------------------------------------ export only sees the application modulo the IVT words *)
Lemma mix_len_set_app x a m : length a = length (m_app x) -> mix_len (set_app x a) m = mix_len x m.
Proof. intros H. destruct m; simpl; try reflexivity. unfold zlen. now rewrite H. Qed.
Lemma mix_app_len_set_app x a m : length a = length (m_app x) -> mix_app_len (set_app x a) m = mix_app_len x m.
Proof. intros H. destruct m; simpl; try reflexivity. unfold zlen. now rewrite H. Qed.
Lemma total_len_set_app c x a : length a = length (m_app x) -> total_len c (set_app x a) = total_len c x.
Proof. intros H. unfold total_len. f_equal. apply map_ext. intros m. now apply mix_len_set_app. Qed.
Lemma app_len_set_app c x a : length a = length (m_app x) -> app_len c (set_app x a) = app_len c x.
Proof. intros H. unfold app_len. f_equal. apply map_ext. intros m. now apply mix_app_len_set_app. Qed.
Lemma total_len_for_cert_set_app c x a : length a = length (m_app x) -> total_len_for_cert c (set_app x a) = total_len_for_cert c x.
Proof. intros H. unfold total_len_for_cert. f_equal. apply map_ext. intros m. destruct (legacy_len m); [now apply mix_len_set_app|reflexivity]. Qed.

Lemma rd32_clean_low o app : (56 <= length app)%nat -> (o + 4 <= 32)%nat -> rd32 o (clean_ivt app) = rd32 o app.
Proof.
  intros L H. rewrite clean_ivt_form by exact L. unfold ivt_frame. rewrite rd32_app by (rewrite firstn_length; lia).
  apply rd32_firstn; lia.
Qed.

Lemma update_ivt_set_app c x a app total cc : update_ivt c (set_app x a) app total cc = update_ivt c x app total cc.
Proof. reflexivity. Qed.

Lemma validate_in_set_app c x l :
  (56 <= length (m_app x))%nat -> validate_in c (set_app x (clean_ivt (m_app x))) l = validate_in c x l.
Proof.
  intros L. induction l as [|m l IH]; [reflexivity|]. simpl. rewrite IH.
  assert (E : mix_validate c (set_app x (clean_ivt (m_app x))) m = mix_validate c x m); [|now rewrite E].
  destruct m; try reflexivity. simpl.
  rewrite clean_ivt_length by assumption. rewrite !rd32_clean_low by (assumption || lia). reflexivity.
Qed.

(* collect_data reads the application only through update_ivt, its length and whether it is empty *)
Lemma collect_set_app c x :
  (56 <= length (m_app x))%nat -> has_attr c AIvtTable = true ->
  collect c (set_app x (clean_ivt (m_app x))) = collect c x.
Proof.
  intros L HI. pose proof (clean_ivt_length _ L) as CL.
  assert (Eb : exists b t, clean_ivt (m_app x) = b :: t) by (destruct (clean_ivt (m_app x)); [simpl in CL; lia | eauto]).
  assert (Ea : exists b t, m_app x = b :: t) by (destruct (m_app x); [simpl in L; lia | eauto]).
  destruct Eb as (b & t & Eb), Ea as (b' & t' & Ea).
  unfold collect, collect_app. cbn [m_app m_cert set_app]. rewrite HI, Eb, Ea, <- Eb, <- Ea.
  destruct (provider c SCollect) as [[]|]; try reflexivity; destruct (m_cert x) as [[]|]; try reflexivity;
    rewrite ?total_len_for_cert_set_app, ?update_ivt_set_app, ?total_len_set_app, ?app_len_set_app, ?update_clean by assumption; reflexivity.
Qed.

Lemma post_encrypt_set_app c x a im : length a = length (m_app x) -> post_encrypt c (set_app x a) im = post_encrypt c x im.
Proof.
  intros H. unfold post_encrypt. destruct (provider c SPostEncrypt) as [[]|]; try reflexivity.
  simpl m_cert. destruct (m_cert x) as [[pre post sg|]|]; try reflexivity.
  rewrite update_ivt_set_app, total_len_set_app, app_len_set_app by assumption. reflexivity.
Qed.

Lemma hmac_insert_between_set_app x a hm im off b : hmac_insert_between (set_app x a) hm im off b = hmac_insert_between x hm im off b.
Proof. revert off b; induction im as [|s t IH]; intros off b; simpl; [reflexivity|]. now rewrite IH. Qed.
Lemma hmac_insert_split_set_app x a hm im off : hmac_insert_split (set_app x a) hm im off = hmac_insert_split x hm im off.
Proof. revert off; induction im as [|s t IH]; intros off; simpl; [reflexivity|]. now rewrite IH. Qed.
Lemma finalize_set_app k c x a im dts : length a = length (m_app x) -> finalize k c (set_app x a) im dts = finalize k c x im dts.
Proof.
  intros H. unfold finalize. destruct (provider c SFinalize) as [[]|]; try reflexivity.
  simpl m_hmac. now rewrite app_len_set_app, hmac_insert_between_set_app, hmac_insert_split_set_app.
Qed.

(* re-exporting the parsed application (IVT words zeroed) gives the same image, for EVERY class with an IVT *)
Lemma export_clean_app k c x :
  (56 <= length (m_app x))%nat -> has_attr c AIvtTable = true ->
  export_mbi k c (set_app x (clean_ivt (m_app x))) = export_mbi k c x.
Proof.
  intros L HI. unfold export_mbi, export_image. destruct (negb (supported c)); [reflexivity|].
  unfold validate. rewrite validate_in_set_app by assumption.
  destruct (validate_in c x (c_mixins c)) as [[]|]; simpl; [|reflexivity].
  rewrite collect_set_app by assumption.
  destruct (collect c x) as [raw|]; simpl; [|reflexivity].
  change (encrypt k c (set_app x (clean_ivt (m_app x))) raw) with (encrypt k c x raw).
  destruct (encrypt k c x raw) as [enc|]; simpl; [|reflexivity].
  rewrite post_encrypt_set_app by (now apply clean_ivt_length).
  destruct (post_encrypt c x enc) as [enc2|]; simpl; [|reflexivity].
  change (sign k c (set_app x (clean_ivt (m_app x))) enc2) with (sign k c x enc2).
  destruct (sign k c x enc2) as [sg|]; simpl; [|reflexivity].
  now rewrite finalize_set_app by (now apply clean_ivt_length).
Qed.

(* ------------------------------------------------------------------ byte lemmas *)
Lemma take_last_app (a b : list N) : take_last (length b) (a ++ b) = b.
Proof.
  unfold take_last. rewrite app_length. replace (length a + length b - length b)%nat with (length a) by lia.
  rewrite skipn_app, skipn_all, Nat.sub_diag. reflexivity.
Qed.

Lemma drop_last_app (a b : list N) : drop_last (length b) (a ++ b) = a.
Proof.
  unfold drop_last. rewrite app_length. replace (length a + length b - length b)%nat with (length a) by lia.
  rewrite firstn_app, firstn_all, Nat.sub_diag. simpl. apply app_nil_r.
Qed.

Lemma pad4_id (d : list N) : (length d mod 4 = 0)%nat -> pad4 d = d.
Proof. intros H. unfold pad4. rewrite H. simpl. apply app_nil_r. Qed.

Lemma clean_wr_crc w d : length w = 4%nat -> (56 <= length d)%nat -> clean_ivt (wr OFF_CRC w d) = clean_ivt d.
Proof.
  intros Hw L. rewrite off_crc_eq. destruct (ivt_frame_self d L) as (a & b & c & e & La & Lb & Lc & Le & E). rewrite E at 1.
  rewrite (proj1 (proj2 (proj2 (ivt_frame_wr d a b c e w L La Lb Lc Le Hw)))). now apply clean_ivt_frame.
Qed.

Lemma flat_cons (a : list N) t : flat (a :: t) = a ++ flat t.
Proof. reflexivity. Qed.
Lemma flat_app (a b : image) : flat (a ++ b) = flat a ++ flat b.
Proof. apply concat_app. Qed.
Lemma flat_tz_segment x : flat (tz_segment x) = tz_export (m_tz x).
Proof. unfold tz_segment, flat. destruct (tz_export (m_tz x)); simpl; [reflexivity|now rewrite app_nil_r]. Qed.

Lemma has_in c m : has c m = true -> In m (c_mixins c).
Proof. unfold has. intros H. apply existsb_exists in H as (m' & Hi & He). apply mixin_eqb_eq in He. now subst. Qed.

Lemma crc_write_head s t w : (40 <= length s)%nat -> crc_write (s :: t) 0 w = Some (wr OFF_CRC w s :: t).
Proof.
  intros H. cbn [crc_write]. replace (Nat.leb 0 OFF_CRC && Nat.leb OFF_CRC (0 + length s)) with true
    by (symmetry; rewrite off_crc_eq; apply andb_true_iff; split; apply Nat.leb_le; lia).
  now rewrite Nat.sub_0_r.
Qed.

(* ================================================================== class structure
   A class is its list of mixins: attributes, stage providers and lengths are all read off which mixins it has. *)
Definition gives (a : attr) (m : mixin) : bool := existsb (attr_eqb a) (mixin_attrs m).
Lemma has_attr_gives c a : has_attr c a = existsb (gives a) (c_mixins c).
Proof. reflexivity. Qed.
Definition hasl (l : list mixin) (m : mixin) : bool := existsb (mixin_eqb m) l.

Definition is_cert_mixin (m : mixin) : bool := match m with MixinCertBlockV1 | MixinCertBlockV21 => true | _ => false end.
Definition is_manifest_mixin (m : mixin) : bool := match m with MixinManifestCrc | MixinManifestDigest => true | _ => false end.
Definition is_tz_giver (m : mixin) : bool :=
  match m with MixinTrustZone | MixinTrustZoneMandatory | MixinManifestCrc | MixinManifestDigest => true | _ => false end.
Definition is_hmac_mixin (m : mixin) : bool := match m with MixinHmac | MixinHmacMandatory => true | _ => false end.

Lemma in_gives_has_attr c a m : In m (c_mixins c) -> gives a m = true -> has_attr c a = true.
Proof. intros Hi Hg. rewrite has_attr_gives. apply existsb_exists. eauto. Qed.

(* a test over the mixins of a list is a test over the enumeration; when all members of the list satisfy P, only the
   mixins satisfying P need to be looked at.  For concrete P and g the right-hand side computes to a disjunction of
   [hasl l m]. *)
Lemma existsb_allowed (P g : mixin -> bool) l : forallb P l = true ->
  existsb g l = existsb (fun m => P m && g m && hasl l m) all_mixins.
Proof.
  intros HP. apply eq_true_iff_eq. rewrite !existsb_exists. split.
  - intros (m & Hi & Hg). exists m. split; [apply in_all_mixins|].
    rewrite (proj1 (forallb_forall P l) HP m Hi), Hg. apply existsb_exists. exists m. split; [exact Hi | now apply mixin_eqb_eq].
  - intros (m & _ & H). apply andb_true_iff in H as [H Hh]. apply andb_true_iff in H as [_ Hg].
    apply existsb_exists in Hh as (m' & Hi & He). apply mixin_eqb_eq in He. subst m'. eauto.
Qed.
Lemma existsb_mixins (g : mixin -> bool) l : existsb g l = existsb (fun m => g m && hasl l m) all_mixins.
Proof. apply (existsb_allowed (fun _ => true)). now apply forallb_forall. Qed.

Lemma has_allowed (P : mixin -> bool) c m : forallb P (c_mixins c) = true -> P m = false -> has c m = false.
Proof.
  intros HP Hm. destruct (has c m) eqn:E; [|reflexivity]. apply has_in in E.
  rewrite (proj1 (forallb_forall P _) HP m E) in Hm. discriminate Hm.
Qed.

Lemma has_attr_tz c : has_attr c ATrustZone = has c MixinTrustZone || has c MixinTrustZoneMandatory.
Proof. rewrite has_attr_gives, existsb_mixins. cbn. apply f_equal, orb_false_r. Qed.
Lemma has_attr_table c : has_attr c AAppTable = has c MixinRelocTable.
Proof. rewrite has_attr_gives, existsb_mixins. cbn. apply orb_false_r. Qed.
Lemma has_attr_hmac c : has_attr c AHmacKey = has c MixinHmac || has c MixinHmacMandatory.
Proof. rewrite has_attr_gives, existsb_mixins. cbn. apply f_equal, orb_false_r. Qed.
Lemma has_attr_ks c : has_attr c AKeyStore = has c MixinKeyStore.
Proof. rewrite has_attr_gives, existsb_mixins. cbn. apply orb_false_r. Qed.

Lemma tz_givers c : existsb is_tz_giver (c_mixins c) = has c MixinTrustZone || has c MixinTrustZoneMandatory || has_manifest c.
Proof. rewrite existsb_mixins. cbn. unfold has_manifest, has, hasl. rewrite orb_false_r. now rewrite !orb_assoc. Qed.
Lemma manifest_mixins c : existsb is_manifest_mixin (c_mixins c) = has_manifest c.
Proof. rewrite existsb_mixins. cbn. unfold has_manifest, has, hasl. now rewrite orb_false_r. Qed.
Lemma cert_mixins c : existsb is_cert_mixin (c_mixins c) = has c MixinCertBlockV1 || has c MixinCertBlockV21.
Proof. rewrite existsb_mixins. cbn. apply f_equal, orb_false_r. Qed.
Lemma hmac_mixins c : existsb is_hmac_mixin (c_mixins c) = has c MixinHmac || has c MixinHmacMandatory.
Proof. rewrite existsb_mixins. cbn. apply f_equal, orb_false_r. Qed.

Lemma provider_none_if l s (P : mixin -> bool) :
  forallb P l = true -> (forall m, P m = true -> definer m s = None) -> provider_in l s = None.
Proof.
  intros H HP. induction l as [|m l IH]; [reflexivity|]. cbn [forallb] in H. apply andb_true_iff in H as [H1 H2].
  cbn [provider_in]. rewrite (HP m H1). now apply IH.
Qed.
Lemma reloc_provider_has l :
  provider_in l SDisassemblyAppData = if hasl l MixinRelocTable then Some MixinRelocTable else None.
Proof. induction l as [|m l IH]; [reflexivity|]. unfold hasl in *. cbn [provider_in existsb]. rewrite IH. destruct m; reflexivity. Qed.
Lemma clean_provider l : existsb (gives AIvtTable) l = true -> exists d, provider_in l SCleanIvt = Some d.
Proof.
  induction l as [|m l IH]; [discriminate|]. intros H. cbn [existsb] in H. apply orb_true_iff in H as [H|H].
  - destruct m; cbv in H; try discriminate H; cbn [provider_in definer]; eauto.
  - destruct (IH H) as [d Hd]. cbn [provider_in]. destruct (definer m SCleanIvt); eauto.
Qed.

(* sums over a duplicate-free mixin list, term by term over the enumeration *)
Lemma sumz_add (f g : mixin -> Z) l : sumz (map (fun m => f m + g m) l) = sumz (map f l) + sumz (map g l).
Proof. induction l as [|a l IH]; [reflexivity|]. unfold sumz in *. cbn [map fold_right]. lia. Qed.
Lemma sumz_nodup (f : mixin -> Z) l : nodupb l = true ->
  sumz (map f l) = sumz (map (fun m => if hasl l m then f m else 0) all_mixins).
Proof.
  induction l as [|a l IH]; intros ND.
  - unfold hasl. cbn [map existsb]. symmetry. induction all_mixins as [|m t IHt]; [reflexivity | exact IHt].
  - cbn [nodupb] in ND. apply andb_true_iff in ND as [NA ND]. apply negb_true_iff in NA.
    cbn [map]. change (sumz (f a :: map f l)) with (f a + sumz (map f l)). rewrite (IH ND).
    assert (S : sumz (map (fun m => if mixin_eqb m a then f m else 0) all_mixins) = f a) by (destruct a; cbn; lia).
    rewrite <- S at 1. rewrite <- sumz_add. f_equal. apply map_ext. intros m.
    unfold hasl. cbn [existsb]. destruct (mixin_eqb m a) eqn:E; cbn [orb]; [|lia].
    apply mixin_eqb_eq in E. subst m. rewrite NA. lia.
Qed.

Definition hz (c : mbi_class) (m : mixin) (v : Z) : Z := if has c m then v else 0.
Lemma hz_true c m v : has c m = true -> hz c m v = v. Proof. unfold hz. now intros ->. Qed.
Lemma hz_false c m v : has c m = false -> hz c m v = 0. Proof. unfold hz. now intros ->. Qed.
Lemma if_same0 (b : bool) : (if b then 0 else 0) = 0. Proof. destruct b; reflexivity. Qed.

Lemma total_len_expand c x : nodupb (c_mixins c) = true ->
  total_len c x =
  hz c MixinApp (zlen (m_app x)) + hz c MixinTrustZone (zlen (tz_export (m_tz x))) +
  hz c MixinTrustZoneMandatory (zlen (tz_export (m_tz x))) + hz c MixinRelocTable (mix_len x MixinRelocTable) +
  hz c MixinManifestCrc (mix_len x MixinManifestCrc) + hz c MixinManifestDigest (mix_len x MixinManifestDigest) +
  hz c MixinCertBlockV1 (mix_len x MixinCertBlockV1) + hz c MixinCertBlockV21 (mix_len x MixinCertBlockV21) +
  hz c MixinKeyStore (opt_len (m_ks x)) + hz c MixinHmac (mix_len x MixinHmac) + hz c MixinHmacMandatory (mix_len x MixinHmac).
Proof.
  intros ND. unfold total_len. rewrite (sumz_nodup _ _ ND). unfold hz, has, hasl.
  cbn [all_mixins map sumz fold_right mix_len]. rewrite ?if_same0. ring.
Qed.
Lemma app_len_expand c x : nodupb (c_mixins c) = true ->
  app_len c x = hz c MixinApp (zlen (m_app x)) + hz c MixinRelocTable (mix_len x MixinRelocTable).
Proof.
  intros ND. unfold app_len. rewrite (sumz_nodup _ _ ND). unfold hz, has, hasl.
  cbn [all_mixins map sumz fold_right mix_app_len mix_len]. rewrite ?if_same0. ring.
Qed.

(* ================================================================== generic part of parse (export x) = x
   1. every mix_parse sets its own field(s): [upd];  2. the PRE_PARSED loop parses every mixin exactly once, cert-dependent
   ones after the certificate block;  3. so the parsed object is determined field by field by the mixins present. *)
(* mixins of the supported (non BCA/FCF) classes *)
Definition allowed (m : mixin) : bool := negb (unsupported_mixin m).

Definition upd (x : mbi) (dek : option (list N)) (m : mixin) (st : mbi) : mbi :=
  match m with
  | MixinTrustZone | MixinTrustZoneMandatory => set_tz st (m_tz x)
  | MixinLoadAddress | MixinLoadAddressOptional => set_load st (m_load x)
  | MixinImageVersion => set_imgver st (m_imgver x)
  | MixinImageSubType => set_subtype st (m_subtype x)
  | MixinHwKey => set_hwkey st (m_hwkey x)
  | MixinManifestCrc | MixinManifestDigest => set_manifest st (m_fwver x) (m_tz x) (m_digest x)
  | MixinCertBlockV1 | MixinCertBlockV21 => set_cert st (m_cert x)
  | MixinKeyStore => set_ks st (m_ks x)
  | MixinHmac | MixinHmacMandatory => match dek with Some kb => set_hmac st (Some kb) | None => st end
  | MixinCtrInitVector => set_iv st (m_iv x)
  | _ => st
  end.

Lemma mbi_ext (a b : mbi) :
  m_app a = m_app b -> m_load a = m_load b -> m_imgver a = m_imgver b -> m_subtype a = m_subtype b ->
  m_fwver a = m_fwver b -> m_tz a = m_tz b -> m_hwkey a = m_hwkey b -> m_ks a = m_ks b -> m_hmac a = m_hmac b ->
  m_iv a = m_iv b -> m_table a = m_table b -> m_cert a = m_cert b -> m_digest a = m_digest b -> a = b.
Proof. destruct a, b; simpl; intros; subst; reflexivity. Qed.

(* parsing a list of mixins one after the other: each field is that of x if a mixin of the list sets it *)
Lemma fold_upd_state x dek l : forall st,
  fold_left (fun s m => upd x dek m s) l st =
  {| m_app := m_app st; m_table := m_table st;
     m_load := if existsb (gives ALoadAddress) l then m_load x else m_load st;
     m_imgver := if existsb (gives AImageVersion) l then m_imgver x else m_imgver st;
     m_subtype := if existsb (gives AImageSubtype) l then m_subtype x else m_subtype st;
     m_hwkey := if existsb (gives AHwKey) l then m_hwkey x else m_hwkey st;
     m_tz := if existsb is_tz_giver l then m_tz x else m_tz st;
     m_fwver := if existsb is_manifest_mixin l then m_fwver x else m_fwver st;
     m_digest := if existsb is_manifest_mixin l then m_digest x else m_digest st;
     m_cert := if existsb is_cert_mixin l then m_cert x else m_cert st;
     m_ks := if existsb (gives AKeyStore) l then m_ks x else m_ks st;
     m_iv := if existsb (gives ACtrIv) l then m_iv x else m_iv st;
     m_hmac := if existsb is_hmac_mixin l then (match dek with Some kb => Some kb | None => m_hmac st end) else m_hmac st |}.
Proof.
  induction l as [|m l IH]; intros st; [destruct st; reflexivity|]. cbn [fold_left existsb]. rewrite IH. clear IH.
  apply mbi_ext; destruct m; cbn; try reflexivity; try (destruct (existsb _ l); reflexivity);
    destruct dek; cbn; try reflexivity; destruct (existsb _ l); reflexivity.
Qed.

Definition waits (c : mbi_class) (m : mixin) (st : mbi) : bool :=
  pre_parsed_cert m && has_attr c ACertBlock && (match m_cert st with None => true | Some _ => false end).
Definition cert_inv (x st : mbi) : Prop := m_cert st = None \/ m_cert st = m_cert x.
(* what the class-kind specific part has to establish for every mixin of the class *)
Definition parse_ok (c : mbi_class) (x : mbi) (dek : option (list N)) (tzsize sigsz : nat) (data : list N) (l : list mixin) : Prop :=
  forall m, In m l -> forall st, cert_inv x st -> waits c m st = false ->
    mix_parse c tzsize sigsz dek data m st = Ok (upd x dek m st).

Lemma upd_cert x dek m st : m_cert (upd x dek m st) = if is_cert_mixin m then m_cert x else m_cert st.
Proof. destruct m; try reflexivity; simpl; destruct dek; reflexivity. Qed.
Lemma upd_inv x dek m st : cert_inv x st -> cert_inv x (upd x dek m st).
Proof. unfold cert_inv. rewrite upd_cert. destruct (is_cert_mixin m); auto. Qed.
(* a mixin that needs the certificate block is parsed only once the block is there, and then it is that of x *)
Lemma waits_cert c x m st : has_attr c ACertBlock = true -> pre_parsed_cert m = true -> waits c m st = false -> cert_inv x st ->
  m_cert st = m_cert x.
Proof. unfold waits. intros -> -> W Inv. destruct (m_cert st) eqn:Ec; [|discriminate W]. destruct Inv; congruence. Qed.
Lemma pre_parsed_not_cert m : pre_parsed_cert m = true -> is_cert_mixin m = false.
Proof. destruct m; simpl; congruence. Qed.

Lemma parse_round_gen c x dek tzsize sigsz data l : forall st,
  cert_inv x st -> parse_ok c x dek tzsize sigsz data l ->
  exists l1 l2,
    parse_round c tzsize sigsz dek data l st = Ok (fold_left (fun s m => upd x dek m s) l1 st, l2) /\
    (forall g, existsb g l = existsb g l1 || existsb g l2) /\
    length l = (length l1 + length l2)%nat /\ (forall m, In m l2 -> In m l) /\
    (l2 <> [] -> has_attr c ACertBlock = true) /\ existsb is_cert_mixin l2 = false.
Proof.
  induction l as [|m t IH]; intros st Inv H.
  - exists [], []. repeat split; try reflexivity; try (intros; contradiction).
  - assert (Ht : parse_ok c x dek tzsize sigsz data t) by (intros m' Hm'; apply H; now right).
    cbn [parse_round]. fold (waits c m st). destruct (waits c m st) eqn:W.
    + destruct (IH st Inv Ht) as (l1 & l2 & E & G & Len & I2 & HC & NC). rewrite E. cbn [bind fst snd].
      exists l1, (m :: l2). unfold waits in W. apply andb_true_iff in W as [W W3]. apply andb_true_iff in W as [W1 W2].
      repeat split.
      * intros g. cbn [existsb]. rewrite G. destruct (g m), (existsb g l1), (existsb g l2); reflexivity.
      * cbn [length]. lia.
      * intros m' [->|Hm']; [now left | right; now apply I2].
      * intros _. exact W2.
      * cbn [existsb]. now rewrite (pre_parsed_not_cert m W1), NC.
    + rewrite (H m (or_introl eq_refl) st Inv W). cbn [bind].
      destruct (IH (upd x dek m st) (upd_inv x dek m st Inv) Ht) as (l1 & l2 & E & G & Len & I2 & HC & NC). rewrite E.
      exists (m :: l1), l2. repeat split; try assumption.
      * intros g. cbn [existsb]. rewrite G. now rewrite orb_assoc.
      * cbn [length]. lia.
      * intros m' Hm'. right. now apply I2.
Qed.

Lemma parse_round_nowait c x dek tzsize sigsz data l : forall st,
  (exists cb, m_cert st = Some cb) -> cert_inv x st -> parse_ok c x dek tzsize sigsz data l ->
  parse_round c tzsize sigsz dek data l st = Ok (fold_left (fun s m => upd x dek m s) l st, []).
Proof.
  induction l as [|m t IH]; intros st (cb & Hc) Inv H; [reflexivity|].
  assert (Ht : parse_ok c x dek tzsize sigsz data t) by (intros m' Hm'; apply H; now right).
  assert (W : waits c m st = false) by (unfold waits; rewrite Hc; apply andb_false_r).
  cbn [parse_round]. fold (waits c m st). rewrite W. rewrite (H m (or_introl eq_refl) st Inv W). cbn [bind fold_left].
  apply IH; [|now apply upd_inv|assumption].
  rewrite upd_cert. destruct (is_cert_mixin m); [|eauto].
  destruct Inv as [N|E]; [congruence|]. rewrite <- E. eauto.
Qed.

Lemma parse_rounds_nil fuel c tzsize sigsz dek data st : parse_rounds fuel c tzsize sigsz dek data [] st = Ok st.
Proof. destruct fuel; reflexivity. Qed.
Lemma parse_rounds_step f c tzsize sigsz dek data l st : l <> [] ->
  parse_rounds (S f) c tzsize sigsz dek data l st =
  bind (parse_round c tzsize sigsz dek data l st) (fun r =>
    if Nat.eqb (length (snd r)) (length l) then Err E_REJECT else parse_rounds f c tzsize sigsz dek data (snd r) (fst r)).
Proof. destruct l; [congruence | reflexivity]. Qed.

Lemma parse_rounds_gen c x dek tzsize sigsz data :
  parse_ok c x dek tzsize sigsz data (c_mixins c) ->
  (has_attr c ACertBlock = true -> existsb is_cert_mixin (c_mixins c) = true /\ exists cb, m_cert x = Some cb) ->
  exists l', parse_rounds (S (length (c_mixins c))) c tzsize sigsz dek data (c_mixins c) mbi_default
             = Ok (fold_left (fun s m => upd x dek m s) l' mbi_default) /\
             (forall g, existsb g l' = existsb g (c_mixins c)).
Proof.
  intros H HC. destruct (c_mixins c) as [|m0 t0] eqn:El; [exists []; split; reflexivity|].
  set (l := m0 :: t0) in *. assert (NE : l <> []) by discriminate.
  assert (Inv0 : cert_inv x mbi_default) by (left; reflexivity).
  destruct (parse_round_gen c x dek tzsize sigsz data l mbi_default Inv0 H) as (l1 & l2 & E & G & Len & I2 & HC2 & NC).
  rewrite parse_rounds_step by assumption. rewrite E. cbn [bind fst snd].
  assert (Lpos : (1 <= length l)%nat) by (destruct l; [contradiction | simpl; lia]).
  destruct l2 as [|m2 t2].
  - replace (Nat.eqb (length (@nil mixin)) (length l)) with false by (symmetry; apply Nat.eqb_neq; simpl; lia).
    rewrite parse_rounds_nil. exists l1. split; [reflexivity|]. intros g. rewrite G. cbn. now rewrite orb_false_r.
  - assert (HA : has_attr c ACertBlock = true) by (apply HC2; discriminate).
    destruct (HC HA) as (CM & cb & Hcb).
    assert (C1 : existsb is_cert_mixin l1 = true) by (rewrite G, NC, orb_false_r in CM; exact CM).
    assert (L1 : (1 <= length l1)%nat) by (destruct l1; [discriminate C1 | simpl; lia]).
    replace (Nat.eqb (length (m2 :: t2)) (length l)) with false by (symmetry; apply Nat.eqb_neq; lia).
    set (st1 := fold_left (fun s m => upd x dek m s) l1 mbi_default).
    assert (FC : m_cert st1 = m_cert x) by (unfold st1; rewrite fold_upd_state; cbn [m_cert]; now rewrite C1).
    assert (H2 : parse_ok c x dek tzsize sigsz data (m2 :: t2)) by (intros m' Hm'; apply H; now apply I2).
    assert (Inv1 : cert_inv x st1) by (right; exact FC).
    destruct (length l) as [|n] eqn:Ll; [lia|].
    rewrite parse_rounds_step by discriminate.
    rewrite (parse_round_nowait c x dek tzsize sigsz data (m2 :: t2) st1) by (try assumption; exists cb; congruence).
    cbn [bind fst snd]. replace (Nat.eqb (length (@nil mixin)) (length (m2 :: t2))) with false by reflexivity.
    rewrite parse_rounds_nil.
    exists (l1 ++ m2 :: t2). split; [now rewrite fold_left_app|].
    intros g. rewrite existsb_app. symmetry. apply G.
Qed.

(* ================================================================== relocation table: parse (export) = id *)
Lemma bind_ok {A B} (r : res A) (f : A -> res B) (b : B) : bind r f = Ok b -> exists a, r = Ok a /\ f a = Ok b.
Proof. destruct r as [a|]; [eauto | discriminate]. Qed.
Lemma ok_inj {A} (a b : A) : @Ok A a = Ok b -> a = b.
Proof. congruence. Qed.

Definition entries_ok (es : list entry) : Prop := Forall (fun e => e_flags e = G_LTI_LOAD) es.

Lemma table_entries_cons e t src ent : table_entries (e :: t) src = Ok ent ->
  exists ws wd wl wf r, u32 src = Ok ws /\ u32 (e_dst e) = Ok wd /\ u32 (zlen (e_img e)) = Ok wl /\ u32 (e_flags e) = Ok wf /\
    table_entries t (src + zlen (pad4 (e_img e))) = Ok r /\ ent = ws ++ wd ++ wl ++ wf ++ r.
Proof.
  cbn [table_entries]. intros H. apply bind_ok in H as (ws & E1 & H). apply bind_ok in H as (wd & E2 & H).
  apply bind_ok in H as (wl & E3 & H). apply bind_ok in H as (wf & E4 & H). apply bind_ok in H as (r & E5 & H).
  injection H as <-. exists ws, wd, wl, wf, r. auto 10.
Qed.

Lemma table_entries_length es : forall src ent, table_entries es src = Ok ent -> length ent = (16 * length es)%nat.
Proof.
  induction es as [|e t IH]; intros src ent H; [now injection H as <-|].
  apply table_entries_cons in H as (ws & wd & wl & wf & r & E1 & E2 & E3 & E4 & E5 & ->).
  apply u32_length in E1, E2, E3, E4. apply IH in E5. rewrite !app_length, E1, E2, E3, E4, E5. cbn [length]. lia.
Qed.

Fixpoint with_src (l : list entry) (s : Z) : list (entry * Z) :=
  match l with [] => [] | e :: t => (e, s) :: with_src t (s + zlen (pad4 (e_img e))) end.
Lemma map_fst_with_src l s : map fst (with_src l s) = l.
Proof. revert s; induction l as [|e t IH]; intros s; [reflexivity|]. cbn. now rewrite IH. Qed.

(* entries k.. of the table, read back from an image  P ++ ENT ++ HDR  where P (length = start) holds the images *)
Lemma entries_parse_ok es : forall src k pre post ent,
  entries_ok es -> table_entries es src = Ok ent ->
  forall Q R data start,
    data = (Q ++ table_images es ++ R) ++ (pre ++ ent ++ post) ->
    zlen Q = src -> zlen (Q ++ table_images es ++ R) = start -> length pre = (16 * k)%nat ->
    entries_parse (length es) k start data = Ok (with_src es src).
Proof.
  induction es as [|e t IH]; intros src k pre post ent OK H Q R data start Hd HQ Hs Hp; [reflexivity|]. subst data start.
  apply table_entries_cons in H as (ws & wd & wl & wf & r & E1 & E2 & E3 & E4 & E5 & ->). apply Forall_cons_iff in OK as [Fe Ft].
  pose proof (u32_length _ _ E1) as L1. pose proof (u32_length _ _ E2) as L2.
  pose proof (u32_length _ _ E3) as L3. pose proof (u32_length _ _ E4) as L4.
  cbn [length entries_parse with_src].
  set (PP := Q ++ table_images (e :: t) ++ R) in *.
  assert (SUB : sub (PP ++ pre ++ (ws ++ wd ++ wl ++ wf ++ r) ++ post) (natz (zlen PP) + 16 * k) (natz (zlen PP) + 16 * k + 16)
                = ws ++ wd ++ wl ++ wf ++ []).
  { replace (PP ++ pre ++ (ws ++ wd ++ wl ++ wf ++ r) ++ post) with ((PP ++ pre) ++ (ws ++ wd ++ wl ++ wf ++ []) ++ (r ++ post))
      by (now rewrite <- !app_assoc). apply slice_app_mid; unfold natz, zlen; rewrite ?Nat2Z.id, !app_length; cbn [length]; lia. }
  rewrite SUB.
  assert (V : rd32 0 (ws ++ wd ++ wl ++ wf ++ []) = src /\ rd32 4 (ws ++ wd ++ wl ++ wf ++ []) = e_dst e /\
              rd32 8 (ws ++ wd ++ wl ++ wf ++ []) = zlen (e_img e) /\ rd32 12 (ws ++ wd ++ wl ++ wf ++ []) = e_flags e)
    by (repeat split; rewrite ?rd32_skip by lia; apply rd32_word; (lia || assumption)).
  destruct V as (-> & -> & -> & ->).
  assert (Lpp : zlen PP = zlen Q + zlen (pad4 (e_img e)) + zlen (table_images t) + zlen R).
  { unfold PP. cbn [table_images]. rewrite !zlen_app. lia. }
  assert (Lpad : zlen (e_img e) <= zlen (pad4 (e_img e))) by (unfold pad4; rewrite zlen_app; pose proof (zlen_nonneg (zeros ((4 - length (e_img e) mod 4) mod 4))); lia).
  pose proof (zlen_nonneg (table_images t)). pose proof (zlen_nonneg R). pose proof (zlen_nonneg Q).
  replace (zlen PP <? src + zlen (e_img e)) with false by (symmetry; apply Z.ltb_ge; lia).
  rewrite Fe, Z.eqb_refl. cbn [negb].
  assert (IMG : sub (PP ++ pre ++ (ws ++ wd ++ wl ++ wf ++ r) ++ post) (natz src) (natz (src + zlen (e_img e))) = e_img e).
  { unfold PP, pad4. cbn [table_images]. unfold pad4. rewrite <- !app_assoc.
    apply slice_app_mid; subst src; unfold natz, zlen; lia. }
  rewrite IMG.
  rewrite (IH (src + zlen (pad4 (e_img e))) (S k) (pre ++ ws ++ wd ++ wl ++ wf) post r Ft E5 (Q ++ pad4 (e_img e)) R
             (PP ++ pre ++ (ws ++ wd ++ wl ++ wf ++ r) ++ post) (zlen PP)).
  - cbn [bind]. destruct e as [i d f]; cbn [MbiModel.e_img MbiModel.e_dst MbiModel.e_flags] in *; subst f; reflexivity.
  - unfold PP. cbn [table_images]. now rewrite <- !app_assoc.
  - rewrite zlen_app. lia.
  - unfold PP. cbn [table_images]. now rewrite <- !app_assoc.
  - rewrite !app_length. lia.
Qed.

Lemma table_export_inv es start T :
  table_export es start = Ok T -> es <> [] ->
  exists ent wn wp wm,
    table_entries es start = Ok ent /\ u32 (Z.of_nat (length es)) = Ok wn /\ u32 (start + zlen (table_images es)) = Ok wp /\
    u32 RELOC_MARKER = Ok wm /\ T = table_images es ++ ent ++ wm ++ le_enc 4 0 ++ wn ++ wp.
Proof.
  intros H NE. unfold table_export in H. destruct es as [|e t]; [contradiction|].
  apply bind_ok in H as (ent & E1 & H). apply bind_ok in H as (wn & E2 & H).
  apply bind_ok in H as (wp & E3 & H). apply bind_ok in H as (wm & E4 & H).
  injection H as <-. exists ent, wn, wp, wm. auto.
Qed.

(* MultipleImageTable.parse (application ++ MultipleImageTable.export) gives the entries back and the place to cut *)
Theorem table_parse_export A es T :
  es <> [] -> entries_ok es -> table_export es (zlen A) = Ok T ->
  table_parse (A ++ T) = Ok (Some (es, zlen A)).
Proof.
  intros NE OK H. destruct (table_export_inv es (zlen A) T H NE) as (ent & wn & wp & wm & E1 & E2 & E3 & E4 & ->).
  pose proof (u32_length _ _ E2) as L2. pose proof (u32_length _ _ E3) as L3. pose proof (u32_length _ _ E4) as L4.
  pose proof (table_entries_length _ _ _ E1) as Le.
  set (hdr := wm ++ le_enc 4 0 ++ wn ++ wp).
  assert (Lh : length hdr = 16%nat) by (unfold hdr; rewrite !app_length, le_enc_length; lia).
  set (imgs := table_images es) in *.
  assert (Dd : A ++ imgs ++ ent ++ hdr = (A ++ imgs ++ ent) ++ hdr) by (now rewrite <- !app_assoc).
  unfold table_parse. rewrite Dd.
  replace (Nat.ltb (length ((A ++ imgs ++ ent) ++ hdr)) 16) with false by (symmetry; apply Nat.ltb_ge; rewrite app_length; lia).
  rewrite <- Lh, take_last_app.
  assert (V : rd32 0 hdr = RELOC_MARKER /\ rd32 4 hdr = 0 /\ rd32 8 hdr = Z.of_nat (length es) /\ rd32 12 hdr = zlen A + zlen imgs).
  { unfold hdr. rewrite <- (app_nil_r wp). pose proof (le_enc_length 4 0) as L0. assert (U0 : u32 0 = Ok (le_enc 4 0)) by reflexivity.
    repeat split; rewrite ?rd32_skip by lia; apply rd32_word; (lia || assumption). }
  destruct V as (V0 & V1 & V2 & V3).
  rewrite V0, V1, V2, V3. rewrite !Z.eqb_refl. cbn [andb negb].
  assert (Lpos : (1 <= length es)%nat) by (destruct es; [contradiction | simpl; lia]).
  replace (Z.of_nat (length es) =? 0) with false by (symmetry; apply Z.eqb_neq; lia).
  replace (zlen A + zlen imgs + Z.of_nat (length es) * 16 + 16 =? zlen ((A ++ imgs ++ ent) ++ hdr)) with true
    by (symmetry; apply Z.eqb_eq; unfold zlen; rewrite !app_length, Le, Lh; lia).
  cbn [orb negb]. unfold natz. rewrite Nat2Z.id.
  rewrite (entries_parse_ok es (zlen A) 0 [] hdr ent OK E1 A [] ((A ++ imgs ++ ent) ++ hdr) (zlen A + zlen imgs)).
  - cbn [bind]. destruct es as [|e t]; [contradiction|]. cbn [with_src].
    f_equal. f_equal. f_equal. cbn [map fst]. now rewrite map_fst_with_src.
  - fold imgs. cbn [app]. now rewrite app_nil_r, <- !app_assoc.
  - reflexivity.
  - fold imgs. rewrite app_nil_r, zlen_app. reflexivity.
  - reflexivity.
Qed.

Lemma table_entries_mono es : forall s s' e, table_entries es s = Ok e -> 0 <= s' <= s -> exists e', table_entries es s' = Ok e'.
Proof.
  induction es as [|en t IH]; intros s s' e H R; [eexists; reflexivity|]. cbn [table_entries] in H |- *.
  apply bind_ok in H as (ws & E1 & H). apply bind_ok in H as (wd & E2 & H). apply bind_ok in H as (wl & E3 & H).
  apply bind_ok in H as (wf & E4 & H). apply bind_ok in H as (r & E5 & H).
  apply u32_value in E1 as [_ B1].
  destruct (u32_ok s') as (w & ->); [lia|]. cbn [bind]. rewrite E2. cbn [bind]. rewrite E3. cbn [bind]. rewrite E4. cbn [bind].
  pose proof (zlen_nonneg (pad4 (e_img en))) as Zp.
  destruct (IH _ (s' + zlen (pad4 (e_img en))) _ E5) as (r' & ->); [lia|]. cbn [bind]. eauto.
Qed.

Lemma table_export_len es s T : table_export es s = Ok T -> 0 <= s -> table_len es = zlen T.
Proof.
  intros H Hs. assert (NE : es <> []) by (intros ->; discriminate H).
  destruct (table_export_inv es s T H NE) as (ent & wn & wp & wm & E1 & E2 & E3 & E4 & ->).
  destruct (table_entries_mono es s 0 ent E1) as (ent0 & E0); [lia|].
  pose proof (zlen_nonneg (table_images es)) as P.
  destruct (u32_ok (0 + zlen (table_images es))) as (wp0 & E30); [apply u32_value in E3 as [_ B]; lia|].
  unfold table_len, table_export. destruct es as [|e0 t0]; [contradiction|].
  rewrite E0. cbn [bind]. rewrite E2. cbn [bind]. rewrite E30. cbn [bind]. rewrite E4. cbn [bind].
  apply table_entries_length in E1, E0. apply u32_length in E3, E30.
  unfold zlen. rewrite !app_length, E1, E0, E3, E30. reflexivity.
Qed.

(* ================================================================== the object MasterBootImage.parse is expected to return *)
Definition rounds_state (c : mbi_class) (x : mbi) (dek : option (list N)) : mbi :=
  let l := c_mixins c in
  {| m_app := [];
     m_load := if has_attr c ALoadAddress then m_load x else 0;
     m_imgver := if has_attr c AImageVersion then m_imgver x else 0;
     m_subtype := if has_attr c AImageSubtype then m_subtype x else 0;
     m_fwver := if existsb is_manifest_mixin l then m_fwver x else 0;
     m_tz := if existsb is_tz_giver l then m_tz x else TzEnabled;
     m_hwkey := if has_attr c AHwKey then m_hwkey x else false;
     m_ks := if has_attr c AKeyStore then m_ks x else None;
     m_hmac := if existsb is_hmac_mixin l then dek else None;
     m_iv := if has_attr c ACtrIv then m_iv x else [];
     m_table := None;
     m_cert := if existsb is_cert_mixin l then m_cert x else None;
     m_digest := if existsb is_manifest_mixin l then m_digest x else 0 |}.
Definition parsed (c : mbi_class) (x : mbi) (dek : option (list N)) : mbi :=
  set_app (set_table (rounds_state c x dek) (m_table x)) (clean_ivt (m_app x)).

Lemma rounds_result c x dek tzsize sigsz data :
  parse_ok c x dek tzsize sigsz data (c_mixins c) ->
  (has_attr c ACertBlock = true -> existsb is_cert_mixin (c_mixins c) = true /\ exists cb, m_cert x = Some cb) ->
  parse_rounds (S (length (c_mixins c))) c tzsize sigsz dek data (c_mixins c) mbi_default = Ok (rounds_state c x dek).
Proof.
  intros H HC. destruct (parse_rounds_gen c x dek tzsize sigsz data H HC) as (l' & E & G). rewrite E. f_equal.
  rewrite fold_upd_state. unfold rounds_state. rewrite !G, !has_attr_gives. destruct dek; reflexivity.
Qed.

(* the mixins whose parse only reads the flags / load-address words (or nothing) *)
Definition simple_mixin (m : mixin) : bool :=
  match m with
  | MixinApp | MixinLoadAddress | MixinLoadAddressOptional | MixinFwVersion | MixinImageVersion | MixinImageSubType
  | MixinIvt | MixinIvtZeroTotalLength | MixinRelocTable | MixinHwKey | MixinHmac | MixinHmacMandatory
  | ExportMixinApp | ExportMixinAppTrustZone | ExportMixinAppTrustZoneCertBlock | ExportMixinAppCertBlockManifest
  | ExportMixinCrcSign | ExportMixinRsaSign | ExportMixinEccSign | ExportMixinHmacKeyStoreFinalize
  | ExportMixinAppTrustZoneCertBlockEncrypt => true
  | _ => false
  end.

Definition ivt_load' := ivt_load.
Lemma mix_parse_simple c x tzsize sigsz dek data m st :
  0 <= c_type c < 64 -> 0 <= m_subtype x < 4 -> 0 <= m_imgver x < 65536 ->
  get_flags data = create_flags c x -> rd32 OFF_LOAD data = ivt_load c x ->
  simple_mixin m = true -> In m (c_mixins c) ->
  mix_parse c tzsize sigsz dek data m st = Ok (upd x dek m st).
Proof.
  intros R1 R2 R3 DF DL Hs Hi.
  pose proof (flags_decode_lemma c x R1 R2 R3) as (F0 & F1 & F2 & F3 & F4 & F5 & F6 & F7).
  destruct m; try discriminate Hs; try reflexivity; unfold mix_parse, flag_set, upd; rewrite ?DF, ?DL.
  - unfold ivt_load. now rewrite (in_gives_has_attr c ALoadAddress MixinLoadAddress Hi eq_refl).
  - unfold ivt_load. now rewrite (in_gives_has_attr c ALoadAddress MixinLoadAddressOptional Hi eq_refl).
  - rewrite F7. now rewrite (in_gives_has_attr c AImageVersion MixinImageVersion Hi eq_refl).
  - rewrite F3. now rewrite (in_gives_has_attr c AImageSubtype MixinImageSubType Hi eq_refl).
  - rewrite F4. now rewrite (in_gives_has_attr c AHwKey MixinHwKey Hi eq_refl).
  - destruct dek; reflexivity.
  - destruct dek; reflexivity.
Qed.

(* ================================================================== the stages of export and of parse, one at a time *)
Lemma encrypt_none k c x im : provider c SEncrypt = None -> encrypt k c x im = Ok im.
Proof. intros P. unfold encrypt. now rewrite P. Qed.
Lemma post_encrypt_none c x im : provider c SPostEncrypt = None -> post_encrypt c x im = Ok im.
Proof. intros P. unfold post_encrypt. now rewrite P. Qed.
Lemma finalize_none k c x im dts : provider c SFinalize = None -> finalize k c x im dts = Ok im.
Proof. intros P. unfold finalize. now rewrite P. Qed.
Lemma finalize_revert_none c st d : provider c SFinalize = None -> finalize_revert c st d = Ok d.
Proof. intros P. unfold finalize_revert. now rewrite P. Qed.
Lemma post_encrypt_revert_none c st d : provider c SPostEncrypt = None -> post_encrypt_revert c st d = Ok d.
Proof. intros P. unfold post_encrypt_revert. now rewrite P. Qed.
Lemma encrypt_revert_none k c st d : provider c SEncrypt = None -> encrypt_revert k c st d = Ok d.
Proof. intros P. unfold encrypt_revert. now rewrite P. Qed.

Lemma validate_in_mix c x l m : validate_in c x l = Ok tt -> In m l -> mix_validate c x m = Ok tt.
Proof.
  induction l as [|a l IH]; intros H Hi; [contradiction|]. cbn [validate_in] in H.
  destruct (mix_validate c x a) as [[]|] eqn:E; cbn [bind] in H; [|discriminate].
  destruct Hi as [->|Hi]; [exact E | now apply IH].
Qed.
Lemma validate_mix c x m : validate c x = Ok tt -> has c m = true -> mix_validate c x m = Ok tt.
Proof. intros V H. eapply validate_in_mix; [exact V | now apply has_in]. Qed.

Lemma export_inv k c x img : export_mbi k c x = Ok img ->
  supported c = true /\ validate c x = Ok tt /\
  exists raw enc enc2 sg fin, collect c x = Ok raw /\ encrypt k c x raw = Ok enc /\ post_encrypt c x enc = Ok enc2 /\
    sign k c x enc2 = Ok sg /\ finalize k c x (fst sg) (snd sg) = Ok fin /\ img = flat fin.
Proof.
  unfold export_mbi, export_image. intros E.
  destruct (supported c); cbn [negb] in E; [|discriminate]. split; [reflexivity|].
  destruct (validate c x) as [[]|]; cbn [bind] in E; [|discriminate]. split; [reflexivity|].
  destruct (collect c x) as [raw|]; cbn [bind] in E; [|discriminate].
  destruct (encrypt k c x raw) as [enc|] eqn:E2; cbn [bind] in E; [|discriminate].
  destruct (post_encrypt c x enc) as [enc2|] eqn:E3; cbn [bind] in E; [|discriminate].
  destruct (sign k c x enc2) as [sg|] eqn:E4; cbn [bind] in E; [|discriminate].
  destruct (finalize k c x (fst sg) (snd sg)) as [fin|] eqn:E5; cbn [res_map] in E; [|discriminate].
  injection E as <-. exists raw, enc, enc2, sg, fin. auto 10.
Qed.

Lemma ivt_header c x app total cc app' :
  (56 <= length app)%nat -> update_ivt c x app total cc = Ok app' ->
  length app' = length app /\ clean_ivt app' = clean_ivt app /\
  rd32 OFF_LEN app' = ivt_total c total /\ rd32 OFF_FLAGS app' = create_flags c x /\
  rd32 OFF_CRC app' = ivt_crc c cc /\ rd32 OFF_LOAD app' = ivt_load c x.
Proof.
  intros L U. split; [eapply update_ivt_length; eassumption|]. split; [eapply clean_update; eassumption|].
  eapply ivt_words; eassumption.
Qed.

Lemma collect_app_inv c x im : has_attr c AIvtTable = true -> collect_app c x = Ok im ->
  exists app' rs, update_ivt c x (m_app x) (total_len c x) 0 = Ok app' /\ reloc_segment c x (zlen app') = Ok rs /\ im = app' :: rs.
Proof.
  unfold collect_app. intros -> H. destruct (m_app x); [discriminate|].
  apply bind_ok in H as (app' & U & H). apply bind_ok in H as (rs & R & H). injection H as <-. eauto.
Qed.

Definition table_part (c : mbi_class) (x : mbi) (start : Z) : res (list N) :=
  if has_attr c AAppTable then match m_table x with Some es => table_export es start | None => Ok [] end else Ok [].
Lemma reloc_segment_flat' c x start seg : reloc_segment c x start = Ok seg -> table_part c x start = Ok (flat seg).
Proof.
  unfold reloc_segment, table_part. destruct (has_attr c AAppTable); [|intros H; now inversion H].
  destruct (m_table x) as [es|]; [|intros H; now inversion H].
  destruct (table_export es start) as [b|]; cbn [bind]; intros H; inversion H. cbn. now rewrite app_nil_r.
Qed.
Lemma table_part_len c x s tb : table_part c x s = Ok tb -> 0 <= s -> zlen tb = hz c MixinRelocTable (mix_len x MixinRelocTable).
Proof.
  unfold table_part, hz. rewrite has_attr_table. cbn [mix_len]. intros H Hs.
  destruct (has c MixinRelocTable); [|now injection H as <-]. destruct (m_table x) as [es|]; [|now injection H as <-].
  symmetry. now apply (table_export_len es s).
Qed.
Lemma app_len_table c x (tb app' : list N) :
  nodupb (c_mixins c) = true -> has c MixinApp = true -> length app' = length (m_app x) ->
  table_part c x (zlen app') = Ok tb -> app_len c x = zlen (m_app x) + zlen tb.
Proof.
  intros ND HA La TB. rewrite (app_len_expand c x ND), (hz_true _ _ _ HA). f_equal. symmetry.
  eapply table_part_len; [eassumption | apply zlen_nonneg].
Qed.

(* Mbi_MixinRelocTable.disassembly_app_data on  application ++ relocation-table bytes *)
Lemma reloc_cut_ok c x st app'' tb :
  0 <= c_type c < 64 -> 0 <= m_subtype x < 4 -> 0 <= m_imgver x < 65536 ->
  has_attr c AIvtTable = true -> (56 <= length app'')%nat -> rd32 OFF_FLAGS app'' = create_flags c x ->
  table_part c x (zlen app'') = Ok tb ->
  (forall es, m_table x = Some es -> has_attr c AAppTable = true /\ entries_ok es) ->
  m_table st = None ->
  reloc_cut c st (app'' ++ tb) = Ok (set_table st (m_table x), app'').
Proof.
  intros R1 R2 R3 Wi L FF TB HTb STN.
  pose proof (flags_decode_lemma c x R1 R2 R3) as (_ & _ & _ & _ & _ & _ & F6 & _).
  assert (FLG : flag_set (app'' ++ tb) G_RELOC_TABLE_FLAG = has_attr c AAppTable && has_table x).
  { unfold flag_set, get_flags. rewrite rd32_app by (rewrite off_flags_eq; lia). rewrite FF. exact F6. }
  unfold reloc_cut, provider. rewrite reloc_provider_has. change (hasl (c_mixins c) MixinRelocTable) with (has c MixinRelocTable).
  rewrite <- has_attr_table. unfold table_part in TB. destruct (has_attr c AAppTable) eqn:HA.
  - unfold disassembly_app_data. rewrite Wi, FLG. cbn [andb]. unfold has_table.
    destruct (m_table x) as [es|] eqn:Et; cbn [negb bind fst snd].
    + destruct (HTb es eq_refl) as [_ OKe]. assert (NEe : es <> []) by (intros ->; discriminate TB).
      rewrite (table_parse_export app'' es tb NEe OKe TB). cbn [bind fst snd].
      unfold natz, zlen. rewrite Nat2Z.id, firstn_app_exact by reflexivity. reflexivity.
    + injection TB as <-. now rewrite app_nil_r.
  - assert (TN : m_table x = None) by (destruct (m_table x) as [es|]; [destruct (HTb es eq_refl); congruence | reflexivity]).
    injection TB as <-. rewrite app_nil_r, TN. do 2 f_equal. destruct st; cbn in *; subst; reflexivity.
Qed.

(* ================================================================== plain / CRC classes (ExportMixinApp / ExportMixinAppTrustZone
   with optional ExportMixinCrcSign) *)
Definition allowed_plain (m : mixin) : bool :=
  match m with
  | MixinApp | MixinTrustZone | MixinTrustZoneMandatory | MixinLoadAddress | MixinLoadAddressOptional | MixinFwVersion
  | MixinImageVersion | MixinImageSubType | MixinIvt | MixinIvtZeroTotalLength | MixinRelocTable | MixinHwKey
  | ExportMixinApp | ExportMixinAppTrustZone | ExportMixinCrcSign => true
  | _ => false
  end.

Definition wf_plain_crc (c : mbi_class) : bool :=
  forallb allowed_plain (c_mixins c) && has c MixinApp && has_attr c AIvtTable &&
  (0 <=? c_type c) && (c_type c <? 64) &&
  (match provider c SCollect with
   | Some ExportMixinApp => negb (has_attr c ATrustZone)
   | Some ExportMixinAppTrustZone => has_attr c ATrustZone
   | _ => false
   end) &&
  (opt_mixin_id (provider c SDisassemble) =? opt_mixin_id (provider c SCollect)).

Lemma wf_plain_crc_spec c : wf_plain_crc c = true ->
  forallb allowed_plain (c_mixins c) = true /\ has c MixinApp = true /\ has_attr c AIvtTable = true /\ 0 <= c_type c < 64 /\
  exists p, provider c SCollect = Some p /\ provider c SDisassemble = Some p /\
            (p = ExportMixinApp /\ has_attr c ATrustZone = false \/ p = ExportMixinAppTrustZone /\ has_attr c ATrustZone = true).
Proof.
  unfold wf_plain_crc. rewrite !andb_true_iff, Z.leb_le, Z.ltb_lt, Z.eqb_eq. intros ((((((WA & Wa) & Wi) & T1) & T2) & Wc) & Wd).
  repeat split; try assumption. destruct (provider c SCollect) as [p|]; [|discriminate Wc]. exists p.
  apply opt_id_eq in Wd. repeat split; [exact Wd|]. destruct p; try discriminate Wc; [left | right]; split; try reflexivity; try exact Wc.
  now apply negb_true_iff.
Qed.

Lemma provider_sign_plain l :
  forallb allowed_plain l = true -> provider_in l SSign = None \/ provider_in l SSign = Some ExportMixinCrcSign.
Proof.
  intros H. induction l as [|m l IH]; [left; reflexivity|].
  simpl in H; apply andb_true_iff in H as [H1 H2]. destruct m; try discriminate; simpl; auto.
Qed.

Lemma plain_class c : forallb allowed_plain (c_mixins c) = true ->
  supported c = true /\ provider c SEncrypt = None /\ provider c SPostEncrypt = None /\ provider c SFinalize = None /\
  (provider c SSign = None \/ provider c SSign = Some ExportMixinCrcSign) /\
  has_attr c ACertBlock = false /\ has_tz c = has_attr c ATrustZone /\
  existsb is_tz_giver (c_mixins c) = has_attr c ATrustZone /\ existsb is_manifest_mixin (c_mixins c) = false /\
  existsb is_cert_mixin (c_mixins c) = false /\ existsb is_hmac_mixin (c_mixins c) = false /\
  has_attr c AKeyStore = false /\ has_attr c ACtrIv = false.
Proof.
  intros H. assert (PN : forall s, (forall m, allowed_plain m = true -> definer m s = None) -> provider c s = None)
    by (intros s; apply provider_none_if; exact H).
  unfold supported, has_tz, has_manifest. rewrite !has_attr_gives, !(existsb_allowed allowed_plain _ _ H).
  rewrite !(has_allowed allowed_plain c _ H) by reflexivity.
  repeat split; try (apply PN; intros [] Q; try discriminate Q; reflexivity); [now apply provider_sign_plain | apply orb_false_r].
Qed.

Definition tz_part (c : mbi_class) (x : mbi) : list N := if has_attr c ATrustZone then tz_export (m_tz x) else [].

(* shape of the exported image of a plain / CRC class: application (IVT updated, CRC word for CRC classes),
   relocation table if one is given, TrustZone data *)
Lemma export_plain_shape k c x im :
  wf_plain_crc c = true -> (56 <= length (m_app x))%nat ->
  export_mbi k c x = Ok im ->
  exists app'' tb,
    length app'' = length (m_app x) /\ clean_ivt app'' = clean_ivt (m_app x) /\
    rd32 OFF_LEN app'' = ivt_total c (total_len c x) /\ rd32 OFF_FLAGS app'' = create_flags c x /\
    rd32 OFF_LOAD app'' = ivt_load c x /\
    table_part c x (zlen app'') = Ok tb /\
    im = app'' ++ tb ++ tz_part c x.
Proof.
  intros W L E. destruct (wf_plain_crc_spec c W) as (WA & Wa & Wi & R1 & p & PC & _ & K).
  destruct (plain_class c WA) as (_ & PE & PP & PF & PS & _).
  apply export_inv in E as (_ & _ & raw & enc & enc2 & sg & fin & C & EN & PO & SG & FI & ->).
  rewrite encrypt_none in EN by exact PE. injection EN as <-. rewrite post_encrypt_none in PO by exact PP. injection PO as <-.
  rewrite finalize_none in FI by exact PF. injection FI as <-.
  assert (CA : exists app' rs, update_ivt c x (m_app x) (total_len c x) 0 = Ok app' /\ reloc_segment c x (zlen app') = Ok rs /\
                               raw = app' :: rs ++ (if has_attr c ATrustZone then tz_segment x else [])).
  { unfold collect in C. rewrite PC in C. destruct K as [[-> TZ]|[-> TZ]]; rewrite TZ; cbv iota.
    - apply (collect_app_inv c x raw Wi) in C as (app' & rs & U & R & ->). exists app', rs. now rewrite app_nil_r.
    - apply bind_ok in C as (im & C & Q). injection Q as <-. apply (collect_app_inv c x im Wi) in C as (app' & rs & U & R & ->). eauto. }
  destruct CA as (app' & rs & U & RS & ->).
  destruct (ivt_header c x _ _ _ _ L U) as (La & CL & W1 & W2 & _ & W4).
  assert (FL : forall a, flat (a :: rs ++ (if has_attr c ATrustZone then tz_segment x else [])) = a ++ flat rs ++ tz_part c x).
  { intros a. rewrite flat_cons, flat_app. unfold tz_part. destruct (has_attr c ATrustZone); [now rewrite flat_tz_segment | reflexivity]. }
  pose proof (reloc_segment_flat' c x (zlen app') rs RS) as TB.
  unfold sign in SG. destruct PS as [PS|PS]; rewrite PS in SG.
  - injection SG as <-. exists app', (flat rs). cbn [fst]. rewrite FL. auto 10.
  - match type of SG with context [crc_write _ 0 ?w] => remember w as cw eqn:Ecw end.
    assert (Lw : length cw = 4%nat) by (subst cw; apply le_enc_length).
    rewrite crc_write_head in SG by lia. injection SG as <-. cbn [fst]. exists (wr OFF_CRC cw app'), (flat rs).
    rewrite FL, clean_wr_crc, off_crc_eq, off_len_eq, off_flags_eq, off_load_eq in * by lia.
    rewrite wr_length, !rd32_wr_other by lia. unfold zlen in *. rewrite wr_length by lia. auto 10.
Qed.

Lemma mix_parse_tz_nocert c x tzsize sigsz dek data m st :
  0 <= c_type c < 64 -> 0 <= m_subtype x < 4 -> 0 <= m_imgver x < 65536 ->
  get_flags data = create_flags c x -> has_attr c ACertBlock = false -> has_tz c = true ->
  (forall d, m_tz x = TzCustom d ->
     tz_from_binary tzsize (match tzsize with O => data | _ => take_last tzsize data end) = Ok (TzCustom d)) ->
  m = MixinTrustZone \/ m = MixinTrustZoneMandatory ->
  mix_parse c tzsize sigsz dek data m st = Ok (upd x dek m st).
Proof.
  intros R1 R2 R3 DF NC HT DT Hm.
  pose proof (flags_decode_lemma c x R1 R2 R3) as (F0 & F1 & F2 & _).
  destruct Hm as [-> | ->]; unfold mix_parse, upd; rewrite DF, F2, HT, NC;
    (destruct (m_tz x) as [|d|] eqn:E; cbn [tz_tag]; try reflexivity;
     change (G_TZ_CUSTOM =? G_TZ_CUSTOM) with true; cbv iota; rewrite (DT d eq_refl); reflexivity).
Qed.

Lemma has_gives_attr c a m : has c m = true -> gives a m = true -> has_attr c a = true.
Proof. intros H. apply in_gives_has_attr. now apply has_in. Qed.
Lemma ivt_crc_nonzero c cc : c_type c <> 0 -> ivt_crc c cc = cc.
Proof. unfold ivt_crc. now destruct (Z.eqb_spec (c_type c) 0). Qed.

Lemma has_tz_mixin_attr c m : In m (c_mixins c) -> m = MixinTrustZone \/ m = MixinTrustZoneMandatory -> has_attr c ATrustZone = true.
Proof. intros Hi [-> | ->]; eapply in_gives_has_attr; eauto. Qed.

Lemma tz_from_binary_exact d : tz_from_binary (length d) d = Ok (TzCustom d).
Proof. unfold tz_from_binary. now rewrite Nat.ltb_irrefl, firstn_all. Qed.

(* ------------------------------------------------------------------ settings a class does not carry are at their defaults *)
Definition canonical_plain (c : mbi_class) (x : mbi) : Prop :=
  (has_attr c ALoadAddress = false -> m_load x = 0) /\ (has_attr c AImageVersion = false -> m_imgver x = 0) /\
  (has_attr c AImageSubtype = false -> m_subtype x = 0) /\ (has_attr c ATrustZone = false -> m_tz x = TzEnabled) /\
  (has_attr c AHwKey = false -> m_hwkey x = false) /\
  m_fwver x = 0 /\ m_ks x = None /\ m_hmac x = None /\ m_iv x = [] /\ m_cert x = None /\ m_digest x = 0.

Lemma parsed_plain_canonical c x dek : wf_plain_crc c = true -> canonical_plain c x -> parsed c x dek = set_app x (clean_ivt (m_app x)).
Proof.
  intros W (C1 & C2 & C3 & C4 & C5 & C6 & C7 & C8 & C9 & C11 & C12).
  destruct (wf_plain_crc_spec c W) as (WA & _). destruct (plain_class c WA) as (_ & _ & _ & _ & _ & _ & _ & G1 & G2 & G3 & G4 & G5 & G6).
  unfold parsed, rounds_state. rewrite G1, G2, G3, G4, G5, G6.
  apply mbi_ext; cbn; try reflexivity; try (symmetry; assumption);
    match goal with |- (if ?b then _ else _) = _ => destruct b eqn:Hb; [reflexivity|symmetry; auto] end.
Qed.

Example wf_plain_crc_instance :
  wf_plain_crc {| c_type := 5; c_mixins := [MixinApp; MixinIvt; MixinTrustZone; ExportMixinAppTrustZone; ExportMixinCrcSign] |} = true.
Proof. vm_compute. reflexivity. Qed.

(* ------------------------------------------------------------------ total length = bytes emitted (plain / CRC classes) *)
Theorem len_is_sum_plain_crc k c x im :
  wf_plain_crc c = true -> nodupb (c_mixins c) = true ->
  (has c MixinTrustZone && has c MixinTrustZoneMandatory) = false ->
  (56 <= length (m_app x))%nat ->
  export_mbi k c x = Ok im ->
  zlen im = total_len c x /\
  rd32 OFF_LEN im = (match provider c SUpdateIvt with Some MixinIvtZeroTotalLength => 0 | _ => zlen im end) /\
  rd32 OFF_FLAGS im = create_flags c x /\ rd32 OFF_LOAD im = (if has_attr c ALoadAddress then m_load x else 0).
Proof.
  intros W ND NB L E.
  destruct (export_plain_shape k c x im W L E) as (app'' & tb & La & _ & F1 & F2 & F3 & TB & ->).
  destruct (wf_plain_crc_spec c W) as (WA & Wa & _).
  assert (TL : total_len c x = zlen (app'' ++ tb ++ tz_part c x)).
  { rewrite (total_len_expand c x ND), !zlen_app, (table_part_len c x _ tb TB (zlen_nonneg _)).
    assert (NO : forall m, allowed_plain m = false -> forall v, hz c m v = 0)
      by (intros m Hm v; apply hz_false, (has_allowed allowed_plain c m WA Hm)).
    rewrite (NO MixinManifestCrc), (NO MixinManifestDigest), (NO MixinCertBlockV1), (NO MixinCertBlockV21), (NO MixinKeyStore),
      (NO MixinHmac), (NO MixinHmacMandatory) by reflexivity.
    rewrite (hz_true _ _ _ Wa). unfold tz_part, hz, zlen. rewrite has_attr_tz, La.
    destruct (has c MixinTrustZone), (has c MixinTrustZoneMandatory); try discriminate NB; cbn [orb length]; lia. }
  split; [now rewrite TL|]. rewrite !rd32_app by (rewrite ?off_len_eq, ?off_flags_eq, ?off_load_eq; lia).
  rewrite F1, F2, F3. unfold ivt_total, ivt_load. rewrite TL. auto.
Qed.

(* the hypotheses are satisfiable: a database class with relocation-table mixin, a table of two entries, a custom TrustZone *)
Example roundtrip_plain_crc_nonvacuous :
  let c := {| c_type := 2; c_mixins := [MixinApp; MixinRelocTable; MixinLoadAddress; MixinIvt; MixinTrustZone; MixinHwKey;
                                        ExportMixinAppTrustZone; ExportMixinCrcSign] |} in
  let x := {| m_app := map N.of_nat (seq 1 64); m_load := 4096; m_imgver := 0; m_subtype := 0; m_fwver := 0;
              m_tz := TzCustom (map N.of_nat (seq 7 8)); m_hwkey := true; m_ks := None; m_hmac := None; m_iv := [];
              m_table := Some [{| e_img := [1; 2; 3]%N; e_dst := 536870912; e_flags := 1 |};
                               {| e_img := [9; 8; 7; 6; 5]%N; e_dst := 268435456; e_flags := 1 |}];
              m_cert := None; m_digest := 0 |} in
  let k := {| k_sign := fun _ => []; k_hmac := fun _ _ => []; k_ctr := fun _ _ _ d => d; k_hash := fun _ _ => [] |} in
  wf_plain_crc c = true /\ canonical_plain c x /\
  exists im, export_mbi k c x = Ok im /\ length im = 132%nat /\ parse_mbi k c 8 0 None im = Ok (parsed c x None).
Proof.
  cbv zeta. split; [vm_compute; reflexivity|]. split; [repeat split; intros; try reflexivity; discriminate|].
  eexists. split; [vm_compute; reflexivity|]. split; vm_compute; reflexivity.
Qed.

(* ================================================================== HMAC / key-store insertion (Mbi_ExportMixinHmacKeyStoreFinalize) *)
Lemma hmac_off_eq : HMAC_OFF = 64%nat. Proof. reflexivity. Qed.
Definition hmac_bytes (x : mbi) (hm : list N) : list N := hm ++ match m_ks x with Some b => b | None => [] end.
Definition hmac_key_of (x : mbi) : list N := match m_hmac x with Some key => key | None => [] end.
Lemma flat_hmac_block x hm : flat (hmac_block x hm) = hmac_bytes x hm.
Proof. unfold hmac_block, hmac_bytes, flat. destruct (m_ks x); simpl; now rewrite ?app_nil_r. Qed.

Lemma hmac_split_after x hm im off : (64 < off)%nat -> hmac_insert_split x hm im off = im.
Proof.
  revert off; induction im as [|s t IH]; intros off H; [reflexivity|]. cbn [hmac_insert_split].
  change HMAC_OFF with 64%nat. replace (Nat.leb off 64) with false by (symmetry; apply Nat.leb_gt; lia). cbn [andb].
  rewrite IH by lia. reflexivity.
Qed.
Lemma hmac_between_done x hm im off : hmac_insert_between x hm im off true = im.
Proof.
  revert off; induction im as [|s t IH]; intros off; [reflexivity|]. cbn [hmac_insert_between].
  rewrite andb_false_r. cbn [orb app]. now rewrite IH.
Qed.
Lemma offsets_after im off : (64 < off)%nat -> existsb (Nat.eqb 64) (offsets_from im off) = false.
Proof.
  revert off; induction im as [|s t IH]; intros off H; [reflexivity|]. cbn [offsets_from existsb].
  replace (Nat.eqb 64 off) with false by (symmetry; apply Nat.eqb_neq; lia). apply IH. lia.
Qed.

(* both ways of inserting put the block at byte 64 of the concatenation *)
Lemma hmac_between_gen x hm im : forall off, (off <= 64)%nat ->
  existsb (Nat.eqb 64) (offsets_from im off) = true ->
  flat (hmac_insert_between x hm im off false) = firstn (64 - off) (flat im) ++ hmac_bytes x hm ++ skipn (64 - off) (flat im).
Proof.
  induction im as [|s t IH]; intros off Ho Ex; [discriminate|].
  cbn [offsets_from existsb] in Ex. cbn [hmac_insert_between]. change HMAC_OFF with 64%nat.
  destruct (Nat.eqb off 64) eqn:E.
  - apply Nat.eqb_eq in E. subst off. cbn [andb negb orb]. rewrite hmac_between_done.
    rewrite Nat.sub_diag, firstn_O, skipn_O. rewrite flat_app, flat_hmac_block. cbn [app]. reflexivity.
  - cbn [andb orb app]. apply Nat.eqb_neq in E.
    replace (Nat.eqb 64 off) with false in Ex by (symmetry; apply Nat.eqb_neq; lia). cbn [orb] in Ex.
    assert (Ls : (off + length s <= 64)%nat).
    { destruct (Nat.le_gt_cases (off + length s) 64); [assumption|]. rewrite offsets_after in Ex by lia. discriminate. }
    rewrite !flat_cons. rewrite (IH (off + length s)%nat Ls Ex).
    rewrite firstn_app, skipn_app. rewrite (firstn_all2 s) by lia. rewrite (skipn_all2 s) by lia.
    replace (64 - (off + length s))%nat with (64 - off - length s)%nat by lia. cbn [app]. now rewrite <- app_assoc.
Qed.

Lemma hmac_split_gen x hm im : forall off, (off <= 64)%nat ->
  existsb (Nat.eqb 64) (offsets_from im off) = false -> (64 < off + length (flat im))%nat ->
  flat (hmac_insert_split x hm im off) = firstn (64 - off) (flat im) ++ hmac_bytes x hm ++ skipn (64 - off) (flat im).
Proof.
  induction im as [|s t IH]; intros off Ho Ex Lt; [cbn in Lt; lia|].
  cbn [offsets_from existsb] in Ex. apply orb_false_iff in Ex as [E0 Ex]. apply Nat.eqb_neq in E0.
  cbn [hmac_insert_split]. change HMAC_OFF with 64%nat. rewrite flat_cons in Lt. rewrite app_length in Lt.
  destruct (Nat.ltb 64 (off + length s)) eqn:C.
  - apply Nat.ltb_lt in C. replace (Nat.leb off 64) with true by (symmetry; apply Nat.leb_le; lia). cbn [andb].
    rewrite hmac_split_after by lia. rewrite !flat_app, flat_hmac_block, !flat_cons. unfold flat at 1 2. cbn [concat]. rewrite !app_nil_r.
    rewrite firstn_app, skipn_app. replace (64 - off - length s)%nat with 0%nat by lia. rewrite firstn_O, skipn_O, app_nil_r.
    now rewrite <- !app_assoc.
  - apply Nat.ltb_ge in C. rewrite andb_false_r. cbn [app].
    assert (Ls : (off + length s < 64)%nat).
    { destruct (Nat.eq_dec (off + length s) 64) as [Q|Q]; [|lia]. exfalso.
      destruct t as [|s1 t1]; [cbn in Lt; lia|]. cbn [offsets_from existsb] in Ex. rewrite Q in Ex. cbn in Ex. discriminate. }
    rewrite !flat_cons. rewrite (IH (off + length s)%nat) by (try lia; assumption).
    rewrite firstn_app, skipn_app. rewrite (firstn_all2 s) by lia. rewrite (skipn_all2 s) by lia.
    replace (64 - (off + length s))%nat with (64 - off - length s)%nat by lia. cbn [app]. now rewrite <- app_assoc.
Qed.

Lemma get_flags_prefix (a b : list N) : (40 <= length a)%nat -> get_flags (a ++ b) = get_flags a.
Proof. intros H. unfold get_flags. apply rd32_app. rewrite off_flags_eq. lia. Qed.

Lemma skipn_inserted (F HB : list N) n : (64 <= length F)%nat -> (64 <= n)%nat ->
  skipn (n + length HB) (firstn 64 F ++ HB ++ skipn 64 F) = skipn n F.
Proof.
  intros LF Hn. rewrite app_assoc, skipn_app, app_length, firstn_length, Nat.min_l by exact LF.
  rewrite skipn_all2 by (rewrite app_length, firstn_length; lia). cbn [app]. rewrite <- skipn_add. f_equal. lia.
Qed.
Lemma rd32_inserted (F HB : list N) o : (64 <= length F)%nat -> (o + 4 <= 64)%nat ->
  rd32 o (firstn 64 F ++ HB ++ skipn 64 F) = rd32 o F.
Proof. intros LF Ho. rewrite rd32_app by (rewrite firstn_length; lia). apply rd32_firstn; lia. Qed.

(* finalize inserts the HMAC (+ key store) exactly once, at byte 64 of the image, whatever the sub-image structure *)
Lemma hmac_finalize_flat k c x im dts :
  provider c SFinalize = Some ExportMixinHmacKeyStoreFinalize -> 64 <= app_len c x -> (64 < length (flat im))%nat ->
  exists fin, finalize k c x im dts = Ok fin /\
    flat fin = firstn 64 (flat im) ++
               hmac_bytes x (match m_hmac x with Some (kb :: kt) => k_hmac k (kb :: kt) (firstn 64 (flat im)) | _ => [] end) ++
               skipn 64 (flat im).
Proof.
  intros P Ge LF. unfold finalize. rewrite P. change HMAC_OFF with 64%nat.
  replace (app_len c x <? Z.of_nat 64) with false by (symmetry; apply Z.ltb_ge; lia).
  destruct (existsb (Nat.eqb 64) (offsets_from im 0)) eqn:Ex; eexists; (split; [reflexivity|]).
  - rewrite (hmac_between_gen x _ im 0) by (try lia; exact Ex). now rewrite Nat.sub_0_r.
  - rewrite (hmac_split_gen x _ im 0) by (try lia; assumption). now rewrite Nat.sub_0_r.
Qed.

(* finalize(revert=True), which does not look at the parsed object, removes exactly what was inserted *)
Lemma hmac_finalize k c x im dts :
  provider c SFinalize = Some ExportMixinHmacKeyStoreFinalize ->
  64 <= app_len c x -> (64 < length (flat im))%nat ->
  (exists kb kt, m_hmac x = Some (kb :: kt)) ->
  (forall key data, length (k_hmac k key data) = 32%nat) ->
  (forall b, m_ks x = Some b -> length b = 1424%nat) ->
  flag_set (flat im) G_KEY_STORE_FLAG = ks_truthy_obj (m_ks x) ->
  exists im', finalize k c x im dts = Ok im' /\
    flat im' = firstn 64 (flat im) ++ hmac_bytes x (k_hmac k (hmac_key_of x) (firstn 64 (flat im))) ++ skipn 64 (flat im) /\
    forall st, finalize_revert c st (flat im') = Ok (flat im).
Proof.
  intros P Ge LF (kb & kt & Hk) Lh Lk Fl. destruct (hmac_finalize_flat k c x im dts P Ge LF) as (im' & E & FL).
  unfold hmac_key_of. rewrite Hk in *. exists im'. split; [exact E|]. split; [exact FL|].
  set (F := flat im) in *. set (hm := k_hmac k (kb :: kt) (firstn 64 F)) in *.
  intros st. unfold finalize_revert. rewrite P, FL. unfold flag_set. rewrite get_flags_prefix by (rewrite firstn_length; lia).
  fold (get_flags F). rewrite <- (get_flags_prefix (firstn 64 F) (skipn 64 F)) by (rewrite firstn_length; lia).
  rewrite firstn_skipn. fold (flag_set F G_KEY_STORE_FLAG). rewrite Fl.
  change HMAC_OFF with 64%nat. change HMAC_SZ with 32%nat. change KS_SZ with 1424%nat.
  rewrite firstn_app_exact by (rewrite firstn_length; lia).
  replace (64 + 32 + (if ks_truthy_obj (m_ks x) then 1424 else 0))%nat with (64 + length (hmac_bytes x hm))%nat.
  - rewrite skipn_inserted by lia. f_equal. apply firstn_skipn.
  - unfold hmac_bytes. rewrite app_length. unfold hm. rewrite Lh.
    destruct (m_ks x) as [b|] eqn:Eb; [rewrite (Lk b eq_refl)|]; simpl; lia.
Qed.

Theorem hmac_finalize_inverse k c x st im dts :
  provider c SFinalize = Some ExportMixinHmacKeyStoreFinalize ->
  (app_len c x < 64 -> finalize k c x im dts = Err E_REJECT) /\
  (64 <= app_len c x -> (64 < length (flat im))%nat ->
   (exists kb kt, m_hmac x = Some (kb :: kt)) ->
   (forall key data, length (k_hmac k key data) = 32%nat) ->
   (forall b, m_ks x = Some b -> length b = 1424%nat) ->
   flag_set (flat im) G_KEY_STORE_FLAG = (match m_ks x with Some _ => true | None => false end) ->
   exists im', finalize k c x im dts = Ok im' /\
     flat im' = firstn 64 (flat im) ++
                hmac_bytes x (k_hmac k (match m_hmac x with Some key => key | None => [] end) (firstn 64 (flat im))) ++
                skipn 64 (flat im) /\
     finalize_revert c st (flat im') = Ok (flat im)).
Proof.
  intros P. split.
  - intros Lt. unfold finalize. rewrite P. change HMAC_OFF with 64%nat.
    replace (app_len c x <? Z.of_nat 64) with true by (symmetry; apply Z.ltb_lt; lia). reflexivity.
  - intros Ge LF HK Lh Lk Fl. destruct (hmac_finalize k c x im dts P Ge LF HK Lh Lk Fl) as (im' & E & FL & R). eauto.
Qed.

(* ================================================================== certificate-block classes: disassemble_image cuts what
   collect_data appended *)
Lemma app_len_no_table c x :
  nodupb (c_mixins c) = true -> has c MixinApp = true -> has c MixinRelocTable = false -> app_len c x = zlen (m_app x).
Proof. intros ND HA HR. rewrite (app_len_expand c x ND), (hz_true _ _ _ HA), (hz_false _ _ _ HR). lia. Qed.

(* the certificate-block offset word written by collect_data is the length of application + relocation table, and
   disassemble_image cuts there: what is left is the application (D20: a negative slice here returned a wrong payload) *)
Lemma disassemble_cert_cut c x tzsize st st' app' tb rest :
  (provider c SDisassemble = Some ExportMixinAppTrustZoneCertBlock \/
   provider c SDisassemble = Some ExportMixinAppCertBlockManifest /\ m_cert st <> None) ->
  (56 <= length app')%nat -> (length app' mod 4 = 0)%nat ->
  rd32 OFF_CRC app' = zlen (app' ++ tb) ->
  reloc_cut c st (app' ++ tb) = Ok (st', app') ->
  clean_ivt app' = clean_ivt (m_app x) ->
  disassemble c tzsize st ((app' ++ tb) ++ rest) = Ok (set_app st' (clean_ivt (m_app x))).
Proof.
  intros K L L4 W RC CL.
  assert (CUT : firstn (natz (rd32 OFF_CRC ((app' ++ tb) ++ rest))) ((app' ++ tb) ++ rest) = app' ++ tb).
  { rewrite <- !app_assoc, rd32_app by (rewrite off_crc_eq; lia). rewrite W, app_assoc. unfold natz, zlen. rewrite Nat2Z.id.
    now apply firstn_app_exact. }
  assert (FIN : pad4 (clean_ivt app') = clean_ivt (m_app x)) by (rewrite pad4_id, CL by (rewrite clean_ivt_length; assumption); reflexivity).
  unfold disassemble. destruct K as [->|[-> K]]; [|destruct (m_cert st); [|contradiction]];
    rewrite CUT, RC; cbn [bind fst snd]; now rewrite FIN.
Qed.
