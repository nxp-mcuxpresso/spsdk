(* Proofs/CryptoProofs.v -- lemmas about CryptoRef (coq/Crypto): mode inversions parametric in the block cipher,
   InvCipher o Cipher = id for the concrete AES, SM4 decryption, CRC splitting. *)
From Coq Require Import ZArith NArith List Bool Lia Btauto.
Require Import Value Bytes BytesProofs Aes Sm4 Modes KeyWrap Crc.
Import ListNotations.
Local Open Scope N_scope.

Lemma chunks_nil {A} (k : nat) : @chunks A k [] = [].
Proof. reflexivity. Qed.

Definition okb (b : list N) : Prop := length b = 16%nat /\ wf_bytes b.

(* n well-formed bytes: blocks (16), key-wrap halves (8), key-schedule words (4) *)
Definition okn (n : nat) (b : list N) : Prop := length b = n /\ wf_bytes b.

Lemma okn_xor n a b : okn n a -> okn n b -> okn n (xor_bytes a b).
Proof. intros [La Wa] [Lb Wb]. split; [rewrite xor_bytes_length_min; lia | now apply xor_bytes_wf]. Qed.

Lemma okn_app n m a b : okn n a -> okn m b -> okn (n + m) (a ++ b).
Proof. intros [La Wa] [Lb Wb]. split; [rewrite app_length; lia | now apply wf_bytes_app]. Qed.

Lemma okn_le_enc n x : okn n (le_enc n x).
Proof. split; [apply le_enc_length | apply le_enc_wf]. Qed.

Lemma okn_be_enc n x : okn n (be_enc n x).
Proof. split; [apply be_enc_length | apply be_enc_wf]. Qed.

(* the fixed names are instances of okn; their lemmas are stated under the fixed names, proved here from okn *)
Lemma okb_okn : okb = okn 16.
Proof. reflexivity. Qed.

Lemma okb_xor a b : okb a -> okb b -> okb (xor_bytes a b).
Proof. rewrite okb_okn. apply okn_xor. Qed.

Lemma okb_le_enc x : okb (le_enc 16 x).
Proof. rewrite okb_okn. apply okn_le_enc. Qed.

(* a message whose length is a multiple of k splits into well-formed pieces of k bytes (k = 16: ok blocks) *)
Lemma chunks_ok k l : (0 < k)%nat -> wf_bytes l -> Nat.modulo (length l) k = 0%nat ->
  Forall (fun b => length b = k /\ wf_bytes b) (chunks k l).
Proof.
  intros Hk W M. destruct (mod_mult_exists _ k Hk M) as [q Hq].
  apply Forall_and; [now apply (chunks_full k l q) | now apply wf_chunks].
Qed.

Lemma okb_chunks m : wf_bytes m -> Nat.modulo (length m) 16 = 0%nat -> Forall okb (chunks 16 m).
Proof. apply chunks_ok. lia. Qed.

(* Every mode here maps the 16-byte chunks of the message.  If F keeps the lengths of the chunks, the mode built from F
   keeps the length of the message; if moreover G undoes F on them, the mode built from G inverts it. *)
Definition same_shape (bs cs : list (list N)) : Prop := Forall2 (fun a b => length a = length b) bs cs.

Lemma blockwise_length (F : list (list N) -> list (list N)) m :
  same_shape (chunks 16 m) (F (chunks 16 m)) -> length (concat (F (chunks 16 m))) = length m.
Proof. intros Hs. rewrite <- (concat_chunks 16 m) at 2 by lia. now apply concat_length_same_shape. Qed.

Lemma blockwise_inverse (F G : list (list N) -> list (list N)) m :
  same_shape (chunks 16 m) (F (chunks 16 m)) -> G (F (chunks 16 m)) = chunks 16 m ->
  concat (G (chunks 16 (concat (F (chunks 16 m))))) = m.
Proof.
  intros Hs Hi. rewrite chunks_concat_chunked, Hi; [apply concat_chunks| |]; try lia.
  eapply chunked_same_shape; [exact Hs|]. apply chunked_chunks. lia.
Qed.

Lemma okb_same_shape bs : Forall okb bs -> forall cs, Forall okb cs -> length bs = length cs -> same_shape bs cs.
Proof.
  induction 1 as [|b bs [Lb _] _ IH]; intros [|c cs] Hc L; try discriminate; constructor;
    inversion Hc as [|? ? [Lc _] Hcs]; subst; [congruence | apply IH; auto].
Qed.

Lemma wf_concat_okb bs : Forall okb bs -> wf_bytes (concat bs).
Proof. intros H. apply wf_bytes_concat. eapply Forall_impl; [|exact H]. now intros b [_ Hw]. Qed.

Section ModeTheorems.
Variable E D : list N -> list N.
Hypothesis DE : forall b, okb b -> D (E b) = b.
Hypothesis E_ok : forall b, okb b -> okb (E b).

Lemma ecb_blocks_ok bs : Forall okb bs -> Forall okb (ecb_blocks E bs).
Proof. unfold ecb_blocks. induction 1; simpl; constructor; auto. Qed.

Lemma ecb_blocks_dec_enc bs : Forall okb bs -> ecb_blocks D (ecb_blocks E bs) = bs.
Proof.
  unfold ecb_blocks. induction 1 as [|b bs Hb _ IH]; simpl; [reflexivity|]. now rewrite DE, IH.
Qed.

Lemma cbc_enc_blocks_ok bs : forall iv, okb iv -> Forall okb bs ->
  Forall okb (cbc_enc_blocks E iv bs) /\ length bs = length (cbc_enc_blocks E iv bs).
Proof.
  induction bs as [|b bs IH]; intros iv Hiv H; simpl; [split; [constructor | reflexivity]|].
  inversion H; subst. assert (Hc : okb (E (xor_bytes b iv))) by (apply E_ok, okb_xor; auto).
  destruct (IH _ Hc) as [I1 I2]; [assumption|]. split; [now constructor | now rewrite I2].
Qed.

Lemma cbc_blocks_dec_enc bs : forall iv, okb iv -> Forall okb bs ->
  cbc_dec_blocks D iv (cbc_enc_blocks E iv bs) = bs.
Proof.
  induction bs as [|b bs IH]; intros iv Hiv H; [reflexivity|].
  inversion H as [|? ? Hb Hbs]; subst. simpl.
  assert (Hx : okb (xor_bytes b iv)) by now apply okb_xor.
  rewrite DE by assumption. rewrite xor_bytes_cancel by (destruct Hb, Hiv; lia).
  f_equal. apply IH; auto.
Qed.

Lemma ecb_length m : wf_bytes m -> Nat.modulo (length m) 16 = 0%nat ->
  length (ecb E m) = length m /\ wf_bytes (ecb E m).
Proof.
  intros W M. pose proof (okb_chunks m W M) as H. pose proof (ecb_blocks_ok _ H) as Hc.
  split; [|now apply wf_concat_okb]. apply (blockwise_length (ecb_blocks E)).
  apply (okb_same_shape _ H _ Hc). symmetry. apply map_length.
Qed.

Lemma ecb_dec_enc_l m : wf_bytes m -> Nat.modulo (length m) 16 = 0%nat -> ecb D (ecb E m) = m.
Proof.
  intros W M. pose proof (okb_chunks m W M) as H.
  apply (blockwise_inverse (ecb_blocks E) (ecb_blocks D)); [|now apply ecb_blocks_dec_enc].
  apply (okb_same_shape _ H); [now apply ecb_blocks_ok | symmetry; apply map_length].
Qed.

Lemma cbc_enc_length iv m : okb iv -> wf_bytes m -> Nat.modulo (length m) 16 = 0%nat ->
  length (cbc_enc E iv m) = length m /\ wf_bytes (cbc_enc E iv m).
Proof.
  intros Hiv W M. pose proof (okb_chunks m W M) as H. destruct (cbc_enc_blocks_ok _ iv Hiv H) as [Hc Hl].
  split; [|now apply wf_concat_okb]. apply (blockwise_length (cbc_enc_blocks E iv)). now apply (okb_same_shape _ H).
Qed.

Lemma cbc_dec_enc_l iv m : okb iv -> wf_bytes m -> Nat.modulo (length m) 16 = 0%nat ->
  cbc_dec D iv (cbc_enc E iv m) = m.
Proof.
  intros Hiv W M. pose proof (okb_chunks m W M) as H. destruct (cbc_enc_blocks_ok _ iv Hiv H) as [Hc Hl].
  apply (blockwise_inverse (cbc_enc_blocks E iv) (cbc_dec_blocks D iv)); [|now apply cbc_blocks_dec_enc].
  now apply (okb_same_shape _ H).
Qed.
End ModeTheorems.

Lemma pad16_mult l : exists q, length (pad16 l) = (q * 16)%nat.
Proof.
  unfold pad16, BS. pose proof (Nat.div_mod (length l) 16 ltac:(lia)) as Hd.
  pose proof (Nat.mod_upper_bound (length l) 16 ltac:(lia)) as Hu.
  destruct (Nat.modulo (length l) 16) as [|r] eqn:Er.
  - exists (Nat.div (length l) 16). lia.
  - exists (S (Nat.div (length l) 16)). unfold zeros. rewrite app_length, repeat_length. lia.
Qed.

(* counter mode and the CCM keystream: xor with a stream of 16-byte blocks, so only the block length of E matters *)
Section StreamTheorems.
Variable E : list N -> list N.
Hypothesis E_len : forall b, length b = 16%nat -> length (E b) = 16%nat.

Lemma inc_be_length c : length (inc_be c) = length c.
Proof. unfold inc_be. apply be_enc_length. Qed.

Lemma ctr_blocks_spec bs : forall ctr, length ctr = 16%nat -> Forall (fun b => (length b <= 16)%nat) bs ->
  ctr_blocks E ctr (ctr_blocks E ctr bs) = bs /\ same_shape bs (ctr_blocks E ctr bs).
Proof.
  induction bs as [|b bs IH]; intros ctr Hc H; [split; [reflexivity | constructor]|].
  inversion H; subst. destruct (IH (inc_be ctr)) as [I S]; [now rewrite inc_be_length | assumption|].
  simpl. rewrite xor_bytes_cancel, I by (rewrite E_len; auto). split; [reflexivity|]. constructor; [|exact S].
  rewrite xor_bytes_length_min, E_len by assumption. lia.
Qed.

Lemma chunks16_le (m : list N) : Forall (fun b => (length b <= 16)%nat) (chunks 16 m).
Proof. apply chunked_le, chunked_chunks. lia. Qed.

Lemma ctr_involutive_l nonce m : length nonce = 16%nat -> ctr_xcrypt E nonce (ctr_xcrypt E nonce m) = m.
Proof.
  intros Hn. destruct (ctr_blocks_spec _ nonce Hn (chunks16_le m)) as [I S].
  now apply (blockwise_inverse (ctr_blocks E nonce) (ctr_blocks E nonce)).
Qed.

Lemma ctr_length nonce m : length nonce = 16%nat -> length (ctr_xcrypt E nonce m) = length m.
Proof. intros Hn. apply (blockwise_length (ctr_blocks E nonce)). now apply ctr_blocks_spec; [|apply chunks16_le]. Qed.

Lemma ccm_ctr_block_length nonce i : (length nonce <= 14)%nat -> length (ccm_ctr_block nonce i) = 16%nat.
Proof. intros H. unfold ccm_ctr_block. cbn [length]. rewrite app_length, be_enc_length. lia. Qed.

Lemma ccm_b0_length nonce t a n : (length nonce <= 14)%nat -> length (ccm_b0 nonce t a n) = 16%nat.
Proof. intros H. unfold ccm_b0. cbn [length]. rewrite app_length, be_enc_length. lia. Qed.

Lemma ccm_stream_spec nonce bs : (length nonce <= 14)%nat -> forall i,
  Forall (fun b => (length b <= 16)%nat) bs ->
  ccm_stream E nonce i (ccm_stream E nonce i bs) = bs /\ same_shape bs (ccm_stream E nonce i bs).
Proof.
  intros Hn. induction bs as [|b bs IH]; intros i H; [split; [reflexivity | constructor]|].
  inversion H; subst. destruct (IH (i + 1)) as [I S]; [assumption|].
  pose proof (E_len _ (ccm_ctr_block_length nonce i Hn)) as Lk.
  simpl. rewrite xor_bytes_cancel, I by lia. split; [reflexivity|]. constructor; [|exact S].
  rewrite xor_bytes_length_min. lia.
Qed.

Lemma ccm_crypt_involutive nonce d : (length nonce <= 14)%nat -> ccm_crypt E nonce (ccm_crypt E nonce d) = d.
Proof.
  intros Hn. destruct (ccm_stream_spec nonce _ Hn 1 (chunks16_le d)) as [I S].
  now apply (blockwise_inverse (ccm_stream E nonce 1) (ccm_stream E nonce 1)).
Qed.

Lemma ccm_crypt_length nonce d : (length nonce <= 14)%nat -> length (ccm_crypt E nonce d) = length d.
Proof. intros Hn. apply (blockwise_length (ccm_stream E nonce 1)). now apply ccm_stream_spec; [|apply chunks16_le]. Qed.

Lemma cbc_mac_fold_length bs : Forall (fun b => length b = 16%nat) bs -> forall acc, length acc = 16%nat ->
  length (fold_left (fun acc b => E (xor_bytes b acc)) bs acc) = 16%nat.
Proof.
  induction 1 as [|b bs Hb _ IH]; intros acc Ha; [assumption|].
  simpl. apply IH. apply E_len. rewrite xor_bytes_length_min. lia.
Qed.

Lemma ccm_aad_blocks a : Forall (fun b => length b = 16%nat) (chunks BS (ccm_aad_enc a)).
Proof.
  unfold ccm_aad_enc, BS. destruct (nlen a =? 0); [constructor|].
  match goal with |- context [pad16 ?x] => destruct (pad16_mult x) as [q Hq] end.
  eapply chunks_full; [lia | exact Hq].
Qed.

Lemma ccm_tag_length nonce aad t p : (length nonce <= 14)%nat -> (t <= 16)%nat ->
  length (ccm_tag E nonce aad t p) = t.
Proof.
  intros Hn Ht. unfold ccm_tag. rewrite xor_bytes_length_min, firstn_length.
  rewrite E_len by now apply ccm_ctr_block_length.
  unfold cbc_mac. rewrite cbc_mac_fold_length; [lia| |reflexivity].
  constructor; [now apply ccm_b0_length|]. apply Forall_app. split; [apply ccm_aad_blocks|].
  destruct (pad16_mult p) as [q Hq]. eapply chunks_full; [unfold BS; lia | exact Hq].
Qed.

Theorem ccm_dec_enc_l nonce aad t p : (length nonce <= 14)%nat -> (t <= 16)%nat ->
  ccm_decrypt E nonce aad t (ccm_encrypt E nonce aad t p) = Some p.
Proof.
  intros Hn Ht. unfold ccm_decrypt, ccm_encrypt.
  pose proof (ccm_tag_length nonce aad t p Hn Ht) as Lt.
  pose proof (ccm_crypt_length nonce p Hn) as Lc.
  rewrite app_length, Lt, Lc.
  replace (Nat.ltb (length p + t) t) with false by (symmetry; apply Nat.ltb_ge; lia).
  rewrite (firstn_app_exact _ _ (length p + t - t)), (skipn_app_exact _ _ (length p + t - t)) by lia.
  rewrite ccm_crypt_involutive by assumption. now rewrite eqb_list_refl.
Qed.
End StreamTheorems.

(* AES: InvCipher (Cipher b) = b *)
Definition bytes256 : list N := map N.of_nat (seq 0 256).

Lemma byte_in x : x < 256 -> In x bytes256.
Proof.
  intros H. unfold bytes256. apply in_map_iff. exists (N.to_nat x). split; [apply N2Nat.id|].
  apply in_seq. lia.
Qed.

Lemma byte_forall (P : N -> bool) : forallb P bytes256 = true -> forall x, x < 256 -> P x = true.
Proof. intros H x Hx. rewrite forallb_forall in H. apply H. now apply byte_in. Qed.

Lemma isbox_sbox x : x < 256 -> isbox (sbox x) = x.
Proof.
  intros H. apply N.eqb_eq. revert x H. apply (byte_forall (fun x => isbox (sbox x) =? x)). vm_compute. reflexivity.
Qed.

Lemma tbl_all_zero f t : tbl_all f t = true -> f (tbl_zero t) = true.
Proof. induction t; simpl; intros H; [assumption|]. apply andb_true_iff in H as [H1 _]. auto. Qed.

Lemma tbl_all_get_pos f t : tbl_all f t = true -> forall p, f (tbl_get_pos t p) = true.
Proof.
  induction t as [v|l IHl r IHr]; simpl; intros H p; [assumption|].
  apply andb_true_iff in H as [H1 H2]. destruct p; auto. now apply tbl_all_zero.
Qed.

Lemma tbl_all_get f t x : tbl_all f t = true -> f (tbl_get t x) = true.
Proof. intros H. destruct x; simpl; [now apply tbl_all_zero | now apply tbl_all_get_pos]. Qed.

Lemma sbox_lt x : sbox x < 256.
Proof. apply N.ltb_lt. apply (tbl_all_get (fun v => v <? 256)). vm_compute. reflexivity. Qed.
Lemma isbox_lt x : isbox x < 256.
Proof. apply N.ltb_lt. apply (tbl_all_get (fun v => v <? 256)). vm_compute. reflexivity. Qed.

Lemma wf_map_sbox s : wf_bytes (map sbox s).
Proof. unfold wf_bytes. apply Forall_forall. intros y Hy. apply in_map_iff in Hy as (x & <- & _). apply sbox_lt. Qed.

Lemma inv_sub_sub s : wf_bytes s -> inv_sub_bytes (sub_bytes s) = s.
Proof.
  unfold inv_sub_bytes, sub_bytes, wf_bytes. induction 1 as [|x s Hx _ IH]; simpl; [reflexivity|].
  rewrite isbox_sbox by assumption. now rewrite IH.
Qed.

(* xtime on a byte: shift left, then reduce by the AES polynomial when bit 7 was set *)
Lemma xtime_alt x : x < 256 -> xtime x = N.lxor (N.shiftl x 1) (if N.testbit x 7 then 283 else 0).
Proof.
  intros H. unfold xtime. replace (N.shiftl x 1) with (2 * x) by (rewrite N.shiftl_mul_pow2; apply N.mul_comm).
  cbv zeta. destruct (N.ltb_spec (2 * x) 256) as [L|L].
  - rewrite (N.bits_above_log2 x 7), N.lxor_0_r; [reflexivity|].
    destruct (N.eq_dec x 0) as [->|]; [reflexivity|]. apply N.log2_lt_pow2; lia.
  - replace (N.testbit x 7) with true; [reflexivity|]. symmetry. apply N.testbit_true.
    rewrite <- (N.div_unique x (2 ^ 7) 1 (x - 128)); [reflexivity| |]; change (2 ^ 7) with 128; lia.
Qed.

Lemma xtime_lt x : x < 256 -> xtime x < 256.
Proof. intros H. apply N.ltb_lt. revert x H. apply (byte_forall (fun x => xtime x <? 256)). vm_compute. reflexivity. Qed.

(* GF(2)-linear maps on bytes.  Both shift and the conditional reduction are linear, so xtime is; the MixColumns
   multipliers are sums of iterates of xtime. *)
Definition gf_lin (f : N -> N) : Prop :=
  (forall a, a < 256 -> f a < 256) /\ (forall a b, a < 256 -> b < 256 -> f (N.lxor a b) = N.lxor (f a) (f b)).

Lemma gf_lin_id : gf_lin (fun x => x).
Proof. split; auto. Qed.

Lemma gf_lin_xtime f : gf_lin f -> gf_lin (fun x => xtime (f x)).
Proof.
  intros [B L]. split; [auto using xtime_lt|]. intros a b Ha Hb.
  rewrite L, !xtime_alt, N.shiftl_lxor, N.lxor_spec by auto using lxor_byte.
  destruct (N.testbit (f a) 7), (N.testbit (f b) 7); cbn [xorb];
    apply N.bits_inj; intros n; rewrite !N.lxor_spec;
    destruct (N.testbit (N.shiftl (f a) 1) n), (N.testbit (N.shiftl (f b) 1) n), (N.testbit 283 n); reflexivity.
Qed.

Lemma gf_lin_lxor f g : gf_lin f -> gf_lin g -> gf_lin (fun x => N.lxor (f x) (g x)).
Proof.
  intros [Bf Lf] [Bg Lg]. split; [auto using lxor_byte|]. intros a b Ha Hb.
  rewrite Lf, Lg by assumption. apply N.bits_inj. intros n. rewrite !N.lxor_spec.
  destruct (N.testbit (f a) n), (N.testbit (f b) n), (N.testbit (g a) n), (N.testbit (g b) n); reflexivity.
Qed.

Create HintDb gf_lin discriminated.
#[local] Hint Resolve gf_lin_id gf_lin_xtime gf_lin_lxor : gf_lin.

Lemma g2_lin : gf_lin g2.
Proof. unfold g2. auto with gf_lin. Qed.
Lemma g3_lin : gf_lin g3.
Proof. unfold g3. auto with gf_lin. Qed.
Lemma g9_lin : gf_lin g9.
Proof. unfold g9. auto with gf_lin. Qed.
Lemma g11_lin : gf_lin g11.
Proof. unfold g11. auto 6 with gf_lin. Qed.
Lemma g13_lin : gf_lin g13.
Proof. unfold g13. auto 7 with gf_lin. Qed.
Lemma g14_lin : gf_lin g14.
Proof. unfold g14. auto 7 with gf_lin. Qed.

Lemma g_lin4 (g : N -> N) : (forall a b, a < 256 -> b < 256 -> g (N.lxor a b) = N.lxor (g a) (g b)) ->
  forall p q r s, p < 256 -> q < 256 -> r < 256 -> s < 256 -> g (x4 p q r s) = x4 (g p) (g q) (g r) (g s).
Proof. intros L **. unfold x4. rewrite !L; auto using lxor_byte. Qed.

Lemma x4_lt a b c d : a < 256 -> b < 256 -> c < 256 -> d < 256 -> x4 a b c d < 256.
Proof. intros. unfold x4. auto using lxor_byte. Qed.

Lemma x4_transpose a1 a2 a3 a4 b1 b2 b3 b4 c1 c2 c3 c4 d1 d2 d3 d4 :
  x4 (x4 a1 a2 a3 a4) (x4 b1 b2 b3 b4) (x4 c1 c2 c3 c4) (x4 d1 d2 d3 d4) =
  x4 (x4 a1 b1 c1 d1) (x4 a2 b2 c2 d2) (x4 a3 b3 c3 d3) (x4 a4 b4 c4 d4).
Proof.
  unfold x4. apply N.bits_inj. intros n. rewrite !N.lxor_spec.
  generalize (N.testbit a1 n) (N.testbit a2 n) (N.testbit a3 n) (N.testbit a4 n)
             (N.testbit b1 n) (N.testbit b2 n) (N.testbit b3 n) (N.testbit b4 n)
             (N.testbit c1 n) (N.testbit c2 n) (N.testbit c3 n) (N.testbit c4 n)
             (N.testbit d1 n) (N.testbit d2 n) (N.testbit d3 n) (N.testbit d4 n).
  intros. btauto.
Qed.

(* InvMixColumns undoes MixColumns on each unit column, on every byte: a finite check of the four columns of the product *)
Lemma imc_mc_unit x : x < 256 ->
  imc_col (g2 x) x x (g3 x) = [x; 0; 0; 0] /\ imc_col (g3 x) (g2 x) x x = [0; x; 0; 0] /\
  imc_col x (g3 x) (g2 x) x = [0; 0; x; 0] /\ imc_col x x (g3 x) (g2 x) = [0; 0; 0; x].
Proof.
  intros H. repeat rewrite <- (eqb_list_spec (imc_col _ _ _ _)). rewrite <- !andb_true_iff. revert x H.
  apply (byte_forall (fun x =>
    eqb_list (imc_col (g2 x) x x (g3 x)) [x; 0; 0; 0] && (eqb_list (imc_col (g3 x) (g2 x) x x) [0; x; 0; 0] &&
    (eqb_list (imc_col x (g3 x) (g2 x) x) [0; 0; x; 0] && eqb_list (imc_col x x (g3 x) (g2 x)) [0; 0; 0; x])))).
  vm_compute. reflexivity.
Qed.

(* a general column is the sum of its four unit columns, and everything in sight is linear *)
Lemma imc_mc_col a b c d : a < 256 -> b < 256 -> c < 256 -> d < 256 ->
  imc_col (x4 (g2 a) (g3 b) c d) (x4 a (g2 b) (g3 c) d) (x4 a b (g2 c) (g3 d)) (x4 (g3 a) b c (g2 d)) = [a; b; c; d].
Proof.
  intros Ha Hb Hc Hd.
  destruct (imc_mc_unit a Ha) as (A & _ & _ & _). destruct (imc_mc_unit b Hb) as (_ & B & _ & _).
  destruct (imc_mc_unit c Hc) as (_ & _ & C & _). destruct (imc_mc_unit d Hd) as (_ & _ & _ & D).
  pose proof (proj1 g2_lin) as G2. pose proof (proj1 g3_lin) as G3. unfold imc_col in *.
  rewrite !(g_lin4 g9 (proj2 g9_lin)), !(g_lin4 g11 (proj2 g11_lin)), !(g_lin4 g13 (proj2 g13_lin)),
    !(g_lin4 g14 (proj2 g14_lin)) by auto.
  injection A as A1 A2 A3 A4. injection B as B1 B2 B3 B4. injection C as C1 C2 C3 C4. injection D as D1 D2 D3 D4.
  repeat f_equal; rewrite x4_transpose;
    [rewrite A1, B1, C1, D1 | rewrite A2, B2, C2, D2 | rewrite A3, B3, C3, D3 | rewrite A4, B4, C4, D4];
    unfold x4; now rewrite ?N.lxor_0_r, ?N.lxor_0_l.
Qed.

(* a state s with L : length s = 16 becomes a list of sixteen variables *)
Ltac list16 s L := do 16 (destruct s as [|? s]; [discriminate L|]); destruct s; [|discriminate L].
Ltac destruct16 s H := let L := fresh "L" in let W := fresh "W" in destruct H as [L W]; list16 s L; clear L.

Ltac wf_inv W := unfold wf_bytes in W; repeat match goal with
  | H : Forall _ (_ :: _) |- _ => let a := fresh "B" in let b := fresh "F" in inversion H as [|? ? a b]; subst; clear H; unfold wf_byte in a
  end.

Lemma inv_shift_shift s : length s = 16%nat -> inv_shift_rows (shift_rows s) = s.
Proof.
  intros L. list16 s L. reflexivity.
Qed.

Lemma inv_mix_mix s : okb s -> inv_mix_columns (mix_columns s) = s.
Proof.
  intros H. destruct16 s H. wf_inv W.
  cbn [mix_columns mc_col app inv_mix_columns].
  rewrite !imc_mc_col by assumption. reflexivity.
Qed.

(* the round functions keep a state of 16 bytes, with or without the bytes being well formed: what enc_loop and
   cipher_rks preserve is stated once, for any predicate the four steps preserve *)
Lemma shift_rows_length s : length s = 16%nat -> length (shift_rows s) = 16%nat.
Proof. intros L. list16 s L. reflexivity. Qed.
Lemma mix_columns_length s : length s = 16%nat -> length (mix_columns s) = 16%nat.
Proof. intros L. list16 s L. reflexivity. Qed.
Lemma sub_bytes_length s : length (sub_bytes s) = length s.
Proof. apply map_length. Qed.
Lemma ark_length k s : length k = 16%nat -> length s = 16%nat -> length (add_round_key k s) = 16%nat.
Proof. intros. unfold add_round_key. rewrite xor_bytes_length_min. lia. Qed.

Section RoundsPreserve.
Variable P : list N -> Prop.
Hypothesis P_sub : forall s, P s -> P (sub_bytes s).
Hypothesis P_shift : forall s, P s -> P (shift_rows s).
Hypothesis P_mix : forall s, P s -> P (mix_columns s).
Hypothesis P_ark : forall k s, P k -> P s -> P (add_round_key k s).

Lemma enc_loop_preserves rks : Forall P rks -> forall s, P s -> P (enc_loop rks s).
Proof.
  induction 1 as [|k more Hk _ IH]; intros s Hs; [assumption|].
  cbn [enc_loop]. destruct more; [unfold aes_final | apply IH; unfold aes_round]; auto.
Qed.

Lemma cipher_rks_preserves rks b : Forall P rks -> P b -> P (cipher_rks rks b).
Proof. intros H Hb. destruct H; [assumption|]. unfold cipher_rks. apply enc_loop_preserves; auto. Qed.
End RoundsPreserve.

Lemma cipher_rks_length rks b : Forall (fun k => length k = 16%nat) rks -> length b = 16%nat ->
  length (cipher_rks rks b) = 16%nat.
Proof.
  apply (cipher_rks_preserves (fun s => length s = 16%nat));
    [intros s; now rewrite sub_bytes_length | exact shift_rows_length | exact mix_columns_length | exact ark_length].
Qed.

Lemma okb_sub s : length s = 16%nat -> okb (sub_bytes s).
Proof. intros L. split; [unfold sub_bytes; now rewrite map_length | apply wf_map_sbox]. Qed.

Lemma okb_shift s : okb s -> okb (shift_rows s).
Proof.
  intros H. destruct16 s H. wf_inv W. split; [reflexivity|]. unfold shift_rows, wf_bytes.
  repeat constructor; assumption.
Qed.

Lemma okb_mix s : okb s -> okb (mix_columns s).
Proof.
  intros H. destruct16 s H. wf_inv W. split; [reflexivity|]. unfold wf_bytes.
  cbn [mix_columns mc_col app].
  pose proof (proj1 g2_lin) as G2. pose proof (proj1 g3_lin) as G3.
  repeat (constructor; [unfold wf_byte; apply x4_lt; auto|]). constructor.
Qed.

Lemma okb_ark k s : okb k -> okb s -> okb (add_round_key k s).
Proof. intros Hk Hs. unfold add_round_key. apply okb_xor; assumption. Qed.

Lemma ark_ark k s : okb k -> length s = 16%nat -> add_round_key k (add_round_key k s) = s.
Proof. intros [Lk _] Ls. unfold add_round_key. apply xor_bytes_cancel. lia. Qed.

Lemma okb_round k s : okb k -> okb s -> okb (aes_round k s).
Proof. intros Hk [Ls _]. unfold aes_round. apply okb_ark; auto. apply okb_mix, okb_shift, okb_sub, Ls. Qed.

Lemma inv_round_round k s : okb k -> okb s -> aes_inv_round k (aes_round k s) = s.
Proof.
  intros Hk [Ls Ws]. unfold aes_inv_round, aes_round.
  pose proof (okb_sub s Ls) as H1. pose proof (okb_shift _ H1) as H2. pose proof (okb_mix _ H2) as H3.
  rewrite ark_ark by (auto; apply H3). rewrite inv_mix_mix by assumption.
  rewrite inv_shift_shift by apply H1. now apply inv_sub_sub.
Qed.

Lemma inv_final_final k s : okb k -> okb s -> aes_inv_final k (aes_final k s) = s.
Proof.
  intros Hk [Ls Ws]. unfold aes_inv_final, aes_final.
  pose proof (okb_sub s Ls) as H1. pose proof (okb_shift _ H1) as H2.
  rewrite ark_ark by (auto; apply H2). rewrite inv_shift_shift by apply H1. now apply inv_sub_sub.
Qed.

Lemma enc_loop_okb rks : Forall okb rks -> forall s, okb s -> okb (enc_loop rks s).
Proof.
  apply (enc_loop_preserves okb); [intros s [L _]; now apply okb_sub | exact okb_shift | exact okb_mix | exact okb_ark].
Qed.

Lemma dec_enc_loop rks : Forall okb rks -> forall s, okb s -> dec_loop rks (enc_loop rks s) = s /\ okb (enc_loop rks s).
Proof.
  intros H s Hs. split; [|now apply enc_loop_okb]. revert s Hs.
  induction H as [|k more Hk Hmore IH]; intros s Hs; [reflexivity|].
  cbn [enc_loop dec_loop]. destruct more as [|k' more']; [now apply inv_final_final|].
  rewrite IH by now apply okb_round. now apply inv_round_round.
Qed.

Lemma inv_cipher_cipher_rks rks b : Forall okb rks -> okb b ->
  inv_cipher_rks rks (cipher_rks rks b) = b /\ okb (cipher_rks rks b).
Proof.
  intros H Hb. destruct H as [|k0 rest Hk0 Hrest]; [split; [reflexivity | assumption]|].
  unfold inv_cipher_rks, cipher_rks. destruct (dec_enc_loop rest Hrest _ (okb_ark k0 b Hk0 Hb)) as [E1 E2].
  split; [|exact E2]. rewrite E1. apply ark_ark; auto. apply Hb.
Qed.

(* key expansion yields well-formed 16-byte round keys *)
Definition word_ok (w : list N) : Prop := length w = 4%nat /\ wf_bytes w.

Lemma word_ok_okn : word_ok = okn 4.
Proof. reflexivity. Qed.

Lemma word_ok_xor a b : word_ok a -> word_ok b -> word_ok (xor_bytes a b).
Proof. rewrite word_ok_okn. apply okn_xor. Qed.

Lemma word_ok_be_enc x : word_ok (be_enc 4 x).
Proof. rewrite word_ok_okn. apply okn_be_enc. Qed.

Lemma okb_words a b c d : word_ok a -> word_ok b -> word_ok c -> word_ok d -> okb (a ++ b ++ c ++ d).
Proof.
  rewrite word_ok_okn, okb_okn. intros Ha Hb Hc Hd.
  apply (okn_app 4 12); [|apply (okn_app 4 8); [|apply (okn_app 4 4)]]; assumption.
Qed.

Lemma word_ok_sub w : length w = 4%nat -> word_ok (sub_word w).
Proof. intros L. split; [unfold sub_word; now rewrite map_length | apply wf_map_sbox]. Qed.

Lemma rot_word_length w : length (rot_word w) = length w.
Proof. destruct w; simpl; [reflexivity|]. rewrite app_length. simpl. lia. Qed.

Lemma ke_loop_ok fuel : forall nk i rc acc, rc < 256 -> (0 < nk)%nat -> (nk <= length acc)%nat ->
  Forall word_ok acc -> Forall word_ok (ke_loop fuel nk i rc acc).
Proof.
  induction fuel as [|f IH]; intros nk i rc acc Hrc Hnk Hlen Hacc; cbn [ke_loop].
  - now apply Forall_rev.
  - assert (Hprev : word_ok (hd [] acc)).
    { destruct acc as [|p acc']; [simpl in Hlen; lia|]. inversion Hacc; assumption. }
    assert (Hback : word_ok (nth (nk - 1) acc [])).
    { rewrite Forall_forall in Hacc. apply Hacc. apply nth_In. lia. }
    assert (Hrcw : word_ok [rc; 0; 0; 0]).
    { split; [reflexivity|]. unfold wf_bytes, wf_byte. repeat constructor; try assumption; lia. }
    destruct (Nat.eqb (Nat.modulo i nk) 0).
    + apply IH; auto using xtime_lt; [cbn [length]; lia|]. constructor; [|assumption].
      apply word_ok_xor; [assumption|]. apply word_ok_xor; [|assumption].
      apply word_ok_sub. rewrite rot_word_length. apply Hprev.
    + destruct (Nat.ltb 6 nk && Nat.eqb (Nat.modulo i nk) 4).
      * apply IH; auto; [cbn [length]; lia|]. constructor; [|assumption].
        apply word_ok_xor; [assumption|]. apply word_ok_sub, Hprev.
      * apply IH; auto; [cbn [length]; lia|]. constructor; [|assumption]. now apply word_ok_xor.
Qed.

Lemma key_words_ok key : aes_key_ok key = true -> wf_bytes key -> Forall word_ok (key_words key).
Proof.
  intros Hk W. unfold aes_key_ok in Hk.
  assert (Hq : exists q, length key = (q * 4)%nat /\ (0 < q)%nat /\ Nat.div (length key) 4 = q).
  { apply orb_true_iff in Hk as [Hk|Hk]; [apply orb_true_iff in Hk as [Hk|Hk]|]; apply Nat.eqb_eq in Hk; rewrite Hk.
    - exists 4%nat. repeat split; lia.
    - exists 6%nat. repeat split; lia.
    - exists 8%nat. repeat split; lia. }
  destruct Hq as (q & Hl & Hq0 & Hd). unfold key_words. rewrite Hd.
  pose proof (chunks_full 4 key q ltac:(lia) Hl) as Hfull.
  assert (Hc : Forall word_ok (chunks 4 key)) by (apply chunks_ok; [lia | assumption | rewrite Hl; apply Nat.mod_mul; lia]).
  apply ke_loop_ok; try lia.
  - rewrite rev_length.
    pose proof (concat_length_uniform 4 _ Hfull) as E. rewrite concat_chunks in E by lia. lia.
  - now apply Forall_rev.
Qed.

Lemma rk_of_words_ok n : forall ws, (length ws <= n)%nat -> Forall word_ok ws -> Forall okb (rk_of_words ws).
Proof.
  induction n as [|n IH]; intros ws Hl H.
  - destruct ws; [constructor | simpl in Hl; lia].
  - destruct ws as [|a [|b [|c [|d t]]]]; cbn [rk_of_words]; try constructor.
    + inversion H as [|? ? Ha H1]; subst. inversion H1 as [|? ? Hb H2]; subst.
      inversion H2 as [|? ? Hc H3]; subst. inversion H3 as [|? ? Hd H4]; subst.
      now apply okb_words.
    + apply IH; [cbn [length] in Hl; lia|].
      inversion H as [|? ? _ H1]; subst. inversion H1 as [|? ? _ H2]; subst.
      inversion H2 as [|? ? _ H3]; subst. inversion H3 as [|? ? _ H4]; subst. exact H4.
Qed.

Lemma key_expansion_ok key : aes_key_ok key = true -> wf_bytes key -> Forall okb (key_expansion key).
Proof. intros Hk W. unfold key_expansion. eapply rk_of_words_ok; [reflexivity|]. now apply key_words_ok. Qed.

(* the closed block-cipher law of the concrete AES *)
Theorem aes_dec_enc key b : aes_key_ok key = true -> wf_bytes key -> okb b ->
  aes_dec key (aes_enc key b) = b /\ okb (aes_enc key b).
Proof.
  intros Hk W Hb. unfold aes_dec, aes_enc. apply inv_cipher_cipher_rks; [now apply key_expansion_ok | assumption].
Qed.

Example aes_dec_enc_nonvacuous : aes_key_ok (repeat 7 24) = true /\ wf_bytes (repeat 7 24) /\ okb (repeat 200 16).
Proof.
  split; [reflexivity|]. split; [|split; [reflexivity|]]; unfold wf_bytes; apply Forall_forall; intros x Hx;
    apply repeat_spec in Hx; subst; unfold wf_byte; lia.
Qed.

(* SM4: decryption = encryption with reversed round keys *)
Lemma rev4_involutive s : rev4 (rev4 s) = s.
Proof. destruct s as [[[a b] c] d]. reflexivity. Qed.

Lemma sm4_round_rev F s rk : sm4_round F (rev4 (sm4_round F s rk)) rk = rev4 s.
Proof.
  destruct s as [[[a b] c] d]. cbn [sm4_round rev4]. f_equal.
  replace (N.lxor (N.lxor (N.lxor d c) b) rk) with (N.lxor (N.lxor (N.lxor b c) d) rk).
  - rewrite N.lxor_assoc, N.lxor_nilpotent, N.lxor_0_r. reflexivity.
  - f_equal. apply N.bits_inj. intros n. rewrite !N.lxor_spec.
    destruct (N.testbit b n), (N.testbit c n), (N.testbit d n); reflexivity.
Qed.

Lemma sm4_fold_rev F rks : forall x,
  fold_left (sm4_round F) (rev rks) (rev4 (fold_left (sm4_round F) rks x)) = rev4 x.
Proof.
  induction rks as [|rk t IH]; intros x; [reflexivity|].
  cbn [rev fold_left]. rewrite fold_left_app. cbn [fold_left]. rewrite IH. apply sm4_round_rev.
Qed.

Theorem sm4_words_dec_enc rks x : sm4_crypt_words (rev rks) (sm4_crypt_words rks x) = x.
Proof. unfold sm4_crypt_words. rewrite sm4_fold_rev. apply rev4_involutive. Qed.

(* CRC: the register update splits over concatenation *)
Theorem crc_update_app p reg a b : crc_update p reg (a ++ b) = crc_update p (crc_update p reg a) b.
Proof. unfold crc_update. apply fold_left_app. Qed.

Theorem crc_app p a b : crc p (a ++ b) = crc_finish p (crc_update p (crc_update p (crc_init p) a) b).
Proof. unfold crc. now rewrite crc_update_app. Qed.

(* XTS (with ciphertext stealing) *)
Lemma xts_mul_alpha_ok t : okb (xts_mul_alpha t).
Proof. apply okb_le_enc. Qed.

Inductive xts_shape : list (list N) -> Prop :=
| xs_nil : xts_shape []
| xs_one b : okb b -> xts_shape [b]
| xs_steal b l : okb b -> wf_bytes l -> (length l < 16)%nat -> xts_shape [b; l]
| xs_cons b b' t : okb b -> okb b' -> xts_shape (b' :: t) -> xts_shape (b :: b' :: t).

Lemma xts_shape_of_chunked bs : chunked 16 bs -> Forall wf_bytes bs ->
  (match bs with [] => True | b :: _ => length b = 16%nat end) -> xts_shape bs.
Proof.
  induction bs as [|b t IH]; intros Hc Hw Hh; [constructor|].
  inversion Hw as [|? ? Wb Wt]; subst.
  destruct t as [|b' t']; [constructor; split; assumption|].
  cbn [chunked] in Hc. destruct Hc as [Lb Hc]. inversion Wt as [|? ? Wb' Wt']; subst.
  destruct t' as [|b'' t''].
  - cbn [chunked] in Hc. destruct (Nat.eq_dec (length b') 16) as [E16|N16].
    + apply xs_cons; [split; assumption | split; assumption | constructor; split; assumption].
    + apply xs_steal; [split; assumption | assumption | lia].
  - assert (Lb' : length b' = 16%nat) by (cbn [chunked] in Hc; tauto).
    apply xs_cons; [split; assumption | split; assumption |]. apply IH; assumption.
Qed.

Lemma chunks_hd_full (m : list N) : (16 <= length m)%nat ->
  match chunks 16 m with [] => True | b :: _ => length b = 16%nat end.
Proof.
  intros H. unfold chunks. destruct m as [|x m]; [simpl in H; lia|].
  cbn [length chunks_fuel]. rewrite firstn_length. cbn [length] in *. lia.
Qed.

(* the two equations of xts_blocks beyond a single block *)
Lemma xts_blocks_cons F dec t b b' r : length b' = 16%nat ->
  xts_blocks F dec t (b :: b' :: r) = xts_block F t b :: xts_blocks F dec (xts_mul_alpha t) (b' :: r).
Proof. intros L. cbn [xts_blocks]. destruct r; [|reflexivity]. now rewrite L. Qed.

Lemma xts_blocks_steal F dec t b l : (length l < 16)%nat ->
  xts_blocks F dec t [b; l] =
  if dec then let pp := xts_block F (xts_mul_alpha t) b in [xts_block F t (l ++ skipn (length l) pp); firstn (length l) pp]
  else let cc := xts_block F t b in [xts_block F (xts_mul_alpha t) (l ++ skipn (length l) cc); firstn (length l) cc].
Proof. intros L. cbn [xts_blocks]. unfold BS. now rewrite (proj2 (Nat.ltb_lt _ _) L). Qed.

Section XtsTheorems.
Variable E D : list N -> list N.
Hypothesis DE : forall b, okb b -> D (E b) = b.
Hypothesis E_ok : forall b, okb b -> okb (E b).

Lemma xts_block_ok t b : okb t -> okb b -> okb (xts_block E t b).
Proof. intros Ht Hb. unfold xts_block. apply okb_xor; [|assumption]. apply E_ok. now apply okb_xor. Qed.

Lemma xts_block_inv t b : okb t -> okb b -> xts_block D t (xts_block E t b) = b.
Proof.
  intros Ht Hb. unfold xts_block.
  assert (Hx : okb (xor_bytes b t)) by now apply okb_xor.
  pose proof (E_ok _ Hx) as He.
  rewrite xor_bytes_cancel by (destruct He, Ht; lia). rewrite DE by assumption.
  apply xor_bytes_cancel. destruct Hb, Ht; lia.
Qed.

Lemma steal_pp_ok (l cc : list N) : wf_bytes l -> (length l < 16)%nat -> okb cc -> okb (l ++ skipn (length l) cc).
Proof.
  intros Wl Ll [Lc Wc]. split.
  - rewrite app_length, skipn_length. lia.
  - apply wf_bytes_app; [assumption | now apply wf_bytes_skipn].
Qed.

Lemma xts_enc_head bs : xts_shape bs -> forall t, okb t ->
  match bs with
  | [] => True
  | _ :: _ => exists c r, xts_blocks E false t bs = c :: r /\ okb c
  end.
Proof.
  destruct 1 as [|b Hb|b l Hb Wl Ll|b b' t' Hb Hb' Hs]; intros t Ht; [exact I| | |].
  - exists (xts_block E t b), []. split; [reflexivity | now apply xts_block_ok].
  - rewrite xts_blocks_steal by assumption. eexists _, _. split; [reflexivity|].
    apply xts_block_ok; [apply xts_mul_alpha_ok|]. apply steal_pp_ok; auto. now apply xts_block_ok.
  - rewrite xts_blocks_cons by apply Hb'. eexists _, _. split; [reflexivity | now apply xts_block_ok].
Qed.

Lemma xts_enc_shape bs : xts_shape bs -> forall t, okb t -> same_shape bs (xts_blocks E false t bs).
Proof.
  induction 1 as [|b Hb|b l Hb Wl Ll|b b' t' Hb Hb' Hs IH]; intros t Ht; [constructor| | |];
    pose proof (xts_block_ok t b Ht Hb) as Hcc.
  - cbn [xts_blocks]. constructor; [|constructor]. destruct Hcc, Hb. lia.
  - pose proof (xts_block_ok _ _ (xts_mul_alpha_ok t) (steal_pp_ok l _ Wl Ll Hcc)) as Hc1.
    rewrite xts_blocks_steal by assumption. cbv zeta.
    constructor; [destruct Hc1, Hb; lia|]. constructor; [|constructor]. rewrite firstn_length. destruct Hcc. lia.
  - rewrite xts_blocks_cons by apply Hb'. constructor; [destruct Hcc, Hb; lia|]. apply IH, xts_mul_alpha_ok.
Qed.

(* encryption keeps the shape, so the head of an encrypted tail is again a whole block and decryption takes the
   same branches *)
Lemma xts_blocks_dec_enc bs : xts_shape bs -> forall t, okb t ->
  xts_blocks D true t (xts_blocks E false t bs) = bs.
Proof.
  induction 1 as [|b Hb|b l Hb Wl Ll|b b' t' Hb Hb' Hs IH]; intros t Ht; [reflexivity| | |].
  - cbn [xts_blocks]. now rewrite xts_block_inv.
  - pose proof (xts_block_ok t b Ht Hb) as Hcc. pose proof (steal_pp_ok l _ Wl Ll Hcc) as Hpp.
    assert (Lf : length (firstn (length l) (xts_block E t b)) = length l)
      by (rewrite firstn_length; destruct Hcc; lia).
    rewrite xts_blocks_steal by assumption. cbv zeta. rewrite xts_blocks_steal by lia. cbv zeta. rewrite Lf.
    rewrite xts_block_inv by (auto using xts_mul_alpha_ok).
    rewrite (skipn_app_exact _ _ _ eq_refl), firstn_skipn, xts_block_inv by assumption.
    now rewrite (firstn_app_exact _ _ _ eq_refl).
  - pose proof (xts_enc_shape _ Hs _ (xts_mul_alpha_ok t)) as S. specialize (IH _ (xts_mul_alpha_ok t)).
    rewrite (xts_blocks_cons E) by apply Hb'.
    destruct (xts_blocks E false (xts_mul_alpha t) (b' :: t')) as [|c r]; inversion S as [|? ? ? ? Lc _]; subst.
    rewrite (xts_blocks_cons D) by (destruct Hb'; lia). f_equal; [now apply xts_block_inv | exact IH].
Qed.

Lemma xts_shape_chunks m : wf_bytes m -> (16 <= length m)%nat -> xts_shape (chunks 16 m).
Proof.
  intros W L. apply xts_shape_of_chunked; [apply chunked_chunks; lia | now apply wf_chunks | now apply chunks_hd_full].
Qed.

(* E2 keys the tweak; any function producing a well-formed block will do *)
Theorem xts_dec_enc_l (E2 : list N -> list N) tweak m :
  okb (E2 tweak) -> wf_bytes m -> (16 <= length m)%nat ->
  xts_crypt D E2 true tweak (xts_crypt E E2 false tweak m) = m.
Proof.
  intros Ht W L. pose proof (xts_shape_chunks m W L) as Hs.
  apply (blockwise_inverse (xts_blocks E false (E2 tweak)) (xts_blocks D true (E2 tweak)));
    [now apply xts_enc_shape | now apply xts_blocks_dec_enc].
Qed.

Lemma xts_enc_length (E2 : list N -> list N) tweak m :
  okb (E2 tweak) -> wf_bytes m -> (16 <= length m)%nat ->
  length (xts_crypt E E2 false tweak m) = length m.
Proof.
  intros Ht W L. apply (blockwise_length (xts_blocks E false (E2 tweak))).
  now apply xts_enc_shape; [apply xts_shape_chunks|].
Qed.
End XtsTheorems.

(* RFC 3394: unwrap (wrap k) = Some k *)
Definition ok8 (w : list N) : Prop := length w = 8%nat /\ wf_bytes w.

Lemma kw_pass_length E rs : forall a t, length (snd (kw_pass E a t rs)) = length rs.
Proof.
  induction rs as [|r rest IH]; intros a t; [reflexivity|].
  cbn [kw_pass]. specialize (IH (xor_bytes (firstn 8 (E (a ++ r))) (be_enc 8 t)) (t + 1)).
  destruct (kw_pass E _ (t + 1) rest) as [a'' rest']. cbn [snd length] in *. now rewrite IH.
Qed.

Lemma kw_unpass_app D l1 : forall a t l2,
  kw_unpass D a t (l1 ++ l2) =
  let '(a1, o1) := kw_unpass D a t l1 in
  let '(a2, o2) := kw_unpass D a1 (t - nlen l1) l2 in (a2, o1 ++ o2).
Proof.
  induction l1 as [|r rest IH]; intros a t l2.
  - cbn [app kw_unpass]. unfold nlen. cbn [length]. rewrite N.sub_0_r. now destruct (kw_unpass D a t l2).
  - cbn [app kw_unpass]. rewrite IH.
    destruct (kw_unpass D (firstn 8 (D (xor_bytes a (be_enc 8 t) ++ r))) (t - 1) rest) as [a1 o1].
    replace (t - nlen (r :: rest)) with (t - 1 - nlen rest) by (unfold nlen; cbn [length]; lia).
    destruct (kw_unpass D a1 (t - 1 - nlen rest) l2) as [a2 o2]. reflexivity.
Qed.

Lemma be_enc8_ok t : ok8 (be_enc 8 t).
Proof. apply (okn_be_enc 8). Qed.

(* One induction serves every cipher premise: P is what the cipher needs of a block besides its length (byte values for
   the AES model, nothing for an abstract inverse pair); it is kept by cutting, joining and the counter xor. *)
Definition lenP (P : list N -> Prop) (n : nat) (w : list N) : Prop := length w = n /\ P w.

Section KwTheorems.
Variable P : list N -> Prop.
Hypothesis P_nil : P [].
Hypothesis P_app : forall a b, P a -> P b -> P (a ++ b).
Hypothesis P_firstn : forall n a, P a -> P (firstn n a).
Hypothesis P_skipn : forall n a, P a -> P (skipn n a).
Hypothesis P_xor : forall a t, P a -> P (xor_bytes a (be_enc 8 t)).
Hypothesis P_iv : P kw_iv.
Variable E D : list N -> list N.
Hypothesis DE : forall b, lenP P 16 b -> D (E b) = b.
Hypothesis E_ok : forall b, lenP P 16 b -> lenP P 16 (E b).

Lemma lenP8_app a r : lenP P 8 a -> lenP P 8 r -> lenP P 16 (a ++ r).
Proof. intros [La Pa] [Lr Pr]. split; [rewrite app_length, La, Lr; reflexivity | now apply P_app]. Qed.

Lemma kw_step_ok a r t : lenP P 8 a -> lenP P 8 r ->
  lenP P 8 (xor_bytes (firstn 8 (E (a ++ r))) (be_enc 8 t)) /\ lenP P 8 (skipn 8 (E (a ++ r))).
Proof.
  intros Ha Hr. destruct (E_ok _ (lenP8_app a r Ha Hr)) as [Lb Wb]. split; split.
  - rewrite xor_bytes_length_min, firstn_length, be_enc_length. lia.
  - now apply P_xor, P_firstn.
  - rewrite skipn_length. lia.
  - now apply P_skipn.
Qed.

Lemma kw_pass_ok rs : forall a t, lenP P 8 a -> Forall (lenP P 8) rs ->
  lenP P 8 (fst (kw_pass E a t rs)) /\ Forall (lenP P 8) (snd (kw_pass E a t rs)).
Proof.
  induction rs as [|r rest IH]; intros a t Ha H; [split; [assumption | constructor]|].
  inversion H as [|? ? Hr Hrest]; subst. cbn [kw_pass].
  destruct (kw_step_ok a r t Ha Hr) as [H1 H2].
  specialize (IH _ (t + 1) H1 Hrest).
  destruct (kw_pass E _ (t + 1) rest) as [a'' rest']. cbn [fst snd] in *. destruct IH. split; [assumption | now constructor].
Qed.

Lemma kw_pass_unpass rs : forall a t, lenP P 8 a -> Forall (lenP P 8) rs ->
  kw_unpass D (fst (kw_pass E a t rs)) (t + nlen rs - 1) (rev (snd (kw_pass E a t rs))) = (a, rev rs).
Proof.
  induction rs as [|r rest IH]; intros a t Ha H; [reflexivity|].
  inversion H as [|? ? Hr Hrest]; subst. cbn [kw_pass].
  destruct (kw_step_ok a r t Ha Hr) as [H1 H2].
  set (b := E (a ++ r)) in *. set (a1 := xor_bytes (firstn 8 b) (be_enc 8 t)) in *.
  specialize (IH a1 (t + 1) H1 Hrest).
  pose proof (kw_pass_length E rest a1 (t + 1)) as Hl.
  destruct (kw_pass E a1 (t + 1) rest) as [a'' rest']. cbn [fst snd] in *.
  cbn [rev]. rewrite kw_unpass_app.
  replace (t + nlen (r :: rest) - 1) with (t + 1 + nlen rest - 1) by (unfold nlen; cbn [length]; lia).
  rewrite IH.
  replace (t + 1 + nlen rest - 1 - nlen (rev rest')) with t by (unfold nlen; rewrite rev_length, Hl; lia).
  cbn [kw_unpass]. unfold a1.
  assert (Lf : length (firstn 8 b) = 8%nat).
  { rewrite firstn_length. destruct (E_ok _ (lenP8_app a r Ha Hr)) as [Lb _]. fold b in Lb. lia. }
  rewrite xor_bytes_cancel by (rewrite be_enc_length; lia).
  rewrite firstn_skipn. unfold b. rewrite DE by now apply lenP8_app.
  destruct Ha as [La _]. now rewrite (firstn_app_exact _ _ _ La), (skipn_app_exact _ _ _ La).
Qed.

Lemma kw_passes_snoc j : forall a t rs,
  kw_passes E (S j) a t rs =
  kw_pass E (fst (kw_passes E j a t rs)) (t + N.of_nat j * nlen rs) (snd (kw_passes E j a t rs)).
Proof.
  induction j as [|j IH]; intros a t rs.
  - cbn [kw_passes fst snd]. rewrite N.mul_0_l, N.add_0_r. now destruct (kw_pass E a t rs).
  - change (kw_passes E (S (S j)) a t rs) with
      (let '(a', rs') := kw_pass E a t rs in kw_passes E (S j) a' (t + nlen rs) rs').
    change (kw_passes E (S j) a t rs) with
      (let '(a', rs') := kw_pass E a t rs in kw_passes E j a' (t + nlen rs) rs').
    pose proof (kw_pass_length E rs a t) as Hl.
    destruct (kw_pass E a t rs) as [a' rs']. cbn [snd] in Hl.
    rewrite IH. f_equal.
    unfold nlen. rewrite Hl, Nat2N.inj_succ, N.mul_succ_l. lia.
Qed.

Lemma kw_passes_ok j : forall a t rs, lenP P 8 a -> Forall (lenP P 8) rs ->
  lenP P 8 (fst (kw_passes E j a t rs)) /\ Forall (lenP P 8) (snd (kw_passes E j a t rs)) /\
  length (snd (kw_passes E j a t rs)) = length rs.
Proof.
  induction j as [|j IH]; intros a t rs Ha H; [cbn; auto|].
  cbn [kw_passes]. destruct (kw_pass_ok rs a t Ha H) as [H1 H2].
  pose proof (kw_pass_length E rs a t) as Hl.
  destruct (kw_pass E a t rs) as [a' rs']. cbn [fst snd] in *.
  destruct (IH a' (t + nlen rs) rs' H1 H2) as (I1 & I2 & I3). split; [exact I1 | split; [exact I2 | lia]].
Qed.

Lemma kw_passes_unpasses j : forall a t rs, lenP P 8 a -> Forall (lenP P 8) rs ->
  kw_unpasses D j (fst (kw_passes E j a t rs)) (t + N.of_nat j * nlen rs - 1) (rev (snd (kw_passes E j a t rs))) = (a, rev rs).
Proof.
  induction j as [|j IH]; intros a t rs Ha H; [reflexivity|].
  rewrite kw_passes_snoc.
  destruct (kw_passes_ok j a t rs Ha H) as (O1 & O2 & O3).
  specialize (IH a t rs Ha H).
  destruct (kw_passes E j a t rs) as [a1 rs1]. cbn [fst snd] in *.
  pose proof (kw_pass_unpass rs1 a1 (t + N.of_nat j * nlen rs) O1 O2) as U.
  pose proof (kw_pass_length E rs1 a1 (t + N.of_nat j * nlen rs)) as Hl.
  destruct (kw_pass E a1 (t + N.of_nat j * nlen rs) rs1) as [a2 rs2]. cbn [fst snd] in *.
  cbn [kw_unpasses].
  replace (t + N.of_nat (S j) * nlen rs - 1) with (t + N.of_nat j * nlen rs + nlen rs1 - 1)
    by (unfold nlen; rewrite O3, Nat2N.inj_succ, N.mul_succ_l; lia).
  rewrite U.
  replace (t + N.of_nat j * nlen rs + nlen rs1 - 1 - nlen (rev rs2)) with (t + N.of_nat j * nlen rs - 1)
    by (unfold nlen; rewrite rev_length, Hl; lia).
  exact IH.
Qed.

Lemma kw_iv_ok : lenP P 8 kw_iv.
Proof. split; [reflexivity | exact P_iv]. Qed.

Lemma lenP_len n rs : Forall (lenP P n) rs -> Forall (fun b : list N => length b = n) rs.
Proof. intros H. eapply Forall_impl; [|exact H]. now intros x [Lx _]. Qed.

Theorem kw_unwrap_wrap data : Forall (lenP P 8) (chunks 8 data) -> kw_unwrap D (kw_wrap E data) = Some data.
Proof.
  intros Hcs. unfold kw_wrap, kw_unwrap.
  pose proof (kw_passes_unpasses 6 kw_iv 1 (chunks 8 data) kw_iv_ok Hcs) as U.
  destruct (kw_passes_ok 6 kw_iv 1 (chunks 8 data) kw_iv_ok Hcs) as ([La Wa] & O2 & O3).
  destruct (kw_passes E 6 kw_iv 1 (chunks 8 data)) as [a rs]. cbn [fst snd] in *.
  rewrite (firstn_app_exact _ _ _ La), (skipn_app_exact _ _ _ La).
  rewrite chunks_concat by (lia || now apply lenP_len).
  replace (6 * nlen rs) with (1 + N.of_nat 6 * nlen (chunks 8 data) - 1) by (unfold nlen; rewrite O3; lia).
  rewrite U. rewrite eqb_list_refl, rev_involutive, concat_chunks by lia. reflexivity.
Qed.

Theorem kw_wrap_size data : Forall (lenP P 8) (chunks 8 data) -> lenP P (8 + length data) (kw_wrap E data).
Proof.
  intros Hcs. unfold kw_wrap.
  destruct (kw_passes_ok 6 kw_iv 1 (chunks 8 data) kw_iv_ok Hcs) as ([La Wa] & O2 & O3).
  destruct (kw_passes E 6 kw_iv 1 (chunks 8 data)) as [a rs]. cbn [fst snd] in *. split.
  - rewrite app_length, La, (concat_length_uniform 8 rs (lenP_len 8 rs O2)), O3.
    rewrite <- (concat_chunks 8 data) at 2 by lia. now rewrite (concat_length_uniform 8 _ (lenP_len 8 _ Hcs)).
  - apply P_app; [assumption|]. clear O3. induction O2 as [|x l [_ Px] _ IH]; [exact P_nil | now apply P_app].
Qed.
End KwTheorems.

Lemma wf_kw_iv : wf_bytes kw_iv.
Proof.
  unfold kw_iv, wf_bytes. apply Forall_forall. intros x Hx. apply repeat_spec in Hx. subst. unfold wf_byte. lia.
Qed.

(* the cipher inverts on byte-valued blocks (the AES model) *)
Section KwBytes.
Variable E D : list N -> list N.
Hypothesis DE : forall b, okb b -> D (E b) = b.
Hypothesis E_ok : forall b, okb b -> okb (E b).

Theorem unwrap_wrap_l data : wf_bytes data -> Nat.modulo (length data) 8 = 0%nat ->
  kw_unwrap D (kw_wrap E data) = Some data.
Proof.
  intros W M.
  apply (kw_unwrap_wrap wf_bytes wf_bytes_app (fun n a => wf_bytes_firstn n a) (fun n a => wf_bytes_skipn n a)
           (fun a t H => xor_bytes_wf a _ H (be_enc_wf 8 t)) wf_kw_iv E D DE E_ok).
  exact (chunks_ok 8 data ltac:(lia) W M).
Qed.
End KwBytes.

Lemma kw_wrap_length (E : list N -> list N) : (forall b, okb b -> okb (E b)) ->
  forall data, wf_bytes data -> Nat.modulo (length data) 8 = 0%nat ->
  length (kw_wrap E data) = (8 + length data)%nat /\ wf_bytes (kw_wrap E data).
Proof.
  intros E_ok data W M.
  apply (kw_wrap_size wf_bytes (Forall_nil _) wf_bytes_app (fun n a => wf_bytes_firstn n a) (fun n a => wf_bytes_skipn n a)
           (fun a t H => xor_bytes_wf a _ H (be_enc_wf 8 t)) wf_kw_iv E E_ok).
  exact (chunks_ok 8 data ltac:(lia) W M).
Qed.

(* the cipher inverts on every 16-element list (an abstract inverse pair) *)
Theorem unwrap_wrap_any (E D : list N -> list N) :
  (forall b, length (E b) = 16%nat) -> (forall b, length b = 16%nat -> D (E b) = b) ->
  forall data, Nat.modulo (length data) 8 = 0%nat ->
  length (kw_wrap E data) = (8 + length data)%nat /\ kw_unwrap D (kw_wrap E data) = Some data.
Proof.
  intros HE HD data M. destruct (mod_mult_exists _ 8 ltac:(lia) M) as [q Hq].
  assert (Hcs : Forall (lenP (fun _ => True) 8) (chunks 8 data)).
  { eapply Forall_impl; [|exact (chunks_full 8 data q ltac:(lia) Hq)]. intros x Lx. now split. }
  split.
  - apply (kw_wrap_size (fun _ => True) I (fun _ _ _ _ => I) (fun _ _ _ => I) (fun _ _ _ => I) (fun _ _ _ => I) I E
             (fun b _ => conj (HE b) I) data Hcs).
  - apply (kw_unwrap_wrap (fun _ => True) (fun _ _ _ _ => I) (fun _ _ _ => I) (fun _ _ _ => I) (fun _ _ _ => I) I E D
             (fun b H => HD b (proj1 H)) (fun b _ => conj (HE b) I) data Hcs).
Qed.

(* SM4 on byte blocks *)
Definition w32 (x : N) : Prop := x < 2 ^ 32.
Definition w4_ok (s : w4) : Prop := let '(a, b, c, d) := s in w32 a /\ w32 b /\ w32 c /\ w32 d.

Lemma sm4_sbox_lt x : sm4_sbox x < 256.
Proof. apply N.ltb_lt. apply (tbl_all_get (fun v => v <? 256)). vm_compute. reflexivity. Qed.

Lemma shiftr_w32 x k : w32 x -> w32 (N.shiftr x k).
Proof.
  unfold w32. intros H. rewrite N.shiftr_div_pow2.
  eapply N.le_lt_trans; [|exact H]. apply N.div_le_upper_bound; [apply N.pow_nonzero; lia|].
  assert (2 ^ k <> 0) by (apply N.pow_nonzero; lia). nia.
Qed.

Lemma rotl32_w32 n x : w32 x -> w32 (rotl32 n x).
Proof.
  intros H. unfold rotl32, w32. apply lor_lt_pow2; [|now apply shiftr_w32].
  change m32 with (N.ones 32). rewrite N.land_ones. apply N.mod_lt. apply N.pow_nonzero. lia.
Qed.

Lemma sm4_tau_w32 a : w32 (sm4_tau a).
Proof.
  unfold sm4_tau, w32.
  assert (S : forall v k, v < 256 -> k <= 24 -> N.shiftl v k < 2 ^ 32).
  { intros v k Hv Hk. rewrite N.shiftl_mul_pow2.
    assert (2 ^ k <= 2 ^ 24) by (apply N.pow_le_mono_r; lia).
    change (2 ^ 32) with (256 * 2 ^ 24). nia. }
  repeat apply lor_lt_pow2; try (apply S; [apply sm4_sbox_lt | lia]).
  pose proof (sm4_sbox_lt (N.land a 255)). change (2 ^ 32) with 4294967296. lia.
Qed.

Lemma lxor_w32 a b : w32 a -> w32 b -> w32 (N.lxor a b).
Proof. apply lxor_lt_pow2. Qed.

Lemma sm4_T_w32 x : w32 (sm4_T x).
Proof.
  unfold sm4_T, sm4_L. pose proof (sm4_tau_w32 x) as H.
  repeat apply lxor_w32; auto using rotl32_w32.
Qed.

Lemma sm4_round_ok s rk : w4_ok s -> w4_ok (sm4_round sm4_T s rk).
Proof.
  destruct s as [[[a b] c] d]. intros (Ha & Hb & Hc & Hd). cbn [sm4_round w4_ok].
  repeat split; auto. apply lxor_w32; [assumption | apply sm4_T_w32].
Qed.

Lemma sm4_fold_ok rks : forall s, w4_ok s -> w4_ok (fold_left (sm4_round sm4_T) rks s).
Proof. induction rks as [|rk t IH]; intros s H; [assumption|]. cbn [fold_left]. apply IH. now apply sm4_round_ok. Qed.

Lemma rev4_ok s : w4_ok s -> w4_ok (rev4 s).
Proof. destruct s as [[[a b] c] d]. cbn. tauto. Qed.

Lemma words4_bytes4 s : w4_ok s -> words4 (bytes4 s) = s.
Proof.
  destruct s as [[[a b] c] d]. intros (Ha & Hb & Hc & Hd). unfold words4, bytes4.
  pose proof (be_enc_length 4) as L.
  change (be_enc 4 a ++ be_enc 4 b ++ be_enc 4 c ++ be_enc 4 d) with (cat [be_enc 4 a; be_enc 4 b; be_enc 4 c] (be_enc 4 d)).
  change (firstn 4 (cat ?x ?y)) with (firstn 4 (skipn 0 (cat x y))).
  rewrite (field_cat _ _ 0 (be_enc 4 a) 0 4), (field_cat _ _ 1 (be_enc 4 b) 4 4), (field_cat _ _ 2 (be_enc 4 c) 8 4),
    (skipn_cat _ _ 12), firstn_all2, !be_dec_enc_small;
    cbn [nth_error firstn concat]; rewrite ?app_length, ?L; auto.
Qed.

Lemma bytes4_ok s : okb (bytes4 s).
Proof.
  destruct s as [[[a b] c] d]. apply okb_words; apply word_ok_be_enc.
Qed.

Lemma words4_ok b : okb b -> w4_ok (words4 b).
Proof.
  intros [L W]. unfold words4, w4_ok, w32.
  assert (B : forall l : list N, wf_bytes l -> (length l <= 4)%nat -> be_dec l < 2 ^ 32).
  { intros l Wl Ll. unfold be_dec. eapply N.lt_le_trans; [apply le_dec_bound; unfold wf_bytes; now apply Forall_rev|].
    apply N.pow_le_mono_r; [lia|]. rewrite rev_length. lia. }
  repeat split; apply B; auto using wf_bytes_firstn, wf_bytes_skipn; rewrite firstn_length; lia.
Qed.

Lemma bytes4_words4 b : okb b -> bytes4 (words4 b) = b.
Proof.
  intros H. destruct16 b H. wf_inv W. unfold words4, bytes4. cbn [firstn skipn].
  assert (R : forall x y z w, x < 256 -> y < 256 -> z < 256 -> w < 256 -> be_enc 4 (be_dec [x; y; z; w]) = [x; y; z; w]).
  { intros. apply (be_enc_dec [x; y; z; w]). unfold wf_bytes, wf_byte. repeat constructor; assumption. }
  rewrite !R by assumption. reflexivity.
Qed.

Theorem sm4_bytes_dec_enc rks b : okb b ->
  sm4_crypt_rks (rev rks) (sm4_crypt_rks rks b) = b /\ okb (sm4_crypt_rks rks b).
Proof.
  intros Hb. split; [|apply bytes4_ok]. unfold sm4_crypt_rks.
  rewrite words4_bytes4.
  - rewrite sm4_words_dec_enc. now apply bytes4_words4.
  - unfold sm4_crypt_words. apply rev4_ok, sm4_fold_ok, words4_ok, Hb.
Qed.

Theorem sm4_dec_enc_l key b : okb b -> sm4_dec key (sm4_enc key b) = b /\ okb (sm4_enc key b).
Proof. intros Hb. unfold sm4_dec, sm4_enc. now apply sm4_bytes_dec_enc. Qed.

Lemma aes_enc_length key b : aes_key_ok key = true -> wf_bytes key -> length b = 16%nat ->
  length (cipher_rks (key_expansion key) b) = 16%nat.
Proof.
  intros Hk W Hb. apply cipher_rks_length; auto.
  eapply Forall_impl; [|apply key_expansion_ok; assumption]. now intros k [L _].
Qed.
