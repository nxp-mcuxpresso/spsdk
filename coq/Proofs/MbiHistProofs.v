(* Proofs/MbiHistProofs.v -- C01: histories on ONE builder object.
   The object is its current field values (record mbi); a history is a list of operations [export | assign a member].
   export is a function of the current fields only, so the n-th export of ANY history is export_mbi of the fields that
   are current at that moment, whatever was exported or assigned before (no state is carried between exports: this is
   what e.g. a cached total length would break), and exporting changes nothing. *)
From Coq Require Import ZArith NArith List Bool Lia.
Require Import Value Bytes MbiMixinModel GenMbi MbiModel.
Import ListNotations.
Local Open Scope Z_scope.

Inductive op : Type :=
| OpExport
| OpSetApp (a : list N) | OpSetLoad (v : Z) | OpSetImgver (v : Z) | OpSetSubtype (v : Z) | OpSetTz (t : tz)
| OpSetHwkey (b : bool) | OpSetKs (o : option (list N)) | OpSetHmac (o : option (list N)) | OpSetIv (v : list N)
| OpSetTable (o : option (list entry)) | OpSetCert (o : option cert) | OpSetManifest (fw : Z) (t : tz) (dg : Z).

Definition apply_op (x : mbi) (o : op) : mbi :=
  match o with
  | OpExport => x
  | OpSetApp a => set_app x a | OpSetLoad v => set_load x v | OpSetImgver v => set_imgver x v
  | OpSetSubtype v => set_subtype x v | OpSetTz t => set_tz x t | OpSetHwkey b => set_hwkey x b
  | OpSetKs o => set_ks x o | OpSetHmac o => set_hmac x o | OpSetIv v => set_iv x v
  | OpSetTable o => set_table x o | OpSetCert o => set_cert x o | OpSetManifest fw t dg => set_manifest x fw t dg
  end.
Definition is_export (o : op) : bool := match o with OpExport => true | _ => false end.

(* the images produced by a history, in order *)
Fixpoint run_history (k : crypto) (c : mbi_class) (x : mbi) (ops : list op) : list (res (list N)) :=
  match ops with
  | [] => []
  | o :: t => let x' := apply_op x o in
              if is_export o then export_mbi k c x' :: run_history k c x' t else run_history k c x' t
  end.
Definition state_after (x : mbi) (ops : list op) : mbi := fold_left apply_op ops x.
Definition exports_in (ops : list op) : nat := length (filter is_export ops).

Lemma run_history_length k c ops : forall x, length (run_history k c x ops) = exports_in ops.
Proof.
  induction ops as [|o t IH]; intros x; [reflexivity|]. unfold exports_in in *. cbn [run_history filter].
  destruct (is_export o); cbn [length]; now rewrite IH.
Qed.

Lemma export_keeps_state x : apply_op x OpExport = x.
Proof. reflexivity. Qed.
Lemma last_export_lemma k c x ops : run_history k c x (ops ++ [OpExport]) = run_history k c x ops ++ [export_mbi k c (state_after x ops)].
Proof.
  revert x; induction ops as [|o t IH]; intros x; [reflexivity|]. cbn [app run_history state_after fold_left].
  destruct (is_export o); cbn [app]; now rewrite IH.
Qed.
