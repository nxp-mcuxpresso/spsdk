(* Proofs/MiscProofs.v -- C20 lemmas about the TRANSLATED integer helpers (Gen/GenMisc.v, regenerated
   from spsdk/utils/misc.py on every run) and the hand model Model/MiscModel.v. *)
From Coq Require Import ZArith NArith List Bool Lia.
Require Import Value Bytes BytesProofs GenMisc MiscModel.
Import ListNotations.
Local Open Scope Z_scope.

(* align: the least multiple of the alignment that is not below the number *)
Lemma py_align_spec n a r : py_align n a = Ok r <-> 0 < a /\ 0 <= n /\ r mod a = 0 /\ n <= r < n + a.
Proof.
  unfold py_align. destruct (orb (Z.leb a 0) (Z.ltb n 0)) eqn:E; split; try discriminate; try lia.
  - intros H. injection H as <-. split; [lia|]. split; [lia|]. split; [apply Z.mod_mul; lia|Z.div_mod_to_equations; nia].
  - intros (Ha & Hn & Hm & Hr). f_equal. apply Z.mod_divide in Hm; [|lia]. destruct Hm as [q ->].
    f_equal. symmetry. apply (Z.div_unique _ _ _ (n + (a - 1) - q * a)); nia.
Qed.

Lemma py_align_err n a k : py_align n a = Err k <-> k = 1%N /\ (a <= 0 \/ n < 0).
Proof.
  unfold py_align. destruct (orb (Z.leb a 0) (Z.ltb n 0)) eqn:E; split; try discriminate; try lia.
  - intros H. injection H as <-. split; [reflexivity|lia].
  - now intros [-> _].
Qed.

Lemma align_ok n a : 0 <= n -> 0 < a ->
  exists r, py_align n a = Ok r /\ n <= r /\ r mod a = 0 /\ r < n + a.
Proof.
  intros Hn Ha. destruct (py_align n a) as [r|k] eqn:E.
  - exists r. apply py_align_spec in E. tauto.
  - apply py_align_err in E. lia.
Qed.

Lemma align_least n a r m : 0 <= n -> 0 < a -> py_align n a = Ok r ->
  n <= m -> m mod a = 0 -> r <= m.
Proof.
  intros Hn Ha H Hm Hd. apply py_align_spec in H. destruct H as (_ & _ & Hr & Hb).
  apply Z.mod_divide in Hd, Hr; try lia. destruct Hd as [q ->], Hr as [q' ->].
  assert (q' < q + 1) by (apply (Z.mul_lt_mono_pos_r a); lia). nia.
Qed.

Lemma align_err_iff n a : (exists k, py_align n a = Err k) <-> (a <= 0 \/ n < 0).
Proof.
  split; [intros [k H]; now apply py_align_err in H|]. intros H. exists 1%N. now apply py_align_err.
Qed.

Lemma align_err_kind n a k : py_align n a = Err k -> k = 1%N.
Proof. intros H. now apply py_align_err in H. Qed.

Definition check_range_spec (x lo hi : Z) : Z := if (lo <=? x) && (x <=? hi) then 1 else 0.

Lemma swap16_value x : 0 <= x <= 65535 -> py_swap16 x = Ok (x mod 256 * 256 + x / 256).
Proof.
  intros H. unfold py_swap16. replace (orb (Z.ltb x 0) (Z.ltb 65535 x)) with false by lia. f_equal.
  change 65280 with (Z.shiftl (Z.ones 8) 8). change 255 with (Z.ones 8).
  rewrite <- Z.shiftl_land, !Z.land_ones, Z.shiftl_mul_pow2, Z.shiftr_div_pow2 by lia. change (2 ^ 8) with 256.
  rewrite (Z.mod_small (x / 256)) by dlia. apply lor_high_low. dlia.
Qed.

Lemma swap16_involutive x : 0 <= x <= 65535 ->
  exists y, py_swap16 x = Ok y /\ 0 <= y <= 65535 /\ py_swap16 y = Ok x.
Proof.
  intros H. exists (x mod 256 * 256 + x / 256). rewrite !swap16_value by dlia.
  split; [reflexivity|]. split; [dlia|]. f_equal. dlia.
Qed.

Lemma swap16_rejects x : ~ (0 <= x <= 65535) -> py_swap16 x = Err 1%N.
Proof.
  intros H. unfold py_swap16. destruct (orb (Z.ltb x 0) (Z.ltb 65535 x)) eqn:E; [reflexivity|lia].
Qed.

(* get_bytes_cnt_of_int: the loop counts the bytes of the value *)
Definition nbytes (v : Z) : Z := if v =? 0 then 0 else Z.log2 v / 8 + 1.

Lemma nbytes_le v c : 0 < v -> 0 <= c -> nbytes v <= c <-> v < 2 ^ (8 * c).
Proof.
  intros Hv Hc. unfold nbytes. replace (v =? 0) with false by lia.
  rewrite (Z.log2_lt_pow2 v (8 * c)) by lia. dlia.
Qed.

Lemma nbytes_pos v : 0 < v -> 0 < nbytes v.
Proof. intros Hv. unfold nbytes. replace (v =? 0) with false by lia. pose proof (Z.log2_nonneg v). dlia. Qed.

Lemma nbytes_bound v : 0 < v -> v < 2 ^ (8 * nbytes v).
Proof. intros Hv. pose proof (nbytes_pos v Hv). apply nbytes_le; lia. Qed.

Lemma nbytes_minimal v c : 0 < v -> 0 <= c -> v < 2 ^ (8 * c) -> nbytes v <= c.
Proof. intros Hv Hc. now apply nbytes_le. Qed.

Lemma nbytes_step v : 0 < v -> nbytes v = nbytes (Z.shiftr v 8) + 1.
Proof.
  intros Hv. unfold nbytes. replace (v =? 0) with false by lia.
  rewrite Z.log2_shiftr, Z.shiftr_div_pow2 by lia. change (2 ^ 8) with 256. pose proof (Z.log2_nonneg v).
  destruct (Z.ltb_spec v 256).
  - rewrite (Z.div_small v 256) by lia. assert (Z.log2 v < 8) by (apply Z.log2_lt_pow2; lia). cbn [Z.eqb]. dlia.
  - assert (8 <= Z.log2 v) by (apply Z.log2_le_pow2; lia). replace (v / 256 =? 0) with false by dlia.
    rewrite Z.max_r by lia. dlia.
Qed.

Lemma loop_terminates fuel a2n bc v cnt :
  0 <= v -> v < 2 ^ (8 * Z.of_nat fuel) ->
  py_get_bytes_cnt_of_int_loop1 fuel a2n bc v cnt = Ok (0, cnt + nbytes v).
Proof.
  revert v cnt. induction fuel as [|f IH]; intros v cnt Hv Hb.
  - replace v with 0 by (cbn in Hb; lia). cbn. now rewrite Z.add_0_r.
  - cbn [py_get_bytes_cnt_of_int_loop1]. destruct (Z.eqb_spec v 0) as [->|Hn]; cbn [negb]; [now rewrite Z.add_0_r|].
    rewrite IH.
    + rewrite (nbytes_step v) by lia. do 2 f_equal. lia.
    + apply Z.shiftr_nonneg. lia.
    + rewrite Z.shiftr_div_pow2 by lia. replace (8 * Z.of_nat (S f)) with (8 * Z.of_nat f + 8) in Hb by lia.
      rewrite Z.pow_add_r in Hb by lia. apply Z.div_lt_upper_bound; lia.
Qed.

Lemma loop_neg_hangs fuel a2n bc v cnt :
  v < 0 -> py_get_bytes_cnt_of_int_loop1 fuel a2n bc v cnt = Err 3%N.
Proof.
  revert v cnt. induction fuel as [|f IH]; intros v cnt Hv; cbn [py_get_bytes_cnt_of_int_loop1].
  - replace (negb (Z.eqb v 0)) with true by lia. reflexivity.
  - replace (negb (Z.eqb v 0)) with true by lia. apply IH.
    apply Z.shiftr_neg. lia.
Qed.

Lemma bytes_fuel_enough v : 0 <= v -> v < 2 ^ (8 * Z.of_nat (bytes_fuel v)).
Proof.
  intros Hv. unfold bytes_fuel. destruct (Z.eq_dec v 0) as [->|Hne]; [reflexivity|].
  rewrite Z.abs_eq by lia. pose proof (Z.log2_nonneg v).
  eapply Z.lt_le_trans; [apply nbytes_bound; lia|]. apply Z.pow_le_mono_r; [lia|].
  unfold nbytes. replace (v =? 0) with false by lia. dlia.
Qed.

(* width chosen: exact byte count, or rounded up to a multiple of 4 above 2 when align_to_2n *)
Definition width_spec (v : Z) (a2n : bool) : Z :=
  if v =? 0 then 1
  else let c := nbytes v in if a2n && (2 <? c) then (c + 3) / 4 * 4 else c.

(* without byte_cnt the chosen width is returned; an explicit byte_cnt must not be below it *)
Lemma bytes_cnt_eq v a2n bc : 0 <= v ->
  py_get_bytes_cnt_of_int (bytes_fuel v) v a2n bc =
    if v =? 0 then Ok (if bc =? 0 then 1 else bc)
    else if negb (bc =? 0) && (bc <? width_spec v a2n) then Err 1%N
    else Ok (if bc =? 0 then width_spec v a2n else bc).
Proof.
  intros Hv. unfold py_get_bytes_cnt_of_int, width_spec. replace (Z.ltb v 0) with false by lia.
  destruct (Z.eqb v 0) eqn:E0; [reflexivity|].
  rewrite loop_terminates by (try apply bytes_fuel_enough; lia). cbn [Z.add]. cbv zeta.
  replace (- (- nbytes v / 4) * 4) with ((nbytes v + 3) / 4 * 4) by dlia.
  now destruct (andb a2n (Z.ltb 2 (nbytes v))).
Qed.

Lemma bytes_cnt_total v a2n : 0 <= v ->
  py_get_bytes_cnt_of_int (bytes_fuel v) v a2n 0 = Ok (width_spec v a2n).
Proof. intros Hv. rewrite bytes_cnt_eq by assumption. unfold width_spec. now destruct (v =? 0). Qed.

Lemma bytes_cnt_with_cnt v a2n bc : 0 <= v -> 0 < bc ->
  py_get_bytes_cnt_of_int (bytes_fuel v) v a2n bc =
    if v =? 0 then Ok bc else if bc <? width_spec v a2n then Err 1%N else Ok bc.
Proof. intros Hv Hbc. rewrite bytes_cnt_eq by assumption. now replace (bc =? 0) with false by lia. Qed.

Lemma bytes_cnt_neg_rejected v a2n bc fuel : v < 0 ->
  py_get_bytes_cnt_of_int fuel v a2n bc = Err 1%N.
Proof.
  intros Hv. unfold py_get_bytes_cnt_of_int.
  replace (Z.ltb v 0) with true by lia. reflexivity.
Qed.

Lemma width_spec_fits v a2n : 0 <= v -> v < 2 ^ (8 * width_spec v a2n) /\ 0 < width_spec v a2n.
Proof.
  intros Hv. unfold width_spec. destruct (Z.eqb_spec v 0) as [->|Hn]; [split; reflexivity|].
  pose proof (nbytes_bound v ltac:(lia)). pose proof (nbytes_pos v ltac:(lia)).
  destruct (a2n && (2 <? nbytes v)); [|split; assumption].
  split; [|dlia]. eapply Z.lt_le_trans; [eassumption|]. apply Z.pow_le_mono_r; dlia.
Qed.

Lemma width_spec_minimal v c : 0 < v -> 0 <= c -> v < 2 ^ (8 * c) -> width_spec v false <= c.
Proof. intros Hv Hc Hb. unfold width_spec. replace (v =? 0) with false by lia. now apply nbytes_minimal. Qed.

Lemma int_to_bytes_eq v cnt big : 0 <= v -> 0 <= cnt -> v < 2 ^ (8 * cnt) ->
  int_to_bytes v cnt big = Ok ((if big then be_enc else le_enc) (Z.to_nat cnt) (Z.to_N v)).
Proof.
  intros Hv Hc Hb. unfold int_to_bytes. replace ((v <? 0) || (cnt <? 0)) with false by lia.
  now replace (2 ^ (8 * cnt) <=? v) with false by lia.
Qed.

Lemma int_to_bytes_roundtrip v cnt big bs :
  int_to_bytes v cnt big = Ok bs ->
  (if big then be_dec bs else le_dec bs) = Z.to_N v /\ Z.of_nat (length bs) = cnt /\ wf_bytes bs.
Proof.
  unfold int_to_bytes. intros H.
  destruct ((v <? 0) || (cnt <? 0)) eqn:E1; [discriminate|].
  destruct (2 ^ (8 * cnt) <=? v) eqn:E2; [discriminate|].
  injection H as <-.
  assert (Hb : (Z.to_N v < 2 ^ (8 * N.of_nat (Z.to_nat cnt)))%N).
  { replace (8 * N.of_nat (Z.to_nat cnt))%N with (N.of_nat (Z.to_nat (8 * cnt))) by lia. apply lt_pow_to_N; lia. }
  destruct big.
  - rewrite be_dec_enc_small by assumption. rewrite be_enc_length. split; [reflexivity|]. split; [lia|apply be_enc_wf].
  - rewrite le_dec_enc_small by assumption. rewrite le_enc_length. split; [reflexivity|]. split; [lia|apply le_enc_wf].
Qed.

Lemma value_to_bytes_int_eq v a2n big : 0 <= v ->
  value_to_bytes_int v a2n 0 big = Ok ((if big then be_enc else le_enc) (Z.to_nat (width_spec v a2n)) (Z.to_N v)).
Proof.
  intros Hv. unfold value_to_bytes_int. rewrite bytes_cnt_total by assumption.
  destruct (width_spec_fits v a2n Hv). apply int_to_bytes_eq; lia.
Qed.

Lemma value_to_bytes_total v a2n big : 0 <= v ->
  exists bs, value_to_bytes_int v a2n 0 big = Ok bs
   /\ (if big then be_dec bs else le_dec bs) = Z.to_N v
   /\ Z.of_nat (length bs) = width_spec v a2n.
Proof.
  intros Hv. eexists. split; [now apply value_to_bytes_int_eq|].
  pose proof (value_to_bytes_int_eq v a2n big Hv) as E. unfold value_to_bytes_int in E.
  rewrite bytes_cnt_total in E by assumption. apply int_to_bytes_roundtrip in E. tauto.
Qed.

Lemma value_to_bytes_neg_rejected v a2n bc big : v < 0 -> value_to_bytes_int v a2n bc big = Err 1%N.
Proof. intros H. unfold value_to_bytes_int. now rewrite bytes_cnt_neg_rejected. Qed.

(* swap32 and byte reversals *)
Lemma swap32_involutive x : 0 <= x <= 4294967295 ->
  exists y, swap32 x = Ok y /\ 0 <= y <= 4294967295 /\ swap32 y = Ok x.
Proof.
  intros H. unfold swap32.
  replace ((x <? 0) || (4294967295 <? x)) with false by lia.
  eexists; split; [reflexivity|].
  set (l := be_enc 4 (Z.to_N x)).
  assert (Hwf : wf_bytes l) by apply be_enc_wf.
  assert (Hlen : length l = 4%nat) by apply be_enc_length.
  pose proof (le_dec_bound l Hwf) as Hb. rewrite Hlen in Hb.
  change (2 ^ (8 * N.of_nat 4))%N with 4294967296%N in Hb.
  split; [lia|].
  replace ((Z.of_N (le_dec l) <? 0) || (4294967295 <? Z.of_N (le_dec l))) with false by lia.
  f_equal. rewrite N2Z.id.
  unfold be_enc at 1. rewrite <- Hlen. rewrite le_enc_dec by assumption.
  unfold l. fold (be_dec (be_enc 4 (Z.to_N x))). rewrite be_dec_enc_small.
  - lia.
  - change (2 ^ (8 * N.of_nat 4))%N with 4294967296%N. lia.
Qed.

Lemma swap32_rejects x : ~ (0 <= x <= 4294967295) -> swap32 x = Err 1%N.
Proof. intros H. unfold swap32. replace ((x <? 0) || (4294967295 <? x)) with true by lia. reflexivity. Qed.

Lemma rev_longs_length fuel l : (length l <= fuel)%nat -> length (rev_longs_fuel fuel l) = length l.
Proof.
  revert l. induction fuel as [|f IH]; intros l H.
  - destruct l; simpl in *; [reflexivity|lia].
  - destruct l as [|a l']; [reflexivity|]. cbn [rev_longs_fuel].
    rewrite app_length, rev_length, IH.
    + rewrite firstn_length, skipn_length. lia.
    + rewrite skipn_length. simpl in *. lia.
Qed.

Lemma rev_longs_fuel_irrel f1 f2 l : (length l <= f1)%nat -> (length l <= f2)%nat ->
  rev_longs_fuel f1 l = rev_longs_fuel f2 l.
Proof.
  revert f2 l. induction f1 as [|f1 IH]; intros f2 l H1 H2.
  - destruct l; simpl in *; [destruct f2; reflexivity|lia].
  - destruct l as [|a l']; [destruct f2; reflexivity|].
    destruct f2 as [|f2]; [simpl in H2; lia|].
    cbn [rev_longs_fuel]. f_equal. apply IH; rewrite skipn_length; simpl in *; lia.
Qed.

Lemma rev_longs_involutive fuel l : (length l <= fuel)%nat -> (Nat.modulo (length l) 4 = 0)%nat ->
  rev_longs_fuel fuel (rev_longs_fuel fuel l) = l.
Proof.
  revert l. induction fuel as [|f IH]; intros l Hl Hm; [now destruct l|].
  destruct l as [|a [|b [|c [|d t]]]]; try reflexivity; try discriminate.
  replace (length (a :: b :: c :: d :: t)) with (length t + 1 * 4)%nat in Hm by (cbn [length]; lia).
  rewrite Nat.mod_add in Hm by lia.
  cbn [rev_longs_fuel firstn skipn rev app length] in *. now rewrite IH by lia.
Qed.

Lemma reverse_bytes_in_longs_involutive l l' :
  reverse_bytes_in_longs l = Ok l' -> reverse_bytes_in_longs l' = Ok l.
Proof.
  unfold reverse_bytes_in_longs. destruct (Nat.eqb (Nat.modulo (length l) 4) 0) eqn:E; [|discriminate].
  intros H. injection H as <-. apply Nat.eqb_eq in E.
  rewrite rev_longs_length by lia. rewrite E. simpl.
  f_equal. now apply rev_longs_involutive.
Qed.

Lemma reverse_bytes_in_longs_rejects l :
  (Nat.modulo (length l) 4 <> 0)%nat <-> reverse_bytes_in_longs l = Err 1%N.
Proof.
  unfold reverse_bytes_in_longs. destruct (Nat.eqb (Nat.modulo (length l) 4) 0) eqn:E.
  - apply Nat.eqb_eq in E. split; [lia|discriminate].
  - apply Nat.eqb_neq in E. split; [reflexivity|intros _; assumption].
Qed.

Lemma reverse_bytes_in_longs_length l l' : reverse_bytes_in_longs l = Ok l' -> length l' = length l.
Proof.
  unfold reverse_bytes_in_longs. destruct (Nat.eqb _ _); [|discriminate].
  intros H; injection H as <-. now apply rev_longs_length.
Qed.

Lemma change_endianness_involutive l l' :
  change_endianness l = Ok l' -> change_endianness l' = Ok l.
Proof.
  unfold change_endianness.
  destruct l as [|a [|b [|c [|d t]]]].
  - cbn. intros H; injection H as <-. reflexivity.
  - cbn. intros H; injection H as <-. reflexivity.
  - cbn. intros H; injection H as <-. reflexivity.
  - cbn. discriminate.
  - intros H. cbn [length] in H.
    pose proof (reverse_bytes_in_longs_length _ _ H) as HL.
    pose proof (reverse_bytes_in_longs_involutive _ _ H) as HI.
    destruct l' as [|a' [|b' [|c' [|d' t']]]]; simpl in HL; try lia.
    exact HI.
Qed.

Lemma list_ind2 {A} (P : list A -> Prop) :
  P [] -> (forall a, P [a]) -> (forall a b t, P t -> P (a :: b :: t)) -> forall l, P l.
Proof.
  intros H0 H1 H2. fix IH 1. intros [|a [|b t]]; [exact H0|apply H1|apply H2, IH].
Qed.

Lemma swap_pairs_involutive l : Nat.even (length l) = true -> swap_pairs (swap_pairs l) = l.
Proof.
  induction l as [|a|a b t IH] using list_ind2; intros H; try reflexivity; [discriminate|].
  cbn [swap_pairs]. f_equal. f_equal. apply IH. exact H.
Qed.

Lemma swap_pairs_length l : Nat.even (length l) = true -> length (swap_pairs l) = length l.
Proof.
  induction l as [|a|a b t IH] using list_ind2; intros H; try reflexivity; [discriminate|].
  cbn [swap_pairs length]. f_equal. f_equal. apply IH. exact H.
Qed.

Lemma swap_bytes_involutive l l' : swap_bytes l = Ok l' -> swap_bytes l' = Ok l.
Proof.
  unfold swap_bytes. destruct (Nat.even (length l)) eqn:E; [|discriminate].
  intros H; injection H as <-. rewrite swap_pairs_length, E by assumption.
  f_equal. now apply swap_pairs_involutive.
Qed.

(* align_block / extend_block *)
Lemma inc_block_length n s : length (inc_block n s) = n.
Proof. revert s; induction n as [|n IH]; intros s; simpl; [reflexivity|now rewrite IH]. Qed.

Lemma cycle_fuel_length n pat cur : pat <> [] -> length (cycle_fuel n pat cur) = n.
Proof.
  intros Hp. revert cur. induction n as [|n IH]; intros cur; [reflexivity|].
  cbn [cycle_fuel]. destruct cur as [|c t].
  - destruct pat as [|c t]; [congruence|]. simpl. now rewrite IH.
  - simpl. now rewrite IH.
Qed.

Lemma pattern_block_length p n blk : pattern_block p n = Ok blk -> length blk = n.
Proof.
  destruct p as [| | |v]; cbn [pattern_block].
  - intros H; injection H as <-. apply repeat_length.
  - intros H; injection H as <-. apply repeat_length.
  - intros H; injection H as <-. apply inc_block_length.
  - destruct (Z_lt_le_dec v 0) as [Hn|Hp]; [rewrite value_to_bytes_neg_rejected by assumption; discriminate|].
    rewrite value_to_bytes_int_eq by assumption. intros H; injection H as <-. apply cycle_fuel_length.
    intros E. apply (f_equal (@length N)) in E. rewrite be_enc_length in E.
    destruct (width_spec_fits v false Hp). cbn [length] in E. lia.
Qed.

(* what align_block does once the aligned length is known *)
Lemma align_block_eq d a p r : py_align (Z.of_nat (length d)) a = Ok r ->
  align_block d a p = let n := Z.to_nat (r - Z.of_nat (length d)) in
                      match n with
                      | O => Ok d
                      | _ => match pattern_block p n with Ok blk => Ok (d ++ blk) | Err e => Err e end
                      end.
Proof.
  intros H. unfold align_block. rewrite H. apply py_align_spec in H. now replace (a <? 0) with false by lia.
Qed.

Lemma align_block_rejects d a p : a <= 0 -> align_block d a p = Err 1%N.
Proof.
  intros Ha. unfold align_block. destruct (a <? 0); [reflexivity|].
  now rewrite (proj2 (py_align_err (Z.of_nat (length d)) a 1%N)) by auto.
Qed.

Lemma align_block_appends d a p d' : align_block d a p = Ok d' ->
  exists pad r, d' = d ++ pad /\ py_align (Z.of_nat (length d)) a = Ok r /\ Z.of_nat (length d') = r.
Proof.
  destruct (py_align (Z.of_nat (length d)) a) as [r|k] eqn:E.
  - rewrite (align_block_eq d a p r E). apply py_align_spec in E. cbv zeta.
    destruct (Z.to_nat (r - Z.of_nat (length d))) as [|n] eqn:En.
    + intros H; injection H as <-. exists [], r. rewrite app_nil_r. split; [reflexivity|]. split; [reflexivity|lia].
    + destruct (pattern_block p (S n)) as [blk|] eqn:Eb; [|discriminate]. apply pattern_block_length in Eb.
      intros H; injection H as <-. exists blk, r. rewrite app_length. split; [reflexivity|]. split; [reflexivity|lia].
  - unfold align_block. rewrite E. now destruct (a <? 0).
Qed.

Lemma extend_block_appends d len pad d' : extend_block d len pad = Ok d' ->
  exists k, d' = d ++ repeat (Z.to_N pad) k /\ Z.of_nat (length d') = len.
Proof.
  unfold extend_block. destruct (len <? Z.of_nat (length d)) eqn:E; [discriminate|].
  destruct (Z.to_nat (len - Z.of_nat (length d))) as [|n] eqn:En.
  - intros H; injection H as <-. exists 0%nat. simpl. rewrite app_nil_r. split; [reflexivity|lia].
  - destruct ((pad <? 0) || (255 <? pad)); [discriminate|].
    intros H; injection H as <-. exists (S n). split; [reflexivity|].
    rewrite app_length. cbn [length]. rewrite repeat_length. lia.
Qed.

Lemma extend_block_rejects d len pad : len < Z.of_nat (length d) <-> extend_block d len pad = Err 1%N.
Proof.
  unfold extend_block. destruct (len <? Z.of_nat (length d)) eqn:E; split; intros H; try lia; try reflexivity.
  exfalso. destruct (Z.to_nat (len - Z.of_nat (length d))); [discriminate|].
  destruct ((pad <? 0) || (255 <? pad)); discriminate.
Qed.
