(* Proofs/CacheProofs.v -- lemmas about Model/CacheModel.v (C18). *)
From Coq Require Import ZArith NArith List Bool Lia Arith.
Require Import Value GenCache CacheModel.
Import ListNotations.
Local Open Scope Z_scope.

(* the kernel must not unfold the class table when it compares terms *)
Strategy opaque [exception_classes exn_ancestors all_classes].
Arguments exception_classes : simpl never.
Arguments exn_ancestors : simpl never.
Arguments guarded : simpl never.
Arguments catch_level : simpl never.

Definition guards_all (chain : list (list exn)) : bool := forallb (guarded chain) exception_classes.
Definition inner_catches_all (chain : list (list exn)) : bool :=
  forallb (fun e => match catch_level chain e with Some O => true | _ => false end) exception_classes.
Definition is_exception (e : exn) : bool := existsb (N.eqb e) exception_classes.

Definition quick_ok (g : config) : bool :=
  q_read_locked g && q_write_locked g && q_hash_checked g && rebuild_complete g &&
  guards_all (q_read_guard g) && guarded (q_read_guard g) EXN_EOFError &&
  guarded (q_open_r_guard g) EXN_FileNotFoundError &&
  guarded (q_type_guard g) (q_type_exn g) && guarded (q_type_guard g) EXN_AttributeError &&
  guarded (q_lock_r_guard g) EXN_filelock_Timeout && guarded (q_lock_w_guard g) EXN_filelock_Timeout.

Definition data_ok (g : config) : bool :=
  i_read_locked g && m_locked g && i_hash_checked g &&
  guards_all (i_read_guard g) && guarded (i_read_guard g) EXN_EOFError &&
  guarded (i_open_r_guard g) EXN_FileNotFoundError &&
  guarded (i_type_guard g) (i_type_exn g) && guarded (i_type_guard g) EXN_AttributeError &&
  guarded (i_lock_guard g) EXN_filelock_Timeout && guarded (i_stale_rm_guard g) EXN_FileNotFoundError &&
  inner_catches_all (m_read_guard g) && Nat.leb 2 (length (m_read_guard g)) && Nat.leb 2 (length (m_type_guard g)) &&
  match catch_level (m_read_guard g) EXN_EOFError with Some O => true | _ => false end &&
  guarded (m_type_guard g) (m_type_exn g) &&
  guarded (m_outer_guard g) EXN_AttributeError && guarded (m_lock_guard g) EXN_filelock_Timeout.

(* [quick_ok gen_config = true] and [data_ok gen_config = true] are established by computation in each Props/C18 file, so
   that this file builds whatever the source says and a broken premise is reported per theorem. *)

Lemma forallb_In : forall (A : Type) (f : A -> bool) l x, forallb f l = true -> In x l -> f x = true.
Proof. intros A f l x H. exact (proj1 (forallb_forall f l) H x). Qed.

(* contents a crash, an older SPSDK run on other data files, or a completed honest writer can leave behind *)
Definition quick_admissible (cur : Z) (c : content) : Prop :=
  match c with
  | CDamaged e => In e exception_classes
  | CQuick h p => h = cur -> p = DB_FULL        (* fingerprint hash of the current files => written from them *)
  | _ => True
  end.

Definition honest_map (src : Z -> Z) (m : cfgmap) : Prop := forall k v, In (k, v) m -> v = src k.

Definition data_admissible (cur : Z) (src : Z -> Z) (c : content) : Prop :=
  match c with
  | CDamaged e => In e exception_classes
  | CData h m => h = cur -> honest_map src m
  | _ => True
  end.

Example quick_admissible_poisoned_stale : quick_admissible 1 (CQuick 0 7).
Proof. simpl. intros H. discriminate. Qed.
Example quick_admissible_truncated : quick_admissible 1 (CDamaged EXN_EOFError).
Proof. vm_compute. tauto. Qed.

Definition stale (cur : Z) (c : content) : bool :=
  match c with CData h _ => negb (h =? cur) | _ => false end.

Lemma stale_not_missing : forall cur c, stale cur c = true -> exists h m, c = CData h m /\ h <> cur.
Proof.
  intros cur c H. destruct c; try discriminate. simpl in H. exists h, m. split; [reflexivity|].
  destruct (Z.eqb_spec h cur); [discriminate|assumption].
Qed.

Lemma guarded_on_exn : forall st ch e, guarded ch e = true -> on_exn st ch e = LMiss.
Proof. intros. unfold on_exn. rewrite H. reflexivity. Qed.

Lemma lookup_In : forall k m v, lookup k m = Some v -> In (k, v) m.
Proof.
  induction m as [|[k' v'] r IH]; simpl; intros v H; [discriminate|].
  destruct (Z.eqb_spec k k'); [inversion H; subst; auto | right; auto].
Qed.

Lemma lookup_app_new : forall k v m, lookup k m = None -> lookup k (m ++ [(k, v)]) = Some v.
Proof.
  induction m as [|[k' v'] r IH]; simpl; intros H.
  - rewrite Z.eqb_refl. reflexivity.
  - destruct (Z.eqb_spec k k'); [discriminate | auto].
Qed.

Lemma lookup_app_old : forall k v m m', lookup k m = Some v -> lookup k (m ++ m') = Some v.
Proof.
  induction m as [|[k' v'] r IH]; simpl; intros m' H; [discriminate|].
  destruct (Z.eqb_spec k k'); auto.
Qed.

Lemma honest_app : forall src m m', honest_map src m -> honest_map src m' -> honest_map src (m ++ m').
Proof. intros src m m' H H' k v Hin. apply in_app_or in Hin. destruct Hin; eauto. Qed.

Lemma honest_single : forall src x, honest_map src [(x, src x)].
Proof. intros src x k v [H|[]]. inversion H; subst. reflexivity. Qed.

Lemma honest_nil : forall src, honest_map src [].
Proof. intros src k v []. Qed.

Lemma has_key_app : forall k m m', has_key k m = true -> has_key k (m ++ m') = true.
Proof.
  unfold has_key. intros k m m' H. destruct (lookup k m) eqn:E; [|discriminate].
  rewrite (lookup_app_old _ _ _ m' E). reflexivity.
Qed.

Lemma merge_honest : forall src other mine, honest_map src mine -> honest_map src other -> honest_map src (merge mine other).
Proof.
  induction other as [|[k v] r IH]; simpl; intros mine Hm Ho; [assumption|].
  assert (Hr : honest_map src r) by (intros k' v' H; apply Ho; right; assumption).
  destruct (has_key k mine); [auto|].
  apply IH; [|assumption]. apply honest_app; [assumption|].
  intros k' v' [H|[]]. inversion H; subst. apply Ho. left. reflexivity.
Qed.

Lemma merge_keeps : forall k v other mine, lookup k mine = Some v -> lookup k (merge mine other) = Some v.
Proof.
  induction other as [|[k' v'] r IH]; simpl; intros mine H; [assumption|].
  destruct (has_key k' mine); [auto|]. apply IH. apply lookup_app_old. assumption.
Qed.

Lemma guards_all_In : forall ch e, guards_all ch = true -> In e exception_classes -> guarded ch e = true.
Proof. intros ch e. apply forallb_In. Qed.

Lemma make_inner_damaged : forall ch m e, inner_catches_all ch = true -> Nat.leb 2 (length ch) = true ->
  In e exception_classes -> make_inner ch m e = MWrite m.
Proof.
  intros ch m e Hc Hl He. pose proof (forallb_In _ _ _ _ Hc He) as H. cbv beta in H.
  unfold make_inner. destruct (catch_level ch e) as [[|?]|]; try discriminate H. rewrite Hl. reflexivity.
Qed.

Lemma quick_ok_facts : forall g, quick_ok g = true ->
  q_read_locked g = true /\ q_write_locked g = true /\ q_hash_checked g = true /\ rebuild_complete g = true /\
  guards_all (q_read_guard g) = true /\ guarded (q_read_guard g) EXN_EOFError = true /\
  guarded (q_open_r_guard g) EXN_FileNotFoundError = true /\
  guarded (q_type_guard g) (q_type_exn g) = true /\ guarded (q_type_guard g) EXN_AttributeError = true /\
  guarded (q_lock_r_guard g) EXN_filelock_Timeout = true /\ guarded (q_lock_w_guard g) EXN_filelock_Timeout = true.
Proof. intros g H. unfold quick_ok in H. repeat (apply andb_prop in H; destruct H as [H ?]). repeat split; assumption. Qed.

Lemma data_ok_facts : forall g, data_ok g = true ->
  i_read_locked g = true /\ m_locked g = true /\ i_hash_checked g = true /\
  guards_all (i_read_guard g) = true /\ guarded (i_read_guard g) EXN_EOFError = true /\
  guarded (i_open_r_guard g) EXN_FileNotFoundError = true /\
  guarded (i_type_guard g) (i_type_exn g) = true /\ guarded (i_type_guard g) EXN_AttributeError = true /\
  guarded (i_lock_guard g) EXN_filelock_Timeout = true /\ guarded (i_stale_rm_guard g) EXN_FileNotFoundError = true /\
  inner_catches_all (m_read_guard g) = true /\
  Nat.leb 2 (length (m_read_guard g)) = true /\ Nat.leb 2 (length (m_type_guard g)) = true /\
  match catch_level (m_read_guard g) EXN_EOFError with Some O => true | _ => false end = true /\
  guarded (m_type_guard g) (m_type_exn g) = true /\
  guarded (m_outer_guard g) EXN_AttributeError = true /\ guarded (m_lock_guard g) EXN_filelock_Timeout = true.
Proof. intros g H. unfold data_ok in H. repeat (apply andb_prop in H; destruct H as [H ?]). repeat split; assumption. Qed.

Lemma data_ok_again : forall g, data_ok g = true -> data_ok g = true.
Proof. auto. Qed.

(* name the conjuncts of the premise, which stays *)
Ltac qfacts H :=
  destruct (quick_ok_facts _ H) as (Hrl & Hwl & Hhc & Hrc & Hrg & Heof & Hfnf & Hty & Hattr & Htor & Htow).
Ltac dfacts H :=
  destruct (data_ok_facts _ H)
    as (Hrl & Hml & Hhc & Hrg & Heof & Hfnf & Hty & Hattr & Hto & Hsrm & Hmin & Hlen & Hlent & Hmeof & Hmty & Hmattr & Hmto).

Lemma quick_eval_admissible : forall g cur o, quick_ok g = true -> quick_admissible cur o ->
  quick_eval g cur o = LMiss \/ (quick_eval g cur o = LHit DB_FULL /\ o = CQuick cur DB_FULL).
Proof.
  intros g cur o Hok Ha. qfacts Hok.
  destruct o; simpl; unfold quick_admissible in Ha; try (left; apply guarded_on_exn; assumption).
  - left. apply guarded_on_exn. apply guards_all_In; assumption.
  - rewrite Hhc. simpl. rewrite orb_false_r. destruct (Z.eqb_spec h cur) as [E|E].
    + right. rewrite (Ha E). subst. split; reflexivity.
    + left. reflexivity.
Qed.

Lemma quick_start_total : forall g cur c, quick_ok g = true -> quick_admissible cur c ->
  quick_start g cur c = (Started DB_FULL, CQuick cur DB_FULL).
Proof.
  intros g cur c Hok Ha. qfacts Hok. unfold quick_start. rewrite Hrc.
  destruct (quick_eval_admissible g cur c Hok Ha) as [E|[E Ec]].
  - destruct c; try reflexivity; rewrite E; reflexivity.
  - subst c. rewrite E. reflexivity.
Qed.

Lemma data_eval_admissible : forall g cur src o, data_ok g = true -> data_admissible cur src o ->
  (exists m, data_eval g cur o = EValid m /\ o = CData cur m /\ honest_map src m) \/
  data_eval g cur o = EStale /\ (exists h m, o = CData h m /\ h <> cur) \/
  (exists st ch e, data_eval g cur o = EExn st ch e /\ guarded ch e = true /\ forall h m, o <> CData h m).
Proof.
  intros g cur src o Hok Ha. dfacts Hok.
  destruct o; simpl; unfold data_admissible in Ha;
    try (right; right; do 3 eexists; split; [reflexivity|split; [assumption|intros; discriminate]]).
  - right; right. do 3 eexists. split; [reflexivity|]. split; [apply guards_all_In; assumption|intros; discriminate].
  - rewrite Hhc. simpl. rewrite orb_false_r. destruct (Z.eqb_spec h cur) as [E|E].
    + left. exists m. subst. auto.
    + right; left. split; [reflexivity|]. eauto.
Qed.

Definition data_good (cur : Z) (src : Z -> Z) (x : Z) (r : outcome * content) : Prop :=
  fst r = Started (src x) /\ exists m, snd r = CData cur m /\ honest_map src m /\ lookup x m = Some (src x).

Lemma data_good_intro : forall cur src x m, honest_map src m -> lookup x m = Some (src x) ->
  data_good cur src x (Started (src x), CData cur m).
Proof. intros cur src x m Hm Hl. split; [reflexivity|]. exists m. auto. Qed.

(* a process whose config cache m came from [c] (so that the file holds m) or is empty with the file missing *)
Lemma data_query_after_init : forall g cur src x m c, data_ok g = true ->
  honest_map src m -> (c = CMissing /\ m = [] \/ c = CData cur m) ->
  data_good cur src x (data_query g cur src m x c).
Proof.
  intros g cur src x m c Hok Hm Hc. unfold data_query.
  destruct (lookup x m) eqn:El.
  - destruct Hc as [[_ Hm0]|Hc]; [subst m; discriminate|]. subst c.
    pose proof (Hm _ _ (lookup_In _ _ _ El)) as ->. apply data_good_intro; assumption.
  - assert (Hmine : honest_map src (m ++ [(x, src x)])) by (apply honest_app; [assumption|apply honest_single]).
    assert (Hl : lookup x (m ++ [(x, src x)]) = Some (src x)) by (apply lookup_app_new; assumption).
    destruct Hc as [[Hc Hm0]|Hc]; subst; simpl; [apply data_good_intro; assumption|].
    destruct ((cur =? cur) && keys_eqb (keys m) (keys (m ++ [(x, src x)]))); apply data_good_intro;
      auto using merge_honest, merge_keeps.
Qed.

Lemma data_start_total : forall g cur src x c, data_ok g = true -> data_admissible cur src c ->
  data_good cur src x (data_start g cur src x c).
Proof.
  intros g cur src x c Hok Ha. unfold data_start, data_init.
  destruct (data_eval_admissible g cur src c Hok Ha) as [(m & E & -> & Hm)|[(E & h & m & -> & Hne)|(st & ch & e & E & Hg & Hnd)]].
  - rewrite E. apply data_query_after_init; auto.
  - rewrite E. apply data_query_after_init; auto using honest_nil.
  - destruct c; try (rewrite E, Hg); apply data_query_after_init; auto using honest_nil.
Qed.

(* make_cache of a process that has the record for [x], on a complete file with the current fingerprint or none: the
   file is rewritten with honest records that include it, or left as it is *)
Lemma make_eval_ok : forall g cur src x m c, data_ok g = true -> data_admissible cur src c ->
  (forall k, c <> CPartial k) -> stale cur c = false -> honest_map src m -> lookup x m = Some (src x) ->
  make_eval g cur m c = MSkip \/
  exists m', make_eval g cur m c = MWrite m' /\ honest_map src m' /\ lookup x m' = Some (src x).
Proof.
  intros g cur src x m c Hok Ha Hc Hs Hm Hl. dfacts Hok.
  assert (Hkeep : forall r, r = MWrite m ->
                    r = MSkip \/ exists m', r = MWrite m' /\ honest_map src m' /\ lookup x m' = Some (src x)).
  { intros r ->. right. exists m. auto. }
  assert (Htype : make_inner (m_type_guard g) m (m_type_exn g) = MWrite m \/
                  make_inner (m_type_guard g) m (m_type_exn g) = MSkip).
  { unfold make_inner. unfold guarded in Hmty.
    destruct (catch_level (m_type_guard g) (m_type_exn g)) as [[|?]|]; [left|right; reflexivity|discriminate].
    rewrite Hlent. reflexivity. }
  destruct c as [|e| | |h p|h m0|k]; simpl.
  - apply Hkeep. reflexivity.
  - apply Hkeep. apply make_inner_damaged; assumption.
  - destruct Htype as [E|E]; [apply Hkeep|left]; exact E.
  - left. unfold make_outer. rewrite Hmattr. reflexivity.
  - destruct Htype as [E|E]; [apply Hkeep|left]; exact E.
  - simpl in Hs. destruct (Z.eqb_spec h cur) as [->|]; [|discriminate].
    destruct (keys_eqb (keys m0) (keys m)); [apply Hkeep; reflexivity|].
    right. exists (merge m m0). split; [reflexivity|]. split; [apply merge_honest; auto|apply merge_keeps; assumption].
  - destruct (Hc k eq_refl).
Qed.

Definition act_ok (a : action) : Prop := match a with ACrash e => In e exception_classes | _ => True end.
Definition sched_ok (sc : list (nat * action)) : Prop := forall ia, In ia sc -> act_ok (snd ia).

Lemma set_pc_self : forall s i p, procs (set_pc s i p) i = p.
Proof. intros. simpl. unfold upd. rewrite Nat.eqb_refl. reflexivity. Qed.
Lemma set_pc_other : forall s i p j, j <> i -> procs (set_pc s i p) j = procs s j.
Proof. intros s i p j H. simpl. unfold upd. destruct (Nat.eqb_spec j i); [contradiction|reflexivity]. Qed.

Lemma close_file_lock : forall s i c, lock (close_file s i c) = lock s.
Proof. intros. unfold close_file. destruct (file s) as [| | | | | |k]; try reflexivity. destruct (Nat.eqb k i); reflexivity. Qed.
Lemma close_file_procs : forall s i c, procs (close_file s i c) = procs s.
Proof. intros. unfold close_file. destruct (file s) as [| | | | | |k]; try reflexivity. destruct (Nat.eqb k i); reflexivity. Qed.
Lemma close_file_cases : forall s i c,
  file (close_file s i c) = file s /\ file s <> CPartial i \/ file s = CPartial i /\ file (close_file s i c) = c.
Proof.
  intros. unfold close_file. destruct (file s) as [| | | | | |k] eqn:Hf; try (left; split; [exact Hf|discriminate]).
  destruct (Nat.eqb_spec k i) as [->|Hk]; [right; split; reflexivity|left; split; [exact Hf|congruence]].
Qed.

Definition same_data (s0 s : sys) : Prop := procs s0 = procs s /\ file s0 = file s.

Lemma same_refl : forall s, same_data s s.
Proof. split; reflexivity. Qed.
Lemma acquire_same {b s i s0} : acquire b s i = Some s0 -> same_data s0 s.
Proof.
  intros H. unfold acquire in H.
  destruct b; [destruct (lock_free s); [|discriminate]|]; injection H as <-; split; reflexivity.
Qed.
Lemma release_same : forall b s i, same_data (release b s i) s.
Proof.
  intros. unfold release. destruct b; [destruct (lock s) as [j|]; [destruct (Nat.eqb j i)|]|]; split; reflexivity.
Qed.

Lemma holding_not_final : forall p, holding p = true -> final p = false.
Proof. destruct p; simpl; intros; congruence. Qed.
Lemma writing_holding : forall p, writing p = true -> holding p = true.
Proof. destruct p; simpl; intros; congruence. Qed.

Definition reading (p : pc) : bool := match p with QHoldR | DHoldR | MHold _ => true | _ => false end.

Lemma reading_holding : forall p, reading p = true -> holding p = true /\ writing p = false.
Proof. destruct p; simpl; intros; try discriminate; auto. Qed.

Lemma ready_idle : forall w i m, holding (ready w i m) = false.
Proof. intros. unfold ready. destruct (lookup (w_key w i) m); reflexivity. Qed.

(* what a kill does to lock and file *)
Definition crash_shared (s : sys) (i : nat) (e : exn) : sys :=
  let p := procs s i in
  let s1 := if writing p then close_file s i (CDamaged e) else s in
  match lock s1 with
  | Some j => if Nat.eqb j i && holding p then set_lock s1 None else s1
  | None => s1
  end.

(* [step] as a relation, one rule per transition: [tstep g w s i p a s0 p'] says that process [i] at [p] doing [a] changes
   lock and file as in [s0] and goes to [p'] *)
Inductive tstep (g : config) (w : world) (s : sys) (i : nat) : pc -> action -> sys -> pc -> Prop :=
| t_crash p e (Hf : final p = false) : tstep g w s i p (ACrash e) (crash_shared s i e) Killed
| t_q_exists : tstep g w s i QStart AExists s (if exists_file s then QWantR else QWantW)
| t_q_lock_r s1 (Hx : acquire (q_read_locked g) s i = Some s1) : tstep g w s i QWantR AAcquire s1 QHoldR
| t_q_timeout_r (Hx : can_timeout (q_read_locked g) s i = true) :
    tstep g w s i QWantR ATimeout s
      (if guarded (q_lock_r_guard g) EXN_filelock_Timeout then QWantW else Fail S_LOCK EXN_filelock_Timeout)
| t_q_read t : tstep g w s i QHoldR (AReadAll t) s (QGotR (observe s i t))
| t_q_unlock_r o :
    tstep g w s i (QGotR o) ARelease (release (q_read_locked g) s i)
      (match quick_eval g (w_cur w) o with LHit p => Done p | LMiss => QWantW | LCrash st e => Fail st e end)
| t_q_lock_w s1 (Hx : acquire (q_write_locked g) s i = Some s1) : tstep g w s i QWantW AAcquire s1 QHoldW
| t_q_timeout_w (Hx : can_timeout (q_write_locked g) s i = true) :
    tstep g w s i QWantW ATimeout s
      (if guarded (q_lock_w_guard g) EXN_filelock_Timeout then Done (quick_db (rebuild_complete g))
       else Fail S_LOCK EXN_filelock_Timeout)
| t_q_trunc : tstep g w s i QHoldW ATruncOpen (set_file s (CPartial i)) (QWriting (w_chunks w))
| t_q_chunk k : tstep g w s i (QWriting (S k)) AWriteChunk s (QWriting k)
| t_q_close :
    tstep g w s i (QWriting O) AClose (close_file s i (CQuick (w_cur w) (quick_db (rebuild_complete g)))) QClosed
| t_q_unlock_w :
    tstep g w s i QClosed ARelease (release (q_write_locked g) s i) (Done (quick_db (rebuild_complete g)))
| t_d_exists : tstep g w s i DStart AExists s (if exists_file s then DWantR else ready w i [])
| t_d_lock s1 (Hx : acquire (i_read_locked g) s i = Some s1) : tstep g w s i DWantR AAcquire s1 DHoldR
| t_d_timeout (Hx : can_timeout (i_read_locked g) s i = true) :
    tstep g w s i DWantR ATimeout s
      (if guarded (i_lock_guard g) EXN_filelock_Timeout then DHandler else Fail S_LOCK EXN_filelock_Timeout)
| t_d_read t : tstep g w s i DHoldR (AReadAll t) s (DGotR (observe s i t))
| t_d_unlock o :
    tstep g w s i (DGotR o) ARelease (release (i_read_locked g) s i)
      (match data_eval g (w_cur w) o with
       | EValid m => ready w i m
       | EStale => DStaleRm
       | EExn st ch e => if guarded ch e then DHandler else Fail st e
       end)
| t_d_stale_rm (Hx : exists_file s = true) : tstep g w s i DStaleRm ARemove (set_file s CMissing) (ready w i [])
| t_d_stale_gone (Hx : exists_file s = false) :
    tstep g w s i DStaleRm ARemove s
      (if guarded (i_stale_rm_guard g) EXN_FileNotFoundError then DHandler else Fail S_STALE_RM EXN_FileNotFoundError)
| t_d_handler : tstep g w s i DHandler AExists s (if exists_file s then DHandlerRm else ready w i [])
| t_d_handler_rm (Hx : exists_file s = true) : tstep g w s i DHandlerRm ARemove (set_file s CMissing) (ready w i [])
| t_d_handler_gone (Hx : exists_file s = false) :
    tstep g w s i DHandlerRm ARemove s
      (if guarded (i_hrm_guard g) EXN_FileNotFoundError then ready w i [] else Fail S_HANDLER_RM EXN_FileNotFoundError)
| t_m_lock m s1 (Hx : acquire (m_locked g) s i = Some s1) : tstep g w s i (MWant m) AAcquire s1 (MHold m)
| t_m_timeout m (Hx : can_timeout (m_locked g) s i = true) :
    tstep g w s i (MWant m) ATimeout s
      (if guarded (m_lock_guard g) EXN_filelock_Timeout then Done (answer w i m) else Fail S_LOCK EXN_filelock_Timeout)
| t_m_merge m t m' (Hx : make_eval g (w_cur w) m (observe s i t) = MWrite m') :
    tstep g w s i (MHold m) (AReadAll t) s (MMerged m')
| t_m_skip m t (Hx : make_eval g (w_cur w) m (observe s i t) = MSkip) :
    tstep g w s i (MHold m) (AReadAll t) (release (m_locked g) s i) (Done (answer w i m))
| t_m_crash m t st e (Hx : make_eval g (w_cur w) m (observe s i t) = MCrash st e) :
    tstep g w s i (MHold m) (AReadAll t) (release (m_locked g) s i) (Fail st e)
| t_m_trunc m : tstep g w s i (MMerged m) ATruncOpen (set_file s (CPartial i)) (MWriting m (w_chunks w))
| t_m_chunk m k : tstep g w s i (MWriting m (S k)) AWriteChunk s (MWriting m k)
| t_m_close m : tstep g w s i (MWriting m O) AClose (close_file s i (CData (w_cur w) m)) (MClosed m)
| t_m_unlock m : tstep g w s i (MClosed m) ARelease (release (m_locked g) s i) (Done (answer w i m)).

Lemma step_crash : forall g w s i e,
  step g w s i (ACrash e) = if final (procs s i) then None else Some (set_pc (crash_shared s i e) i Killed).
Proof. intros. unfold step, crash_shared. destruct (procs s i); try reflexivity; destruct k; reflexivity. Qed.

Lemma step_tstep : forall g w s i a s', step g w s i a = Some s' ->
  exists s0 p', tstep g w s i (procs s i) a s0 p' /\ s' = set_pc s0 i p'.
Proof.
  intros g w s i a s' H. destruct a.
  10: { rewrite step_crash in H. destruct (final (procs s i)) eqn:Hf; [discriminate|]. injection H as <-.
        eexists. eexists. split; [apply t_crash; exact Hf|reflexivity]. }
  all: unfold step in H; destruct (procs s i); try discriminate H.
  all: try (destruct k; try discriminate H).
  (* the remaining cases are the pairs that have a transition; some test a condition first *)
  all: try match type of H with
           | option_map _ ?x = _ => destruct x as [s0|] eqn:Hx; simpl in H
           | (if ?b then _ else _) = _ => destruct b eqn:Hx
           | match ?x with MWrite _ => _ | MSkip => _ | MCrash _ _ => _ end = _ => destruct x eqn:Hx
           end; try discriminate H.
  all: injection H as <-; do 2 eexists; split; [econstructor; eassumption|reflexivity].
Qed.

Lemma crash_shared_procs : forall s i e, procs (crash_shared s i e) = procs s.
Proof.
  intros. unfold crash_shared. cbv zeta.
  assert (H : procs (if writing (procs s i) then close_file s i (CDamaged e) else s) = procs s)
    by (destruct (writing (procs s i)); [apply close_file_procs|reflexivity]).
  destruct (lock _) as [j|]; [destruct (Nat.eqb j i && holding (procs s i))|]; exact H.
Qed.

Lemma tstep_procs : forall g w s i p a s0 p', tstep g w s i p a s0 p' -> procs s0 = procs s.
Proof.
  destruct 1; try reflexivity;
    first [apply crash_shared_procs | apply close_file_procs | apply release_same | exact (proj1 (acquire_same Hx))].
Qed.

Lemma step_frame : forall g w s i a s', step g w s i a = Some s' -> forall j, j <> i -> procs s' j = procs s j.
Proof.
  intros g w s i a s' H j Hj. destruct (step_tstep _ _ _ _ _ _ H) as (s0 & p' & T & ->).
  rewrite set_pc_other by assumption. rewrite (tstep_procs _ _ _ _ _ _ _ _ T). reflexivity.
Qed.

Definition not_open (c : content) : Prop := forall k, c <> CPartial k.

(* the lock discipline, common to both caches *)
Record linv (s : sys) : Prop := mkLinv {
  li_lock1 : forall i, holding (procs s i) = true -> lock s = Some i;
  li_lock2 : forall i, lock s = Some i -> holding (procs s i) = true;
  li_part : forall k, file s = CPartial k -> writing (procs s k) = true
}.

Lemma linv_excl : forall s i j, linv s -> holding (procs s i) = true -> holding (procs s j) = true -> i = j.
Proof. intros s i j [H1 _ _] Hi Hj. pose proof (H1 _ Hi). pose proof (H1 _ Hj). congruence. Qed.

Lemma linv_no_partial_when_free : forall s, linv s -> lock s = None -> forall k, file s <> CPartial k.
Proof.
  intros s [H1 _ H3] Hl k Hk. pose proof (H1 _ (writing_holding _ (H3 _ Hk))). congruence.
Qed.

Lemma linv_partial_holder : forall s i k, linv s -> holding (procs s i) = true -> file s = CPartial k -> k = i.
Proof. intros s i k L Hi Hk. exact (linv_excl s k i L (writing_holding _ (li_part _ L _ Hk)) Hi). Qed.

Lemma observe_locked : forall s i t, linv s -> reading (procs s i) = true ->
  observe s i t = file s /\ forall k, file s <> CPartial k.
Proof.
  intros s i t L Hr. destruct (reading_holding _ Hr) as [Hi Hw].
  assert (Hnp : forall k, file s <> CPartial k).
  { intros k Hk. pose proof (linv_partial_holder s i k L Hi Hk). subst k. rewrite (li_part _ L _ Hk) in Hw. discriminate. }
  split; [|assumption]. unfold observe. destruct (file s) as [| | | | | |k] eqn:Hf; try reflexivity.
  destruct (Hnp _ eq_refl).
Qed.

Lemma linv_set_pc {s i p p'} : linv s -> procs s i = p -> holding p' = holding p ->
  (writing p = true -> writing p' = true) -> linv (set_pc s i p').
Proof.
  intros [H1 H2 H3] <- Hh Hw. constructor; simpl; unfold upd.
  - intros j. destruct (Nat.eqb_spec j i); [subst; rewrite Hh|]; apply H1.
  - intros j Hl. destruct (Nat.eqb_spec j i); [subst; rewrite Hh|]; apply H2; assumption.
  - intros k Hk. destruct (Nat.eqb_spec k i); [subst; apply Hw|]; apply H3; assumption.
Qed.

Lemma linv_acquire {b s i s0 p'} : linv s -> b = true -> acquire b s i = Some s0 -> holding p' = true ->
  linv (set_pc s0 i p').
Proof.
  intros L -> E Hh. unfold acquire, lock_free in E. destruct (lock s) eqn:Hl; [discriminate|].
  injection E as <-. pose proof (linv_no_partial_when_free s L Hl) as Hnp. destruct L as [H1 H2 H3].
  constructor; simpl; unfold upd.
  - intros j. destruct (Nat.eqb_spec j i); [subst; reflexivity|]. intros Hj. rewrite (H1 _ Hj) in Hl. discriminate.
  - intros j Hj. inversion Hj; subst. rewrite Nat.eqb_refl. assumption.
  - intros k Hk. destruct (Hnp _ Hk).
Qed.

Lemma linv_release {b s i p p'} : linv s -> b = true -> procs s i = p -> holding p = true -> writing p = false ->
  holding p' = false -> linv (set_pc (release b s i) i p').
Proof.
  intros L -> <- Hi Hw Hh. pose proof L as [H1 H2 H3].
  unfold release. rewrite (H1 _ Hi), Nat.eqb_refl. constructor; simpl; unfold upd.
  - intros j. destruct (Nat.eqb_spec j i) as [->|n]; [rewrite Hh; discriminate|].
    intros Hj. destruct n. exact (linv_excl s j i L Hj Hi).
  - intros j Hj. discriminate.
  - intros k Hk. pose proof (linv_partial_holder s i k L Hi Hk). subst k. rewrite (H3 _ Hk) in Hw. discriminate.
Qed.

Lemma linv_trunc {s i p p'} : linv s -> procs s i = p -> holding p = true -> writing p' = true ->
  linv (set_pc (set_file s (CPartial i)) i p').
Proof.
  intros [H1 H2 H3] <- Hi Hw. constructor; simpl; unfold upd.
  - intros j. destruct (Nat.eqb_spec j i); [subst; intros _; apply H1; assumption|apply H1].
  - intros j Hj. destruct (Nat.eqb_spec j i); [apply writing_holding; assumption|apply H2; assumption].
  - intros k Hk. inversion Hk; subst. rewrite Nat.eqb_refl. assumption.
Qed.

Lemma linv_close {s i c p p'} : linv s -> procs s i = p -> holding p = true -> not_open c ->
  holding p' = true -> writing p' = false -> linv (set_pc (close_file s i c) i p').
Proof.
  intros L <- Hi Hc Hh Hw. pose proof L as [H1 H2 H3].
  constructor; simpl; rewrite ?close_file_lock, close_file_procs; unfold upd.
  - intros j. destruct (Nat.eqb_spec j i); [subst; intros _; apply H1; assumption|apply H1].
  - intros j Hj. destruct (Nat.eqb_spec j i); [assumption|apply H2; assumption].
  - intros k Hk. destruct (close_file_cases s i c) as [[E Hne]|[_ E]]; rewrite E in Hk; [|destruct (Hc _ Hk)].
    rewrite (linv_partial_holder s i k L Hi Hk) in Hk. contradiction.
Qed.

(* os.remove by a process that does not hold the lock (unlocked in the source) *)
Lemma linv_remove {s i p p'} : linv s -> procs s i = p -> holding p = false -> holding p' = false ->
  linv (set_pc (set_file s CMissing) i p').
Proof.
  intros [H1 H2 H3] <- Hi Hh. constructor; simpl; unfold upd.
  - intros j. destruct (Nat.eqb_spec j i); [subst; rewrite Hh; discriminate|apply H1].
  - intros j Hj. destruct (Nat.eqb_spec j i); [subst; rewrite (H2 _ Hj) in Hi; discriminate|apply H2; assumption].
  - intros k Hk. discriminate.
Qed.

Lemma crash_shape : forall s i e, linv s ->
  lock (crash_shared s i e) = (if holding (procs s i) then None else lock s) /\
  (file (crash_shared s i e) = file s /\ file s <> CPartial i \/
   file s = CPartial i /\ file (crash_shared s i e) = CDamaged e).
Proof.
  intros s i e L. unfold crash_shared. cbv zeta. destruct (writing (procs s i)) eqn:Hw.
  - pose proof (writing_holding _ Hw) as Hh.
    rewrite Hh, close_file_lock, (li_lock1 _ L _ Hh), Nat.eqb_refl. split; [reflexivity|]. apply close_file_cases.
  - split.
    + destruct (holding (procs s i)) eqn:Hh; [rewrite (li_lock1 _ L _ Hh), Nat.eqb_refl; reflexivity|].
      destruct (lock s) eqn:E; [rewrite andb_false_r|]; exact E.
    + left. split.
      * destruct (lock s) as [j|]; [destruct (Nat.eqb j i && holding (procs s i))|]; reflexivity.
      * intros Hk. rewrite (li_part _ L _ Hk) in Hw. discriminate.
Qed.

Lemma linv_crash : forall s i e, linv s -> linv (set_pc (crash_shared s i e) i Killed).
Proof.
  intros s i e L. destruct (crash_shape s i e L) as (Hl & Hf). pose proof L as [Hl1 Hl2 Hpart].
  constructor; simpl; rewrite ?Hl, crash_shared_procs; unfold upd.
  - intros j. destruct (Nat.eqb_spec j i) as [->|n]; [discriminate|].
    intros Hh. destruct (holding (procs s i)) eqn:Hhi; [|auto]. destruct n. exact (linv_excl s j i L Hh Hhi).
  - intros j. destruct (holding (procs s i)) eqn:Hhi; [discriminate|].
    intros Hlj. destruct (Nat.eqb_spec j i) as [->|]; [rewrite (Hl2 _ Hlj) in Hhi; discriminate|auto].
  - intros k Hk. destruct Hf as [[E Hne]|[_ E]]; rewrite E in Hk; [|discriminate].
    destruct (Nat.eqb_spec k i) as [->|]; [contradiction|auto].
Qed.

(* the lock flag of the with-block a process at [p] is about to enter or leave *)
Definition site_locked (g : config) (p : pc) : bool :=
  match p with
  | QWantR | QGotR _ => q_read_locked g
  | QWantW | QClosed => q_write_locked g
  | DWantR | DGotR _ => i_read_locked g
  | MWant _ | MHold _ | MClosed _ => m_locked g
  | _ => true
  end.

Lemma linv_step : forall g w s i p a s0 p', site_locked g p = true -> linv s -> procs s i = p ->
  tstep g w s i p a s0 p' -> linv (set_pc s0 i p').
Proof.
  intros g w s i p a s0 p' Hb L Hp T. destruct T.
  - apply linv_crash. assumption.
  - apply (linv_set_pc L Hp); [destruct (exists_file s); reflexivity|discriminate].
  - apply (linv_acquire L Hb Hx). reflexivity.
  - apply (linv_set_pc L Hp); [destruct (guarded _ _); reflexivity|discriminate].
  - apply (linv_set_pc L Hp); [reflexivity|discriminate].
  - apply (linv_release L Hb Hp); try reflexivity. destruct (quick_eval g (w_cur w) o); reflexivity.
  - apply (linv_acquire L Hb Hx). reflexivity.
  - apply (linv_set_pc L Hp); [destruct (guarded _ _); reflexivity|discriminate].
  - apply (linv_trunc L Hp); reflexivity.
  - apply (linv_set_pc L Hp); reflexivity.
  - apply (linv_close L Hp); try reflexivity. discriminate.
  - apply (linv_release L Hb Hp); reflexivity.
  - apply (linv_set_pc L Hp); [destruct (exists_file s); [reflexivity|apply ready_idle]|discriminate].
  - apply (linv_acquire L Hb Hx). reflexivity.
  - apply (linv_set_pc L Hp); [destruct (guarded _ _); reflexivity|discriminate].
  - apply (linv_set_pc L Hp); [reflexivity|discriminate].
  - apply (linv_release L Hb Hp); try reflexivity.
    destruct (data_eval g (w_cur w) o) as [m| |st ch e]; [apply ready_idle|reflexivity|destruct (guarded ch e); reflexivity].
  - apply (linv_remove L Hp); [reflexivity|apply ready_idle].
  - apply (linv_set_pc L Hp); [destruct (guarded _ _); reflexivity|discriminate].
  - apply (linv_set_pc L Hp); [destruct (exists_file s); [reflexivity|apply ready_idle]|discriminate].
  - apply (linv_remove L Hp); [reflexivity|apply ready_idle].
  - apply (linv_set_pc L Hp); [destruct (guarded _ _); [apply ready_idle|reflexivity]|discriminate].
  - apply (linv_acquire L Hb Hx). reflexivity.
  - apply (linv_set_pc L Hp); [destruct (guarded _ _); reflexivity|discriminate].
  - apply (linv_set_pc L Hp); [reflexivity|discriminate].
  - apply (linv_release L Hb Hp); reflexivity.
  - apply (linv_release L Hb Hp); reflexivity.
  - apply (linv_trunc L Hp); reflexivity.
  - apply (linv_set_pc L Hp); reflexivity.
  - apply (linv_close L Hp); try reflexivity. discriminate.
  - apply (linv_release L Hb Hp); reflexivity.
Qed.

(* quick-info cache: what holds of every process, and of the file, in every reachable state *)
Definition qgood (w : world) (p : pc) : Prop :=
  match p with
  | QStart | QWantR | QHoldR | QWantW | QHoldW | QWriting _ | QClosed | Killed => True
  | QGotR o => quick_admissible (w_cur w) o
  | Done a => a = DB_FULL
  | _ => False
  end.

Definition qrest (w : world) (s : sys) : Prop :=
  (forall i, qgood w (procs s i)) /\ quick_admissible (w_cur w) (file s).
Definition qinv (w : world) (s : sys) : Prop := linv s /\ qrest w s.

Lemma qrest_set_pc {w s s0 i p'} : qrest w s -> procs s0 = procs s -> quick_admissible (w_cur w) (file s0) ->
  qgood w p' -> qrest w (set_pc s0 i p').
Proof.
  intros [Hg _] Hp Hf Hp'. split; [|exact Hf].
  intros j. simpl. rewrite Hp. unfold upd. destruct (Nat.eqb j i); [exact Hp'|apply Hg].
Qed.

Lemma qrest_keep {w s s0 i p'} : qrest w s -> same_data s0 s -> qgood w p' -> qrest w (set_pc s0 i p').
Proof. intros R [Hp Hf]. apply (qrest_set_pc R Hp). rewrite Hf. exact (proj2 R). Qed.

Lemma qgood_site : forall g w p, quick_ok g = true -> qgood w p -> site_locked g p = true.
Proof. intros g w p Hok Hq. qfacts Hok. destruct p; try destruct Hq; try reflexivity; assumption. Qed.

Lemma qrest_step : forall g w s i p a s0 p', quick_ok g = true -> linv s -> qrest w s -> act_ok a -> procs s i = p ->
  tstep g w s i p a s0 p' -> qrest w (set_pc s0 i p').
Proof.
  intros g w s i p a s0 p' Hok L R Ha Hp T. qfacts Hok. pose proof (proj2 R) as Hfile.
  pose proof (proj1 R i) as Hq. rewrite Hp in Hq. destruct T; try contradiction.
  - apply (qrest_set_pc R (crash_shared_procs s i e)); [|exact I].
    destruct (crash_shape s i e L) as (_ & [[E _]|[_ E]]); rewrite E; [exact Hfile|exact Ha].
  - apply (qrest_keep R (same_refl s)). destruct (exists_file s); exact I.
  - apply (qrest_keep R (acquire_same Hx)). exact I.
  - rewrite Htor. apply (qrest_keep R (same_refl s)). exact I.
  - destruct (observe_locked s i t L) as [-> _]; [rewrite Hp; reflexivity|]. apply (qrest_keep R (same_refl s)). exact Hfile.
  - apply (qrest_keep R (release_same _ s i)).
    destruct (quick_eval_admissible g (w_cur w) o Hok Hq) as [E|[E _]]; rewrite E; [exact I|reflexivity].
  - apply (qrest_keep R (acquire_same Hx)). exact I.
  - rewrite Htow. apply (qrest_keep R (same_refl s)). simpl. rewrite Hrc. reflexivity.
  - apply (qrest_set_pc R); [reflexivity|exact I|exact I].
  - apply (qrest_keep R (same_refl s)). exact I.
  - apply (qrest_set_pc R (close_file_procs _ _ _)); [|exact I].
    destruct (close_file_cases s i (CQuick (w_cur w) (quick_db (rebuild_complete g)))) as [[E _]|[_ E]]; rewrite E;
      [exact Hfile|]. simpl. intros _. rewrite Hrc. reflexivity.
  - apply (qrest_keep R (release_same _ s i)). simpl. rewrite Hrc. reflexivity.
Qed.

Lemma qinv_step : forall g w s i a s', quick_ok g = true -> qinv w s -> act_ok a ->
  step g w s i a = Some s' -> qinv w s'.
Proof.
  intros g w s i a s' Hok [L R] Ha H. destruct (step_tstep _ _ _ _ _ _ H) as (s0 & p' & T & ->). split.
  - exact (linv_step g w s i _ a s0 p' (qgood_site g w _ Hok (proj1 R i)) L eq_refl T).
  - exact (qrest_step g w s i _ a s0 p' Hok L R Ha eq_refl T).
Qed.

(* data cache: what holds of every process, and of the file, in every reachable state *)
Definition map_ok (w : world) (i : nat) (m : cfgmap) : Prop :=
  honest_map (w_src w) m /\ lookup (w_key w i) m = Some (w_src w (w_key w i)).

Definition dgood (g : config) (w : world) (i : nat) (p : pc) : Prop :=
  match p with
  | DStart | DWantR | DHoldR | DStaleRm | DHandler | DHandlerRm | Killed => True
  | DGotR o => data_admissible (w_cur w) (w_src w) o
  | MWant m | MHold m | MMerged m | MWriting m _ | MClosed m => map_ok w i m
  | Done a => a = w_src w (w_key w i)
  | Fail st e => st = S_HANDLER_RM /\ e = EXN_FileNotFoundError /\ guarded (i_hrm_guard g) EXN_FileNotFoundError = false
  | _ => False
  end.

Definition post_init (p : pc) : bool :=
  match p with
  | MWant _ | MHold _ | MMerged _ | MWriting _ _ | MClosed _ | Done _ => true
  | _ => false
  end.

(* what a process can be while the file carries another fingerprint: it has no DatabaseData yet, and what it has read
   is not a current content *)
Definition early (w : world) (p : pc) : Prop :=
  match p with DGotR o => forall m, o <> CData (w_cur w) m | _ => post_init p = false end.

Record drest (g : config) (w : world) (s : sys) : Prop := mkDrest {
  dr_good : forall i, dgood g w i (procs s i);
  dr_file : data_admissible (w_cur w) (w_src w) (file s);
  dr_stale : stale (w_cur w) (file s) = true -> forall i, early w (procs s i)
}.
Definition dinv (g : config) (w : world) (s : sys) : Prop := linv s /\ drest g w s.

Lemma drest_set_pc {g w s s0 i p'} : drest g w s -> procs s0 = procs s ->
  data_admissible (w_cur w) (w_src w) (file s0) -> dgood g w i p' ->
  (stale (w_cur w) (file s0) = true -> stale (w_cur w) (file s) = true /\ early w p') ->
  drest g w (set_pc s0 i p').
Proof.
  intros [Hg _ Hs] Hp Hf Hp' Hs'. constructor; simpl; rewrite ?Hp; unfold upd.
  - intros j. destruct (Nat.eqb_spec j i) as [->|_]; [exact Hp'|apply Hg].
  - exact Hf.
  - intros Hst j. destruct (Hs' Hst) as [Hst0 He]. destruct (Nat.eqb j i); [exact He|exact (Hs Hst0 j)].
Qed.

Lemma drest_keep {g w s s0 i p'} : drest g w s -> same_data s0 s -> dgood g w i p' ->
  stale (w_cur w) (file s) = false \/ early w p' -> drest g w (set_pc s0 i p').
Proof.
  intros R [Hp Hf] Hp' He. apply (drest_set_pc R Hp); rewrite ?Hf.
  - exact (dr_file _ _ _ R).
  - exact Hp'.
  - intros Hs. destruct He as [He|He]; [congruence|auto].
Qed.

Lemma not_early_fresh : forall g w s i, drest g w s -> ~ early w (procs s i) -> stale (w_cur w) (file s) = false.
Proof. intros g w s i R Hn. destruct (stale (w_cur w) (file s)) eqn:Hs; [|reflexivity]. destruct Hn. exact (dr_stale _ _ _ R Hs i). Qed.

Lemma gone_not_stale : forall cur s, exists_file s = false -> stale cur (file s) = false.
Proof. intros cur s H. unfold exists_file in H. destruct (file s); try discriminate. reflexivity. Qed.

Lemma ready_good : forall g w i m, honest_map (w_src w) m -> dgood g w i (ready w i m).
Proof.
  intros g w i m Hm. unfold ready. destruct (lookup (w_key w i) m) eqn:El; simpl.
  - exact (Hm _ _ (lookup_In _ _ _ El)).
  - split; [apply honest_app; [assumption|apply honest_single]|apply lookup_app_new; assumption].
Qed.

Lemma answer_ok : forall w i m, map_ok w i m -> answer w i m = w_src w (w_key w i).
Proof. intros w i m [_ Hl]. unfold answer. rewrite Hl. reflexivity. Qed.

Lemma dgood_site : forall g w i p, data_ok g = true -> dgood g w i p -> site_locked g p = true.
Proof. intros g w i p Hok Hq. dfacts Hok. destruct p; try destruct Hq; try reflexivity; assumption. Qed.

(* make_cache reads under the lock: it sees a complete file that is not stale *)
Lemma make_eval_locked : forall g w s i m t, data_ok g = true -> linv s -> drest g w s -> procs s i = MHold m ->
  make_eval g (w_cur w) m (observe s i t) = MSkip \/
  exists m', make_eval g (w_cur w) m (observe s i t) = MWrite m' /\ map_ok w i m'.
Proof.
  intros g w s i m t Hok L R Hp. pose proof (dr_good _ _ _ R i) as Hq. rewrite Hp in Hq. destruct Hq as [Hm Hl].
  destruct (observe_locked s i t L) as [-> Hnp]; [rewrite Hp; reflexivity|].
  apply (make_eval_ok g (w_cur w) (w_src w) (w_key w i) m (file s) Hok (dr_file _ _ _ R) Hnp); try assumption.
  apply (not_early_fresh g w s i R). rewrite Hp. simpl. discriminate.
Qed.

Lemma drest_step : forall g w s i p a s0 p', data_ok g = true -> linv s -> drest g w s -> act_ok a -> procs s i = p ->
  tstep g w s i p a s0 p' -> drest g w (set_pc s0 i p').
Proof.
  intros g w s i p a s0 p' Hok L R Ha Hp T. dfacts Hok. pose proof (dr_file _ _ _ R) as Hfile.
  pose proof (dr_good _ _ _ R i) as Hq. pose proof (not_early_fresh g w s i R) as Hfresh. rewrite Hp in Hq, Hfresh.
  (* the two existence tests go on with the file, or start afresh when it is gone; the two removals start afresh; a
     process that already has its DatabaseData works on a file that is not stale *)
  assert (Hex : forall p1, dgood g w i p1 -> early w p1 -> drest g w (set_pc s i (if exists_file s then p1 else ready w i []))).
  { intros p1 Hg1 He1. destruct (exists_file s) eqn:Hex; apply (drest_keep R (same_refl s)); auto.
    - apply ready_good, honest_nil.
    - left. exact (gone_not_stale _ s Hex). }
  assert (Hrm : drest g w (set_pc (set_file s CMissing) i (ready w i [])))
    by (apply (drest_set_pc R); [reflexivity|exact I|apply ready_good, honest_nil|discriminate]).
  assert (Hlate : post_init p = true -> forall s1 p1, same_data s1 s -> dgood g w i p1 -> drest g w (set_pc s1 i p1)).
  { intros Hpi s1 p1 Hs1 Hg1. apply (drest_keep R Hs1 Hg1). left. apply Hfresh. destruct p; try discriminate; simpl; discriminate. }
  destruct T; try contradiction; simpl in Hfresh.
  - destruct (crash_shape s i e L) as (_ & [[E _]|[_ E]]).
    + apply (drest_keep R (conj (crash_shared_procs s i e) E)); [exact I|right; reflexivity].
    + apply (drest_set_pc R (crash_shared_procs s i e)); rewrite ?E; [exact Ha|exact I|discriminate].
  - apply Hex; [exact I|reflexivity].
  - apply (drest_keep R (acquire_same Hx)); [exact I|right; reflexivity].
  - rewrite Hto. apply (drest_keep R (same_refl s)); [exact I|right; reflexivity].
  - destruct (observe_locked s i t L) as [-> _]; [rewrite Hp; reflexivity|].
    apply (drest_keep R (same_refl s)); [exact Hfile|].
    destruct (stale (w_cur w) (file s)) eqn:Hs; [right|left; reflexivity].
    intros m E. rewrite E in Hs. simpl in Hs. rewrite Z.eqb_refl in Hs. discriminate.
  - destruct (data_eval_admissible g (w_cur w) (w_src w) o Hok Hq)
      as [(m & E & Eo & Hm)|[(E & _)|(st & ch & e & E & Hg & _)]]; rewrite E, ?Hg;
      apply (drest_keep R (release_same _ s i)).
    + apply ready_good. exact Hm.
    + left. apply Hfresh. intros He. exact (He _ Eo).
    + exact I.
    + right. reflexivity.
    + exact I.
    + right. reflexivity.
  - exact Hrm.
  - rewrite Hsrm. apply (drest_keep R (same_refl s)); [exact I|right; reflexivity].
  - apply Hex; [exact I|reflexivity].
  - exact Hrm.
  - apply (drest_keep R (same_refl s)); [|left; exact (gone_not_stale _ s Hx)].
    destruct (guarded (i_hrm_guard g) EXN_FileNotFoundError) eqn:Hh; [apply ready_good, honest_nil|repeat split; exact Hh].
  - apply (Hlate eq_refl _ _ (acquire_same Hx)). exact Hq.
  - rewrite Hmto. apply (Hlate eq_refl _ _ (same_refl s)). exact (answer_ok w i m Hq).
  - destruct (make_eval_locked g w s i m t Hok L R Hp) as [E|(m1 & E & Hm1)]; rewrite E in Hx; [discriminate|].
    injection Hx as <-. apply (Hlate eq_refl _ _ (same_refl s)). exact Hm1.
  - apply (Hlate eq_refl _ _ (release_same _ s i)). exact (answer_ok w i m Hq).
  - destruct (make_eval_locked g w s i m t Hok L R Hp) as [E|(m1 & E & _)]; rewrite E in Hx; discriminate.
  - apply (drest_set_pc R); [reflexivity|exact I|exact Hq|discriminate].
  - apply (Hlate eq_refl _ _ (same_refl s)). exact Hq.
  - destruct (close_file_cases s i (CData (w_cur w) m)) as [[E _]|[_ E]].
    + apply (Hlate eq_refl _ _ (conj (close_file_procs _ _ _) E)). exact Hq.
    + apply (drest_set_pc R (close_file_procs _ _ _)); rewrite ?E; [intros _; exact (proj1 Hq)|exact Hq|].
      simpl. rewrite Z.eqb_refl. discriminate.
  - apply (Hlate eq_refl _ _ (release_same _ s i)). exact (answer_ok w i m Hq).
Qed.

Lemma dinv_step : forall g w s i a s', data_ok g = true -> dinv g w s -> act_ok a ->
  step g w s i a = Some s' -> dinv g w s'.
Proof.
  intros g w s i a s' Hok [L R] Ha H. destruct (step_tstep _ _ _ _ _ _ H) as (s0 & p' & T & ->). split.
  - exact (linv_step g w s i _ a s0 p' (dgood_site g w i _ Hok (dr_good _ _ _ R i)) L eq_refl T).
  - exact (drest_step g w s i _ a s0 p' Hok L R Ha eq_refl T).
Qed.

Lemma run_inv : forall (I : sys -> Prop) (A : action -> Prop) g w,
  (forall s i a s', I s -> A a -> step g w s i a = Some s' -> I s') ->
  forall sched s, (forall ia, In ia sched -> A (snd ia)) -> I s -> I (run g w s sched).
Proof.
  intros I A g w Hstep sched. induction sched as [|[i a] r IH]; intros s Hok Hs; [exact Hs|].
  unfold run. simpl. apply IH.
  - intros ia Hin. apply Hok. right. assumption.
  - unfold step_or_skip. simpl. destruct (step g w s i a) eqn:E; [|assumption].
    apply (Hstep s i a s0 Hs); [|assumption]. apply (Hok (i, a)). left. reflexivity.
Qed.

Lemma linv_init : forall c p, not_open c -> holding p = false -> linv (init_sys c p).
Proof.
  intros c p Hc Hp. constructor; simpl.
  - intros i H. rewrite Hp in H. discriminate.
  - intros i H. discriminate.
  - intros k H. destruct (Hc _ H).
Qed.

Lemma qinv_run : forall g w c sched, quick_ok g = true -> quick_admissible (w_cur w) c -> not_open c ->
  sched_ok sched -> qinv w (run g w (init_sys c QStart) sched).
Proof.
  intros g w c sched Hok Ha Hc Hs. apply (run_inv (qinv w) act_ok g w); [|exact Hs|].
  - intros s i a s'. apply qinv_step. exact Hok.
  - split; [apply linv_init; [assumption|reflexivity]|]. split; [intros i; exact I|exact Ha].
Qed.

Lemma dinv_run : forall g w c sched, data_ok g = true -> data_admissible (w_cur w) (w_src w) c -> not_open c ->
  sched_ok sched -> dinv g w (run g w (init_sys c DStart) sched).
Proof.
  intros g w c sched Hok Ha Hc Hs. apply (run_inv (dinv g w) act_ok g w); [|exact Hs|].
  - intros s i a s'. apply dinv_step. exact Hok.
  - split; [apply linv_init; [assumption|reflexivity]|]. constructor; [intros i; exact I|exact Ha|reflexivity].
Qed.

(* the lock discipline needs neither the guards nor an admissible content nor a restriction on the kills *)
Definition locks_on (g : config) : bool := q_read_locked g && q_write_locked g && i_read_locked g && m_locked g.

Lemma locks_on_site : forall g p, locks_on g = true -> site_locked g p = true.
Proof.
  intros g p H. unfold locks_on in H. repeat (apply andb_prop in H; destruct H as [H ?]).
  destruct p; try reflexivity; assumption.
Qed.

Lemma ok_locks_on : forall g, quick_ok g = true -> data_ok g = true -> locks_on g = true.
Proof.
  intros g Hq Hd. destruct (quick_ok_facts g Hq) as (Hqr & Hqw & _). destruct (data_ok_facts g Hd) as (Hir & Hm & _).
  unfold locks_on. rewrite Hqr, Hqw, Hir, Hm. reflexivity.
Qed.

Lemma linv_run : forall g w c p sched, locks_on g = true -> not_open c -> holding p = false ->
  linv (run g w (init_sys c p) sched).
Proof.
  intros g w c p sched Hg Hc Hp. apply (run_inv linv (fun _ => True) g w); [|intros; exact I|apply linv_init; assumption].
  intros s i a s' L _ H. destruct (step_tstep _ _ _ _ _ _ H) as (s0 & p' & T & ->).
  exact (linv_step g w s i _ a s0 p' (locks_on_site g _ Hg) L eq_refl T).
Qed.

Definition excludes (s : sys) : Prop :=
  (forall i j, holding (procs s i) = true -> holding (procs s j) = true -> i = j) /\
  (forall i t, reading (procs s i) = true -> observe s i t = file s /\ forall k, file s <> CPartial k).

Lemma linv_excludes : forall s, linv s -> excludes s.
Proof.
  intros s L. split.
  - intros i j. apply linv_excl. assumption.
  - intros i t. apply observe_locked. assumption.
Qed.

Lemma lock_excludes_gen : forall g w c sched, sched_ok sched -> not_open c ->
  (quick_ok g = true -> quick_admissible (w_cur w) c -> excludes (run g w (init_sys c QStart) sched)) /\
  (data_ok g = true -> data_admissible (w_cur w) (w_src w) c -> excludes (run g w (init_sys c DStart) sched)).
Proof.
  intros g w c sched Hs Hc. split; intros Hok Ha; apply linv_excludes.
  - exact (proj1 (qinv_run g w c sched Hok Ha Hc Hs)).
  - exact (proj1 (dinv_run g w c sched Hok Ha Hc Hs)).
Qed.

Lemma concurrent_quick_gen : forall g w c sched, quick_ok g = true -> quick_admissible (w_cur w) c -> not_open c ->
  sched_ok sched ->
  let s := run g w (init_sys c QStart) sched in
  (forall i a, procs s i = Done a -> a = DB_FULL) /\
  (forall i st e, procs s i <> Fail st e) /\
  quick_admissible (w_cur w) (file s).
Proof.
  intros g w c sched Hok Ha Hc Hs. destruct (qinv_run g w c sched Hok Ha Hc Hs) as (_ & Hg & Hf).
  split; [|split; [|exact Hf]].
  - intros i a E. pose proof (Hg i) as H. rewrite E in H. exact H.
  - intros i st e E. pose proof (Hg i) as H. rewrite E in H. exact H.
Qed.

Lemma concurrent_data_gen : forall g w c sched, data_ok g = true -> data_admissible (w_cur w) (w_src w) c -> not_open c ->
  sched_ok sched ->
  let s := run g w (init_sys c DStart) sched in
  (forall i st e, procs s i = Fail st e ->
     st = S_HANDLER_RM /\ e = EXN_FileNotFoundError /\ guarded (i_hrm_guard g) EXN_FileNotFoundError = false) /\
  (forall i a, procs s i = Done a -> a = w_src w (w_key w i)) /\
  data_admissible (w_cur w) (w_src w) (file s).
Proof.
  intros g w c sched Hok Ha Hc Hs. destruct (dinv_run g w c sched Hok Ha Hc Hs) as [_ [Hg Hf _]].
  split; [|split; [|exact Hf]].
  - intros i st e E. pose proof (Hg i) as H. rewrite E in H. exact H.
  - intros i a E. pose proof (Hg i) as H. rewrite E in H. exact H.
Qed.

Lemma concurrent_data_full_gen : forall g w c sched, data_ok g = true ->
  guarded (i_hrm_guard g) EXN_FileNotFoundError = true ->
  data_admissible (w_cur w) (w_src w) c -> not_open c -> sched_ok sched ->
  let s := run g w (init_sys c DStart) sched in
  (forall i a, procs s i = Done a -> a = w_src w (w_key w i)) /\
  (forall i st e, procs s i <> Fail st e) /\
  data_admissible (w_cur w) (w_src w) (file s).
Proof.
  intros g w c sched Hok Hg Ha Hc Hs. destruct (concurrent_data_gen g w c sched Hok Ha Hc Hs) as (H1 & H2 & H3).
  split; [assumption|]. split; [|assumption]. intros i st e E. destruct (H1 _ _ _ E) as (_ & _ & Hf). congruence.
Qed.

Lemma crash_prefix_gen : forall g w s i e s', linv s -> step g w s i (ACrash e) = Some s' ->
  procs s' i = Killed /\ (forall j, j <> i -> procs s' j = procs s j) /\
  lock s' <> Some i /\
  (file s' = file s \/ file s = CPartial i /\ file s' = CDamaged e) /\
  file s' <> CPartial i.
Proof.
  intros g w s i e s' L H. split; [|split; [exact (step_frame g w s i _ s' H)|]];
    rewrite step_crash in H; destruct (final (procs s i)); try discriminate; injection H as <-.
  - apply set_pc_self.
  - destruct (crash_shape s i e L) as [Hl Hf]. simpl. split.
    + rewrite Hl. destruct (holding (procs s i)) eqn:Hh; [discriminate|]. intros Hli.
      rewrite (li_lock2 _ L _ Hli) in Hh. discriminate.
    + destruct Hf as [[E Hne]|[E1 E2]].
      * split; [left; exact E|]. rewrite E. exact Hne.
      * split; [right; auto|]. rewrite E2. discriminate.
Qed.

Definition plain (a : action) : bool := match a with ACrash _ | ATimeout => false | _ => true end.

Definition can_move (g : config) (w : world) (s : sys) (i : nat) : Prop :=
  exists a s', plain a = true /\ step g w s i a = Some s'.

Definition measure (w : world) (p : pc) : nat :=
  let c := w_chunks w in
  match p with
  | QStart => 9 + c | QWantR => 8 + c | QHoldR => 7 + c | QGotR _ => 6 + c | QWantW => 5 + c | QHoldW => 4 + c
  | QWriting k => 2 + k | QClosed => 1
  | DStart => 20 + c | DWantR => 19 + c | DHoldR => 18 + c | DGotR _ => 17 + c | DStaleRm => 16 + c
  | DHandler => 15 + c | DHandlerRm => 14 + c
  | MWant _ => 6 + c | MHold _ => 5 + c | MMerged _ => 4 + c | MWriting _ k => 2 + k | MClosed _ => 1
  | Done _ | Fail _ _ | Killed => 0
  end%nat.

Lemma ready_measure : forall w i m, (measure w (ready w i m) <= 6 + w_chunks w)%nat.
Proof. intros. unfold ready. destruct (lookup (w_key w i) m); simpl; lia. Qed.

(* the action a process that runs undisturbed takes next *)
Definition next_plain (p : pc) : action :=
  match p with
  | QStart | DStart | DHandler => AExists
  | QWantR | QWantW | DWantR | MWant _ => AAcquire
  | QHoldR | DHoldR | MHold _ => AReadAll CMissing
  | QHoldW | MMerged _ => ATruncOpen
  | QWriting (S _) | MWriting _ (S _) => AWriteChunk
  | QWriting O | MWriting _ O => AClose
  | DStaleRm | DHandlerRm => ARemove
  | _ => ARelease
  end.

(* it is enabled unless the process waits for a lock that is taken *)
Lemma move_or_wait : forall g w s i, final (procs s i) = false ->
  can_move g w s i \/ holding (procs s i) = false /\ lock s <> None.
Proof.
  intros g w s i Hfin. destruct (step g w s i (next_plain (procs s i))) as [s'|] eqn:E.
  - left. exists (next_plain (procs s i)), s'. split; [|exact E].
    destruct (procs s i); try discriminate Hfin; try destruct k; reflexivity.
  - right. assert (Hacq : forall b (f : sys -> sys), option_map f (acquire b s i) = None -> lock s <> None).
    { intros b f. unfold acquire, lock_free. destruct b; [|discriminate]. destruct (lock s); discriminate. }
    unfold step in E. destruct (procs s i); try discriminate Hfin; try destruct k; simpl in E; try discriminate E;
      try exact (conj eq_refl (Hacq _ _ E)).
    + destruct (exists_file s); discriminate E.
    + destruct (exists_file s); discriminate E.
    + destruct (make_eval g (w_cur w) m (observe s i CMissing)); discriminate E.
Qed.

Lemma progress_gen : forall g w s i, linv s -> final (procs s i) = false ->
  can_move g w s i \/ exists j, j <> i /\ lock s = Some j /\ can_move g w s j.
Proof.
  intros g w s i L Hfin. destruct (move_or_wait g w s i Hfin) as [H|[Hh Hl]]; [left; exact H|right].
  destruct (lock s) as [j|] eqn:Ej; [|contradiction]. exists j. pose proof (li_lock2 _ L _ Ej) as Hj.
  split; [intros ->; congruence|]. split; [reflexivity|].
  destruct (move_or_wait g w s j (holding_not_final _ Hj)) as [H|[Hh' _]]; [exact H|congruence].
Qed.

Lemma tstep_measure : forall g w s i p a s0 p', tstep g w s i p a s0 p' -> (measure w p' < measure w p)%nat.
Proof.
  intros g w s i p a s0 p' T. destruct T; try (simpl; lia).
  - destruct p; try discriminate Hf; simpl; lia.
  - destruct (exists_file s); simpl; lia.
  - destruct (guarded _ _); simpl; lia.
  - destruct (quick_eval g (w_cur w) o); simpl; lia.
  - destruct (guarded _ _); simpl; lia.
  - pose proof (ready_measure w i []). destruct (exists_file s); simpl in *; lia.
  - destruct (guarded _ _); simpl; lia.
  - destruct (data_eval g (w_cur w) o) as [m| |st ch e]; [pose proof (ready_measure w i m)| |destruct (guarded ch e)];
      simpl in *; lia.
  - destruct (guarded _ _); simpl; lia.
  - pose proof (ready_measure w i []). destruct (exists_file s); simpl in *; lia.
  - pose proof (ready_measure w i []). destruct (guarded _ _); simpl in *; lia.
  - destruct (guarded _ _); simpl; lia.
Qed.

Lemma step_measure : forall g w s i a s', step g w s i a = Some s' ->
  (measure w (procs s' i) < measure w (procs s i))%nat /\ forall j, j <> i -> procs s' j = procs s j.
Proof.
  intros g w s i a s' H. split; [|exact (step_frame g w s i a s' H)].
  destruct (step_tstep _ _ _ _ _ _ H) as (s0 & p' & T & ->). rewrite set_pc_self. exact (tstep_measure g w s i _ a s0 p' T).
Qed.

(* the reference of the property: SPSDK_CACHE_DISABLED *)
Lemma cache_transparent_gen : forall g cur c, quick_ok g = true -> disabled_complete g = true ->
  quick_admissible cur c -> fst (quick_start g cur c) = disabled_start g.
Proof.
  intros g cur c Hok Hd Ha. rewrite (quick_start_total g cur c Hok Ha). unfold disabled_start. rewrite Hd. reflexivity.
Qed.

Lemma disabled_refuted_gen : forall g cur, quick_ok g = true -> disabled_complete g = false ->
  exists c, quick_admissible cur c /\ fst (quick_start g cur c) <> disabled_start g.
Proof.
  intros g cur Hok Hd. exists CMissing. split; [exact I|].
  rewrite (quick_start_total g cur CMissing Hok I). unfold disabled_start. rewrite Hd. simpl. discriminate.
Qed.

Lemma eof_is_exception : In EXN_EOFError exception_classes.
Proof. vm_compute. tauto. Qed.

(* the recorded race: two processes, damaged data cache, both reach the except handler *)
Definition w0 : world := h_world 1 0.
Definition race_sched : list (nat * action) :=
  [(0, AExists); (1, AExists); (0, AAcquire); (0, AReadAll CMissing); (0, ARelease);
   (1, AAcquire); (1, AReadAll CMissing); (1, ARelease);
   (0, AExists); (1, AExists); (0, ARemove); (1, ARemove)]%nat.
Definition race_result (g : config) : pc :=
  procs (run g w0 (init_sys (CDamaged EXN_EOFError) DStart) race_sched) 1%nat.

Lemma sched_ok_plain : forall sc, forallb (fun ia => plain (snd ia)) sc = true -> sched_ok sc.
Proof.
  intros sc H ia Hin. pose proof (forallb_In _ _ _ _ H Hin) as Hp. cbv beta in Hp.
  destruct (snd ia); try exact I. discriminate Hp.
Qed.

Lemma race_witness : forall g,
  procs (run g w0 (init_sys (CDamaged EXN_EOFError) DStart) race_sched) 1%nat = Fail S_HANDLER_RM EXN_FileNotFoundError ->
  exists c sched, data_admissible (w_cur w0) (w_src w0) c /\ not_open c /\ sched_ok sched /\
                  exists i, procs (run g w0 (init_sys c DStart) sched) i = Fail S_HANDLER_RM EXN_FileNotFoundError.
Proof.
  intros g H. exists (CDamaged EXN_EOFError), race_sched. split; [exact eof_is_exception|].
  split; [intros k; discriminate|]. split; [apply sched_ok_plain; reflexivity|]. exists 1%nat. exact H.
Qed.

(* the lock is what makes it work: the same routine with the read outside the lock *)
Definition unlock_quick_read (g : config) : config := {|
  q_read_locked := false; q_lock_r_guard := q_lock_r_guard g; q_open_r_guard := q_open_r_guard g;
  q_read_guard := q_read_guard g; q_type_guard := q_type_guard g; q_type_exn := q_type_exn g; q_hash_checked := q_hash_checked g;
  q_write_locked := q_write_locked g; q_lock_w_guard := q_lock_w_guard g;
  i_read_locked := i_read_locked g; i_lock_guard := i_lock_guard g; i_open_r_guard := i_open_r_guard g;
  i_read_guard := i_read_guard g; i_type_guard := i_type_guard g; i_type_exn := i_type_exn g; i_hash_checked := i_hash_checked g;
  i_stale_rm_guard := i_stale_rm_guard g; i_hrm_guard := i_hrm_guard g;
  m_locked := m_locked g; m_lock_guard := m_lock_guard g; m_read_guard := m_read_guard g;
  m_type_guard := m_type_guard g; m_type_exn := m_type_exn g; m_outer_guard := m_outer_guard g;
  disabled_complete := disabled_complete g; rebuild_complete := rebuild_complete g |}.

Definition torn_sched : list (nat * action) :=
  [(0, AExists); (0, AAcquire); (0, AReadAll CMissing); (0, ARelease); (0, AAcquire); (0, ATruncOpen);
   (1, AExists); (1, AAcquire); (1, AReadAll (CQuick 1 2)); (1, ARelease)]%nat.
Lemma torn_witness : forall g,
  procs (run (unlock_quick_read g) w0 (init_sys (CQuick 0 0) QStart) torn_sched) 1%nat = Done 2 ->
  exists c sched, quick_admissible (w_cur w0) c /\ not_open c /\ sched_ok sched /\
                  exists i a, procs (run (unlock_quick_read g) w0 (init_sys c QStart) sched) i = Done a /\ a <> DB_FULL.
Proof.
  intros g H. exists (CQuick 0 0), torn_sched. split; [simpl; intros E; discriminate|].
  split; [intros k; discriminate|]. split; [apply sched_ok_plain; reflexivity|].
  exists 1%nat, 2. split; [exact H|discriminate].
Qed.

(* non-vacuity of the hypotheses *)
Example sched_ok_example : sched_ok [(0%nat, AExists); (1%nat, ACrash EXN_EOFError); (0%nat, AAcquire)].
Proof. intros ia [<-|[<-|[<-|[]]]]; simpl; try exact I. exact eof_is_exception. Qed.
Example data_admissible_example : data_admissible 1 (fun k => 100 + k) (CData 1 [(0, 100); (3, 103)]).
Proof. intros _ k v [H|[H|[]]]; inversion H; subst; reflexivity. Qed.
Example data_admissible_poisoned_stale : data_admissible 1 (fun k => 100 + k) (CData 0 [(0, 666)]).
Proof. intros H. discriminate. Qed.

Definition reachable (g : config) (w : world) (s : sys) : Prop :=
  (exists c sched, quick_admissible (w_cur w) c /\ not_open c /\ sched_ok sched /\ s = run g w (init_sys c QStart) sched) \/
  (exists c sched, data_admissible (w_cur w) (w_src w) c /\ not_open c /\ sched_ok sched /\ s = run g w (init_sys c DStart) sched).

Lemma reachable_linv : forall g w s, locks_on g = true -> reachable g w s -> linv s.
Proof.
  intros g w s Hg [(c & sched & _ & Hc & _ & ->)|(c & sched & _ & Hc & _ & ->)]; apply linv_run; auto.
Qed.

Lemma damaged_replaced_gen : forall g cur src x c, quick_ok g = true -> data_ok g = true ->
  (exists e, c = CDamaged e /\ In e exception_classes) \/ c = CWrongType \/ c = CHollow ->
  snd (quick_start g cur c) = CQuick cur DB_FULL /\
  exists m, snd (data_start g cur src x c) = CData cur m /\ (forall k v, In (k, v) m -> v = src k).
Proof.
  intros g cur src x c Hq Hd Hc.
  assert (Ha : quick_admissible cur c /\ data_admissible cur src c).
  { destruct Hc as [(e & -> & He)|[->| ->]]; simpl; auto. }
  destruct Ha as [Ha1 Ha2]. split.
  - rewrite (quick_start_total g cur c Hq Ha1). reflexivity.
  - destruct (data_start_total g cur src x c Hd Ha2) as (_ & m & E & Hm & _). exists m. split; assumption.
Qed.

Lemma stale_gen : forall g cur src x h p m, quick_ok g = true -> data_ok g = true -> h <> cur ->
  quick_start g cur (CQuick h p) = (Started DB_FULL, CQuick cur DB_FULL) /\
  fst (data_start g cur src x (CData h m)) = Started (src x) /\
  exists m', snd (data_start g cur src x (CData h m)) = CData cur m' /\ (forall k v, In (k, v) m' -> v = src k).
Proof.
  intros g cur src x h p m Hq Hd Hne. split.
  - apply quick_start_total; [assumption|]. simpl. intros E. contradiction.
  - assert (Ha : data_admissible cur src (CData h m)) by (simpl; intros E; contradiction).
    destruct (data_start_total g cur src x _ Hd Ha) as (E1 & m' & E2 & Hm & _). split; [assumption|].
    exists m'. split; assumption.
Qed.

(* a writer that finds a damaged file under the lock rewrites it *)
Lemma make_cache_rewrites_damaged : forall g w s i m e t s', quick_ok g = true -> data_ok g = true -> reachable g w s ->
  procs s i = MHold m -> file s = CDamaged e -> In e exception_classes ->
  step g w s i (AReadAll t) = Some s' ->
  procs s' i = MMerged m /\ file s' = file s.
Proof.
  intros g w s i m e t s' Hq Hd Hr Hp Hf He Hstep. pose proof (reachable_linv g w s (ok_locks_on g Hq Hd) Hr) as L.
  destruct (observe_locked s i t L) as [Eo _]; [rewrite Hp; reflexivity|].
  unfold step in Hstep. rewrite Hp, Eo, Hf in Hstep. simpl in Hstep. dfacts Hd.
  rewrite (make_inner_damaged _ m e Hmin Hlen He) in Hstep. injection Hstep as <-. split; [apply set_pc_self|reflexivity].
Qed.

(* hypothetical configurations: the two repaired defects, re-introduced on top of whatever the source says *)
Definition with_config (g : config) (hrm : list (list exn)) (dis : bool) : config := {|
  q_read_locked := q_read_locked g; q_lock_r_guard := q_lock_r_guard g; q_open_r_guard := q_open_r_guard g;
  q_read_guard := q_read_guard g; q_type_guard := q_type_guard g; q_type_exn := q_type_exn g; q_hash_checked := q_hash_checked g;
  q_write_locked := q_write_locked g; q_lock_w_guard := q_lock_w_guard g;
  i_read_locked := i_read_locked g; i_lock_guard := i_lock_guard g; i_open_r_guard := i_open_r_guard g;
  i_read_guard := i_read_guard g; i_type_guard := i_type_guard g; i_type_exn := i_type_exn g; i_hash_checked := i_hash_checked g;
  i_stale_rm_guard := i_stale_rm_guard g; i_hrm_guard := hrm;
  m_locked := m_locked g; m_lock_guard := m_lock_guard g; m_read_guard := m_read_guard g;
  m_type_guard := m_type_guard g; m_type_exn := m_type_exn g; m_outer_guard := m_outer_guard g;
  disabled_complete := dis; rebuild_complete := rebuild_complete g |}.

(* os.remove in the except handler of DatabaseData.__init__ without a guarding try *)
Definition unguard_handler_remove (g : config) : config := with_config g [] (disabled_complete g).
(* the cache-disabled branch building the quick info from a database whose devices were not loaded *)
Definition disabled_not_loaded (g : config) : config := with_config g (i_hrm_guard g) false.

Lemma quick_ok_with_config : forall g hrm dis, quick_ok (with_config g hrm dis) = quick_ok g.
Proof. intros. reflexivity. Qed.
