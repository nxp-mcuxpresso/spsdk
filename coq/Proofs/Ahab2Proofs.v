(* Proofs/Ahab2Proofs.v -- lemmas about Model/Ahab2Model.v (C06, container version 2). *)
From Coq Require Import ZArith NArith List Bool Lia.
Require Import Value Bytes BytesProofs Sha2 Aes Modes CryptoProofs GenMisc GenAhab AhabModel AhabProofs Ahab2Model.
Import ListNotations.
Local Open Scope Z_scope.

Lemma srk_data_bytes_len id d : zlen' (srk_data_bytes id d) = srk_data_len d.
Proof. unfold srk_data_bytes, srk_data_len, zlen'. rewrite !app_length, !le_length. lia. Qed.

Lemma srk_array_bytes_len a : zlen' (srk_array_bytes a) = srk_array_len a.
Proof.
  unfold srk_array_bytes, srk_array_len. pose proof (srk_table_bytes_len true (srk_table_len (a_recs a)) (a_recs a)) as T.
  pose proof (srk_data_bytes_len (a_used a) (used_data a)) as D. unfold zlen' in *. rewrite !app_length, !le_length. lia.
Qed.

Lemma srk_array_len_pos a : 20 <= srk_array_len a.
Proof. unfold srk_array_len, srk_data_len, zlen'. pose proof (srk_table_len_pos (a_recs a)). lia. Qed.

(* arithmetic of SignatureBlockV2.update_fields for a signed container *)
Lemma sigblock2_update_facts ar s bl :
  let sb := sigblock2_update (Some ar) (Some s) bl in
  sb_srk_off sb = 16 /\ sb_sig_off sb = 16 + srk_array_len ar /\ sb_sig sb = Some s /\ sb_sig_length sb = 8 + zlen' s /\
  sb_blob sb = bl /\ sb_srk sb = a_recs ar /\
  match bl with
  | Some b => sb_blob_off sb = 16 + srk_array_len ar + 8 + zlen' s /\ sb_length sb = 16 + srk_array_len ar + 8 + zlen' s + b_length b
  | None => sb_blob_off sb = 0 /\ sb_length sb = 16 + srk_array_len ar + 8 + zlen' s
  end.
Proof.
  destruct bl as [b|]; unfold sigblock2_update;
    cbn [sb_length sb_srk_off sb_sig_off sb_blob_off sb_sig sb_sig_length sb_blob sb_srk]; repeat split; lia.
Qed.

(* SignatureBlockV2.export aligns nothing: the block is the plain concatenation of its parts *)
Lemma sigblock2_bytes_concat ar s bl :
  blob_ok bl ->
  let sb := sigblock2_update (Some ar) (Some s) bl in
  sigblock2_bytes sb (Some ar)
  = sigblock_header true sb ++ srk_array_bytes ar ++ signature_bytes (8 + zlen' s) s
    ++ match bl with Some b => blob_bytes b | None => [] end.
Proof.
  intros Hb sb. destruct (sigblock2_update_facts ar s bl) as (F1 & F2 & F3 & F4 & F5 & F6 & F7). fold sb in F1, F2, F3, F4, F5, F6, F7.
  unfold sigblock2_bytes. rewrite F3, F5, F1, F2, F4. clearbody sb.
  pose proof (srk_array_bytes_len ar) as LA. pose proof (signature_bytes_len (8 + zlen' s) s) as LS.
  pose proof (sigblock_header_len true sb) as LH. pose proof (srk_array_len_pos ar) as AP.
  set (H := sigblock_header true sb) in *. set (A := srk_array_bytes ar) in *. set (S := signature_bytes (8 + zlen' s) s) in *.
  assert (Lsb : 16 + srk_array_len ar + 8 + zlen' s <= sb_length sb)
    by (destruct bl as [b|]; destruct F7 as [_ ->]; [specialize (Hb b eq_refl)|]; len).
  change (py_set (repeat 0%N (Z.to_nat (sb_length sb))) 0 16 H) with (place ([] ++ repeat 0%N (Z.to_nat (sb_length sb))) 0 16 H).
  rewrite (place_fill [] H 0 16 0) by len. rewrite (place_fill _ A 16 _ 0) by len. rewrite (place_fill _ S _ _ 0) by len.
  destruct bl as [b|]; destruct F7 as [F7 F8].
  - specialize (Hb b eq_refl). rewrite F7, (place_fill _ (blob_bytes b) _ _ 0) by len.
    rewrite app_repeat_0 by len. cbn [repeat app]. now rewrite <- !app_assoc.
  - rewrite app_repeat_0 by len. cbn [repeat app]. now rewrite <- !app_assoc, app_nil_r.
Qed.

(* AHABContainerV2.export = header ++ image array ++ signature block *)
Lemma container2_bytes_split k :
  exists rest, container2_bytes k = container_head (k_c k) ++ sigblock2_bytes (c_sb (k_c k)) (k_arr k) ++ rest.
Proof. apply py_set_after, container_head_length. Qed.

Definition set_sb2 (k : container2) (sb : sigblock) : container2 := {| k_c := set_sb (k_c k) sb; k_arr := k_arr k |}.

Definition srk_rec2_wf (r : srk_rec) : Prop :=
  sr_length r = 76 /\ length (sr_params r) = 64%nat /\ In (sr_alg r) [33; 34; 39; 40; 209; 210] /\
  In (sr_hash r) [0; 1; 2; 3; 4; 5; 6; 8; 9] /\ fits 1 (sr_ksize r) = true /\ fits 1 (sr_flags r) = true.

Definition fam_allows_v2 (fam : gen_family) : bool := let '(_, _, types, _, _, _, _) := fam in existsb (Z.eqb 2) types.

Lemma v2_start_facts : forall fam, In fam gen_families -> fam_allows_v2 fam = true ->
  forall tm, In tm [0; 2; 3; 4] ->
  let p := params_of fam tm true in
  p_start p = (if is_nand tm then 48128 else 49152) /\ p_csize p = 16384 /\ p_max_cnt p <= 3 /\
  2 * p_csize p <= p_start p /\ (is_nand tm = false -> p_max_cnt p * p_csize p <= p_start p).
Proof.
  assert (H : forallb (fun fam => negb (fam_allows_v2 fam) || forallb (fun tm =>
              let p := params_of fam tm true in
              (p_start p =? (if is_nand tm then 48128 else 49152)) && (p_csize p =? 16384) && (p_max_cnt p <=? 3)
              && (2 * p_csize p <=? p_start p) && (is_nand tm || (p_max_cnt p * p_csize p <=? p_start p))) [0; 2; 3; 4]) gen_families = true)
    by (vm_compute; reflexivity).
  intros fam Hf Hv tm Ht. rewrite forallb_forall in H. specialize (H fam Hf). rewrite Hv in H. cbn [negb orb] in H.
  rewrite forallb_forall in H. specialize (H tm Ht). cbv zeta in H |- *.
  repeat split; try lia. intros Hn. rewrite Hn in H. lia.
Qed.

(* the hypotheses are satisfiable: a signed version-2 container of mimx943 *)
Definition demo2_cfg : list container_cfg :=
  [ {| cc_srk_set := 2; cc_used := 1; cc_revoke := 0; cc_gdet := 0; cc_fuse := 0; cc_sw := 0;
       cc_keys := [KEcc 256 5 6; KEcc 256 7 8; KEcc 256 9 10; KEcc 256 11 12]; cc_flag_ca := false;
       cc_sigmode := 1; cc_sig := repeat 7%N 64; cc_sig_ok := true; cc_blob := None; cc_images := [demo_image 5] |} ].
Definition demo2_params : params := params_of (nth 6 gen_families (0, 0, [], 1, 1, false, [])) 4 true.

(* update_fields on the version-2 demo configuration (SHA-512 over the SRK data), evaluated once for both examples *)
Definition demo2_ks : list container2 :=
  Eval vm_compute in match ahab2_update demo2_params demo2_cfg with Ok ks => ks | Err _ => [] end.
Lemma demo2_update : ahab2_update demo2_params demo2_cfg = Ok demo2_ks.
Proof. vm_compute. reflexivity. Qed.

Example v2_nonvacuous :
  exists k ar, ahab2_update demo2_params demo2_cfg = Ok [k] /\ k_arr k = Some ar /\
               c_sb (k_c k) = sigblock2_update (Some ar) (Some (repeat 7%N 64)) None /\
               is_ok (ahab2_export demo2_params demo2_cfg) = true /\ (0 <? zlen' (signed_data2 k)) = true.
Proof.
  do 2 eexists. split; [exact demo2_update|]. split; [reflexivity|]. unfold ahab2_export. rewrite demo2_update. vm_compute. repeat split.
Qed.

Example v2_layout_nonvacuous :
  exists k, ahab2_update demo2_params demo2_cfg = Ok [k] /\ layout_ok demo2_params [k_c k] = true /\
            zlen' (containers_block2 demo2_params [k]) = start_real demo2_params [k_c k] /\
            map (img_abs (k_c k)) (c_images (k_c k)) = [49152].
Proof. eexists. split; [exact demo2_update|]. vm_compute. repeat split. Qed.
