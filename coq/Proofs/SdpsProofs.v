(* SdpsProofs.v -- C10: HID report framing of SDPS / SDP bulk writes.  The reports are the chunks of the data,
   each behind the report id and zero padded to the negotiated size; everything else is the theory of chunks. *)
From Coq Require Import ZArith NArith List Bool Lia.
Require Import Value Bytes BytesProofs SdpsModel.
Import ListNotations.

Definition sdps_pad (rid : N) (size : nat) (c : list N) : list N := rid :: c ++ repeat 0%N (size - length c).

Lemma sdps_frames_chunks rid size : forall fuel data,
  sdps_frames fuel rid size data = map (sdps_pad rid size) (chunks_fuel fuel size data).
Proof.
  induction fuel as [|f IH]; intros [|x t]; try reflexivity. cbn [sdps_frames chunks_fuel map]. rewrite IH.
  unfold sdps_pad. reflexivity.
Qed.

