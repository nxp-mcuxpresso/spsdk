(* Proofs/RotBlockProofs.v -- export/parse round trips of the certificate blocks of Model/RotModel.v (C03). *)
From Coq Require Import ZArith NArith List Bool Lia.
Require Import Value Bytes BytesProofs Sha2 GenRot RotModel RotProofs.
Import ListNotations.
Local Open Scope N_scope.

Lemma le32_length v : length (le32 v) = 4%nat.
Proof. apply le_enc_length. Qed.
Lemma le16_length v : length (le16 v) = 2%nat.
Proof. apply le_enc_length. Qed.
Lemma le_dec_le32 v : v < 2 ^ 32 -> le_dec (le32 v) = v.
Proof. intros H. unfold le32. now apply le_dec_enc_small. Qed.
Lemma le_dec_le16 v : v < 2 ^ 16 -> le_dec (le16 v) = v.
Proof. intros H. unfold le16. now apply le_dec_enc_small. Qed.
Global Opaque le32 le16.

(* lengths of the fields in front of the one that is read *)
#[local] Hint Rewrite @app_length le32_length le16_length : len.
Local Ltac len := cbn [firstn concat]; autorewrite with len; cbn [length]; lia.

Lemma u32_at_cat fs rest i v o :
  nth_error fs i = Some (le32 v) -> length (concat (firstn i fs)) = o -> v < 2 ^ 32 -> u32_at (cat fs rest) o = Ok v.
Proof.
  intros Hi Ho H. pose proof (field_cat fs rest i (le32 v) o 4 Hi Ho (le32_length v)) as F. unfold u32_at. rewrite F, le_dec_le32 by assumption.
  apply (f_equal (@length N)) in F. rewrite firstn_length, skipn_length, le32_length in F.
  now replace (nlen (cat fs rest) <? N.of_nat o + 4) with false by (symmetry; apply N.ltb_ge; unfold nlen; lia).
Qed.

Definition isk_ok (i : isk_in) : Prop :=
  (exists c x y, i_key i = KEcc c x y /\ (c = 256 \/ c = 384) /\ on_curve c x y = true)
  /\ i_constraints i < 2 ^ 32 /\ isk_sig_offset i < 2 ^ 32
  /\ N.land (isk_sig_offset i) g_isk_heur_mask <> g_isk_heur_magic.

Lemma isk_flags_props i c x y : i_key i = KEcc c x y -> (c = 256 \/ c = 384) ->
  isk_flags i < 2 ^ 32 /\ N.land (isk_flags i) 15 = curve_nibble c /\
  N.testbit (isk_flags i) 31 = (match i_user_data i with [] => false | _ => true end) /\
  nib_len (curve_nibble c) = Ok (N.of_nat (coord_size c)).
Proof.
  intros EK Hc. unfold isk_flags. rewrite EK. cbn [key_bits].
  destruct (i_user_data i); destruct Hc as [-> | ->]; vm_compute; repeat split; reflexivity.
Qed.

Lemma isk_parse_ok i pub sg :
  isk_ok i -> raw_key (i_key i) = Ok pub -> sg <> [] ->
  isk_parse (isk_head i ++ pub ++ i_user_data i ++ sg) (length sg) =
  Ok {| o_constraints := i_constraints i; o_flags := isk_flags i; o_pub := pub; o_user_data := i_user_data i; o_sig := sg;
        o_offset_present := true |}.
Proof.
  intros ((c & x & y & EK & Hc & HO) & Hcn & Hoff & Hheur) EP Hsg.
  assert (RO : raw_ok (KEcc c x y)) by (split; [tauto|assumption]).
  pose proof (raw_key_roundtrip_lemma _ RO) as RT. rewrite EK in EP. rewrite EP in RT. cbn [bind] in RT.
  assert (Lp : length pub = (2 * coord_size c)%nat).
  { rewrite raw_key_ecc in EP by (apply on_curve_key_ok; tauto). injection EP as <-. rewrite app_length, !be_encf_length. lia. }
  destruct (isk_flags_props i c x y EK Hc) as (Hfl & Hnib & Hbit & Hkl).
  assert (Eoff : N.to_nat (isk_sig_offset i) = (12 + 2 * coord_size c + length (i_user_data i))%nat)
    by (unfold isk_sig_offset, nlen; rewrite EK; cbn [key_bits]; lia).
  set (cs := coord_size c) in *. set (ud := i_user_data i) in *.
  unfold isk_parse, isk_head. rewrite <- !app_assoc.
  set (w0 := le32 (isk_sig_offset i)). set (w1 := le32 (i_constraints i)). set (w2 := le32 (isk_flags i)).
  set (d := w0 ++ w1 ++ w2 ++ pub ++ ud ++ sg).
  rewrite (u32_at_cat [w0; w1; w2] (pub ++ ud ++ sg) 0 _ 0 eq_refl eq_refl Hoff : u32_at d 0 = _).
  rewrite (u32_at_cat [w0; w1; w2] (pub ++ ud ++ sg) 1 _ 4 eq_refl ltac:(subst w0; len) Hcn : u32_at d 4 = _).
  rewrite (u32_at_cat [w0; w1; w2] (pub ++ ud ++ sg) 2 _ 8 eq_refl ltac:(subst w0 w1; len) Hfl : u32_at d 8 = _). cbn [bind].
  apply N.eqb_neq in Hheur. rewrite Hheur. cbv iota. rewrite Hnib, Hkl. cbn [bind].
  assert (Ld : length d = (12 + 2 * cs + length ud + length sg)%nat) by (subst d w0 w1 w2; autorewrite with len; lia).
  replace (N.min (isk_sig_offset i) (nlen d)) with (isk_sig_offset i) by (unfold nlen; lia).
  replace (N.to_nat (2 * N.of_nat cs)) with (2 * cs)%nat by lia. rewrite Eoff.
  rewrite (field_cat [w0; w1; w2; pub] (ud ++ sg) 3 pub 12 (2 * cs) eq_refl ltac:(subst w0 w1 w2; len) Lp : firstn _ (skipn 12 d) = _).
  unfold slice. replace (12 + 2 * cs + length ud - (12 + 2 * cs))%nat with (length ud) by lia.
  rewrite (field_cat [w0; w1; w2; pub; ud] sg 4 ud (12 + 2 * cs) _ eq_refl ltac:(subst w0 w1 w2; len) eq_refl : firstn _ (skipn _ d) = _).
  rewrite (skipn_cat [w0; w1; w2; pub; ud] sg (12 + 2 * cs + length ud) ltac:(subst w0 w1 w2; len) : skipn _ d = _), firstn_all.
  replace (if N.testbit (isk_flags i) 31 then ud else []) with ud by (rewrite Hbit; now destruct ud).
  destruct pub as [|p0 pt] eqn:EPB; [exfalso; cbn in Lp; destruct Hc as [-> | ->]; cbn in Lp; lia|]. rewrite <- EPB in *.
  rewrite RT. cbn [bind]. unfold isk_flags. rewrite EK. reflexivity.
Qed.

Lemma isk_out_bytes_ok i pub sg :
  sg <> [] ->
  isk_out_bytes {| o_constraints := i_constraints i; o_flags := isk_flags i; o_pub := pub; o_user_data := i_user_data i; o_sig := sg;
                   o_offset_present := true |} =
  Ok (le32 (12 + nlen (i_user_data i) + nlen pub) ++ le32 (i_constraints i) ++ le32 (isk_flags i) ++ pub ++ i_user_data i ++ sg).
Proof. intros H. unfold isk_out_bytes. cbn. destruct sg; [contradiction|reflexivity]. Qed.

Lemma split_n_concat (k : nat) (hs : list (list N)) : Forall (fun h => length h = k) hs ->
  split_n (length hs) k (concat hs) = hs.
Proof.
  induction 1 as [|h t Hh _ IH]; [reflexivity|].
  cbn [length split_n concat]. now rewrite firstn_app_exact, skipn_app_exact, IH by exact Hh.
Qed.

Lemma coord_hlen c : c = 256 \/ c = 384 -> coord_size c = hlen (curve_halg c) /\ nib_len (curve_nibble c) = Ok (N.of_nat (hlen (curve_halg c)))
  /\ nib_halg (curve_nibble c) = Ok (curve_halg c) /\ curve_nibble c < 16 /\ (0 < hlen (curve_halg c))%nat.
Proof. intros [-> | ->]; vm_compute; repeat split; try reflexivity; lia. Qed.

Lemma rkr_parse_ok c ca used ks :
  ecc_set c ks -> Forall key_ok ks -> (length ks <= 4)%nat -> (N.to_nat used < length ks)%nat ->
  exists f pub k, rkr_calc ca used ks = Ok (f, map rkh_spec ks, pub) /\ f < 2 ^ 32 /\ N.testbit f 31 = ca /\
    N.shiftr (N.land f 3840) 8 = used /\ N.shiftr (N.land f 240) 4 = nlen ks /\
    nth_error ks (N.to_nat used) = Some k /\ raw_key k = Ok pub /\
    length pub = (2 * coord_size c)%nat /\
    forall rest, rkr_parse (rkr_bytes (f, map rkh_spec ks, pub) ++ rest) = Ok (f, map rkh_spec ks, pub).
Proof.
  intros HS HK HL HU. destruct (rkr_calc_ok c ca used ks HS HK HL HU) as (x & y & EN & KO & E).
  destruct HS as [Hc HF]. destruct (coord_hlen c Hc) as (Ecs & Enl & Enh & Hnib & Hpos).
  set (n := nlen ks) in *. assert (Hn : n < 16) by (unfold n, nlen; lia). assert (Hu : used < 16) by lia.
  set (f := rkr_flags ca used n (curve_nibble c)) in *. set (pub := be_encf (coord_size c) x ++ be_encf (coord_size c) y) in *.
  destruct (flags_fields ca used n _ Hu Hn Hnib) as (Hf & D31 & Dused & Dn & Dnib). fold f in Hf, D31, Dused, Dn, Dnib.
  assert (Lp : length pub = (2 * coord_size c)%nat) by (unfold pub; rewrite app_length, !be_encf_length; lia).
  exists f, pub, (KEcc c x y). split; [exact E|]. split; [exact Hf|]. split; [exact D31|]. split; [exact Dused|]. split; [exact Dn|].
  split; [exact EN|]. split; [now apply raw_key_ecc|]. split; [exact Lp|]. intros rest.
  set (hs := map rkh_spec ks). set (hl := hlen (curve_halg c)) in *.
  pose proof (rkh_spec_ecc_length c ks HF) as Lhs. fold hs hl in Lhs.
  assert (Nhs : length hs = length ks) by (unfold hs; apply map_length).
  unfold rkr_parse, rkr_bytes. rewrite <- !app_assoc.
  rewrite (u32_at_cat [le32 f] _ 0 f 0 eq_refl eq_refl Hf : u32_at (le32 f ++ _) 0 = _). cbn [bind]. rewrite Dn, Dnib, Enl, Enh. cbn [bind].
  destruct (1 <? n) eqn:E1.
  - assert (Eex : export_v21 hs = concat hs) by (unfold export_v21, nlen; rewrite Nhs; fold (nlen ks); fold n; now rewrite E1).
    rewrite Eex.
    assert (Lc : length (concat hs) = (hl * length ks)%nat) by (rewrite (concat_length_uniform hl _ Lhs); now rewrite Nhs).
    replace (N.to_nat (N.of_nat hl * n)) with (length (concat hs)) by (rewrite Lc; unfold n, nlen; lia).
    replace (N.to_nat (4 + N.of_nat hl * n)) with (4 + length (concat hs))%nat by (rewrite Lc; unfold n, nlen; lia).
    replace (N.to_nat (2 * N.of_nat hl)) with (length pub) by (rewrite Lp, Ecs; lia).
    rewrite (field_cat [le32 f; concat hs] (pub ++ rest) 1 (concat hs) 4 _ eq_refl ltac:(len) eq_refl : firstn _ (skipn 4 (le32 f ++ _)) = _).
    rewrite (field_cat [le32 f; concat hs; pub] rest 2 pub (4 + length (concat hs)) _ eq_refl ltac:(len) eq_refl : firstn _ (skipn _ (le32 f ++ _)) = _).
    unfold nlen at 1. rewrite !Lc. fold hl.
    replace (N.of_nat (hl * length ks) mod N.of_nat hl =? 0) with true
      by (symmetry; apply N.eqb_eq; rewrite Nat2N.inj_mul, N.mul_comm; apply N.mod_mul; lia).
    cbn [negb].
    replace (hl * length ks / hl)%nat with (length hs) by (rewrite Nhs, Nat.mul_comm, Nat.div_mul; lia).
    rewrite (split_n_concat hl hs Lhs).
    unfold nlen. rewrite Nhs. now replace (4 <? N.of_nat (length ks)) with false by (symmetry; apply N.ltb_ge; lia).
  - assert (L1 : length ks = 1%nat) by (apply N.ltb_ge in E1; unfold n, nlen in E1; lia).
    assert (Eex : export_v21 hs = []) by (unfold export_v21, nlen; rewrite Nhs, L1; reflexivity).
    rewrite Eex. cbn [app]. replace (N.to_nat (2 * N.of_nat hl)) with (length pub) by (rewrite Lp, Ecs; lia).
    rewrite (field_cat [le32 f; pub] rest 1 pub 4 _ eq_refl ltac:(len) eq_refl : firstn _ (skipn 4 (le32 f ++ _)) = _).
    destruct ks as [|k0 [|k1 t]]; try (simpl in L1; lia). replace (N.to_nat used) with 0%nat in EN by (cbn in HU; lia).
    injection EN as ->. reflexivity.
Qed.

Definition block_ok (sign : list N -> list N) (c : N) (b : cb21_in) : Prop :=
  ecc_set c (b_keys b) /\ Forall key_ok (b_keys b) /\ (length (b_keys b) <= 4)%nat /\
  (N.to_nat (b_used b) < length (b_keys b))%nat /\
  (forall m, length (sign m) = (2 * coord_size c)%nat) /\
  (b_ca b = false -> exists i, b_isk b = Some i /\ isk_ok i).

Lemma hdr21_facts : g_cb21_hdr_size = 12 /\ length g_cb21_magic = 4%nat /\ fst g_cb21_version < 2 ^ 16 /\ snd g_cb21_version < 2 ^ 16.
Proof. vm_compute. repeat split; reflexivity. Qed.

Lemma cb21_parse_shape mn mj sz rk ic :
  mn < 2 ^ 16 -> mj < 2 ^ 16 ->
  let ex := g_cb21_magic ++ le16 mn ++ le16 mj ++ le32 sz ++ rk ++ ic in
  cb21_parse ex =
  bind (rkr_parse (rk ++ ic)) (fun r =>
    let '(flags, hs, pub) := r in
    if N.testbit flags 31 then
      Ok {| p_major := mj; p_minor := mn; p_size := le_dec (le32 sz); p_flags := flags; p_rkh := hs; p_root_pub := pub; p_isk := None |}
    else
      bind (isk_parse (skipn (rkr_out_size r) (rk ++ ic)) (length pub)) (fun io =>
      Ok {| p_major := mj; p_minor := mn; p_size := le_dec (le32 sz); p_flags := flags; p_rkh := hs; p_root_pub := pub;
            p_isk := Some io |})).
Proof.
  intros Hmn Hmj ex. destruct hdr21_facts as (Hs & Lm & _ & _).
  unfold cb21_parse. rewrite Hs.
  assert (Lex : length ex = (12 + length (rk ++ ic))%nat) by (unfold ex; autorewrite with len; lia).
  replace (nlen ex <? 12) with false by (symmetry; apply N.ltb_ge; unfold nlen; lia).
  rewrite (firstn_app_exact g_cb21_magic _ 4 Lm : firstn 4 ex = _), eqb_list_refl. cbn [negb].
  rewrite (field_cat [g_cb21_magic; le16 mn] _ 1 (le16 mn) 4 2 eq_refl ltac:(len) (le16_length _) : firstn 2 (skipn 4 ex) = _).
  rewrite (field_cat [g_cb21_magic; le16 mn; le16 mj] _ 2 (le16 mj) 6 2 eq_refl ltac:(len) (le16_length _) : firstn 2 (skipn 6 ex) = _).
  rewrite (field_cat [g_cb21_magic; le16 mn; le16 mj; le32 sz] _ 3 (le32 sz) 8 4 eq_refl ltac:(len) (le32_length _) : firstn 4 (skipn 8 ex) = _).
  rewrite (skipn_cat [g_cb21_magic; le16 mn; le16 mj; le32 sz] (rk ++ ic) 12 ltac:(len) : skipn (N.to_nat 12) ex = _).
  now rewrite (le_dec_le16 _ Hmn), (le_dec_le16 _ Hmj).
Qed.

Lemma cb21_roundtrip_lemma c sign b ex msgs :
  block_ok sign c b -> cb21_export sign b = Ok (ex, msgs) ->
  exists p,
    cb21_parse ex = Ok p /\ cb21_reexport p = Ok ex /\ cb21_out_rkth p = Ok (rot_spec_v21 (b_keys b)) /\
    N.testbit (p_flags p) 31 = b_ca b /\ N.shiftr (N.land (p_flags p) 3840) 8 = b_used b /\
    N.shiftr (N.land (p_flags p) 240) 4 = nlen (b_keys b) /\
    (exists k, nth_error (b_keys b) (N.to_nat (b_used b)) = Some k /\ raw_key k = Ok (p_root_pub p)) /\
    match p_isk p, (if b_ca b then None else b_isk b) with
    | None, None => True
    | Some o, Some i => o_constraints o = i_constraints i /\ o_user_data o = i_user_data i /\ raw_key (i_key i) = Ok (o_pub o)
                        /\ o_flags o = isk_flags i /\ exists m, msgs = [m] /\ o_sig o = sign m
    | _, _ => False
    end.
Proof.
  intros (HS & HK & HL & HU & Hsig & Hisk) HE.
  destruct (rkr_parse_ok c (b_ca b) (b_used b) (b_keys b) HS HK HL HU) as (f & pub & k & ER & Hf & D31 & Dused & Dn & EN & EK & Lp & HP).
  destruct hdr21_facts as (Hs & Lm & Hmj & Hmn).
  assert (HNE : b_keys b <> []) by (intros E0; rewrite E0 in HU; simpl in HU; lia).
  assert (RK : rkth_v21 (map rkh_spec (b_keys b)) = Ok (rot_spec_v21 (b_keys b))) by (now apply (rkth_v21_spec c)).
  unfold cb21_export in HE. rewrite ER in HE.
  destruct (b_ca b) eqn:ECA.
  - (* CA: no ISK certificate *)
    cbn [bind] in HE. apply ok_pair_inj in HE as [<- <-].
    set (rk := rkr_bytes (f, map rkh_spec (b_keys b), pub)) in *.
    replace (g_cb21_magic ++ le16 (snd g_cb21_version) ++ le16 (fst g_cb21_version) ++ le32 (g_cb21_hdr_size + nlen rk) ++ rk)
      with (g_cb21_magic ++ le16 (snd g_cb21_version) ++ le16 (fst g_cb21_version) ++ le32 (g_cb21_hdr_size + nlen rk) ++ rk ++ [])
      by (now rewrite app_nil_r).
    rewrite (cb21_parse_shape _ _ _ rk [] Hmn Hmj). rewrite (HP []). cbn [bind]. rewrite D31.
    eexists. split; [reflexivity|]. cbn [p_flags p_isk p_rkh p_root_pub].
    split.
    { unfold cb21_reexport. cbn [p_isk p_flags p_rkh p_root_pub p_minor p_major bind]. unfold rkr_bytes. rewrite !app_nil_r.
      change (nlen (@nil N)) with 0. rewrite N.add_0_r. reflexivity. }
    split; [unfold cb21_out_rkth; cbn [p_rkh]; exact RK|]. split; [exact D31|]. split; [exact Dused|]. split; [exact Dn|].
    split; [exists k; now split|exact I].
  - (* ISK certificate present *)
    destruct (Hisk eq_refl) as (i & EI & IO). rewrite EI in HE |- *.
    destruct (isk_check (b_family b) i); [|discriminate]. cbn [bind] in HE.
    destruct IO as ((ci & xi & yi & EKi & Hci & HOi) & Hcn & Hoff & Hheur).
    assert (IO : isk_ok i) by (split; [exists ci, xi, yi; auto|auto]).
    assert (Hc3 : ci = 256 \/ ci = 384 \/ ci = 521) by (destruct Hci; auto).
    pose proof (on_curve_key_ok ci xi yi Hc3 HOi) as KOi.
    assert (EPi : raw_key (i_key i) = Ok (be_encf (coord_size ci) xi ++ be_encf (coord_size ci) yi)) by (rewrite EKi; now apply raw_key_ecc).
    rewrite EPi in HE. cbn [bind] in HE. set (ipub := be_encf (coord_size ci) xi ++ be_encf (coord_size ci) yi) in *.
    set (rk := rkr_bytes (f, map rkh_spec (b_keys b), pub)) in *.
    set (msg := isk_tbs rk i ipub) in *.
    assert (Lsg : length (sign msg) = (2 * coord_size c)%nat) by apply Hsig.
    destruct (sign msg) as [|s0 st] eqn:ES.
    { exfalso. simpl in Lsg. destruct HS as [[-> | ->] _]; simpl in Lsg; lia. }
    rewrite <- ES in *. apply ok_pair_inj in HE as [<- <-].
    set (ic := isk_head i ++ ipub ++ i_user_data i ++ sign msg).
    rewrite (cb21_parse_shape _ _ _ rk ic Hmn Hmj). rewrite (HP ic). cbn [bind]. rewrite D31.
    assert (SK : skipn (rkr_out_size (f, map rkh_spec (b_keys b), pub)) (rk ++ ic) = ic).
    { apply skipn_app_exact. unfold rk, rkr_bytes, rkr_out_size. rewrite !app_length, le32_length. reflexivity. }
    rewrite SK. rewrite Lp, <- Lsg.
    assert (NE : sign msg <> []) by (rewrite ES; discriminate).
    unfold ic. rewrite (isk_parse_ok i ipub (sign msg) IO EPi NE). cbn [bind].
    eexists. split; [reflexivity|]. cbn [p_flags p_isk p_rkh p_root_pub].
    split.
    { unfold cb21_reexport. cbn [p_isk p_flags p_rkh p_root_pub p_minor p_major].
      rewrite (isk_out_bytes_ok i ipub (sign msg) NE). cbn [bind].
      assert (EO : 12 + nlen (i_user_data i) + nlen ipub = isk_sig_offset i).
      { unfold isk_sig_offset. rewrite EKi. cbn [key_bits]. unfold ipub, nlen. rewrite app_length, !be_encf_length. lia. }
      rewrite EO. unfold rk, rkr_bytes, isk_head. rewrite <- !app_assoc. reflexivity. }
    split; [unfold cb21_out_rkth; cbn [p_rkh]; exact RK|]. split; [exact D31|]. split; [exact Dused|]. split; [exact Dn|].
    split; [exists k; now split|]. cbn [o_constraints o_user_data o_pub o_flags o_sig].
    repeat split; try reflexivity; try assumption. exists msg. split; reflexivity.
Qed.

Example block_ok_nontrivial :
  block_ok (fun _ => repeat 7 64%nat) 256
    {| b_ca := false; b_used := 1; b_keys := [p256_g; p256_g]; b_family := None;
       b_isk := Some {| i_constraints := 5; i_key := p256_g; i_user_data := [1; 2; 3] |} |}.
Proof.
  unfold block_ok. cbn [b_keys b_used b_ca b_isk].
  split; [split; [now left|repeat constructor]|]. split; [repeat constructor; vm_compute; reflexivity|].
  split; [simpl; lia|]. split; [simpl; lia|]. split; [intros; reflexivity|].
  intros _. eexists. split; [reflexivity|]. unfold isk_ok. cbn [i_key i_constraints].
  split; [eexists _, _, _; split; [reflexivity|]; split; [now left|vm_compute; reflexivity]|].
  split; [vm_compute; reflexivity|]. split; [vm_compute; reflexivity|]. vm_compute. discriminate.
Qed.

Definition wf_cb1 (b : cb1) : Prop :=
  c1_major b < 2 ^ 16 /\ c1_minor b < 2 ^ 16 /\ c1_flags b < 2 ^ 32 /\ c1_build b < 2 ^ 32 /\ c1_image_length b < 2 ^ 32 /\
  Forall (fun c => nlen c < 2 ^ 32) (c1_certs b) /\ nlen (c1_certs b) < 2 ^ 32 /\ nlen (cert_table (c1_certs b)) < 2 ^ 32 /\
  (length (c1_rkh b) <= 4)%nat /\ (forall h, In h (c1_rkh b) -> length h = 32%nat).

Definition slots_v1 (hs : list (list N)) : list (list N) := map (slot_v1 hs) (seq 0 4).
Lemma export_v1_slots hs : export_v1 hs = concat (slots_v1 hs).
Proof. reflexivity. Qed.
Lemma slot_v1_len hs i : (forall h, In h hs -> length h = 32%nat) -> length (slot_v1 hs i) = 32%nat.
Proof.
  intros H. unfold slot_v1. destruct (nth_error hs i) as [h|] eqn:E; [|reflexivity].
  pose proof (H h (nth_error_In _ _ E)) as L. destruct h; [discriminate|exact L].
Qed.
Lemma slots_v1_len hs : (forall h, In h hs -> length h = 32%nat) -> Forall (fun h => length h = 32%nat) (slots_v1 hs).
Proof. intros H. apply Forall_map, Forall_forall. intros i _. now apply slot_v1_len. Qed.
Lemma slots_v1_idem hs : (forall h, In h hs -> length h = 32%nat) -> slots_v1 (slots_v1 hs) = slots_v1 hs.
Proof.
  intros H. unfold slots_v1 at 1 3. apply map_ext_in. intros i Hi. apply in_seq in Hi.
  unfold slot_v1 at 1. unfold slots_v1. rewrite nth_error_map.
  assert (E : nth_error (seq 0 4) i = Some i).
  { destruct i as [|[|[|[|i]]]]; try reflexivity. lia. }
  rewrite E. cbn [option_map]. pose proof (slot_v1_len hs i H) as L. destruct (slot_v1 hs i); [discriminate|reflexivity].
Qed.

Lemma cert_table_cons c t : cert_table (c :: t) = (le32 (nlen c) ++ c) ++ cert_table t.
Proof. reflexivity. Qed.
Lemma cert_table_len certs : (4 * length certs <= length (cert_table certs))%nat.
Proof.
  induction certs as [|c t IH]; [simpl; lia|]. rewrite cert_table_cons, !app_length, le32_length. simpl length. lia.
Qed.

Lemma parse_certs_ok certs tail : Forall (fun c => nlen c < 2 ^ 32) certs ->
  parse_certs (length certs) (cert_table certs ++ tail) = Ok (certs, tail).
Proof.
  induction 1 as [|c t Hc _ IH]; [reflexivity|].
  cbn [length parse_certs]. rewrite cert_table_cons, <- !app_assoc.
  set (w := le32 (nlen c)). set (rest := w ++ c ++ cert_table t ++ tail).
  assert (Lr : length rest = (4 + length c + length (cert_table t ++ tail))%nat) by (unfold rest, w; autorewrite with len; lia).
  replace (nlen rest <? 4) with false by (symmetry; apply N.ltb_ge; unfold nlen; lia).
  rewrite (firstn_app_exact w _ 4 (le32_length _) : firstn 4 rest = _), (le_dec_le32 _ Hc : le_dec w = _).
  replace (N.to_nat (N.min (nlen c) (nlen rest))) with (length c) by (unfold nlen; lia).
  rewrite (field_cat [w; c] _ 1 c 4 _ eq_refl ltac:(subst w; len) eq_refl : firstn _ (skipn 4 rest) = _).
  now rewrite (skipn_cat [w; c] _ (4 + length c) ltac:(subst w; len) : skipn _ rest = _), IH.
Qed.

Lemma hdr1_facts : g_cb1_hdr_size = 32 /\ length g_cb1_sig = 4%nat /\ g_rkht_size = 4 /\ g_rkh_size = 32.
Proof. vm_compute. repeat split; reflexivity. Qed.

Lemma cb1_roundtrip_lemma al b :
  0 < al -> wf_cb1 b ->
  exists p,
    cb1_parse (cb1_export al b) = Ok p /\
    c1_certs p = c1_certs b /\ c1_flags p = c1_flags b /\ c1_build p = c1_build b /\
    c1_major p = c1_major b /\ c1_minor p = c1_minor b /\ c1_image_length p = c1_image_length b /\
    c1_rkh p = slots_v1 (c1_rkh b) /\ cb1_rkth p = cb1_rkth b /\ cb1_fuses p = cb1_fuses b /\
    cb1_export al p = cb1_export al b.
Proof.
  intros _ (Hmj & Hmn & Hfl & Hbn & Hil & Hcs & Hcnt & Htl & Hrl & Hrh).
  destruct hdr1_facts as (Hs & Ls & Hk & Hz).
  unfold cb1_export, pad_to.
  set (certs := c1_certs b) in *. set (T := cert_table certs) in *. set (R := export_v1 (c1_rkh b)).
  pose proof (slots_v1_len _ Hrh) as L32.
  assert (LR : length R = 128%nat).
  { unfold R. rewrite export_v1_slots, (concat_length_uniform 32 _ L32). unfold slots_v1. now rewrite map_length, seq_length. }
  set (body := cb1_header b ++ T ++ R).
  set (P := zeros (N.to_nat (if nlen body mod al =? 0 then 0 else al - nlen body mod al))).
  (* the exported bytes as nine header fields in front of certificate table, hash table and padding *)
  set (mj := le16 (c1_major b)). set (mn := le16 (c1_minor b)). set (hs := le32 g_cb1_hdr_size). set (fl := le32 (c1_flags b)).
  set (bn := le32 (c1_build b)). set (il := le32 (c1_image_length b)). set (cn := le32 (nlen certs)). set (tl := le32 (nlen T)).
  set (d := body ++ P).
  assert (Ed : d = cat [g_cb1_sig; mj; mn; hs; fl; bn; il; cn; tl] (T ++ R ++ P)).
  { unfold d, body, cb1_header. fold certs. fold T. cbn [cat]. now rewrite <- !app_assoc. }
  assert (Ld : length d = (32 + length T + 128 + length P)%nat).
  { rewrite Ed. cbn [cat]. unfold mj, mn, hs, fl, bn, il, cn, tl. autorewrite with len. lia. }
  unfold cb1_parse. rewrite Hs, Hk, Hz.
  replace (nlen d <? 32) with false by (symmetry; apply N.ltb_ge; unfold nlen; lia).
  replace (nlen d <? le_dec (firstn 4 (skipn 28 d)) + 4 * 32) with false.
  2:{ symmetry. rewrite Ed at 2. rewrite (field_cat _ _ 8 tl 28 4) by (unfold mj, mn, hs, fl, bn, il, cn, tl; first [reflexivity|apply le32_length|len]).
      unfold tl. rewrite (le_dec_le32 _ Htl). apply N.ltb_ge. unfold nlen. lia. }
  replace (firstn 4 d) with g_cb1_sig by (rewrite Ed; symmetry; apply firstn_app_exact, Ls). rewrite eqb_list_refl. cbn [negb].
  rewrite Ed.
  rewrite (field_cat _ _ 1 mj 4 2), (field_cat _ _ 2 mn 6 2), (field_cat _ _ 3 hs 8 4), (field_cat _ _ 4 fl 12 4), (field_cat _ _ 5 bn 16 4),
    (field_cat _ _ 6 il 20 4), (field_cat _ _ 7 cn 24 4), (skipn_cat _ _ (N.to_nat 32))
    by (unfold mj, mn, hs, fl, bn, il, cn, tl; first [reflexivity|apply le16_length|apply le32_length|cbn [firstn]; len]).
  rewrite <- Ed. unfold mj, mn, hs, fl, bn, il, cn. rewrite Hs.
  rewrite (le_dec_le32 32) by (vm_compute; reflexivity). cbn [N.eqb Pos.eqb negb].
  rewrite (le_dec_le32 _ Hcnt), (le_dec_le32 _ Hfl), (le_dec_le32 _ Hbn), (le_dec_le32 _ Hil), (le_dec_le16 _ Hmj), (le_dec_le16 _ Hmn).
  pose proof (cert_table_len certs) as LT. fold T in LT.
  replace (N.to_nat (N.min (nlen certs) (nlen d))) with (length certs) by (unfold nlen; lia).
  pose proof (parse_certs_ok certs (R ++ P) Hcs) as PC. fold T in PC. rewrite PC.
  change (N.to_nat (4 * 32)) with 128%nat. change (N.to_nat 4) with 4%nat.
  rewrite (firstn_app_exact R P 128 LR). rewrite LR. change (128 / 4)%nat with 32%nat.
  assert (SP : split_n 4 32 R = slots_v1 (c1_rkh b)).
  { unfold R. rewrite export_v1_slots. replace 4%nat with (length (slots_v1 (c1_rkh b))) by (unfold slots_v1; now rewrite map_length, seq_length).
    now apply split_n_concat. }
  rewrite SP.
  assert (FB : forallb (fun h => nlen h =? 32) (slots_v1 (c1_rkh b)) = true).
  { apply forallb_forall, Forall_forall. eapply Forall_impl; [|exact L32]. intros h Hh. unfold nlen. now rewrite Hh. }
  rewrite FB. cbn [negb].
  eexists. split; [reflexivity|]. cbn [c1_certs c1_flags c1_build c1_major c1_minor c1_image_length c1_rkh].
  assert (EX : export_v1 (slots_v1 (c1_rkh b)) = export_v1 (c1_rkh b)) by (rewrite !export_v1_slots; now rewrite (slots_v1_idem _ Hrh)).
  do 7 (split; [reflexivity|]). unfold cb1_fuses, cb1_rkth, rkth_v1. cbn [c1_rkh]. rewrite EX. split; [reflexivity|]. split; [reflexivity|].
  unfold d, P, body, T, cb1_header. cbn [c1_certs c1_flags c1_build c1_major c1_minor c1_image_length c1_rkh].
  reflexivity.
Qed.

Example wf_cb1_nontrivial :
  wf_cb1 {| c1_major := 1; c1_minor := 0; c1_flags := 5; c1_build := 7; c1_image_length := 12608; c1_certs := [[48; 0; 0; 0]]; c1_rkh := [zeros 32] |}.
Proof.
  unfold wf_cb1. cbn [c1_major c1_minor c1_flags c1_build c1_image_length c1_certs c1_rkh].
  split; [vm_compute; reflexivity|]. split; [vm_compute; reflexivity|]. split; [vm_compute; reflexivity|].
  split; [vm_compute; reflexivity|]. split; [vm_compute; reflexivity|]. split; [constructor; [vm_compute; reflexivity|constructor]|].
  split; [vm_compute; reflexivity|]. split; [vm_compute; reflexivity|]. split; [cbn [length]; lia|]. intros h [<-|[]]. reflexivity.
Qed.
