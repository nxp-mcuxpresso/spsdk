(* Proofs/MbiProofs.v -- what the C01 and C02 proofs share about Model/MbiModel.v: words written into and read from a
   byte string, the four IVT words as a frame around the rest of the header, the flags word as a sum of disjoint fields,
   the mixin enumeration. *)
From Coq Require Import ZArith NArith List Bool Lia.
Require Import Value Bytes BytesProofs MbiMixinModel GenMbi MbiModel.
Import ListNotations.
Local Open Scope Z_scope.

(* ------------------------------------------------------------------ lists: nth of a splice *)
Lemma nth_firstn' {A} (l : list A) n i (x : A) : nth i (firstn n l) x = if (i <? n)%nat then nth i l x else x.
Proof.
  revert n i; induction l as [|a l IH]; intros [|n] [|i]; simpl; try reflexivity.
  - destruct (S i <? S n)%nat; reflexivity.
  - rewrite IH. reflexivity.
Qed.
Lemma nth_skipn' {A} (l : list A) n i (x : A) : nth i (skipn n l) x = nth (n + i) l x.
Proof.
  revert l; induction n as [|n IH]; intros l; simpl; [reflexivity|].
  destruct l as [|a l]; [destruct i; reflexivity|]. apply IH.
Qed.
Lemma nth_splice {A} (buf w : list A) off i (x : A) :
  (off + length w <= length buf)%nat ->
  nth i (splice buf off w) x =
  if (i <? off)%nat then nth i buf x else if (i <? off + length w)%nat then nth (i - off) w x else nth i buf x.
Proof.
  intros H. unfold splice.
  destruct (i <? off)%nat eqn:E1.
  - apply Nat.ltb_lt in E1. rewrite app_nth1 by (rewrite firstn_length; lia). now rewrite nth_firstn', (proj2 (Nat.ltb_lt _ _) E1).
  - apply Nat.ltb_ge in E1. rewrite app_nth2 by (rewrite firstn_length; lia).
    rewrite firstn_length. replace (Nat.min off (length buf)) with off by lia.
    destruct (i <? off + length w)%nat eqn:E2.
    + apply Nat.ltb_lt in E2. now rewrite app_nth1 by lia.
    + apply Nat.ltb_ge in E2. rewrite app_nth2 by lia. rewrite nth_skipn'. f_equal. lia.
Qed.

Lemma wr_length off w d : (off + length w <= length d)%nat -> length (wr off w d) = length d.
Proof. apply splice_length. Qed.

Lemma nth_wr off w d i : (off + length w <= length d)%nat ->
  nth i (wr off w d) 0%N =
  if (i <? off)%nat then nth i d 0%N else if (i <? off + length w)%nat then nth (i - off) w 0%N else nth i d 0%N.
Proof. apply nth_splice. Qed.

Lemma nth_wr_outside off w d i : (off + length w <= length d)%nat -> ~ (off <= i < off + length w)%nat ->
  nth i (wr off w d) 0%N = nth i d 0%N.
Proof.
  intros H Hi. rewrite nth_wr by exact H. destruct (Nat.ltb_spec i off); [reflexivity|].
  destruct (Nat.ltb_spec i (off + length w)); [lia | reflexivity].
Qed.

Lemma list_eq_nth (a b : list N) : length a = length b -> (forall i, (i < length a)%nat -> nth i a 0%N = nth i b 0%N) -> a = b.
Proof. intros H1 H2. apply (nth_ext a b 0%N 0%N H1 H2). Qed.

Lemma wr_skip (p d w : list N) off : (length p <= off)%nat -> wr off w (p ++ d) = p ++ wr (off - length p) w d.
Proof.
  intros H. unfold wr, splice. rewrite firstn_app, (firstn_all2 p) by exact H. rewrite <- app_assoc. do 2 f_equal.
  rewrite skipn_app, (skipn_all2 p) by lia. cbn [app]. do 2 f_equal. lia.
Qed.
Lemma wr_head (w0 r w : list N) off : off = 0%nat -> length w0 = length w -> wr off w (w0 ++ r) = w ++ r.
Proof. intros -> L. unfold wr, splice. cbn [firstn app Nat.add]. f_equal. now apply skipn_app_exact. Qed.

Lemma wr_mid (p m r w : list N) off o :
  off = (length p + o)%nat -> (o + length w <= length m)%nat -> wr off w (p ++ m ++ r) = p ++ wr o w m ++ r.
Proof.
  intros -> H. rewrite wr_skip by lia. f_equal. replace (length p + o - length p)%nat with o by lia.
  unfold wr, splice. rewrite firstn_app, skipn_app. replace (o - length m)%nat with 0%nat by lia.
  replace (o + length w - length m)%nat with 0%nat by lia. cbn [firstn skipn]. now rewrite app_nil_r, <- !app_assoc.
Qed.
Lemma skipn_wr off w (d : list N) n : (off + length w <= n)%nat -> (off + length w <= length d)%nat -> skipn n (wr off w d) = skipn n d.
Proof.
  intros H1 H2. unfold wr, splice. rewrite app_assoc, skipn_app, skipn_all2 by (rewrite app_length, firstn_length; lia).
  rewrite app_length, firstn_length, Nat.min_l by lia. cbn [app]. rewrite <- skipn_add. f_equal. lia.
Qed.

Lemma wr_wr_same off w1 w2 d : length w1 = length w2 -> (off + length w1 <= length d)%nat ->
  wr off w2 (wr off w1 d) = wr off w2 d.
Proof.
  intros Hl H. assert (Lf : length (firstn off d) = off) by (rewrite firstn_length; lia).
  unfold wr at 2. unfold splice. rewrite wr_skip, Lf, Nat.sub_diag, wr_head by (lia || reflexivity).
  unfold wr, splice. now rewrite Hl.
Qed.

Lemma wr_wr_comm o1 w1 o2 w2 d :
  (o1 + length w1 <= o2)%nat \/ (o2 + length w2 <= o1)%nat ->
  (o1 + length w1 <= length d)%nat -> (o2 + length w2 <= length d)%nat ->
  wr o1 w1 (wr o2 w2 d) = wr o2 w2 (wr o1 w1 d).
Proof.
  intros Hd H1 H2. apply list_eq_nth.
  - rewrite !wr_length; rewrite ?wr_length; lia.
  - intros i _. rewrite !nth_wr by (rewrite ?wr_length; lia).
    destruct (Nat.ltb_spec i o1), (Nat.ltb_spec i o2), (Nat.ltb_spec i (o1 + length w1)), (Nat.ltb_spec i (o2 + length w2));
      try reflexivity; lia.
Qed.

Lemma u32_length v w : u32 v = Ok w -> length w = 4%nat.
Proof. unfold u32. destruct (_ && _); intros H; [|discriminate]. injection H as <-. reflexivity. Qed.

Lemma u32_value v w : u32 v = Ok w -> Z.of_N (le_dec w) = v /\ 0 <= v < 4294967296.
Proof.
  unfold u32. destruct ((0 <=? v) && (v <? 4294967296)) eqn:E; intros H; [|discriminate].
  assert (Hw : w = le_enc 4 (Z.to_N v)) by (now inversion H). subst w. clear H.
  apply andb_true_iff in E as [E1 E2]. apply Z.leb_le in E1. apply Z.ltb_lt in E2.
  rewrite le_dec_enc_small; [ split; [apply Z2N.id|]; lia |].
  change (2 ^ (8 * N.of_nat 4))%N with 4294967296%N. lia.
Qed.

Lemma u32_ok v : 0 <= v < 4294967296 -> exists w, u32 v = Ok w.
Proof.
  intros H. unfold u32. replace ((0 <=? v) && (v <? 4294967296)) with true; [eauto|].
  symmetry. apply andb_true_iff. split; [apply Z.leb_le | apply Z.ltb_lt]; lia.
Qed.

(* ------------------------------------------------------------------ reading a word *)
Lemma rd32_skip (p d : list N) o : (length p <= o)%nat -> rd32 o (p ++ d) = rd32 (o - length p) d.
Proof. intros H. unfold rd32. rewrite skipn_app, (skipn_all2 p) by exact H. reflexivity. Qed.

Lemma rd32_app o (a b : list N) : (o + 4 <= length a)%nat -> rd32 o (a ++ b) = rd32 o a.
Proof.
  intros H. unfold rd32. f_equal. f_equal. rewrite skipn_app. replace (o - length a)%nat with 0%nat by lia.
  rewrite firstn_app. rewrite skipn_length. replace (4 - (length a - o))%nat with 0%nat by lia.
  simpl. now rewrite app_nil_r.
Qed.

Lemma rd32_head o w rest : o = 0%nat -> length w = 4%nat -> rd32 o (w ++ rest) = Z.of_N (le_dec w).
Proof. intros -> L. rewrite rd32_app by lia. unfold rd32. cbn [skipn]. now rewrite firstn_all2 by lia. Qed.

Lemma rd32_mid (a m r : list N) o : (o + 4 <= length m)%nat -> rd32 (length a + o) (a ++ m ++ r) = rd32 o m.
Proof. intros H. rewrite rd32_skip by lia. rewrite rd32_app by lia. f_equal. lia. Qed.

Lemma rd32_u32 v w rest : u32 v = Ok w -> rd32 0 (w ++ rest) = v.
Proof. intros H. rewrite rd32_head by (reflexivity || eapply u32_length; eassumption). now apply u32_value in H. Qed.

Lemma rd32_word o v w rest : o = 0%nat -> u32 v = Ok w -> rd32 o (w ++ rest) = v.
Proof. intros ->. apply rd32_u32. Qed.

Lemma rd32_at (p w r : list N) : length w = 4%nat -> rd32 (length p) (p ++ w ++ r) = Z.of_N (le_dec w).
Proof. intros H. rewrite rd32_skip by lia. apply rd32_head; [lia | exact H]. Qed.

Lemma rd32_firstn o n (d : list N) : (o + 4 <= n)%nat -> (n <= length d)%nat -> rd32 o (firstn n d) = rd32 o d.
Proof. intros H L. rewrite <- (firstn_skipn n d) at 2. symmetry. apply rd32_app. rewrite firstn_length. lia. Qed.

Lemma rd32_wr_same off w d : length w = 4%nat -> (off <= length d)%nat -> rd32 off (wr off w d) = Z.of_N (le_dec w).
Proof.
  intros Hw H. unfold wr, splice. rewrite rd32_skip by (rewrite firstn_length; lia).
  apply rd32_head; [rewrite firstn_length; lia | exact Hw].
Qed.

Lemma firstn_skipn_nth_eq (a b : list N) off n :
  length a = length b -> (forall i, (off <= i < off + n)%nat -> nth i a 0%N = nth i b 0%N) ->
  firstn n (skipn off a) = firstn n (skipn off b).
Proof.
  intros Hl H. apply list_eq_nth.
  - rewrite !firstn_length, !skipn_length. lia.
  - intros i Hi. rewrite firstn_length, skipn_length in Hi.
    rewrite !nth_firstn'. destruct (i <? n)%nat eqn:E; [|reflexivity]. apply Nat.ltb_lt in E.
    rewrite !nth_skipn'. apply H. lia.
Qed.

Lemma rd32_wr_other o' off w d : (off + length w <= length d)%nat ->
  (o' + 4 <= off)%nat \/ (off + length w <= o')%nat -> rd32 o' (wr off w d) = rd32 o' d.
Proof.
  intros H Hd. unfold rd32. f_equal. f_equal. apply firstn_skipn_nth_eq.
  - now apply wr_length.
  - intros i Hi. apply nth_wr_outside; [exact H | lia].
Qed.

(* ------------------------------------------------------------------ IVT words *)
Lemma off_len_eq : OFF_LEN = 32%nat. Proof. reflexivity. Qed.
Lemma off_flags_eq : OFF_FLAGS = 36%nat. Proof. reflexivity. Qed.
Lemma off_crc_eq : OFF_CRC = 40%nat. Proof. reflexivity. Qed.
Lemma off_load_eq : OFF_LOAD = 52%nat. Proof. reflexivity. Qed.

Definition ivt_total (c : mbi_class) (total : Z) : Z :=
  match provider c SUpdateIvt with Some MixinIvtZeroTotalLength => 0 | _ => total end.
Definition ivt_crc (c : mbi_class) (cc : Z) : Z := if c_type c =? 0 then 0 else cc.
Definition ivt_load (c : mbi_class) (x : mbi) : Z := if has_attr c ALoadAddress then m_load x else 0.

Lemma update_ivt_inv c x app total cc app' :
  update_ivt c x app total cc = Ok app' ->
  exists wf wt wc wl,
    u32 (create_flags c x) = Ok wf /\ u32 (ivt_total c total) = Ok wt /\ u32 (ivt_crc c cc) = Ok wc /\
    u32 (ivt_load c x) = Ok wl /\
    app' = wr 52 wl (wr 40 wc (wr 32 wt (wr 36 wf app))).
Proof.
  unfold update_ivt. fold (ivt_total c total) (ivt_crc c cc) (ivt_load c x).
  destruct (u32 (create_flags c x)) as [wf|] eqn:E1; simpl; [|discriminate].
  destruct (u32 (ivt_total c total)) as [wt|] eqn:E2; simpl; [|discriminate].
  destruct (u32 (ivt_crc c cc)) as [wc|] eqn:E3; simpl; [|discriminate].
  destruct (u32 (ivt_load c x)) as [wl|] eqn:E4; simpl; [|discriminate].
  intros H; inversion H; subst. exists wf, wt, wc, wl. repeat split; try assumption.
Qed.

Lemma ivt_chain_lengths app wf wt wc wl :
  length wf = 4%nat -> length wt = 4%nat -> length wc = 4%nat -> length wl = 4%nat -> (56 <= length app)%nat ->
  length (wr 36 wf app) = length app /\ length (wr 32 wt (wr 36 wf app)) = length app /\
  length (wr 40 wc (wr 32 wt (wr 36 wf app))) = length app /\
  length (wr 52 wl (wr 40 wc (wr 32 wt (wr 36 wf app)))) = length app.
Proof.
  intros H1 H2 H3 H4 L.
  assert (A1 : length (wr 36 wf app) = length app) by (apply wr_length; lia).
  assert (A2 : length (wr 32 wt (wr 36 wf app)) = length app) by (rewrite wr_length; lia).
  assert (A3 : length (wr 40 wc (wr 32 wt (wr 36 wf app))) = length app) by (rewrite wr_length; lia).
  assert (A4 : length (wr 52 wl (wr 40 wc (wr 32 wt (wr 36 wf app)))) = length app) by (rewrite wr_length; lia).
  auto.
Qed.

Lemma update_ivt_length c x app total cc app' :
  (56 <= length app)%nat -> update_ivt c x app total cc = Ok app' -> length app' = length app.
Proof.
  intros L H. apply update_ivt_inv in H as (wf & wt & wc & wl & H1 & H2 & H3 & H4 & ->).
  apply u32_length in H1, H2, H3, H4.
  now destruct (ivt_chain_lengths app wf wt wc wl H1 H2 H3 H4 L) as (_ & _ & _ & ->).
Qed.

(* The header with the four words replaced.  update_ivt and clean_ivt both produce a frame of their argument, and a
   frame of a frame forgets the inner words: this is all that is used about them below. *)
Definition ivt_frame (d wt wf wc wl : list N) : list N :=
  firstn 32 d ++ wt ++ wf ++ wc ++ slice d 44 52 ++ wl ++ skipn 56 d.

Lemma ivt_frame_self d : (56 <= length d)%nat ->
  exists a b c e, length a = 4%nat /\ length b = 4%nat /\ length c = 4%nat /\ length e = 4%nat /\ d = ivt_frame d a b c e.
Proof.
  intros L. exists (slice d 32 36), (slice d 36 40), (slice d 40 44), (slice d 52 56). rewrite !slice_length by lia.
  repeat split. unfold ivt_frame. rewrite !app_assoc, !firstn_slice_cat by lia. symmetry. apply firstn_skipn.
Qed.

Lemma ivt_frame_length d wt wf wc wl :
  (56 <= length d)%nat -> length wt = 4%nat -> length wf = 4%nat -> length wc = 4%nat -> length wl = 4%nat ->
  length (ivt_frame d wt wf wc wl) = length d.
Proof.
  intros L L1 L2 L3 L4. unfold ivt_frame. rewrite !app_length, firstn_length, skipn_length, slice_length, L1, L2, L3, L4; lia.
Qed.

Lemma ivt_frame_tail d wt wf wc wl :
  (56 <= length d)%nat -> length wt = 4%nat -> length wf = 4%nat -> length wc = 4%nat -> length wl = 4%nat ->
  skipn 56 (ivt_frame d wt wf wc wl) = skipn 56 d.
Proof.
  intros L L1 L2 L3 L4. unfold ivt_frame. rewrite !app_assoc. apply skipn_app_exact.
  rewrite !app_length, firstn_length, slice_length, L1, L2, L3, L4; lia.
Qed.

Lemma ivt_frame_wr d a b c e w :
  (56 <= length d)%nat -> length a = 4%nat -> length b = 4%nat -> length c = 4%nat -> length e = 4%nat -> length w = 4%nat ->
  wr 32 w (ivt_frame d a b c e) = ivt_frame d w b c e /\ wr 36 w (ivt_frame d a b c e) = ivt_frame d a w c e /\
  wr 40 w (ivt_frame d a b c e) = ivt_frame d a b w e /\ wr 52 w (ivt_frame d a b c e) = ivt_frame d a b c w.
Proof.
  intros L La Lb Lc Le Lw.
  assert (L32 : length (firstn 32 d) = 32%nat) by (rewrite firstn_length; lia).
  assert (Lm : length (slice d 44 52) = 8%nat) by (rewrite slice_length; lia).
  unfold ivt_frame. repeat split; rewrite !wr_skip by lia; rewrite wr_head by lia; reflexivity.
Qed.

Lemma ivt_frame_update d wt wf wc wl :
  (56 <= length d)%nat -> length wt = 4%nat -> length wf = 4%nat -> length wc = 4%nat -> length wl = 4%nat ->
  wr 52 wl (wr 40 wc (wr 32 wt (wr 36 wf d))) = ivt_frame d wt wf wc wl.
Proof.
  intros L L1 L2 L3 L4. destruct (ivt_frame_self d L) as (a & b & c & e & La & Lb & Lc & Le & E). rewrite E at 1.
  rewrite (proj1 (proj2 (ivt_frame_wr d a b c e wf L La Lb Lc Le L2))).
  rewrite (proj1 (ivt_frame_wr d a wf c e wt L La L2 Lc Le L1)).
  rewrite (proj1 (proj2 (proj2 (ivt_frame_wr d wt wf c e wc L L1 L2 Lc Le L3)))).
  apply (ivt_frame_wr d wt wf wc e wl); assumption.
Qed.

Lemma ivt_frame_frame d a b c e a' b' c' e' :
  (56 <= length d)%nat -> length a = 4%nat -> length b = 4%nat -> length c = 4%nat -> length e = 4%nat ->
  length a' = 4%nat -> length b' = 4%nat -> length c' = 4%nat -> length e' = 4%nat ->
  ivt_frame (ivt_frame d a b c e) a' b' c' e' = ivt_frame d a' b' c' e'.
Proof.
  intros L La Lb Lc Le La' Lb' Lc' Le'. pose proof (ivt_frame_length d a b c e L La Lb Lc Le) as LF.
  rewrite <- (ivt_frame_update (ivt_frame d a b c e)) by (assumption || lia).
  rewrite (proj1 (proj2 (ivt_frame_wr d a b c e b' L La Lb Lc Le Lb'))).
  rewrite (proj1 (ivt_frame_wr d a b' c e a' L La Lb' Lc Le La')).
  rewrite (proj1 (proj2 (proj2 (ivt_frame_wr d a' b' c e c' L La' Lb' Lc Le Lc')))).
  apply (ivt_frame_wr d a' b' c' e e'); assumption.
Qed.

Lemma update_ivt_form c x app total cc app' :
  (56 <= length app)%nat -> update_ivt c x app total cc = Ok app' ->
  exists wt wf wc wl, u32 (ivt_total c total) = Ok wt /\ u32 (create_flags c x) = Ok wf /\ u32 (ivt_crc c cc) = Ok wc /\
                      u32 (ivt_load c x) = Ok wl /\ app' = ivt_frame app wt wf wc wl.
Proof.
  intros L H. apply update_ivt_inv in H as (wf & wt & wc & wl & H1 & H2 & H3 & H4 & ->).
  exists wt, wf, wc, wl. repeat split; try assumption. apply ivt_frame_update; try eapply u32_length; eassumption.
Qed.

Lemma ivt_words c x app total cc app' :
  (56 <= length app)%nat -> update_ivt c x app total cc = Ok app' ->
  rd32 OFF_LEN app' = ivt_total c total /\ rd32 OFF_FLAGS app' = create_flags c x /\
  rd32 OFF_CRC app' = ivt_crc c cc /\ rd32 OFF_LOAD app' = ivt_load c x.
Proof.
  intros L H. destruct (update_ivt_form _ _ _ _ _ _ L H) as (wt & wf & wc & wl & U1 & U2 & U3 & U4 & ->).
  pose proof (u32_length _ _ U1). pose proof (u32_length _ _ U2). pose proof (u32_length _ _ U3). pose proof (u32_length _ _ U4).
  assert (L32 : length (firstn 32 app) = 32%nat) by (rewrite firstn_length; lia).
  assert (Lm : length (slice app 44 52) = 8%nat) by (rewrite slice_length; lia).
  unfold ivt_frame. rewrite off_len_eq, off_flags_eq, off_crc_eq, off_load_eq.
  repeat split; rewrite ?rd32_skip by lia; apply rd32_word; (lia || assumption).
Qed.

Lemma clean_ivt_form d : (56 <= length d)%nat -> clean_ivt d = ivt_frame d (zeros 4) (zeros 4) (zeros 4) (zeros 4).
Proof.
  intros L. unfold clean_ivt. rewrite off_len_eq, off_flags_eq, off_crc_eq, off_load_eq.
  destruct (ivt_frame_self d L) as (a & b & c & e & La & Lb & Lc & Le & E). rewrite E at 1.
  assert (Z4 : length (zeros 4) = 4%nat) by reflexivity.
  rewrite (proj1 (ivt_frame_wr d a b c e _ L La Lb Lc Le Z4)).
  rewrite (proj1 (proj2 (ivt_frame_wr d _ b c e _ L Z4 Lb Lc Le Z4))).
  rewrite (proj1 (proj2 (proj2 (ivt_frame_wr d _ _ c e _ L Z4 Z4 Lc Le Z4)))).
  apply (ivt_frame_wr d _ _ _ e); assumption.
Qed.

Lemma clean_ivt_frame d a b c e :
  (56 <= length d)%nat -> length a = 4%nat -> length b = 4%nat -> length c = 4%nat -> length e = 4%nat ->
  clean_ivt (ivt_frame d a b c e) = clean_ivt d.
Proof.
  intros L La Lb Lc Le. rewrite !clean_ivt_form by (rewrite ?ivt_frame_length; assumption).
  now apply ivt_frame_frame.
Qed.

Lemma clean_ivt_length app : (56 <= length app)%nat -> length (clean_ivt app) = length app.
Proof. intros L. rewrite clean_ivt_form by exact L. now apply ivt_frame_length. Qed.

Lemma clean_update c x app total cc app' :
  (56 <= length app)%nat -> update_ivt c x app total cc = Ok app' -> clean_ivt app' = clean_ivt app.
Proof.
  intros L H. destruct (update_ivt_form _ _ _ _ _ _ L H) as (wt & wf & wc & wl & L1 & L2 & L3 & L4 & ->).
  apply u32_length in L1, L2, L3, L4. now apply clean_ivt_frame.
Qed.

Lemma update_clean c x app total cc :
  (56 <= length app)%nat -> update_ivt c x (clean_ivt app) total cc = update_ivt c x app total cc.
Proof.
  intros L. unfold update_ivt. fold (ivt_total c total) (ivt_crc c cc) (ivt_load c x).
  destruct (u32 (create_flags c x)) as [wf|] eqn:E1; cbn [bind]; [|reflexivity].
  destruct (u32 (ivt_total c total)) as [wt|] eqn:E2; cbn [bind]; [|reflexivity].
  destruct (u32 (ivt_crc c cc)) as [wc|] eqn:E3; cbn [bind]; [|reflexivity].
  destruct (u32 (ivt_load c x)) as [wl|] eqn:E4; cbn [bind]; [|reflexivity].
  apply u32_length in E1, E2, E3, E4. rewrite off_len_eq, off_flags_eq, off_crc_eq, off_load_eq. f_equal.
  rewrite !ivt_frame_update by (rewrite ?clean_ivt_length; assumption).
  rewrite clean_ivt_form by exact L. now apply ivt_frame_frame.
Qed.

(* ------------------------------------------------------------------ image flags (IVT word 0x24) *)
Lemma lor_add_hi a b k : 0 <= k -> 0 <= a < 2 ^ k -> 0 <= b -> Z.lor a (Z.shiftl b k) = a + b * 2 ^ k.
Proof.
  intros Hk Ha Hb. rewrite Z.shiftl_mul_pow2 by assumption.
  assert (L : Z.land a (b * 2 ^ k) = 0).
  { rewrite <- (Z.mod_small a (2 ^ k)) by assumption. rewrite <- Z.land_ones by assumption.
    rewrite <- Z.land_assoc. rewrite (Z.land_comm (Z.ones k)). rewrite Z.land_ones by assumption.
    rewrite Z.mod_mul by lia. apply Z.land_0_r. }
  rewrite <- Z.lxor_lor by assumption. symmetry. now apply Z.add_nocarry_lxor.
Qed.

Lemma lor_swap a b c : Z.lor (Z.lor a b) c = Z.lor (Z.lor a c) b.
Proof. now rewrite <- !Z.lor_assoc, (Z.lor_comm b c). Qed.

Lemma lor_if_field (b : bool) f v k : (if b then Z.lor f (Z.shiftl v k) else f) = Z.lor f (Z.shiftl (if b then v else 0) k).
Proof. destruct b; [reflexivity|]. now rewrite Z.shiftl_0_l, Z.lor_0_r. Qed.
Lemma lor_if_bit (b : bool) f k : 0 <= k -> (if b then Z.lor f (2 ^ k) else f) = Z.lor f (Z.shiftl (Z.b2z b) k).
Proof. intros H. destruct b; cbn [Z.b2z]; [now rewrite Z.shiftl_1_l | now rewrite Z.shiftl_0_l, Z.lor_0_r]. Qed.

Definition has_table (x : mbi) : bool := match m_table x with Some _ => true | None => false end.

Lemma tz_tag_range t : 0 <= tz_tag t < 3. Proof. destruct t; cbv; split; congruence. Qed.

(* the flags word as a sum of disjoint fields, lowest first: image type, sub-type, version-present, relocation table,
   user key, TrustZone type, key store, image version *)
Lemma create_flags_sum c x :
  0 <= c_type c < 64 -> 0 <= m_subtype x < 4 -> 0 <= m_imgver x ->
  let sb := if has_attr c AImageSubtype then m_subtype x else 0 in
  let tzv := if has_tz c then tz_tag (m_tz x) else 0 in
  let vv := if has_attr c AImageVersion then m_imgver x else 0 in
  create_flags c x =
  c_type c + sb * 64 + Z.b2z (negb (vv =? 0)) * 1024 + Z.b2z (has_attr c AAppTable && has_table x) * 2048 +
  Z.b2z (has_attr c AHwKey && m_hwkey x) * 4096 + tzv * 8192 + Z.b2z (has_attr c AKeyStore && truthy_ks (m_ks x)) * 32768 +
  vv * 65536.
Proof.
  intros H1 H2 H3 sb tzv vv. pose proof (tz_tag_range (m_tz x)) as T.
  assert (Rs : 0 <= sb < 4) by (subst sb; destruct (has_attr c AImageSubtype); lia).
  assert (Rt : 0 <= tzv < 3) by (subst tzv; destruct (has_tz c); lia).
  assert (Rv : 0 <= vv) by (subst vv; destruct (has_attr c AImageVersion); lia).
  assert (BR : forall b, 0 <= Z.b2z b <= 1) by (intros [|]; simpl; lia).
  set (hw := has_attr c AHwKey && m_hwkey x). set (ks := has_attr c AKeyStore && truthy_ks (m_ks x)).
  set (tb := has_attr c AAppTable && has_table x). set (vb := negb (vv =? 0)).
  pose proof (BR hw). pose proof (BR ks). pose proof (BR tb). pose proof (BR vb).
  assert (E : create_flags c x =
              Z.lor (Z.lor (Z.lor (Z.lor (Z.lor (Z.lor (Z.lor (c_type c) (Z.shiftl tzv 13)) (Z.shiftl sb 6)) (Z.shiftl (Z.b2z hw) 12))
                                        (Z.shiftl (Z.b2z ks) 15)) (Z.shiftl (Z.b2z tb) 11)) (Z.shiftl (Z.b2z vb) 10)) (Z.shiftl vv 16)).
  { unfold create_flags. fold (has_table x). fold hw ks tb.
    change G_IVT_IMAGE_FLAGS_TZ_TYPE_SHIFT with 13. change G_IVT_IMAGE_FLAGS_SUB_TYPE_SHIFT with 6.
    change G_HW_USER_KEY_EN_FLAG with (2 ^ 12). change G_KEY_STORE_FLAG with (2 ^ 15).
    change G_RELOC_TABLE_FLAG with (2 ^ 11). change G_BOOT_IMAGE_VERSION_FLAG with (2 ^ 10).
    rewrite !lor_if_field, !lor_if_bit by lia. fold tzv sb.
    subst vb vv. destruct (has_attr c AImageVersion); cbn [andb].
    - destruct (m_imgver x =? 0) eqn:V; cbn [negb Z.b2z]; [|now rewrite Z.shiftl_1_l].
      apply Z.eqb_eq in V. now rewrite V, !Z.shiftl_0_l, !Z.lor_0_r.
    - now rewrite !Z.shiftl_0_l, !Z.lor_0_r. }
  rewrite E. clear E.
  (* into bit order, then one field after the other on top of what is below it *)
  rewrite (lor_swap _ (Z.shiftl tzv 13) (Z.shiftl sb 6)), (lor_swap _ (Z.shiftl tzv 13) (Z.shiftl (Z.b2z hw) 12)).
  rewrite (lor_swap _ (Z.shiftl (Z.b2z ks) 15) (Z.shiftl (Z.b2z tb) 11)), (lor_swap _ (Z.shiftl tzv 13) (Z.shiftl (Z.b2z tb) 11)),
          (lor_swap _ (Z.shiftl (Z.b2z hw) 12) (Z.shiftl (Z.b2z tb) 11)).
  rewrite (lor_swap _ (Z.shiftl (Z.b2z ks) 15) (Z.shiftl (Z.b2z vb) 10)), (lor_swap _ (Z.shiftl tzv 13) (Z.shiftl (Z.b2z vb) 10)),
          (lor_swap _ (Z.shiftl (Z.b2z hw) 12) (Z.shiftl (Z.b2z vb) 10)), (lor_swap _ (Z.shiftl (Z.b2z tb) 11) (Z.shiftl (Z.b2z vb) 10)).
  rewrite (lor_add_hi (c_type c)) by lia. change (2 ^ 6) with 64.
  rewrite (lor_add_hi _ (Z.b2z vb)) by lia. change (2 ^ 10) with 1024.
  rewrite (lor_add_hi _ (Z.b2z tb)) by lia. change (2 ^ 11) with 2048.
  rewrite (lor_add_hi _ (Z.b2z hw)) by lia. change (2 ^ 12) with 4096.
  rewrite (lor_add_hi _ tzv) by lia. change (2 ^ 13) with 8192.
  rewrite (lor_add_hi _ (Z.b2z ks)) by lia. change (2 ^ 15) with 32768.
  rewrite (lor_add_hi _ vv) by lia. reflexivity.
Qed.

Lemma land_pow2 v k : 0 <= k -> Z.land v (2 ^ k) = ((v / 2 ^ k) mod 2) * 2 ^ k.
Proof.
  intros Hk. apply Z.bits_inj'. intros n Hn. rewrite Z.land_spec, Z.pow2_bits_eqb by assumption.
  rewrite <- Z.shiftl_mul_pow2, <- Z.shiftr_div_pow2 by assumption.
  change 2 with (2 ^ 1) at 1. rewrite <- Z.land_ones by lia.
  rewrite Z.shiftl_spec by assumption.
  destruct (Z.eqb_spec k n) as [->|Ne].
  - rewrite andb_true_r, Z.land_spec, Z.shiftr_spec by lia. replace (n - n) with 0 by lia.
    rewrite Z.ones_spec_low by lia. now rewrite andb_true_r.
  - rewrite andb_false_r. symmetry. destruct (Z.ltb_spec n k) as [Lt|Ge]; [apply Z.testbit_neg_r; lia|].
    rewrite Z.land_spec, Z.ones_spec_high by lia. apply andb_false_r.
Qed.

(* the field of width q at weight p of a sum of disjoint fields *)
Lemma field_extract lo f hi p q : 0 < p -> 0 < q -> 0 <= lo < p -> 0 <= f < q -> ((lo + f * p + hi * (p * q)) / p) mod q = f.
Proof.
  intros Hp Hq Hl Hf. replace (lo + f * p + hi * (p * q)) with (lo + (f + hi * q) * p) by ring.
  rewrite Z.div_add, Z.div_small, Z.add_0_l, Z.mod_add, Z.mod_small by lia. reflexivity.
Qed.
Lemma bit_extract lo (b : bool) hi k : 0 <= k -> 0 <= lo < 2 ^ k ->
  negb (Z.land (lo + Z.b2z b * 2 ^ k + hi * (2 ^ k * 2)) (2 ^ k) =? 0) = b.
Proof.
  intros Hk Hl. rewrite land_pow2 by exact Hk. rewrite field_extract by (destruct b; simpl; lia).
  destruct b; cbn [Z.b2z]; [|reflexivity]. destruct (Z.eqb_spec (1 * 2 ^ k) 0); [lia | reflexivity].
Qed.

(* what the parser computes from the word: every field comes back *)
Lemma flags_decode_lemma c x :
  0 <= c_type c < 64 -> 0 <= m_subtype x < 4 -> 0 <= m_imgver x < 65536 ->
  let f := create_flags c x in
  0 <= f < 4294967296 /\
  Z.land f G_IVT_IMAGE_FLAGS_IMAGE_TYPE_MASK = c_type c /\
  Z.land (Z.shiftr f G_IVT_IMAGE_FLAGS_TZ_TYPE_SHIFT) G_IVT_IMAGE_FLAGS_TZ_TYPE_MASK = (if has_tz c then tz_tag (m_tz x) else 0) /\
  Z.land (Z.shiftr f G_IVT_IMAGE_FLAGS_SUB_TYPE_SHIFT) G_IVT_IMAGE_FLAGS_SUB_TYPE_MASK = (if has_attr c AImageSubtype then m_subtype x else 0) /\
  negb (Z.land f G_HW_USER_KEY_EN_FLAG =? 0) = (has_attr c AHwKey && m_hwkey x) /\
  negb (Z.land f G_KEY_STORE_FLAG =? 0) = (has_attr c AKeyStore && truthy_ks (m_ks x)) /\
  negb (Z.land f G_RELOC_TABLE_FLAG =? 0) = (has_attr c AAppTable && has_table x) /\
  (if negb (Z.land f G_BOOT_IMAGE_VERSION_FLAG =? 0)
   then Z.land (Z.shiftr f G_IVT_IMAGE_FLAGS_IMG_VER_SHIFT) G_IVT_IMAGE_FLAGS_IMG_VER_MASK else 0)
  = (if has_attr c AImageVersion then m_imgver x else 0).
Proof.
  intros H1 H2 H3 f. subst f. rewrite create_flags_sum by lia. cbv zeta.
  pose proof (tz_tag_range (m_tz x)) as T.
  set (hw := has_attr c AHwKey && m_hwkey x). set (ks := has_attr c AKeyStore && truthy_ks (m_ks x)).
  set (tb := has_attr c AAppTable && has_table x).
  set (tzv := if has_tz c then tz_tag (m_tz x) else 0). set (sb := if has_attr c AImageSubtype then m_subtype x else 0).
  set (vv := if has_attr c AImageVersion then m_imgver x else 0). set (vb := negb (vv =? 0)).
  assert (Rt : 0 <= tzv < 3) by (subst tzv; destruct (has_tz c); lia).
  assert (Rs : 0 <= sb < 4) by (subst sb; destruct (has_attr c AImageSubtype); lia).
  assert (Rv : 0 <= vv < 65536) by (subst vv; destruct (has_attr c AImageVersion); lia).
  assert (BR : forall b, 0 <= Z.b2z b <= 1) by (intros [|]; simpl; lia).
  pose proof (BR hw) as B1. pose proof (BR ks) as B2. pose proof (BR tb) as B3. pose proof (BR vb) as B4.
  set (F := c_type c + sb * 64 + Z.b2z vb * 1024 + Z.b2z tb * 2048 + Z.b2z hw * 4096 + tzv * 8192 + Z.b2z ks * 32768 + vv * 65536).
  change G_IVT_IMAGE_FLAGS_IMAGE_TYPE_MASK with (Z.ones 6). change G_IVT_IMAGE_FLAGS_TZ_TYPE_MASK with (Z.ones 2).
  change G_IVT_IMAGE_FLAGS_SUB_TYPE_MASK with (Z.ones 2). change G_IVT_IMAGE_FLAGS_IMG_VER_MASK with (Z.ones 16).
  change G_IVT_IMAGE_FLAGS_TZ_TYPE_SHIFT with 13. change G_IVT_IMAGE_FLAGS_SUB_TYPE_SHIFT with 6.
  change G_IVT_IMAGE_FLAGS_IMG_VER_SHIFT with 16.
  change G_HW_USER_KEY_EN_FLAG with (2 ^ 12). change G_KEY_STORE_FLAG with (2 ^ 15).
  change G_RELOC_TABLE_FLAG with (2 ^ 11). change G_BOOT_IMAGE_VERSION_FLAG with (2 ^ 10).
  rewrite !Z.land_ones, !Z.shiftr_div_pow2 by lia.
  assert (VER : (F / 2 ^ 16) mod 2 ^ 16 = vv).
  { replace F with (F - vv * 65536 + vv * 2 ^ 16 + 0 * (2 ^ 16 * 2 ^ 16)) by (unfold F; lia). apply field_extract; unfold F; lia. }
  split; [unfold F; lia|]. split; [|split; [|split; [|split; [|split; [|split]]]]].
  - replace F with (c_type c + (sb + Z.b2z vb * 16 + Z.b2z tb * 32 + Z.b2z hw * 64 + tzv * 128 + Z.b2z ks * 512 + vv * 1024) * 2 ^ 6)
      by (unfold F; lia). rewrite Z.mod_add by lia. apply Z.mod_small. lia.
  - replace F with (F - tzv * 8192 - Z.b2z ks * 32768 - vv * 65536 + tzv * 2 ^ 13 + (Z.b2z ks + vv * 2) * (2 ^ 13 * 2 ^ 2)) by (unfold F; lia).
    apply field_extract; unfold F; lia.
  - replace F with (c_type c + sb * 2 ^ 6 + (Z.b2z vb * 4 + Z.b2z tb * 8 + Z.b2z hw * 16 + tzv * 32 + Z.b2z ks * 128 + vv * 256) * (2 ^ 6 * 2 ^ 2)) by (unfold F; lia).
    apply field_extract; lia.
  - replace F with (F - Z.b2z hw * 4096 - tzv * 8192 - Z.b2z ks * 32768 - vv * 65536 + Z.b2z hw * 2 ^ 12 + (tzv + Z.b2z ks * 4 + vv * 8) * (2 ^ 12 * 2))
      by (unfold F; lia). apply bit_extract; unfold F; lia.
  - replace F with (F - Z.b2z ks * 32768 - vv * 65536 + Z.b2z ks * 2 ^ 15 + vv * (2 ^ 15 * 2)) by (unfold F; lia).
    apply bit_extract; unfold F; lia.
  - replace F with (c_type c + sb * 64 + Z.b2z vb * 1024 + Z.b2z tb * 2 ^ 11 + (Z.b2z hw + tzv * 2 + Z.b2z ks * 8 + vv * 16) * (2 ^ 11 * 2))
      by (unfold F; lia). apply bit_extract; lia.
  - replace F with (c_type c + sb * 64 + Z.b2z vb * 2 ^ 10 + (Z.b2z tb + Z.b2z hw * 2 + tzv * 4 + Z.b2z ks * 16 + vv * 32) * (2 ^ 10 * 2)) at 1
      by (unfold F; lia). rewrite bit_extract by lia. rewrite VER. subst vb.
    destruct (Z.eqb_spec vv 0) as [->|]; reflexivity.
Qed.

(* ------------------------------------------------------------------ the mixin enumeration *)
Lemma mixin_of_id_id m : mixin_of_id (mixin_id m) = Some m.
Proof. destruct m; reflexivity. Qed.

Lemma mixin_id_inj a b : mixin_id a = mixin_id b -> a = b.
Proof. intros H. apply (f_equal mixin_of_id) in H. rewrite !mixin_of_id_id in H. now injection H. Qed.

Lemma mixin_eqb_eq a b : mixin_eqb a b = true <-> a = b.
Proof. unfold mixin_eqb. rewrite Z.eqb_eq. split; [apply mixin_id_inj | now intros ->]. Qed.

Lemma in_all_mixins m : In m all_mixins.
Proof. pose proof (mixin_of_id_id m) as H. apply find_some in H. apply H. Qed.

(* a stage provider read off its identifier (0 stands for "none") *)
Lemma opt_id_eq m p : opt_mixin_id p = mixin_id m -> p = Some m.
Proof.
  destruct p as [m'|]; cbn [opt_mixin_id]; intros H; [f_equal; now apply mixin_id_inj|].
  destruct m; discriminate H.
Qed.

(* Python refuses a class with a duplicate base; so every real class has a duplicate-free mixin list *)
Fixpoint nodupb (l : list mixin) : bool :=
  match l with [] => true | m :: t => negb (existsb (mixin_eqb m) t) && nodupb t end.
