(* Proofs/AhabProofs.v -- lemmas about Model/AhabModel.v (C06). *)
From Coq Require Import ZArith NArith List Bool Lia.
Require Import Value Bytes BytesProofs Sha2 Aes Modes CryptoProofs GenMisc GenAhab AhabModel.
Require Writes.
Import ListNotations.
Local Open Scope Z_scope.
Lemma le_length w z : length (le w z) = w.
Proof. apply le_enc_length. Qed.

Lemma fits_spec w z : fits w z = true <-> 0 <= z < 2 ^ (8 * Z.of_nat w).
Proof. unfold fits. rewrite andb_true_iff, Z.leb_le, Z.ltb_lt. tauto. Qed.

Lemma fits_N w z : fits w z = true -> (Z.to_N z < 2 ^ (8 * N.of_nat w))%N.
Proof.
  intros H. apply fits_spec in H. destruct H as [H0 H1].
  apply N2Z.inj_lt. rewrite Z2N.id by assumption. rewrite N2Z.inj_pow, N2Z.inj_mul, nat_N_Z. exact H1.
Qed.

(* reading back a field that sits, as exported, at a literal position *)
Lemma rd_field l off w z :
  slice l off (off + w) = le w z -> fits w z = true -> rd l off w = z.
Proof.
  intros Hs Hf. unfold rd. rewrite Hs. unfold le. rewrite le_dec_enc_small by now apply fits_N.
  apply Z2N.id. apply fits_spec in Hf. lia.
Qed.

Lemma fit_s_exact n l : length l = n -> fit_s n l = l.
Proof. intros H. unfold fit_s. rewrite <- H, firstn_all, Nat.sub_diag. simpl. apply app_nil_r. Qed.

Lemma fit_s_length n l : length (fit_s n l) = n.
Proof. unfold fit_s. rewrite app_length, firstn_length, repeat_length. lia. Qed.

(* lengths of concatenations, as linear arithmetic over the lengths of the parts *)
Ltac len := unfold zlen' in *; rewrite ?app_length, ?repeat_length, ?le_length, ?fit_s_length; cbn [length]; lia.

(* a payload standing behind fields of literal widths: the fields are skipped by computation *)
Lemma slice_at {A} (l x post : list A) a b : skipn a l = x ++ post -> (a + length x = b)%nat -> slice l a b = x.
Proof. intros E <-. unfold slice. rewrite E. apply firstn_app_exact. lia. Qed.

Lemma fits1_of_In x l : In x l -> forallb (fits 1) l = true -> fits 1 x = true.
Proof. intros H F. rewrite forallb_forall in F. now apply F. Qed.

Lemma existsb_In_Z x l : In x l -> existsb (Z.eqb x) l = true.
Proof. intros H. apply existsb_exists. exists x. split; [assumption|apply Z.eqb_refl]. Qed.

(* check_container_head accepts what the exporters write: version, length, tag in the first four bytes *)
Lemma head_ok_export tag vers v L l n :
  firstn 4 l = le 1 v ++ le 2 L ++ le 1 tag -> fits 1 v = true -> fits 2 L = true -> fits 1 tag = true -> In v vers ->
  (n <= length l)%nat -> L <= zlen' l -> head_ok tag vers l n = true.
Proof.
  intros E Fv FL Ft Hv Hn HL. unfold head_ok.
  assert (S : forall a b, (b <= 4)%nat -> slice l a b = slice (le 1 v ++ le 2 L ++ le 1 tag) a b)
    by (intros a b Hb; rewrite <- E; symmetry; now apply slice_firstn).
  rewrite (rd_field l 0 1 v), (rd_field l 1 2 L), (rd_field l 3 1 tag) by first [assumption | now rewrite S by (cbn; lia)].
  now rewrite Z.eqb_refl, (existsb_In_Z _ _ Hv), (proj2 (Nat.leb_le _ _)), (proj2 (Z.leb_le _ _)).
Qed.

Definition iae_wire (e : iae) : iae :=
  {| i_raw_off := i_raw_off e; i_size := i_size e; i_load := i_load e; i_entry := i_entry e; i_flags := i_flags e;
     i_meta := i_meta e; i_hash := i_hash e; i_iv := i_iv e; i_image := []; i_plain := []; i_gap := 0; i_size_align := 0;
     i_ele := false |}.

Lemma iae_roundtrip_l e rest :
  iae_fmt_ok e = true -> length (i_hash e) = 64%nat -> length (i_iv e) = 32%nat ->
  iae_parse (iae_bytes e ++ rest) = iae_wire e.
Proof.
  intros Hf Hh Hi. unfold iae_fmt_ok in Hf. do 5 (apply andb_true_iff in Hf; destruct Hf as [Hf ?]).
  unfold iae_parse, iae_bytes. rewrite (fit_s_exact 64), (fit_s_exact 32) by assumption. set (l := _ ++ rest).
  rewrite (rd_field l 0 4 (i_raw_off e)), (rd_field l 4 4 (i_size e)), (rd_field l 8 8 (i_load e)), (rd_field l 16 8 (i_entry e)),
    (rd_field l 24 4 (i_flags e)), (rd_field l 28 4 (i_meta e)) by (reflexivity || assumption).
  rewrite (slice_at l (i_hash e) (i_iv e ++ rest) 32 96), (slice_at l (i_iv e) rest 96 128); try reflexivity; try lia.
  - change 96%nat with (32 + 64)%nat. rewrite skipn_add. change (skipn 32 l) with ((i_hash e ++ i_iv e) ++ rest).
    rewrite <- app_assoc. now apply skipn_app_exact.
  - symmetry. apply app_assoc.
Qed.

Example iae_roundtrip_nonvacuous :
  let e := {| i_raw_off := 8192; i_size := 1024; i_load := 2 ^ 64 - 8; i_entry := 4096; i_flags := 275; i_meta := 0;
              i_hash := repeat 7%N 64; i_iv := repeat 0%N 32; i_image := []; i_plain := []; i_gap := 0; i_size_align := 0;
              i_ele := false |} in
  iae_fmt_ok e = true /\ length (i_hash e) = 64%nat /\ length (i_iv e) = 32%nat.
Proof. vm_compute. repeat split. Qed.

Lemma header_roundtrip_l v2 length flags sw fuse nimg sbo_ rest :
  fits 2 length = true -> fits 4 flags = true -> fits 2 sw = true -> fits 1 fuse = true -> fits 1 nimg = true ->
  fits 2 sbo_ = true -> length <= 16 + zlen' rest ->
  header_parse v2 (header_bytes_raw (gen_version_container v2) length flags sw fuse nimg sbo_ ++ rest)
  = Ok (length, flags, sw, fuse, nimg, sbo_).
Proof.
  intros H1 H2 H3 H4 H5 H6 Hl. unfold header_parse, header_bytes_raw.
  rewrite (head_ok_export _ _ (gen_version_container v2) length) by first [assumption | reflexivity | now destruct v2 | now left | len].
  repeat f_equal; apply rd_field; (reflexivity || assumption).
Qed.

(* the parser never reads the reserved half word at offset 14: a flip there cannot change the parsed object *)
Lemma header_parse_ignores_reserved v2 l l' :
  length l = length l' -> firstn 14 l = firstn 14 l' -> header_parse v2 l = header_parse v2 l'.
Proof.
  intros HL HF. unfold header_parse, head_ok, rd, zlen'. rewrite HL.
  assert (S : forall a b, (b <= 14)%nat -> slice l a b = slice l' a b).
  { intros a b Hb. rewrite <- (slice_firstn l a b 14), <- (slice_firstn l' a b 14) by assumption. now rewrite HF. }
  rewrite !(S _ _) by (simpl; lia). reflexivity.
Qed.

Lemma le_enc_dec_Z l w : wf_bytes l -> length l = w -> le w (Z.of_N (le_dec l)) = l.
Proof. intros W <-. unfold le. rewrite N2Z.id. now apply le_enc_dec. Qed.

Lemma wf_slice l a b : wf_bytes l -> wf_bytes (slice l a b).
Proof. intros W. unfold slice. now apply wf_bytes_firstn, wf_bytes_skipn. Qed.

Lemma nth_firstn_lt {A} (d : A) : forall n i (l : list A), (i < n)%nat -> nth i (firstn n l) d = nth i l d.
Proof.
  induction n as [|n IH]; intros i l H; [lia|]. destruct l as [|a t]; [now destruct i|].
  destruct i as [|i]; [reflexivity|]. cbn [firstn nth]. apply IH. lia.
Qed.

(* an "as parsed" record pins the bytes it was taken from *)
Lemma eqb_list_pins x (u v : list N) : eqb_list x u = true -> u <> v -> eqb_list x v = false.
Proof. intros H D. apply eqb_list_spec in H. subst x. destruct (eqb_list u v) eqn:E; [|reflexivity]. now apply eqb_list_spec in E. Qed.

Example tamper_header_nonvacuous :
  let l := [0; 16; 0; 135; 2; 0; 0; 0; 7; 0; 3; 0; 16; 0; 0; 0]%N in
  let l' := [0; 16; 0; 135; 2; 0; 0; 0; 7; 0; 3; 0; 16; 0; 1; 0]%N in
  header_parse false l = Ok (16, 2, 7, 3, 0, 16) /\ header_as_parsed false l (16, 2, 7, 3, 0, 16) = true /\
  firstn 14 l = firstn 14 l' /\ firstn 16 l <> firstn 16 l'.
Proof. repeat split; try reflexivity. vm_compute. intros E; discriminate E. Qed.

Lemma check_passes_spec n f k lo hi v : (k = 0 \/ k = 1) ->
  check_passes (n, f, k, lo, hi) v = true <-> lo <= v <= hi.
Proof.
  intros [-> | ->]; unfold check_passes, py_check_range; simpl.
  - destruct (v <? lo) eqn:E1, (hi <? v) eqn:E2; simpl; split; intros; try discriminate; try reflexivity; lia.
  - destruct (v <? lo) eqn:E1, (hi <? v) eqn:E2; simpl; split; intros; try discriminate; try reflexivity; lia.
Qed.

Lemma failing_checks_cons fld n f k lo hi t id : (k = 0 \/ k = 1) ->
  In id (failing_checks fld ((n, f, k, lo, hi) :: t)) <-> (id = n /\ ~ lo <= fld f <= hi) \/ In id (failing_checks fld t).
Proof.
  intros Hk. unfold failing_checks. cbn [filter chk_field]. pose proof (check_passes_spec n f k lo hi (fld f) Hk) as P.
  destruct (check_passes (n, f, k, lo, hi) (fld f)); cbn [negb map In chk_name].
  - split; [auto|]. intros [[_ H]|H]; [|exact H]. exfalso. now apply H, P.
  - split.
    + intros [<-|H]; [left; split; [reflexivity|]; intros Q; apply P in Q; discriminate | right; exact H].
    + intros [[-> _]|H]; [now left | now right].
Qed.

Lemma zalign_ge n a : 0 < a -> n <= zalign n a.
Proof.
  intros H. unfold zalign. pose proof (Z.div_mod (n + (a - 1)) a). pose proof (Z.mod_pos_bound (n + (a - 1)) a). lia.
Qed.

Lemma zalign_mod n a : 0 < a -> zalign n a mod a = 0.
Proof. intros H. unfold zalign. apply Z.mod_mul. lia. Qed.

Lemma valid_align_pos p e : 0 < Z.max (valid_alignment p e) (p_min_align p).
Proof. unfold valid_alignment. destruct (i_ele e); lia. Qed.

Lemma valid_offset_ge p e x : x <= valid_offset p e x.
Proof. apply zalign_ge, valid_align_pos. Qed.

(* (absolute offset, size, gap) of the images of one container *)
Definition spans1 (coff : Z) (l : list iae) : list (Z * Z * Z) := map (fun e => (i_raw_off e + coff, i_size e, i_gap e)) l.
Definition spans (cs : list container) : list (Z * Z * Z) := concat (map (fun c => spans1 (c_coff c) (c_images c)) cs).

(* every image starts at or after the end (+ gap) of the previous one, the first one at or after lo *)
Fixpoint gchain (lo : Z) (l : list (Z * Z * Z)) : Prop :=
  match l with [] => True | (a, s, g) :: t => lo <= a /\ gchain (a + s + g) t end.
Fixpoint gend (lo : Z) (l : list (Z * Z * Z)) : Z := match l with [] => lo | (a, s, g) :: t => gend (a + s + g) t end.
Fixpoint all_after (hi : Z) (l : list (Z * Z * Z)) : Prop :=
  match l with [] => True | (a, _, _) :: t => hi <= a /\ all_after hi t end.
Fixpoint pairwise_disjoint (l : list (Z * Z * Z)) : Prop :=
  match l with [] => True | (a, s, _) :: t => all_after (a + s) t /\ pairwise_disjoint t end.
Definition nonneg (l : list (Z * Z * Z)) : Prop := Forall (fun x => 0 <= snd (fst x) /\ 0 <= snd x) l.

Lemma gchain_mono lo lo' l : lo' <= lo -> gchain lo l -> gchain lo' l.
Proof. destruct l as [|[[a s] g] t]; simpl; [auto|]. intros H [H1 H2]. split; [lia|assumption]. Qed.

Lemma gchain_app lo l1 l2 : gchain lo (l1 ++ l2) <-> gchain lo l1 /\ gchain (gend lo l1) l2.
Proof.
  revert lo; induction l1 as [|[[a s] g] t IH]; intros lo; simpl; [tauto|]. rewrite IH. tauto.
Qed.

Lemma gend_app lo l1 l2 : gend lo (l1 ++ l2) = gend (gend lo l1) l2.
Proof. revert lo; induction l1 as [|[[a s] g] t IH]; intros lo; simpl; [reflexivity|apply IH]. Qed.

Lemma gchain_all_after lo l : nonneg l -> gchain lo l -> all_after lo l.
Proof.
  revert lo; induction l as [|[[a s] g] t IH]; intros lo N; simpl; [auto|].
  inversion N as [|? ? [Hs Hg] Nt]; subst; simpl in *. intros [H1 H2]. split; [assumption|].
  apply IH; [assumption|]. eapply gchain_mono; [|exact H2]. lia.
Qed.

Lemma gchain_disjoint lo l : nonneg l -> gchain lo l -> pairwise_disjoint l.
Proof.
  revert lo; induction l as [|[[a s] g] t IH]; intros lo N; simpl; [auto|].
  inversion N as [|? ? [Hs Hg] Nt]; subst; simpl in *. intros [H1 H2]. split.
  - apply gchain_all_after; [assumption|]. eapply gchain_mono; [|exact H2]. lia.
  - eapply IH; eauto.
Qed.

(* side condition for preset offsets: a preset image must not start before the running offset *)
Fixpoint presets_ok (p : params) (coff off : Z) (l : list iae) : Prop :=
  match l with
  | [] => True
  | e :: t => let abs := i_raw_off e + coff in
              if 0 <? abs then off <= abs /\ presets_ok p coff (valid_offset p e (abs + i_size e + i_gap e)) t
              else presets_ok p coff (valid_offset p e (off + i_size e + i_gap e)) t
  end.

Lemma gend_mono lo lo' l : lo <= lo' -> gend lo l <= gend lo' l.
Proof. destruct l as [|[[a s] g] t]; simpl; lia. Qed.

Lemma assign_images_chain p coff : forall l off,
  presets_ok p coff off l ->
  let r := assign_images p coff off l in
  gchain off (spans1 coff (snd r)) /\ gend off (spans1 coff (snd r)) <= fst r /\
  map (fun e => (i_size e, i_gap e)) (snd r) = map (fun e => (i_size e, i_gap e)) l.
Proof.
  induction l as [|e t IH]; intros off HP; cbn [assign_images]; [simpl; repeat split; lia|].
  cbn [presets_ok] in HP. cbv zeta in HP.
  (* the offset the image gets (preset or running) and the entry as stored *)
  set (oe := if 0 <? i_raw_off e + coff then (i_raw_off e + coff, e) else (off, set_off e (off - coff))).
  assert (Ho : off <= fst oe /\ i_raw_off (snd oe) + coff = fst oe /\ (i_size (snd oe), i_gap (snd oe)) = (i_size e, i_gap e) /\
               presets_ok p coff (valid_offset p e (fst oe + i_size e + i_gap e)) t).
  { unfold oe. destruct (0 <? i_raw_off e + coff); cbn [fst snd set_off i_raw_off i_size i_gap]; repeat split; try lia; apply HP. }
  destruct oe as [o e']. cbn [fst snd] in Ho. destruct Ho as (H1 & H2 & H3 & H4). specialize (IH _ H4).
  destruct (assign_images p coff (valid_offset p e (o + i_size e + i_gap e)) t) as [off' t']. cbn [fst snd] in *.
  destruct IH as (I1 & I2 & I3). injection H3 as H3 H3'. pose proof (valid_offset_ge p e (o + i_size e + i_gap e)) as V.
  cbn [spans1 map gchain gend]. fold (spans1 coff t'). rewrite H2, H3, H3', I3. repeat split; [exact H1 | | ].
  - eapply gchain_mono; eassumption.
  - etransitivity; [apply gend_mono, V | exact I2].
Qed.

Fixpoint presets_ok_all (p : params) (off : Z) (cs : list container) : Prop :=
  match cs with
  | [] => True
  | c :: t => presets_ok p (c_coff c) off (c_images c)
              /\ presets_ok_all p (fst (assign_images p (c_coff c) off (c_images c))) t
  end.

Definition size_gap (cs : list container) := map (fun c => map (fun e => (i_size e, i_gap e)) (c_images c)) cs.

Lemma assign_offsets_chain p : forall cs off,
  presets_ok_all p off cs ->
  gchain off (spans (assign_offsets p off cs)) /\ size_gap (assign_offsets p off cs) = size_gap cs.
Proof.
  induction cs as [|c t IH]; intros off HP; cbn [assign_offsets]; [simpl; auto|].
  destruct HP as [H1 H2]. pose proof (assign_images_chain p (c_coff c) (c_images c) off H1) as A.
  destruct (assign_images p (c_coff c) off (c_images c)) as [off' l'] eqn:E. cbn [fst snd] in *.
  destruct A as (A1 & A2 & A3). specialize (IH _ H2) as [I1 I2].
  unfold spans, size_gap in *. cbn [map concat set_images c_coff c_images]. split.
  - apply gchain_app. split; [assumption|]. eapply gchain_mono; [|exact I1]. assumption.
  - f_equal; assumption.
Qed.

(* sizes and gaps of the spans are those of the entries: offsets do not enter *)
Lemma spans_size_gap cs : map (fun x => (snd (fst x), snd x)) (spans cs) = concat (size_gap cs).
Proof.
  unfold spans, size_gap, spans1. rewrite concat_map, !map_map. f_equal. apply map_ext. intros c. now rewrite map_map.
Qed.

Lemma nonneg_of_size_gap cs cs' :
  size_gap cs' = size_gap cs ->
  (forall c e, In c cs -> In e (c_images c) -> 0 <= i_size e /\ 0 <= i_gap e) -> nonneg (spans cs').
Proof.
  intros E H. apply (Forall_map (fun x => (snd (fst x), snd x)) (fun sg => 0 <= fst sg /\ 0 <= snd sg)).
  rewrite spans_size_gap, E. apply Forall_concat, Forall_map, Forall_forall. intros c Hc.
  apply Forall_map, Forall_forall. intros e He. exact (H c e Hc He).
Qed.

Lemma auto_presets_ok p coff : forall l off, (forall e, In e l -> i_raw_off e + coff <= 0) -> presets_ok p coff off l.
Proof.
  induction l as [|e t IH]; intros off H; cbn [presets_ok]; [exact I|].
  replace (0 <? i_raw_off e + coff) with false by (symmetry; apply Z.ltb_ge; apply H; now left).
  apply IH. intros x Hx. apply H. now right.
Qed.

Lemma auto_presets_ok_all p : forall cs off,
  (forall c e, In c cs -> In e (c_images c) -> i_raw_off e + c_coff c <= 0) -> presets_ok_all p off cs.
Proof.
  induction cs as [|c t IH]; intros off H; cbn [presets_ok_all]; [exact I|]. split.
  - apply auto_presets_ok. intros e He. apply (H c e); [now left|assumption].
  - apply IH. intros c0 e0 Hc0. apply H. now right.
Qed.

(* explicit (preset) offsets: pairwise disjoint, in configuration order, none before the start address -- under the stated
   side condition *)
Lemma preset_offsets_disjoint_l p cs :
  (forall c e, In c cs -> In e (c_images c) -> 0 <= i_size e /\ 0 <= i_gap e) ->
  presets_ok_all p (p_start p) cs ->
  let sp := spans (assign_offsets p (p_start p) cs) in
  gchain (p_start p) sp /\ pairwise_disjoint sp /\ all_after (p_start p) sp.
Proof.
  intros H HP sp. destruct (assign_offsets_chain p cs (p_start p) HP) as [C S].
  assert (N : nonneg sp) by (apply (nonneg_of_size_gap cs); assumption).
  repeat split; try assumption.
  - eapply gchain_disjoint; eassumption.
  - now apply gchain_all_after.
Qed.

(* images whose offset is assigned automatically meet the side condition *)
Lemma offsets_disjoint_l p cs :
  (forall c e, In c cs -> In e (c_images c) -> i_raw_off e + c_coff c <= 0 /\ 0 <= i_size e /\ 0 <= i_gap e) ->
  let sp := spans (assign_offsets p (p_start p) cs) in
  gchain (p_start p) sp /\ pairwise_disjoint sp /\ all_after (p_start p) sp /\
  size_gap (assign_offsets p (p_start p) cs) = size_gap cs.
Proof.
  intros H sp.
  assert (HP : presets_ok_all p (p_start p) cs) by (apply auto_presets_ok_all; intros c e Hc He; now apply (H c e)).
  destruct (preset_offsets_disjoint_l p cs (fun c e Hc He => proj2 (H c e Hc He)) HP) as (C & D & A).
  repeat split; try assumption. apply (assign_offsets_chain p cs (p_start p) HP).
Qed.

(* the side condition is necessary: a preset below the running offset yields overlapping images (witness) *)
Example preset_overlap_witness :
  let p := params_of (nth 16 gen_families (0, 0, [], 1, 1, false, [])) 4 false in
  let mk raw := {| i_raw_off := raw; i_size := 1024; i_load := 0; i_entry := 0; i_flags := 0; i_meta := 0; i_hash := []; i_iv := [];
                   i_image := []; i_plain := []; i_gap := 0; i_size_align := 0; i_ele := false |} in
  let c := {| c_version := 0; c_flags := 0; c_fuse := 0; c_sw := 0; c_length := 0; c_coff := 0; c_images := [mk 0; mk 8704];
              c_sb := sigblock_update [] None None |} in
  spans (assign_offsets p (p_start p) [c]) = [(8192, 1024, 0); (8704, 1024, 0)].
Proof. reflexivity. Qed.

Definition iae_body (e : iae) : iae := set_off e 0.

Lemma assign_images_body p coff : forall l off, map iae_body (snd (assign_images p coff off l)) = map iae_body l.
Proof.
  induction l as [|e t IH]; intros off; cbn [assign_images]; [reflexivity|].
  destruct (0 <? i_raw_off e + coff).
  - specialize (IH (valid_offset p e (i_raw_off e + coff + i_size e + i_gap e))).
    destruct (assign_images p coff _ t) as [o t']. cbn [snd map] in *. now rewrite IH.
  - specialize (IH (valid_offset p e (off + i_size e + i_gap e))).
    destruct (assign_images p coff _ t) as [o t']. cbn [snd map] in *. rewrite IH. reflexivity.
Qed.

Lemma assign_offsets_body p : forall cs off,
  map (fun c => (c_coff c, c_sb c, map iae_body (c_images c))) (assign_offsets p off cs)
  = map (fun c => (c_coff c, c_sb c, map iae_body (c_images c))) cs.
Proof.
  induction cs as [|c t IH]; intros off; cbn [assign_offsets]; [reflexivity|].
  pose proof (assign_images_body p (c_coff c) (c_images c) off) as B.
  destruct (assign_images p (c_coff c) off (c_images c)) as [o l']. cbn [snd] in B.
  cbn [map set_images c_coff c_sb c_images]. now rewrite B, IH.
Qed.

Lemma map_res_In {A B} (f : A -> res B) : forall l l' y, map_res f l = Ok l' -> In y l' -> exists x, In x l /\ f x = Ok y.
Proof.
  induction l as [|a t IH]; intros l' y H Hy; cbn [map_res] in H.
  - inversion H; subst. destruct Hy.
  - destruct (f a) as [b|] eqn:Fa; [|discriminate]. cbn [bind] in H.
    destruct (map_res f t) as [t'|] eqn:Ft; [|discriminate]. cbn [bind] in H. inversion H; subst.
    destruct Hy as [<-|Hy]; [exists a; split; [now left|assumption]|].
    destruct (IH _ _ eq_refl Hy) as (x & Hx & Fx). exists x. split; [now right|assumption].
Qed.

Definition entry_hash_ok (v2 : bool) (e : iae) : Prop :=
  exists m h, extend_to (i_size e) (i_image e) = Ok m /\ hash_of (flags_hash v2 (i_flags e)) m = Ok h /\
              i_hash e = h ++ repeat 0%N (64 - length h) /\
              i_size e = valid_size (i_ele e) (i_size_align e) (i_image e).

Lemma iae_update_hash v2 e e' : i_hash e = [] -> iae_update v2 e = Ok e' -> entry_hash_ok v2 e'.
Proof.
  intros Hh. unfold iae_update. rewrite Hh.
  destruct (extend_to (valid_size (i_ele e) (i_size_align e) (i_image e)) (i_image e)) as [m|] eqn:Em; [|discriminate].
  cbn [bind]. destruct (hash_of (flags_hash v2 (i_flags e)) m) as [h|] eqn:Eh; [|discriminate]. cbn [bind].
  intros E. inversion E; subst e'; clear E. exists m, h. cbn. repeat split; assumption.
Qed.

Lemma entry_hash_body v2 e e' : iae_body e = iae_body e' -> entry_hash_ok v2 e -> entry_hash_ok v2 e'.
Proof.
  unfold iae_body, set_off. intros E. inversion E. unfold entry_hash_ok. destruct e, e'; cbn in *; subst. auto.
Qed.

Lemma container_build_images p ix cc c e :
  container_build p ix cc = Ok c -> In e (c_images c) ->
  exists ic, In ic (cc_images cc) /\
             iae_update (p_v2 p) (iae_encrypt (p_v2 p) (option_map blob_of_cfg (cc_blob cc)) (build_iae p (p_csize p * ix) ic)) = Ok e.
Proof.
  unfold container_build. destruct (srk_of_keys _ _) as [rs|]; [|discriminate]. cbn [bind].
  destruct (map_res _ _) as [imgs|] eqn:EM; [|discriminate]. cbn [bind]. intros E He. inversion E; subst c; clear E. cbn in He.
  destruct (map_res_In _ _ _ _ EM He) as (x & Hx & Fx). apply in_map_iff in Hx as (ic & <- & Hic). eauto.
Qed.

Lemma build_all_In p : forall l ix cs c, build_all p ix l = Ok cs -> In c cs ->
  exists cc k, In cc l /\ container_build p k cc = Ok c.
Proof.
  induction l as [|cc t IH]; intros ix cs c H Hc; cbn [build_all] in H.
  - inversion H; subst. destruct Hc.
  - destruct (container_build p ix cc) as [c0|] eqn:E0; [|discriminate]. cbn [bind] in H.
    destruct (build_all p (ix + 1) t) as [cs0|] eqn:E1; [|discriminate]. cbn [bind] in H. inversion H; subst.
    destruct Hc as [<-|Hc]; [exists cc, ix; split; [now left|assumption]|].
    destruct (IH _ _ _ E1 Hc) as (cc' & k & H1 & H2). exists cc', k. split; [now right|assumption].
Qed.

(* membership through assign_offsets: same container data, same entry up to the offset *)
Lemma assign_offsets_In p cs off c' e' :
  In c' (assign_offsets p off cs) -> In e' (c_images c') ->
  exists c e, In c cs /\ In e (c_images c) /\ iae_body e = iae_body e' /\ c_sb c = c_sb c' /\ c_coff c = c_coff c'.
Proof.
  intros Hc He. pose proof (assign_offsets_body p cs off) as B.
  apply (in_map (fun c => (c_coff c, c_sb c, map iae_body (c_images c)))) in Hc. rewrite B in Hc.
  apply in_map_iff in Hc as (c & Ec & Hc). inversion Ec as [[E1 E2 E3]].
  apply (in_map iae_body) in He. rewrite <- E3 in He. apply in_map_iff in He as (e & Ee & He). exists c, e. auto.
Qed.

Lemma entry_hash_l p l cs c e :
  ahab_update p l = Ok cs -> In c cs -> In e (c_images c) -> entry_hash_ok (p_v2 p) e.
Proof.
  unfold ahab_update. destruct (build_all p 0 l) as [cs0|] eqn:EB; [|discriminate]. cbn [bind]. intros E Hc He.
  inversion E; subst cs; clear E.
  destruct (assign_offsets_In _ _ _ _ _ Hc He) as (c0 & e0 & Hc0 & He0 & Eb & _ & _).
  destruct (build_all_In _ _ _ _ _ EB Hc0) as (cc & k & _ & Hb).
  destruct (container_build_images _ _ _ _ _ Hb He0) as (ic & _ & Hu).
  eapply entry_hash_body; [exact Eb|]. eapply iae_update_hash; [|exact Hu].
  unfold iae_encrypt. destruct (option_map blob_of_cfg (cc_blob cc)); [destruct (flags_enc _ _)|]; reflexivity.
Qed.

Lemma sha256_shape m : length (sha256 m) = 32%nat /\ wf_bytes (sha256 m).
Proof.
  unfold sha256, sha2, digest_bytes. destruct (sha2_blocks cfg256 H256 (pad cfg256 m)) as [[[[[[[a b] c] d] e] f] g] h].
  cbn [map concat wbytes cfg256]. split.
  - rewrite firstn_length, !app_length, !be_enc_length. reflexivity.
  - apply wf_bytes_firstn. repeat (apply wf_bytes_app; [apply be_enc_wf|]). constructor.
Qed.

Lemma pad_to_wf a l : wf_bytes l -> wf_bytes (pad_to a l).
Proof. intros W. unfold pad_to. apply wf_bytes_app; [assumption|apply wf_zeros]. Qed.

Lemma pad_to_mod a l : 0 < a -> Z.of_nat (length (pad_to a l)) mod a = 0.
Proof.
  intros H. unfold pad_to. rewrite app_length, repeat_length, Nat2Z.inj_add.
  pose proof (zalign_ge (zlen' l) a H). rewrite Z2Nat.id by lia. unfold zlen' in *.
  replace (Z.of_nat (length l) + (zalign (Z.of_nat (length l)) a - Z.of_nat (length l))) with (zalign (Z.of_nat (length l)) a) by lia.
  now apply zalign_mod.
Qed.

Lemma pad_to_16 l : Nat.modulo (length (pad_to 16 l)) 16 = 0%nat.
Proof.
  apply Nat2Z.inj. rewrite Nat2Z.inj_mod. change (Z.of_nat 16) with 16. rewrite pad_to_mod by lia. reflexivity.
Qed.

Lemma blob_decrypt_encrypt dek iv plain :
  aes_key_ok dek = true -> wf_bytes dek -> okb iv -> wf_bytes plain ->
  blob_decrypt dek iv (blob_encrypt dek iv plain) = pad_to 16 plain.
Proof.
  intros Hk Wk Hiv Wp. unfold blob_decrypt, blob_encrypt.
  apply (cbc_dec_enc_l (aes_enc dek) (aes_dec dek)).
  - intros b Hb. now apply aes_dec_enc.
  - intros b Hb. now apply aes_dec_enc.
  - assumption.
  - now apply pad_to_wf.
  - apply pad_to_16.
Qed.

Lemma iae_update_fields v2 e e' : iae_update v2 e = Ok e' ->
  i_flags e' = i_flags e /\ i_image e' = i_image e /\ i_plain e' = i_plain e /\
  i_iv e' = (if forallb (N.eqb 0) (i_iv e) && flags_enc v2 (i_flags e) then sha256 (i_plain e) else i_iv e).
Proof.
  unfold iae_update.
  match goal with |- bind ?X _ = _ -> _ => destruct X as [h|] end; [|discriminate].
  cbn [bind]. intros E. inversion E; subst e'. cbn. auto.
Qed.

Lemma iae_encrypt_flags v2 b e : i_flags (iae_encrypt v2 b e) = i_flags e.
Proof. unfold iae_encrypt. destruct b; [destruct (flags_enc v2 (i_flags e))|]; reflexivity. Qed.

(* pieces as the model places them: (offset, declared size, bytes); what is written is the bytes fitted to the size *)
Definition p_off (x : Z * Z * list N) : Z := fst (fst x).
Definition p_size (x : Z * Z * list N) : Z := snd (fst x).
Definition zpiece (x : Z * Z * list N) : Z * list N := (p_off x, fit_image (p_size x) (snd x)).
Fixpoint pw {A} (R : A -> A -> Prop) (l : list A) : Prop := match l with [] => True | x :: t => Forall (R x) t /\ pw R t end.
Definition zdisj (x y : Z * Z * list N) : Prop := p_off x + p_size x <= p_off y \/ p_off y + p_size y <= p_off x.
Definition piece_in (total : Z) (x : Z * Z * list N) : Prop := 0 <= p_off x /\ zlen' (snd x) <= p_size x /\ p_off x + p_size x <= total.
Definition pieces_ok (total : Z) (L : list (Z * Z * list N)) : Prop := Forall (piece_in total) L /\ pw zdisj L.

Lemma fit_image_length size d : zlen' d <= size -> zlen' (fit_image size d) = size.
Proof.
  intros H. unfold fit_image. destruct (zlen' d =? size) eqn:E; [now apply Z.eqb_eq in E|].
  unfold py_set, zlen' in *. cbn [firstn app]. rewrite app_length, skipn_length, repeat_length. lia.
Qed.

Lemma place_all_writes l : forall b, Forall (fun x => 0 <= p_off x) l ->
  place_all b l = fold_left (fun b w => splice b (Z.to_nat (fst w)) (snd w)) (map zpiece l) b.
Proof.
  unfold place_all. induction l as [|x t IH]; intros b H; [reflexivity|]. inversion H; subst. cbn [fold_left map].
  rewrite <- IH by assumption. f_equal.
  unfold place_piece, place, zpiece, py_set, splice, zlen'. cbn [fst snd]. fold (p_off x) (p_size x). do 3 f_equal. lia.
Qed.

Lemma pw_In {A} (R : A -> A -> Prop) l x y : pw R l -> In x l -> In y l -> x = y \/ R x y \/ R y x.
Proof.
  induction l as [|a t IH]; intros HP Hx Hy; [destruct Hx|]. destruct HP as [F P]. rewrite Forall_forall in F.
  destruct Hx as [<-|Hx], Hy as [<-|Hy]; auto.
Qed.

(* reading back any piece after all have been placed: no other piece touches it (Writes.fold_splice_slice) *)
Lemma place_all_read total L b x :
  0 <= total -> length b = Z.to_nat total -> pieces_ok total L -> In x L ->
  zslice (place_all b L) (p_off x) (p_off x + p_size x) = fit_image (p_size x) (snd x).
Proof.
  intros Ht Lb [HF HP] Hx. rewrite place_all_writes by (eapply Forall_impl; [|exact HF]; intros a (Ha & _); exact Ha).
  rewrite Forall_forall in HF. destruct (HF x Hx) as (X1 & X2 & X3). pose proof (fit_image_length _ _ X2) as LX.
  unfold zslice. rewrite <- LX at 1. apply (Writes.fold_splice_slice (map zpiece L) b (zpiece x)).
  - apply Forall_map, Forall_forall. intros y Hy. destruct (HF y Hy) as (Y1 & Y2 & Y3).
    pose proof (fit_image_length _ _ Y2). split; cbn [zpiece fst snd]; unfold zlen', zlen in *; lia.
  - now apply in_map.
  - intros w k Hw Hcw Hcx. apply in_map_iff in Hw as (y & <- & Hy). destruct (HF y Hy) as (Y1 & Y2 & Y3).
    pose proof (fit_image_length _ _ Y2). unfold Writes.covers, zpiece in *. cbn [fst snd] in *.
    destruct (pw_In _ _ _ _ HP Hy Hx) as [->|[D|D]]; [reflexivity | |]; destruct D; unfold zlen', zlen in *; lia.
Qed.

Lemma pairwise_ok_pw : forall (l : list (Z * Z * list N)), pairwise_ok (map fst l) = true -> pw zdisj l.
Proof.
  induction l as [|x t IH]; cbn [map pairwise_ok pw]; [auto|]. intros H. apply andb_true_iff in H as [H1 H2]. split; [|now apply IH].
  clear -H1. induction t as [|y q IHq]; [constructor|]. cbn [map forallb] in H1. apply andb_true_iff in H1 as [A B].
  constructor; [|now apply IHq]. unfold iv_overlap in A. rewrite negb_involutive in A. apply orb_true_iff in A.
  unfold zdisj, p_off, p_size. destruct A as [A|A]; apply Z.ltb_lt in A; [left|right]; lia.
Qed.

Lemma all_images_In cs c e : In c cs -> In e (c_images c) -> In (img_abs c e, i_size e, i_image e) (all_images cs).
Proof.
  intros Hc He. unfold all_images. apply in_concat. eexists. split; [apply in_map_iff; exists c; split; [reflexivity|assumption]|].
  apply in_map_iff. exists e. auto.
Qed.

(* the container block (of either version) and the images are pairwise disjoint pieces of the file *)
Lemma layout_ok_pieces p cs blk :
  layout_ok p cs = true -> zlen' blk = start_real p cs ->
  (forall c e, In c cs -> In e (c_images c) -> zlen' (i_image e) <= i_size e) ->
  pieces_ok (ahab_len p cs) ((0, zlen' blk, blk) :: all_images cs).
Proof.
  intros H HB HS. unfold layout_ok in H. apply andb_true_iff in H as [H H4]. apply andb_true_iff in H as [_ H3]. rewrite HB. split.
  - apply Forall_forall. intros x Hx.
    pose proof (proj1 (forallb_forall _ _) H3 (fst x) (in_map fst ((0, start_real p cs, blk) :: all_images cs) x Hx)) as Fx.
    unfold fits_in in Fx. apply andb_true_iff in Fx as [A B]. apply Z.leb_le in A. apply Z.ltb_lt in B.
    unfold piece_in. fold (p_off x) (p_size x) in A, B. repeat split; [assumption | | lia].
    destruct Hx as [<-|Hx]; [cbn; lia|]. unfold all_images in Hx. apply in_concat in Hx as (l & Hl & Hx).
    apply in_map_iff in Hl as (c & <- & Hc). apply in_map_iff in Hx as (e & <- & He). cbn. now apply (HS c e).
  - apply (pairwise_ok_pw ((0, start_real p cs, blk) :: all_images cs)). exact H4.
Qed.

Lemma entry_points_gen p cs blk :
  layout_ok p cs = true -> zlen' blk = start_real p cs ->
  (forall c e, In c cs -> In e (c_images c) -> zlen' (i_image e) <= i_size e) ->
  forall c e, In c cs -> In e (c_images c) ->
  zslice (place_all (repeat 0%N (Z.to_nat (ahab_len p cs))) ((0, zlen' blk, blk) :: all_images cs)) (img_abs c e) (img_abs c e + i_size e)
  = fit_image (i_size e) (i_image e).
Proof.
  intros H HB HS c e Hc He. pose proof (layout_ok_pieces p cs blk H HB HS) as P.
  assert (T : 0 <= ahab_len p cs).
  { destruct P as [P _]. inversion P as [|? ? (A1 & A2 & A3) _]; subst. unfold p_off, p_size, zlen' in *. cbn [fst snd] in *. lia. }
  apply (place_all_read (ahab_len p cs) _ _ (img_abs c e, i_size e, i_image e) T); [apply repeat_length | exact P |].
  right. now apply all_images_In.
Qed.

Lemma entry_points_at_image_l p cs :
  layout_ok p cs = true -> zlen' (containers_block p cs) = start_real p cs ->
  (forall c e, In c cs -> In e (c_images c) -> zlen' (i_image e) <= i_size e) ->
  forall c e, In c cs -> In e (c_images c) ->
  zslice (ahab_bytes p cs) (img_abs c e) (img_abs c e + i_size e) = fit_image (i_size e) (i_image e).
Proof. exact (entry_points_gen p cs (containers_block p cs)). Qed.

Lemma fit_image_extend size d : zlen' d <= size -> extend_to size d = Ok (fit_image size d).
Proof.
  intros H. unfold extend_to, fit_image. replace (size <? zlen' d) with false by (symmetry; apply Z.ltb_ge; lia).
  destruct (zlen' d =? size) eqn:E.
  - apply Z.eqb_eq in E. rewrite E, Z.sub_diag. simpl. now rewrite app_nil_r.
  - unfold py_set, zlen' in *. cbn [firstn app]. f_equal. f_equal. rewrite Nat.max_0_l.
    replace (Z.to_nat (size - Z.of_nat (length d))) with (Z.to_nat size - length d)%nat by lia.
    generalize (Z.to_nat size) as n. generalize (length d) as k. clear.
    induction k as [|k IH]; intros n; [now rewrite Nat.sub_0_r|]. destruct n as [|n]; [reflexivity|]. cbn [repeat skipn]. rewrite <- IH. reflexivity.
Qed.

(* a piece placed after a gap of g zeros, right behind what has been written so far (r zeros are left) *)
Lemma place_fill (pre d : list N) off len g r :
  zlen' pre + Z.of_nat g = off -> zlen' d = len -> Z.of_nat g + len <= r ->
  place (pre ++ repeat 0%N (Z.to_nat r)) off len d = (pre ++ repeat 0%N g ++ d) ++ repeat 0%N (Z.to_nat (r - Z.of_nat g - len)).
Proof.
  intros <- <- Hr. unfold zlen' in *. replace (Z.to_nat (r - Z.of_nat g - Z.of_nat (length d))) with (Z.to_nat r - g - length d)%nat by lia.
  rewrite <- splice_fill by lia. unfold place, py_set, splice. f_equal; [|f_equal]; f_equal; lia.
Qed.

Lemma app_repeat_0 {A} (x : A) l n : n = 0%nat -> l ++ repeat x n = l.
Proof. intros ->. apply app_nil_r. Qed.

Lemma sigblock_header_len v sb : length (sigblock_header v sb) = 16%nat.
Proof. reflexivity. Qed.

Lemma srk_rec_bytes_len r : zlen' (srk_rec_bytes r) = srk_rec_len r.
Proof. unfold zlen', srk_rec_len, srk_rec_bytes. destruct (key_sizes (sr_ksize r)). rewrite !app_length, !le_length. unfold zlen'. lia. Qed.

(* what either version's record parser reads in an exported SRK record *)
Lemma srk_rec_fields r rest (l := srk_rec_bytes r ++ rest) (ls := key_sizes (sr_ksize r)) :
  fits 2 (sr_length r) = true -> fits 1 (sr_alg r) = true -> fits 1 (sr_hash r) = true -> fits 1 (sr_ksize r) = true ->
  fits 1 (sr_flags r) = true ->
  rd l 0 1 = gen_tag_srk_record /\ rd l 1 2 = sr_length r /\ rd l 3 1 = sr_alg r /\ rd l 4 1 = sr_hash r /\ rd l 5 1 = sr_ksize r /\
  rd l 7 1 = sr_flags r /\ (fits 2 (fst ls) = true -> rd l 8 2 = fst ls) /\ (fits 2 (snd ls) = true -> rd l 10 2 = snd ls) /\
  skipn 12 l = sr_params r ++ rest /\ length (srk_rec_bytes r) = (12 + length (sr_params r))%nat.
Proof.
  unfold l, ls, srk_rec_bytes. destruct (key_sizes (sr_ksize r)) as [l1 l2]. intros FL FA FH FK FF.
  repeat split; try intros ?; apply rd_field; (reflexivity || assumption).
Qed.

Lemma srk_table_bytes_len v2 L rs : zlen' (srk_table_bytes v2 L rs) = srk_table_len rs.
Proof.
  unfold srk_table_bytes, srk_table_len, zlen'. rewrite !app_length, !le_length.
  induction rs as [|r t IH]; [reflexivity|]. cbn [map concat fold_right]. rewrite app_length.
  pose proof (srk_rec_bytes_len r) as R. unfold zlen' in R. lia.
Qed.

Lemma signature_bytes_len L s : zlen' (signature_bytes L s) = 8 + zlen' s.
Proof. unfold signature_bytes, zlen'. rewrite !app_length, !le_length. lia. Qed.

Lemma srk_table_len_pos rs : 4 <= srk_table_len rs.
Proof. unfold srk_table_len. induction rs as [|r t IH]; cbn [fold_right]; [lia|]. unfold srk_rec_len, zlen' in *. lia. Qed.

Definition blob_ok (bl : option blob) : Prop := forall b, bl = Some b -> zlen' (blob_bytes b) = b_length b.

Lemma blob_of_cfg_len bits dek kid : 0 <= bits ->
  zlen' (blob_bytes (blob_of_cfg (bits, dek, kid))) = b_length (blob_of_cfg (bits, dek, kid)).
Proof.
  intros H.
  assert (E1 : b_length (blob_of_cfg (bits, dek, kid)) = 56 + bits / 8) by reflexivity.
  assert (E2 : b_keyblob (blob_of_cfg (bits, dek, kid)) = repeat 0%N (Z.to_nat (48 + bits / 8))) by reflexivity.
  unfold blob_bytes, zlen'. rewrite E1, E2, !app_length, !le_length, repeat_length. dlia.
Qed.

Lemma blob_of_cfg_ok bits dek kid : 0 <= bits -> blob_ok (Some (blob_of_cfg (bits, dek, kid))).
Proof. intros H b E. injection E as <-. now apply blob_of_cfg_len. Qed.

(* SignatureBlock.update_fields for a signed container: where the signature and the blob go *)
Definition sig_off (rs : list srk_rec) : Z := zalign (16 + srk_table_len rs) gen_container_alignment.
Definition blob_off (rs : list srk_rec) (s : list N) : Z := zalign (sig_off rs + (8 + zlen' s)) gen_container_alignment.

Lemma sig_off_ge rs : 16 + srk_table_len rs <= sig_off rs.
Proof. now apply zalign_ge. Qed.

Lemma blob_off_ge rs s : sig_off rs + (8 + zlen' s) <= blob_off rs s.
Proof. now apply zalign_ge. Qed.

Lemma sigblock_update_exact rs s bl : rs <> [] ->
  let sb := sigblock_update rs (Some s) bl in
  sb_srk_off sb = 16 /\ sb_sig_off sb = sig_off rs /\ sb_cert_off sb = 0 /\ sb_srk sb = rs /\ sb_srk_length sb = srk_table_len rs /\
  sb_sig sb = Some s /\ sb_sig_length sb = 8 + zlen' s /\ sb_blob sb = bl /\
  match bl with
  | Some b => sb_blob_off sb = blob_off rs s /\ sb_length sb = blob_off rs s + b_length b
  | None => sb_blob_off sb = 0 /\ sb_length sb = sig_off rs + (8 + zlen' s)
  end.
Proof. intros Hr. destruct rs; [contradiction|]. destruct bl; repeat split; reflexivity. Qed.

Lemma sb_length_ge rs s bl : rs <> [] -> blob_ok bl -> sig_off rs + (8 + zlen' s) <= sb_length (sigblock_update rs (Some s) bl).
Proof.
  intros Hr Hb. destruct (sigblock_update_exact rs s bl Hr) as (_ & _ & _ & _ & _ & _ & _ & _ & E9).
  pose proof (blob_off_ge rs s). destruct bl as [b|]; destruct E9 as [_ ->]; [specialize (Hb b eq_refl)|]; len.
Qed.

(* SignatureBlock.export writes header, SRK table, signature and blob at their offsets into a zero buffer: the result is their
   concatenation with the alignment gaps, for either container version *)
Lemma sigblock_concat v2 rs s bl : rs <> [] -> blob_ok bl ->
  let sb := sigblock_update rs (Some s) bl in
  sigblock_bytes v2 sb
  = sigblock_header v2 sb ++ srk_table_bytes v2 (srk_table_len rs) rs ++ repeat 0%N (Z.to_nat (sig_off rs - 16 - srk_table_len rs))
    ++ signature_bytes (8 + zlen' s) s
    ++ match bl with Some b => repeat 0%N (Z.to_nat (blob_off rs s - sig_off rs - 8 - zlen' s)) ++ blob_bytes b | None => [] end.
Proof.
  intros Hr Hb sb. pose proof (sb_length_ge rs s bl Hr Hb) as Lsb. fold sb in Lsb.
  destruct (sigblock_update_exact rs s bl Hr) as (E1 & E2 & _ & E4 & E5 & E6 & E7 & E8 & E9). fold sb in E1, E2, E4, E5, E6, E7, E8, E9.
  pose proof (srk_table_len_pos rs) as TP. pose proof (sig_off_ge rs) as G1. pose proof (blob_off_ge rs s) as G2.
  pose proof (srk_table_bytes_len v2 (srk_table_len rs) rs) as LT. pose proof (signature_bytes_len (8 + zlen' s) s) as LS.
  pose proof (sigblock_header_len v2 sb) as LH.
  unfold sigblock_bytes. rewrite E4, E6, E8, E1, E2, E5, E7. clearbody sb.
  destruct rs as [|r rt] eqn:ER; [contradiction|]. cbv iota. rewrite <- ER in *. clear ER r rt.
  set (H := sigblock_header v2 sb) in *. set (T := srk_table_bytes v2 (srk_table_len rs) rs) in *. set (S := signature_bytes (8 + zlen' s) s) in *.
  change (py_set (repeat 0%N (Z.to_nat (sb_length sb))) 0 16 H) with (place ([] ++ repeat 0%N (Z.to_nat (sb_length sb))) 0 16 H).
  rewrite (place_fill [] H 0 16 0) by len. rewrite (place_fill _ T 16 _ 0) by len.
  rewrite (place_fill _ S (sig_off rs) _ (Z.to_nat (sig_off rs - 16 - srk_table_len rs))) by len.
  destruct bl as [b|]; destruct E9 as [E9 E10].
  - specialize (Hb b eq_refl). rewrite E9.
    rewrite (place_fill _ (blob_bytes b) (blob_off rs s) _ (Z.to_nat (blob_off rs s - sig_off rs - 8 - zlen' s))) by len.
    rewrite app_repeat_0 by len. cbn [repeat app]. now rewrite <- !app_assoc.
  - rewrite app_repeat_0 by len. cbn [repeat app]. now rewrite <- !app_assoc, app_nil_r.
Qed.

Lemma sigblock_bytes_length v2 rs s bl : rs <> [] -> blob_ok bl ->
  length (sigblock_bytes v2 (sigblock_update rs (Some s) bl)) = Z.to_nat (sb_length (sigblock_update rs (Some s) bl)).
Proof.
  intros Hr Hb. rewrite sigblock_concat by assumption.
  destruct (sigblock_update_exact rs s bl Hr) as (_ & _ & _ & _ & _ & _ & _ & _ & E9).
  pose proof (srk_table_len_pos rs). pose proof (sig_off_ge rs). pose proof (blob_off_ge rs s).
  pose proof (srk_table_bytes_len v2 (srk_table_len rs) rs). pose proof (signature_bytes_len (8 + zlen' s) s).
  rewrite !app_length, sigblock_header_len.
  destruct bl as [b|]; destruct E9 as [_ ->]; [specialize (Hb b eq_refl)|]; len.
Qed.

Lemma sigblock_signed_part v2 rs s bl : rs <> [] -> blob_ok bl ->
  let sb := sigblock_update rs (Some s) bl in
  firstn (Z.to_nat (sig_off rs)) (sigblock_bytes v2 sb)
  = sigblock_header v2 sb ++ srk_table_bytes v2 (srk_table_len rs) rs ++ repeat 0%N (Z.to_nat (sig_off rs - 16 - srk_table_len rs)).
Proof.
  intros Hr Hb sb. unfold sb. rewrite sigblock_concat by assumption. fold sb.
  rewrite (app_assoc (srk_table_bytes _ _ _)), app_assoc. apply firstn_app_exact.
  pose proof (srk_table_len_pos rs). pose proof (sig_off_ge rs). pose proof (srk_table_bytes_len v2 (srk_table_len rs) rs).
  rewrite app_length, sigblock_header_len. len.
Qed.

Lemma sbo_val c : sbo c = 16 + zlen' (c_images c) * 128.
Proof. unfold sbo, zalign. change gen_container_alignment with 8. dlia. Qed.

Lemma iaes_length l : length (concat (map iae_bytes l)) = (128 * length l)%nat.
Proof.
  induction l as [|e t IH]; [reflexivity|]. cbn [map concat]. rewrite app_length, IH.
  replace (length (iae_bytes e)) with 128%nat; [cbn [length]; lia|]. unfold iae_bytes. rewrite !app_length, !le_length, !fit_s_length. reflexivity.
Qed.

Definition container_head (c : container) : list N := header_bytes c ++ concat (map iae_bytes (c_images c)).

Lemma container_head_length c : length (container_head c) = Z.to_nat (sbo c).
Proof.
  unfold container_head. rewrite app_length, iaes_length, sbo_val. unfold header_bytes, header_bytes_raw, zlen'.
  rewrite !app_length, !le_length. lia.
Qed.

(* AHABContainer.export (either version) = header ++ image array ++ signature block (++ what is left of the zero buffer) *)
Lemma py_set_after {A} (b0 hd S : list A) a e : length hd = a -> exists rest, py_set (py_set b0 0 a hd) a e S = hd ++ S ++ rest.
Proof. intros <-. unfold py_set at 2. cbn [firstn app]. unfold py_set. rewrite firstn_app_exact by reflexivity. eexists. reflexivity. Qed.

Lemma container_bytes_split v2 c : exists rest, container_bytes v2 c = container_head c ++ sigblock_bytes v2 (c_sb c) ++ rest.
Proof. apply py_set_after, container_head_length. Qed.

Definition set_sb (c : container) (sb : sigblock) : container :=
  {| c_version := c_version c; c_flags := c_flags c; c_fuse := c_fuse c; c_sw := c_sw c; c_length := c_length c;
     c_coff := c_coff c; c_images := c_images c; c_sb := sb |}.

Lemma entry_hash_ok_size v2 e : entry_hash_ok v2 e -> zlen' (i_image e) <= i_size e.
Proof.
  intros (m & h & Hm & _). unfold extend_to in Hm. destruct (i_size e <? zlen' (i_image e)) eqn:E; [discriminate|].
  apply Z.ltb_ge in E. lia.
Qed.

(* the hypotheses are satisfiable: a two-container image of the database family mimxrt1189 *)
Definition demo_image (seed : N) : image_cfg :=
  {| ic_data := gen_bytes 16 seed 3%N; ic_offset := 0; ic_load := 4096; ic_entry := 4096; ic_type := 3; ic_core := 1; ic_hash := 0;
     ic_enc := false; ic_boot := 0; ic_cpu := 0; ic_mu := 0; ic_part := 0; ic_gap := 0; ic_size_align := 0 |}.
Definition demo_cfg : list container_cfg :=
  [ {| cc_srk_set := 0; cc_used := 0; cc_revoke := 0; cc_gdet := 0; cc_fuse := 1; cc_sw := 2; cc_keys := []; cc_flag_ca := false;
       cc_sigmode := 0; cc_sig := []; cc_sig_ok := false; cc_blob := None; cc_images := [demo_image 1; demo_image 9] |};
    {| cc_srk_set := 2; cc_used := 1; cc_revoke := 0; cc_gdet := 0; cc_fuse := 0; cc_sw := 0;
       cc_keys := [KEcc 256 5 6; KEcc 256 7 8; KEcc 256 9 10; KEcc 256 11 12]; cc_flag_ca := false;
       cc_sigmode := 1; cc_sig := repeat 7%N 64; cc_sig_ok := true; cc_blob := None; cc_images := [demo_image 5] |} ].
Definition demo_params : params := params_of (nth 17 gen_families (0, 0, [], 1, 1, false, [])) 4 false.

(* update_fields on the demo configuration (SHA-256 over every image and over the SRK table), evaluated once for all examples *)
Definition demo_cs : list container :=
  Eval vm_compute in match ahab_update demo_params demo_cfg with Ok cs => cs | Err _ => [] end.
Lemma demo_update : ahab_update demo_params demo_cfg = Ok demo_cs.
Proof. vm_compute. reflexivity. Qed.

Example entry_hash_nonvacuous :
  exists cs, ahab_update demo_params demo_cfg = Ok cs /\ layout_ok demo_params cs = true /\
             zlen' (containers_block demo_params cs) = start_real demo_params cs /\
             is_ok (ahab_export demo_params demo_cfg) = true /\
             map (fun c => map (img_abs c) (c_images c)) cs = [[8192; 9216]; [10240]].
Proof.
  exists demo_cs. split; [exact demo_update|]. unfold ahab_export. rewrite demo_update. vm_compute. repeat split.
Qed.

Definition off_align (p : params) (e : iae) : Z := Z.max (valid_alignment p e) (p_min_align p).
(* every image starts on the alignment boundary required by the image before it (the very first one on `al`) *)
Fixpoint achain (p : params) (coff al : Z) (l : list iae) : Prop :=
  match l with [] => True | e :: t => (i_raw_off e + coff) mod al = 0 /\ achain p coff (off_align p e) t end.
Fixpoint last_al (p : params) (al : Z) (l : list iae) : Z := match l with [] => al | e :: t => last_al p (off_align p e) t end.
Fixpoint achain_all (p : params) (al : Z) (cs : list container) : Prop :=
  match cs with [] => True | c :: t => achain p (c_coff c) al (c_images c) /\ achain_all p (last_al p al (c_images c)) t end.

Lemma assign_images_aligned p coff : forall l off al,
  (forall e, In e l -> i_raw_off e + coff <= 0) -> off mod al = 0 ->
  let r := assign_images p coff off l in
  achain p coff al (snd r) /\ fst r mod last_al p al l = 0 /\ last_al p al (snd r) = last_al p al l.
Proof.
  induction l as [|e t IH]; intros off al H Ha; cbn [assign_images]; [simpl; auto|].
  replace (0 <? i_raw_off e + coff) with false by (symmetry; apply Z.ltb_ge; apply H; now left).
  specialize (IH (valid_offset p e (off + i_size e + i_gap e)) (off_align p e)).
  destruct (assign_images p coff (valid_offset p e (off + i_size e + i_gap e)) t) as [off' t'] eqn:ER. cbn [fst snd] in *.
  destruct IH as (I1 & I2 & I3); [intros x Hx; apply H; now right | apply zalign_mod, valid_align_pos |].
  cbn [achain last_al set_off i_raw_off]. replace (off - coff + coff) with off by lia.
  change (off_align p (set_off e (off - coff))) with (off_align p e). auto.
Qed.

Lemma offsets_aligned_l p : forall cs off al,
  (forall c e, In c cs -> In e (c_images c) -> i_raw_off e + c_coff c <= 0) -> off mod al = 0 ->
  achain_all p al (assign_offsets p off cs).
Proof.
  induction cs as [|c t IH]; intros off al H Ha; cbn [assign_offsets]; [exact I|].
  pose proof (assign_images_aligned p (c_coff c) (c_images c) off al) as A.
  destruct (assign_images p (c_coff c) off (c_images c)) as [off' l'] eqn:E. cbn [fst snd] in A.
  destruct A as (A1 & A2 & A3); [intros e He; apply (H c e); [now left|assumption] | assumption |].
  cbn [achain_all set_images c_coff c_images]. split; [assumption|]. rewrite A3. apply IH; [|assumption].
  intros c0 e0 Hc0. apply H. now right.
Qed.

(* sweep over the database: every family / target memory / version *)
Definition fam_ok (fam : gen_family) : bool :=
  let '(_, _, types, _, _, _, _) := fam in
  forallb (fun tm => forallb (fun ty =>
    let p := params_of fam tm (ty =? 2) in
    (p_start p mod 1024 =? 0) && (0 <? p_tm_align p) && (0 <? p_min_align p) && (0 <? p_size_align p) && (0 <? p_max_cnt p)
    && (0 <? p_max_img p) && (p_max_cnt p <=? 4)
    && ((ty =? 2) || (p_max_cnt p * p_csize p <=? p_start p))) types) [0; 2; 3; 4].

Example tamper_signed_range_nonvacuous :
  exists cs c, ahab_update demo_params demo_cfg = Ok cs /\ nth_error cs 1 = Some c /\
               (0 <? zlen' (signed_data false c)) = true /\ signed_as_parsed false (container_bytes false c) c = true.
Proof. exists demo_cs. eexists. split; [exact demo_update|]. split; [reflexivity|]. vm_compute. split; reflexivity. Qed.
