(* Proofs/MiscGrammarProofs.v -- C20: the documented number grammar of spsdk.utils.misc.value_to_int as an
   inductive SPECIFICATION over code-point lists, and the proof that the faithful model
   MiscModel.value_to_int_str (regex matcher + CPython int(text, base)) accepts exactly that grammar with the
   mathematical value -- for strings of ANY length -- except the known finding C20-F1 (a second "0b" after the
   binary prefix), which is carved out precisely and also given as an "as implemented" production. *)
From Coq Require Import ZArith NArith List Bool Lia ZifyBool.
Require Import Value Bytes GenMisc MiscModel MiscProofs.
Import ListNotations.
Local Open Scope Z_scope.

(* a digit character and its value: '0'..'9' -> 0..9, 'a'..'f' -> 10..15 (text is already lower case) *)
Inductive digit_of : N -> Z -> Prop :=
| digit_dec c : (48 <= c <= 57)%N -> digit_of c (Z.of_N c - 48)
| digit_hex c : (97 <= c <= 102)%N -> digit_of c (Z.of_N c - 87).

(* one or more digits of the base, a single '_' allowed only BETWEEN two digits; the value is the
   positional reading of the digits (underscores carry no value) *)
Inductive digit_group (base : Z) : list N -> Z -> Prop :=
| dg_one c d : digit_of c d -> d < base -> digit_group base [c] d
| dg_snoc t v c d : digit_group base t v -> digit_of c d -> d < base ->
    digit_group base (t ++ [c]) (v * base + d)
| dg_snoc_us t v c d : digit_group base t v -> digit_of c d -> d < base ->
    digit_group base (t ++ [95%N; c]) (v * base + d).

(* at most three characters out of 'u' 'l' *)
Definition suffix_ok (u : list N) : Prop :=
  (length u <= 3)%nat /\ Forall (fun c => c = 117%N \/ c = 108%N) u.

Inductive base_prefix : N -> Z -> Prop :=
| bp_bin : base_prefix 98 2          (* 0b *)
| bp_oct : base_prefix 111 8         (* 0o *)
| bp_hex : base_prefix 120 16.       (* 0x *)

(* THE DOCUMENTED GRAMMAR over the stripped, lower-cased text *)
Inductive number_grammar : list N -> Z -> Prop :=
| ng_dec body u v : digit_group 10 body v -> suffix_ok u -> number_grammar (body ++ u) v
| ng_pref p b body u v : base_prefix p b -> digit_group b body v -> suffix_ok u ->
    number_grammar (48%N :: p :: body ++ u) v.

(* the extra production the implementation has (known finding C20-F1): "0b" "0b" ["_"] binary digits *)
Inductive dup_binary : list N -> Z -> Prop :=
| dup_plain body u v : digit_group 2 body v -> suffix_ok u ->
    dup_binary (48%N :: 98%N :: 48%N :: 98%N :: body ++ u) v
| dup_us body u v : digit_group 2 body v -> suffix_ok u ->
    dup_binary (48%N :: 98%N :: 48%N :: 98%N :: 95%N :: body ++ u) v.

Definition number_grammar_impl (t : list N) (v : Z) : Prop := number_grammar t v \/ dup_binary t v.

(* the known class, as a predicate on the text only *)
Definition dup_prefix_class (t : list N) : Prop := exists r, t = 48%N :: 98%N :: 48%N :: 98%N :: r.

Definition strip_lower (s : list N) : list N := lower (strip s).

Lemma digit_of_val c d : digit_of c d <-> digit_val c = Some d.
Proof.
  unfold digit_val, is_digit, is_hexlow, nle. split.
  - intros [c' H|c' H].
    + replace ((48 <=? c')%N && (c' <=? 57)%N) with true by lia. reflexivity.
    + replace ((48 <=? c')%N && (c' <=? 57)%N) with false by lia.
      replace ((97 <=? c')%N && (c' <=? 102)%N) with true by lia. reflexivity.
  - destruct ((48 <=? c)%N && (c <=? 57)%N) eqn:E1.
    + intros H; injection H as <-. apply digit_dec. lia.
    + destruct ((97 <=? c)%N && (c <=? 102)%N) eqn:E2; [|discriminate].
      intros H; injection H as <-. apply digit_hex. lia.
Qed.

Lemma digit_of_bounds c d : digit_of c d -> 0 <= d < 16.
Proof. intros [c' H|c' H]; lia. Qed.

Lemma digit_of_not_us c d : digit_of c d -> N.eqb c 95 = false.
Proof. intros [c' H|c' H]; lia. Qed.

Lemma digit_of_numch c d : digit_of c d -> is_numch c = true.
Proof. intros [c' H|c' H]; unfold is_numch, is_digit, is_hexlow, nle; lia. Qed.

Lemma sufch_spec c : is_sufch c = true <-> (c = 117%N \/ c = 108%N).
Proof. unfold is_sufch. lia. Qed.

Lemma sufch_not_numch c : c = 117%N \/ c = 108%N -> is_numch c = false.
Proof. intros [->| ->]; reflexivity. Qed.

Lemma prefix_base_spec p b : prefix_base p = Some b <-> base_prefix p b.
Proof.
  unfold prefix_base. split.
  - destruct (N.eqb p 98) eqn:E1; [intros H; injection H as <-; replace p with 98%N by lia; constructor|].
    destruct (N.eqb p 111) eqn:E2; [intros H; injection H as <-; replace p with 111%N by lia; constructor|].
    destruct (N.eqb p 120) eqn:E3; [intros H; injection H as <-; replace p with 120%N by lia; constructor|].
    discriminate.
  - intros []; reflexivity.
Qed.

Lemma prefix_base_none p : p <> 98%N -> p <> 111%N -> p <> 120%N -> prefix_base p = None.
Proof.
  intros H1 H2 H3. unfold prefix_base.
  replace (N.eqb p 98) with false by lia. replace (N.eqb p 111) with false by lia.
  replace (N.eqb p 120) with false by lia. reflexivity.
Qed.

(* int(text, base) on [0-9a-f_]: int_digits accepts exactly the digit groups, with their value *)
Lemma int_digits_step base c d rest acc prev : digit_of c d -> d < base ->
  int_digits base (c :: rest) acc prev = int_digits base rest (acc * base + d) true.
Proof.
  intros Hd Hb. cbn [int_digits]. rewrite (digit_of_not_us c d Hd).
  apply digit_of_val in Hd. rewrite Hd. replace (d <? base) with true by lia. reflexivity.
Qed.

Lemma int_digits_sound base t v : digit_group base t v ->
  forall rest, int_digits base (t ++ rest) 0 false = int_digits base rest v true.
Proof.
  induction 1 as [c d Hd Hb|t v c d Hg IH Hd Hb|t v c d Hg IH Hd Hb]; intros rest.
  - cbn [app]. rewrite (int_digits_step base c d) by assumption. f_equal.
  - rewrite <- app_assoc. rewrite IH. cbn [app]. now apply int_digits_step.
  - rewrite <- app_assoc. rewrite IH. cbn [app].
    change (int_digits base (95%N :: c :: rest) v true) with (int_digits base (c :: rest) v false).
    now apply int_digits_step.
Qed.

(* after a group pre read so far (with a pending '_' when prev is false), what int_digits accepts extends the group *)
Lemma int_digits_complete base s : forall pre acc prev v, digit_group base pre acc ->
  int_digits base s acc prev = Some v -> digit_group base (pre ++ (if prev then [] else [95%N]) ++ s) v.
Proof.
  induction s as [|c t IH]; intros pre acc prev v Hp H; cbn [int_digits] in H.
  - destruct prev; [|discriminate]. injection H as <-. now rewrite !app_nil_r.
  - destruct (N.eqb c 95) eqn:Ec.
    + apply N.eqb_eq in Ec. subst c. destruct prev; [|discriminate]. now apply (IH pre acc false v).
    + destruct (digit_val c) as [d|] eqn:Ed; [|discriminate]. destruct (d <? base) eqn:Eb; [|discriminate].
      apply digit_of_val in Ed. destruct prev.
      * replace (pre ++ [] ++ c :: t) with ((pre ++ [c]) ++ [] ++ t) by now rewrite <- app_assoc.
        apply (IH _ (acc * base + d) true v); [|exact H]. apply dg_snoc; [assumption|assumption|lia].
      * replace (pre ++ [95%N] ++ c :: t) with ((pre ++ [95%N; c]) ++ [] ++ t) by now rewrite <- app_assoc.
        apply (IH _ (acc * base + d) true v); [|exact H]. apply dg_snoc_us; [assumption|assumption|lia].
Qed.

Lemma int_digits_iff base s v : int_digits base s 0 false = Some v <-> digit_group base s v.
Proof.
  split.
  - destruct s as [|c t]; [discriminate|]. cbn [int_digits].
    destruct (N.eqb c 95) eqn:Ec; [discriminate|].
    destruct (digit_val c) as [d|] eqn:Ed; [|discriminate].
    destruct (d <? base) eqn:Eb; [|discriminate].
    apply digit_of_val in Ed. intros H.
    apply (int_digits_complete base t [c] (0 * base + d) true v); [|exact H].
    replace (0 * base + d) with d by lia. apply dg_one; [assumption|lia].
  - intros H. pose proof (int_digits_sound base s v H []) as E. rewrite app_nil_r in E. exact E.
Qed.

Lemma dg_chars base t v : digit_group base t v ->
  Forall (fun c => c = 95%N \/ exists d, digit_of c d /\ d < base) t.
Proof.
  induction 1 as [c d Hd Hb|t v c d Hg IH Hd Hb|t v c d Hg IH Hd Hb].
  - constructor; [|constructor]. right. now exists d.
  - apply Forall_app. split; [assumption|]. constructor; [|constructor]. right. now exists d.
  - apply Forall_app. split; [assumption|]. constructor; [now left|]. constructor; [|constructor]. right. now exists d.
Qed.

Lemma dg_head base t v : digit_group base t v -> exists c t' d, t = c :: t' /\ digit_of c d /\ d < base.
Proof.
  induction 1 as [c d Hd Hb|t v c d Hg IH Hd Hb|t v c d Hg IH Hd Hb].
  - exists c, [], d. auto.
  - destruct IH as (c0 & t' & d0 & -> & H1 & H2). exists c0, (t' ++ [c]), d0. auto.
  - destruct IH as (c0 & t' & d0 & -> & H1 & H2). exists c0, (t' ++ [95%N; c]), d0. auto.
Qed.

Lemma dg_nonneg base t v : 0 < base -> digit_group base t v -> 0 <= v.
Proof.
  intros Hb. induction 1 as [c d Hd Hl|t v c d Hg IH Hd Hl|t v c d Hg IH Hd Hl];
    pose proof (digit_of_bounds c d Hd); nia.
Qed.

Lemma dg_numch base t v : digit_group base t v -> Forall (fun c => is_numch c = true) t.
Proof.
  intros H. apply dg_chars in H. eapply Forall_impl; [|exact H].
  intros c [->|(d & Hd & _)]; [reflexivity|]. now apply (digit_of_numch c d).
Qed.

Lemma span_num_spec s : forall a r, span_num s = (a, r) ->
  s = a ++ r /\ Forall (fun c => is_numch c = true) a /\
  match r with [] => True | c :: _ => is_numch c = false end.
Proof.
  induction s as [|c t IH]; intros a r H; cbn [span_num] in H.
  - injection H as <- <-. auto.
  - destruct (is_numch c) eqn:Ec.
    + destruct (span_num t) as [a' r'] eqn:Et. injection H as <- <-.
      destruct (IH a' r' eq_refl) as (-> & Hf & Hr). auto.
    + injection H as <- <-. auto.
Qed.

Lemma span_num_complete a r : Forall (fun c => is_numch c = true) a ->
  match r with [] => True | c :: _ => is_numch c = false end -> span_num (a ++ r) = (a, r).
Proof.
  intros Ha Hr. induction Ha as [|c a Hc Ha IH].
  - destruct r as [|c r']; [reflexivity|]. cbn. now rewrite Hr.
  - cbn [app span_num]. rewrite Hc, IH. reflexivity.
Qed.

Lemma suffix_ok_bool u : ((Nat.leb (length u) 3) && forallb is_sufch u = true) <-> suffix_ok u.
Proof.
  unfold suffix_ok. rewrite andb_true_iff, Nat.leb_le, forallb_forall, Forall_forall.
  split; intros [H1 H2]; (split; [exact H1|]); intros c Hc; apply sufch_spec; auto.
Qed.

Lemma suffix_head_not_numch u : suffix_ok u -> match u with [] => True | c :: _ => is_numch c = false end.
Proof.
  intros [_ H]. destruct u as [|c u']; [exact I|]. inversion H; subst. now apply sufch_not_numch.
Qed.

Lemma match_noprefix_spec s num : match_noprefix s = Some num <->
  (num <> [] /\ Forall (fun c => is_numch c = true) num /\ exists u, s = num ++ u /\ suffix_ok u).
Proof.
  unfold match_noprefix. split.
  - destruct (span_num s) as [a r] eqn:E. destruct (span_num_spec s a r E) as (-> & Hf & Hr).
    destruct a as [|c a']; [discriminate|].
    destruct ((Nat.leb (length r) 3) && forallb is_sufch r) eqn:Es; [|discriminate].
    intros H; injection H as <-. split; [discriminate|]. split; [assumption|].
    exists r. split; [reflexivity|]. now apply suffix_ok_bool.
  - intros (Hn & Hf & u & -> & Hu).
    rewrite (span_num_complete num u Hf (suffix_head_not_numch u Hu)).
    destruct num as [|c a']; [congruence|].
    apply suffix_ok_bool in Hu. rewrite Hu. reflexivity.
Qed.

Definition fallback (t : list N) : option (Z * list N) :=
  match match_noprefix t with Some n => Some (10, n) | None => None end.

Ltac split_N c :=
  destruct c as [|c]; [try reflexivity|]; repeat (destruct c as [c|c|]; try reflexivity).

Lemma regex_match_eq t : regex_match t =
  match t with
  | c :: p :: rest =>
      if N.eqb c 48 then
        match prefix_base p with
        | Some b => match match_noprefix rest with Some n => Some (b, n) | None => fallback t end
        | None => fallback t
        end
      else fallback t
  | _ => fallback t
  end.
Proof.
  destruct t as [|c [|p rest]]; [reflexivity| |]; split_N c.
Qed.

(* the documented reading of the text: regex groups, then the digit/underscore rule of the base *)
Definition doc_parse (t : list N) : option Z :=
  match regex_match t with Some (b, num) => int_digits b num 0 false | None => None end.

Lemma regex_match_inv t b num : regex_match t = Some (b, num) ->
  (b = 10 /\ match_noprefix t = Some num) \/
  (exists p rest, t = 48%N :: p :: rest /\ base_prefix p b /\ match_noprefix rest = Some num).
Proof.
  rewrite regex_match_eq.
  assert (Hf : fallback t = Some (b, num) -> b = 10 /\ match_noprefix t = Some num).
  { unfold fallback. destruct (match_noprefix t); [|discriminate]. intros H; injection H as <- <-. auto. }
  destruct t as [|c [|p rest]]; try (intros H; left; now apply Hf).
  destruct (N.eqb c 48) eqn:Ec; [|intros H; left; now apply Hf].
  apply N.eqb_eq in Ec. subst c.
  destruct (prefix_base p) as [b'|] eqn:Ep; [|intros H; left; now apply Hf].
  destruct (match_noprefix rest) as [n|] eqn:Em; [|intros H; left; now apply Hf].
  intros H; injection H as <- <-. right. exists p, rest. split; [reflexivity|]. split; [now apply prefix_base_spec|assumption].
Qed.

Lemma regex_base t b num : regex_match t = Some (b, num) -> b = 10 \/ b = 2 \/ b = 8 \/ b = 16.
Proof.
  intros H. apply regex_match_inv in H. destruct H as [[-> _]|(p & rest & _ & Hp & _)]; [auto|].
  destruct Hp; auto.
Qed.

Lemma doc_parse_sound t v : doc_parse t = Some v -> number_grammar t v.
Proof.
  unfold doc_parse. destruct (regex_match t) as [[b num]|] eqn:Er; [|discriminate]. intros Hd.
  apply int_digits_iff in Hd. apply regex_match_inv in Er.
  destruct Er as [[-> Hm]|(p & rest & -> & Hp & Hm)]; apply match_noprefix_spec in Hm;
    destruct Hm as (_ & _ & u & -> & Hu); [now apply ng_dec|now apply (ng_pref p b)].
Qed.

Lemma match_noprefix_group base body u v : digit_group base body v -> suffix_ok u ->
  match_noprefix (body ++ u) = Some body.
Proof.
  intros Hg Hu. apply match_noprefix_spec. split.
  - destruct (dg_head _ _ _ Hg) as (c & t' & d & -> & _). discriminate.
  - split; [now apply (dg_numch base body v)|]. now exists u.
Qed.

Lemma regex_dec body u v : digit_group 10 body v -> suffix_ok u ->
  regex_match (body ++ u) = Some (10, body).
Proof.
  intros Hg Hu. rewrite regex_match_eq.
  assert (Hf : fallback (body ++ u) = Some (10, body)).
  { unfold fallback. now rewrite (match_noprefix_group 10 body u v). }
  destruct (body ++ u) as [|c [|p rest]] eqn:E; try exact Hf.
  destruct (N.eqb c 48) eqn:Ec; [|exact Hf].
  assert (Hp : prefix_base p = None); [|rewrite Hp; exact Hf].
  (* p is the second character of a decimal digit group followed by a suffix: '_' , a decimal digit, 'u' or 'l' *)
  destruct (dg_head _ _ _ Hg) as (c0 & t' & d0 & -> & _ & _).
  pose proof (dg_chars _ _ _ Hg) as Hc. inversion Hc as [|? ? _ Hc']; subst.
  cbn [app] in E. injection E as _ E.
  destruct t' as [|c1 t''].
  - cbn [app] in E. destruct Hu as [_ Hu]. rewrite E in Hu. inversion Hu as [|? ? Hx _]; subst.
    destruct Hx as [-> | ->]; reflexivity.
  - cbn [app] in E. injection E as -> _. inversion Hc' as [|? ? Hx _]; subst.
    destruct Hx as [->|(d & Hd & Hl)]; [reflexivity|].
    apply prefix_base_none; destruct Hd as [c' H|c' H]; lia.
Qed.

Lemma regex_pref p b body u v : base_prefix p b -> digit_group b body v -> suffix_ok u ->
  regex_match (48%N :: p :: body ++ u) = Some (b, body).
Proof.
  intros Hp Hg Hu. rewrite regex_match_eq. change (N.eqb 48 48) with true. cbv iota.
  apply prefix_base_spec in Hp. rewrite Hp. now rewrite (match_noprefix_group b body u v).
Qed.

Lemma doc_parse_complete t v : number_grammar t v -> doc_parse t = Some v.
Proof.
  unfold doc_parse. intros [body u v' Hg Hu|p b body u v' Hp Hg Hu].
  - rewrite (regex_dec body u v') by assumption. now apply int_digits_iff.
  - rewrite (regex_pref p b body u v') by assumption. now apply int_digits_iff.
Qed.

Lemma doc_parse_iff t v : doc_parse t = Some v <-> number_grammar t v.
Proof. split; [apply doc_parse_sound|apply doc_parse_complete]. Qed.

Definition drop_us (r : list N) : list N :=
  match r with c :: r' => if N.eqb c 95 then r' else r | [] => r end.

Lemma py_int_eq b s : py_int b s =
  match s with
  | c1 :: c2 :: r =>
      if N.eqb c1 48 && N.eqb c2 98 then
        (if b =? 2 then int_digits 2 (drop_us r) 0 false else int_digits b s 0 false)
      else int_digits b s 0 false
  | _ => int_digits b s 0 false
  end.
Proof.
  unfold py_int. destruct s as [|c1 [|c2 r]]; [reflexivity| |].
  - split_N c1.
  - split_N c1. split_N c2.
    change (N.eqb 48 48 && N.eqb 98 98) with true. cbv iota.
    destruct (b =? 2); [|reflexivity].
    destruct r as [|c3 r']; [reflexivity|]. unfold drop_us. split_N c3.
Qed.

Lemma int_digits_0b base r acc prev : base <= 11 -> int_digits base (48%N :: 98%N :: r) acc prev = None.
Proof.
  intros H. cbn [int_digits]. change (N.eqb 48 95) with false. change (N.eqb 98 95) with false.
  change (digit_val 48) with (Some 0). change (digit_val 98) with (Some 11). cbv iota.
  destruct (0 <? base); [|reflexivity]. replace (11 <? base) with false by lia. reflexivity.
Qed.

Lemma py_int_plain b s : (b = 2 -> forall r, s <> 48%N :: 98%N :: r) -> b <= 11 \/ b = 16 ->
  py_int b s = int_digits b s 0 false.
Proof.
  intros H Hb. rewrite py_int_eq. destruct s as [|c1 [|c2 r]]; try reflexivity.
  destruct (N.eqb c1 48 && N.eqb c2 98) eqn:E; [|reflexivity].
  destruct (b =? 2) eqn:E2; [|reflexivity].
  exfalso. apply (H ltac:(lia) r). f_equal; [lia|f_equal; lia].
Qed.

(* the implemented reading of the text *)
Definition parse_impl (t : list N) : option Z :=
  match regex_match t with Some (b, num) => py_int b num | None => None end.

Lemma value_to_int_str_eq s :
  value_to_int_str s = match parse_impl (strip_lower s) with Some v => Ok v | None => Err 1%N end.
Proof.
  unfold value_to_int_str, parse_impl, strip_lower. destruct s as [|c t]; [reflexivity|].
  destruct (regex_match (lower (strip (c :: t)))) as [[b n]|]; reflexivity.
Qed.

Lemma parse_impl_sound t v : parse_impl t = Some v -> number_grammar_impl t v.
Proof.
  unfold parse_impl. destruct (regex_match t) as [[b num]|] eqn:Er; [|discriminate].
  intros Hp. pose proof (regex_base t b num Er) as Hb.
  (* is this the doubled binary prefix? *)
  destruct (Z.eq_dec b 2) as [->|Hb2].
  - destruct num as [|c1 [|c2 r]].
    + left. apply doc_parse_iff. unfold doc_parse. rewrite Er. exact Hp.
    + left. apply doc_parse_iff. unfold doc_parse. rewrite Er. rewrite py_int_eq in Hp. exact Hp.
    + rewrite py_int_eq in Hp. destruct (N.eqb c1 48 && N.eqb c2 98) eqn:E.
      * right. change (2 =? 2) with true in Hp. cbv iota in Hp.
        assert (c1 = 48%N) by lia. assert (c2 = 98%N) by lia. subst c1 c2.
        apply regex_match_inv in Er. destruct Er as [[Hx _]|(p & rest & -> & Hbp & Hm)]; [discriminate|].
        inversion Hbp; subst.
        apply match_noprefix_spec in Hm. destruct Hm as (_ & _ & u & -> & Hu).
        apply int_digits_iff in Hp.
        destruct r as [|c3 r']; [cbn in Hp; now apply (dup_plain [] u v)|].
        unfold drop_us in Hp. destruct (N.eqb c3 95) eqn:E3.
        -- apply N.eqb_eq in E3. subst c3. now apply (dup_us r' u v).
        -- now apply (dup_plain (c3 :: r') u v).
      * left. apply doc_parse_iff. unfold doc_parse. rewrite Er. exact Hp.
  - left. apply doc_parse_iff. unfold doc_parse. rewrite Er.
    rewrite py_int_plain in Hp; [exact Hp|congruence|lia].
Qed.

Lemma parse_impl_doc t v : number_grammar t v -> parse_impl t = Some v.
Proof.
  intros H. apply doc_parse_iff in H. unfold doc_parse in H. unfold parse_impl.
  destruct (regex_match t) as [[b num]|] eqn:Er; [|discriminate].
  pose proof (regex_base t b num Er) as Hb.
  rewrite py_int_plain; [exact H| |lia].
  intros -> r ->. rewrite int_digits_0b in H by lia. discriminate.
Qed.

(* "0b" "0b" [_] digits: the regex takes the second "0b" into the number, int(text, 2) takes it off again *)
Lemma parse_impl_0b0b us body u v : Forall (fun c => is_numch c = true) us -> drop_us (us ++ body) = body ->
  digit_group 2 body v -> suffix_ok u -> parse_impl (48%N :: 98%N :: 48%N :: 98%N :: us ++ body ++ u) = Some v.
Proof.
  intros Hus Hd Hg Hu. unfold parse_impl. rewrite regex_match_eq.
  change (N.eqb 48 48) with true. change (prefix_base 98) with (Some 2). cbv iota.
  assert (Hm : match_noprefix (48%N :: 98%N :: us ++ body ++ u) = Some (48%N :: 98%N :: us ++ body)).
  { apply match_noprefix_spec. split; [discriminate|]. split.
    - do 2 (constructor; [reflexivity|]). apply Forall_app. split; [exact Hus|now apply (dg_numch 2 body v)].
    - exists u. split; [cbn [app]; now rewrite <- app_assoc|exact Hu]. }
  rewrite Hm, py_int_eq. change (N.eqb 48 48 && N.eqb 98 98) with true. change (2 =? 2) with true. cbv iota.
  rewrite Hd. now apply int_digits_iff.
Qed.

Lemma parse_impl_dup t v : dup_binary t v -> parse_impl t = Some v.
Proof.
  intros [body u v' Hg Hu|body u v' Hg Hu].
  - apply (parse_impl_0b0b [] body u v'); try assumption; [constructor|].
    destruct (dg_head _ _ _ Hg) as (c & t' & d & -> & Hd & _). cbn [app drop_us]. now rewrite (digit_of_not_us c d Hd).
  - apply (parse_impl_0b0b [95%N] body u v'); try assumption; [now constructor|reflexivity].
Qed.

Lemma parse_impl_iff t v : parse_impl t = Some v <-> number_grammar_impl t v.
Proof.
  split; [apply parse_impl_sound|]. intros [H|H]; [now apply parse_impl_doc|now apply parse_impl_dup].
Qed.

Lemma dup_binary_class t v : dup_binary t v -> dup_prefix_class t.
Proof. intros [body u v' _ _|body u v' _ _]; eexists; reflexivity. Qed.

(* a number text that begins "0b" is no digit group of a base up to 11: 'b' is the digit 11 *)
Lemma match_noprefix_0b base r num : match_noprefix (48%N :: 98%N :: r) = Some num -> base <= 11 ->
  int_digits base num 0 false = None.
Proof.
  intros Hm Hb. apply match_noprefix_spec in Hm. destruct Hm as (Hn & _ & u & Hs & Hu).
  destruct num as [|c1 [|c2 num']]; [congruence| |]; cbn [app] in Hs.
  - injection Hs as <- Hs. destruct Hu as [_ Hu]. rewrite <- Hs in Hu. inversion Hu as [|? ? Hx _]. destruct Hx; discriminate.
  - injection Hs as <- <- _. now apply int_digits_0b.
Qed.

Lemma dup_class_undocumented t : dup_prefix_class t -> forall v, ~ number_grammar t v.
Proof.
  intros [r ->] v H. apply doc_parse_iff in H. unfold doc_parse in H.
  destruct (regex_match (48%N :: 98%N :: 48%N :: 98%N :: r)) as [[b num]|] eqn:Er; [|discriminate].
  apply regex_match_inv in Er. destruct Er as [[-> Hm]|(p & rest & Ht & Hbp & Hm)].
  - rewrite (match_noprefix_0b 10 _ num Hm) in H by lia. discriminate.
  - injection Ht as <- <-. inversion Hbp; subst. rewrite (match_noprefix_0b 2 _ num Hm) in H by lia. discriminate.
Qed.

Lemma value_to_int_grammar_impl_l s v :
  value_to_int_str s = Ok v <-> number_grammar_impl (strip_lower s) v.
Proof.
  rewrite value_to_int_str_eq. rewrite <- parse_impl_iff.
  destruct (parse_impl (strip_lower s)) as [v'|]; split; intros H; try discriminate; injection H as <-; reflexivity.
Qed.

Lemma value_to_int_total_l s : (exists v, value_to_int_str s = Ok v) \/ value_to_int_str s = Err 1%N.
Proof.
  rewrite value_to_int_str_eq. destruct (parse_impl (strip_lower s)) as [v|]; [left; now exists v|now right].
Qed.

Lemma value_to_int_rejects_l s :
  (forall v, ~ number_grammar_impl (strip_lower s) v) <-> value_to_int_str s = Err 1%N.
Proof.
  split.
  - intros H. destruct (value_to_int_total_l s) as [[v Hv]|Hv]; [|exact Hv].
    apply value_to_int_grammar_impl_l in Hv. now apply H in Hv.
  - intros H v Hg. apply value_to_int_grammar_impl_l in Hg. congruence.
Qed.

(* the statement asked for, with the known class carved out *)
Lemma value_to_int_grammar_except_known_l s : ~ dup_prefix_class (strip_lower s) ->
  (forall v, value_to_int_str s = Ok v <-> number_grammar (strip_lower s) v) /\
  ((forall v, ~ number_grammar (strip_lower s) v) -> value_to_int_str s = Err 1%N).
Proof.
  intros Hk.
  assert (Hiff : forall v, value_to_int_str s = Ok v <-> number_grammar (strip_lower s) v).
  { intros v. rewrite value_to_int_grammar_impl_l. unfold number_grammar_impl. split; [|auto].
    intros [H|H]; [exact H|]. exfalso. apply Hk. now apply (dup_binary_class _ v). }
  split; [exact Hiff|].
  intros H. destruct (value_to_int_total_l s) as [[v Hv]|Hv]; [|exact Hv].
  apply Hiff in Hv. now apply H in Hv.
Qed.

(* inside the known class the documented grammar has NO number at all, the implementation accepts some *)
Lemma value_to_int_grammar_refuted_l :
  exists s v, value_to_int_str s = Ok v /\ dup_prefix_class (strip_lower s) /\
              forall v', ~ number_grammar (strip_lower s) v'.
Proof.
  exists [48; 98; 48; 98; 49]%N, 1. split; [vm_compute; reflexivity|].
  assert (Hc : dup_prefix_class (strip_lower [48; 98; 48; 98; 49]%N)) by (exists [49%N]; reflexivity).
  split; [exact Hc|]. now apply dup_class_undocumented.
Qed.

Lemma documented_subset_l t v :
  (number_grammar t v -> number_grammar_impl t v) /\
  (number_grammar_impl t v -> number_grammar t v \/ (dup_prefix_class t /\ forall v', ~ number_grammar t v')).
Proof.
  split; [now left|]. intros [H|H]; [now left|right].
  pose proof (dup_binary_class t v H) as Hc. split; [exact Hc|]. now apply dup_class_undocumented.
Qed.

Lemma number_grammar_functional t v1 v2 : number_grammar t v1 -> number_grammar t v2 -> v1 = v2.
Proof. intros H1 H2. apply doc_parse_iff in H1, H2. congruence. Qed.

Lemma number_grammar_nonneg t v : number_grammar_impl t v -> 0 <= v.
Proof.
  intros [[body u v' Hg _|p b body u v' Hp Hg _]|[body u v' Hg _|body u v' Hg _]].
  - now apply (dg_nonneg 10 body).
  - apply (dg_nonneg b body); [destruct Hp; lia|assumption].
  - now apply (dg_nonneg 2 body).
  - now apply (dg_nonneg 2 body).
Qed.

Lemma value_to_bytes_str_grammar_l s v a2n big : number_grammar_impl (strip_lower s) v ->
  exists bs, value_to_bytes_str s a2n 0 big = Ok bs
   /\ (if big then be_dec bs else le_dec bs) = Z.to_N v
   /\ Z.of_nat (length bs) = width_spec v a2n.
Proof.
  intros H. pose proof (number_grammar_nonneg _ _ H) as Hv.
  apply value_to_int_grammar_impl_l in H. unfold value_to_bytes_str. rewrite H.
  now apply value_to_bytes_total.
Qed.

Lemma value_to_bytes_str_rejects_l s a2n bc big : (forall v, ~ number_grammar_impl (strip_lower s) v) ->
  value_to_bytes_str s a2n bc big = Err 1%N.
Proof.
  intros H. apply value_to_int_rejects_l in H. unfold value_to_bytes_str. now rewrite H.
Qed.

(* ASCII white space of str.strip(): \t \n \v \f \r, 0x1c..0x1f, space *)
Definition ws (c : N) : Prop := (9 <= c <= 13)%N \/ (28 <= c <= 32)%N.
Definition to_lower (c : N) : N := if ((65 <=? c) && (c <=? 90))%N then (c + 32)%N else c.

Lemma is_space_ws c : is_space c = true <-> ws c.
Proof. unfold is_space, nle, ws. lia. Qed.

Lemma lstrip_spec s : exists a, s = a ++ lstrip s /\ Forall ws a /\
  match lstrip s with [] => True | c :: _ => ~ ws c end.
Proof.
  induction s as [|c t (a & E & Ha & Hh)].
  - exists []. cbn. auto.
  - cbn [lstrip]. destruct (is_space c) eqn:Ec.
    + exists (c :: a). split; [cbn; now rewrite <- E|]. split; [|exact Hh].
      constructor; [now apply is_space_ws|assumption].
    + exists []. split; [reflexivity|]. split; [constructor|].
      intros H. apply is_space_ws in H. congruence.
Qed.

(* strip_lower s is the middle part of s between maximal runs of white space, lower-cased *)
Lemma strip_lower_spec_l s : exists a m b, s = a ++ m ++ b /\ Forall ws a /\ Forall ws b /\
  (forall c m', m = c :: m' -> ~ ws c) /\ (forall c m', m = m' ++ [c] -> ~ ws c) /\
  strip_lower s = map to_lower m.
Proof.
  destruct (lstrip_spec s) as (a & Ea & Ha & Hh).
  destruct (lstrip_spec (rev (lstrip s))) as (b' & Eb & Hb & Hk).
  set (k := lstrip (rev (lstrip s))) in *.
  assert (Em : lstrip s = rev k ++ rev b').
  { rewrite <- rev_app_distr, <- Eb. now rewrite rev_involutive. }
  exists a, (rev k), (rev b'). split; [now rewrite <- Em|]. split; [assumption|].
  split; [now apply Forall_rev|]. split; [|split].
  - intros c m' E. rewrite E in Em. rewrite Em in Hh. exact Hh.
  - intros c m' E. apply (f_equal (@rev N)) in E. rewrite rev_involutive, rev_app_distr in E. cbn in E.
    rewrite E in Hk. exact Hk.
  - unfold strip_lower, strip, lower. fold k. apply map_ext. intros c. unfold lower_ch, to_lower, nle. reflexivity.
Qed.

(* the hypotheses are satisfiable *)
Definition str_0x1F_ul : list N := [32; 48; 88; 49; 70; 117; 108; 10]%N.     (* " 0X1Ful\n" *)
Example grammar_ex1 : number_grammar (strip_lower str_0x1F_ul) 31.
Proof. apply doc_parse_iff. vm_compute. reflexivity. Qed.
Example grammar_ex2 : number_grammar [49; 95; 48; 48; 48; 117; 108; 108]%N 1000.   (* "1_000ull" *)
Proof. apply doc_parse_iff. vm_compute. reflexivity. Qed.
Example grammar_ex3 : forall v, ~ number_grammar [49; 95; 95; 48]%N v.             (* "1__0" *)
Proof. intros v H. apply doc_parse_iff in H. vm_compute in H. discriminate. Qed.
Example grammar_ex4 : forall v, ~ number_grammar [48; 120]%N v.                    (* "0x" *)
Proof. intros v H. apply doc_parse_iff in H. vm_compute in H. discriminate. Qed.
Example grammar_ex5 : number_grammar [48; 111; 49; 55]%N 15 /\ number_grammar [48; 98; 49; 95; 48]%N 2
                      /\ number_grammar [48; 57]%N 9.                               (* "0o17" "0b1_0" "09" *)
Proof. repeat split; apply doc_parse_iff; vm_compute; reflexivity. Qed.
Example grammar_ex6 : ~ dup_prefix_class (strip_lower str_0x1F_ul).
Proof. intros [r H]. vm_compute in H. discriminate. Qed.
Example grammar_ex7 : dup_binary [48; 98; 48; 98; 95; 49; 48]%N 2.                 (* "0b0b_10" *)
Proof. apply (dup_us [49; 48]%N [] 2); [|split; [cbn; lia|constructor]].
       apply (dg_snoc 2 [49%N] 1 48%N 0); [|apply (digit_dec 48); lia|lia].
       apply (dg_one 2 49%N 1); [apply (digit_dec 49); lia|lia]. Qed.

Lemma value_to_int_grammar_as_implemented_l s :
  (forall v, value_to_int_str s = Ok v <-> number_grammar_impl (strip_lower s) v) /\
  ((forall v, ~ number_grammar_impl (strip_lower s) v) <-> value_to_int_str s = Err 1%N) /\
  ((exists v, value_to_int_str s = Ok v) \/ value_to_int_str s = Err 1%N).
Proof.
  split; [intros v; apply value_to_int_grammar_impl_l|]. split; [apply value_to_int_rejects_l|apply value_to_int_total_l].
Qed.

Lemma value_to_bytes_str_grammar_l2 s a2n big :
  (forall v, number_grammar_impl (strip_lower s) v ->
     exists bs, value_to_bytes_str s a2n 0 big = Ok bs
       /\ (if big then be_dec bs else le_dec bs) = Z.to_N v
       /\ Z.of_nat (length bs) = width_spec v a2n) /\
  ((forall v, ~ number_grammar_impl (strip_lower s) v) ->
     forall bc, value_to_bytes_str s a2n bc big = Err 1%N).
Proof.
  split; [intros v; apply value_to_bytes_str_grammar_l|]. intros H bc. now apply value_to_bytes_str_rejects_l.
Qed.

Print Assumptions value_to_int_grammar_as_implemented_l.
Print Assumptions value_to_int_grammar_except_known_l.
Print Assumptions value_to_int_grammar_refuted_l.
Print Assumptions documented_subset_l.
Print Assumptions value_to_bytes_str_grammar_l2.
Print Assumptions strip_lower_spec_l.
