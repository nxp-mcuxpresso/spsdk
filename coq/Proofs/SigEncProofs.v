(* Proofs/SigEncProofs.v -- lemmas about Model/SigEncModel.v (C08). *)
From Coq Require Import ZArith NArith List Bool Lia.
Require Import Value Bytes BytesProofs GenSigEnc SigEncModel.
Import ListNotations.

Local Open Scope N_scope.

Lemma be_enc_f_eq w n : be_enc_f w n = be_enc w n.
Proof.
  unfold be_enc_f, be_enc. f_equal. revert n; induction w as [|w IH]; intros n; [reflexivity|].
  cbn [le_enc_f le_enc]. rewrite IH. f_equal.
  - change 255 with (N.ones 8). rewrite N.land_ones. reflexivity.
  - rewrite N.shiftr_div_pow2. reflexivity.
Qed.

(* a big-endian string with its top bit clear that is no longer than necessary is the content of a non-negative INTEGER *)
Lemma der_uint_val_be_enc w n :
  n < 2 ^ (8 * N.of_nat w + 7) -> (w <> 0%nat -> 2 ^ (8 * N.of_nat w - 1) <= n) -> der_uint_val (be_enc (S w) n) = Some n.
Proof.
  intros Hhi Hlo.
  assert (Hdec : be_dec (be_enc (S w) n) = n).
  { apply be_dec_enc_small. eapply N.lt_le_trans; [exact Hhi|]. apply N.pow_le_mono_r; lia. }
  rewrite be_enc_cons in *. rewrite pow256_pow2 in *.
  assert (HP : 0 < 2 ^ (8 * N.of_nat w)) by (apply N.neq_0_lt_0, N.pow_nonzero; discriminate).
  assert (Hh : n / 2 ^ (8 * N.of_nat w) < 128).
  { apply N.div_lt_upper_bound; [lia|]. rewrite N.pow_add_r in Hhi. exact Hhi. }
  rewrite (N.mod_small _ 256) in * by lia.
  destruct w as [|w].
  - cbn [der_uint_val be_enc le_enc rev]. rewrite (proj2 (N.ltb_lt _ _) Hh). unfold be_dec in Hdec. cbn [be_enc le_enc rev app le_dec] in Hdec. f_equal. lia.
  - rewrite be_enc_cons in *. cbn [der_uint_val]. rewrite (proj2 (N.ltb_lt _ _) Hh), Hdec.
    destruct (N.eqb_spec (n / 2 ^ (8 * N.of_nat (S w))) 0) as [Hz|]; [|reflexivity]. cbn [andb].
    (* a leading 0x00: then n < 2^(8 (w+1)) and minimality puts the top bit of the next byte *)
    apply N.div_small_iff in Hz; [|lia]. rewrite (N.mod_small n) by exact Hz. rewrite pow256_pow2.
    assert (HP' : 0 < 2 ^ (8 * N.of_nat w)) by (apply N.neq_0_lt_0, N.pow_nonzero; discriminate).
    specialize (Hlo ltac:(discriminate)). replace (8 * N.of_nat (S w) - 1) with (8 * N.of_nat w + 7) in Hlo by lia.
    replace (8 * N.of_nat (S w)) with (8 * N.of_nat w + 8) in Hz by lia. rewrite N.pow_add_r in Hlo, Hz.
    assert (128 <= n / 2 ^ (8 * N.of_nat w) < 256).
    { split; [apply N.div_le_lower_bound|apply N.div_lt_upper_bound]; lia. }
    rewrite (N.mod_small _ 256) by lia. now replace (_ <? 128) with false by (symmetry; apply N.ltb_ge; lia).
Qed.

Lemma der_int_content_val n : der_uint_val (der_int_content n) = Some n.
Proof.
  unfold der_int_content. rewrite be_enc_f_eq. set (q := N.size n / 8).
  replace (N.to_nat (q + 1)) with (S (N.to_nat q)) by lia. apply der_uint_val_be_enc; rewrite N2Nat.id.
  - apply N_size_le_iff. unfold q. dlia.
  - intros Hq. apply N_size_gt_iff. unfold q in *. dlia.
Qed.

Lemma read_len_bytes n rest :
  n < 2 ^ 32 -> read_len (der_len_bytes n ++ rest) = Some (n, rest).
Proof.
  intros Hn. unfold der_len_bytes. rewrite be_enc_f_eq.
  destruct (N.ltb_spec n 128) as [Hs|Hl]; cbn [app read_len].
  - now rewrite (proj2 (N.ltb_lt _ _) Hs).
  - set (k := (N.size n + 7) / 8).
    assert (Hsz : 8 <= N.size n <= 32) by (split; [apply N.lt_pred_le, N_size_gt_iff|apply N_size_le_iff]; assumption).
    assert (Hk : 1 <= k <= 4 /\ 8 * (k - 1) < N.size n <= 8 * k) by (unfold k; dlia).
    rewrite N2Nat.id.
    replace (128 + k <? 128) with false by (symmetry; apply N.ltb_ge; lia). replace (128 + k - 128) with k by lia.
    replace ((1 <=? k) && (k <=? 4)) with true by (symmetry; apply andb_true_iff; split; apply N.leb_le; lia).
    replace (nlen (be_enc (N.to_nat k) n ++ rest) <? k) with false by (symmetry; apply N.ltb_ge; unfold nlen; rewrite app_length, be_enc_length; lia).
    rewrite firstn_app_exact, skipn_app_exact by apply be_enc_length.
    rewrite be_dec_enc_small by (apply N_size_le_iff; lia).
    replace (n <? min_long_len k) with false; [reflexivity|]. symmetry. apply N.ltb_ge. unfold min_long_len.
    destruct (N.eqb_spec k 1) as [|Hk1]; [lia|]. apply N_size_gt_iff. lia.
Qed.

Lemma read_tlv_tlv tag c rest :
  nlen c < 2 ^ 32 -> read_tlv tag (der_tlv tag c ++ rest) = Some (c, rest).
Proof.
  intros Hc. unfold der_tlv. cbn [app read_tlv]. rewrite N.eqb_refl, <- app_assoc, read_len_bytes by exact Hc.
  replace (nlen (c ++ rest) <? nlen c) with false by (symmetry; apply N.ltb_ge; rewrite nlen_app; lia).
  now rewrite firstn_app_exact, skipn_app_exact by (unfold nlen; lia).
Qed.

Local Open Scope Z_scope.

(* a DER signature shorter than 4 GiB (the 4-byte length limit of the decoder) decodes to the numbers it was made from *)
Lemma der_roundtrip_len r s :
  zlen (der_sig r s) < 2 ^ 32 -> decode_dss (der_sig r s) = Some (r, s).
Proof.
  intros H.
  assert (G : forall tag (c : list N), zlen c < zlen (der_tlv tag c)) by (intros; unfold der_tlv, zlen; cbn [length]; rewrite app_length; lia).
  assert (S : forall c : list N, zlen c < 2 ^ 32 -> (nlen c < 2 ^ 32)%N)
    by (intros c; unfold zlen, nlen; change (2 ^ 32) with 4294967296; change (2 ^ 32)%N with 4294967296%N; lia).
  unfold decode_dss, der_sig in *. set (T1 := der_tlv 2 (der_int_content r)) in *. set (T2 := der_tlv 2 (der_int_content s)) in *.
  pose proof (G 48%N (T1 ++ T2)) as G0. rewrite zlen_app in G0.
  pose proof (G 2%N (der_int_content r)) as G1. pose proof (G 2%N (der_int_content s)) as G2. fold T1 in G1. fold T2 in G2.
  pose proof (zlen_nonneg T1). pose proof (zlen_nonneg T2).
  rewrite <- (app_nil_r (der_tlv 48 _)), read_tlv_tlv by (apply S; rewrite zlen_app; lia).
  unfold T1 at 1. rewrite read_tlv_tlv by (apply S; lia).
  unfold T2. rewrite <- (app_nil_r (der_tlv 2 (der_int_content s))), read_tlv_tlv by (apply S; fold T2; lia).
  now rewrite !der_int_content_val.
Qed.

Lemma to_N_lt_pow v w : 0 <= v -> 0 <= w -> v < 2 ^ (8 * w) -> (Z.to_N v < 2 ^ (8 * N.of_nat (Z.to_nat w)))%N.
Proof.
  intros Hv Hw H. apply N2Z.inj_lt. rewrite Z2N.id, N2Z.inj_pow, N2Z.inj_mul, nat_N_Z, Z2Nat.id by assumption. exact H.
Qed.

Lemma to_bytes_be_ok v w :
  0 <= v -> 0 <= w -> v < 2 ^ (8 * w) -> to_bytes_be v w = Ok (be_enc (Z.to_nat w) (Z.to_N v)).
Proof.
  intros Hv Hw H. unfold to_bytes_be. rewrite Z.shiftl_1_l, be_enc_f_eq.
  replace ((v <? 0) || (w <? 0)) with false by (symmetry; apply orb_false_iff; split; apply Z.ltb_ge; assumption).
  now replace (2 ^ (8 * w) <=? v) with false by (symmetry; apply Z.leb_gt; exact H).
Qed.

Lemma from_bytes_be_enc v w :
  0 <= v -> 0 <= w -> v < 2 ^ (8 * w) -> from_bytes_be (be_enc (Z.to_nat w) (Z.to_N v)) = v.
Proof.
  intros Hv Hw H. unfold from_bytes_be. rewrite be_dec_enc_small by (apply to_N_lt_pow; assumption).
  apply Z2N.id. exact Hv.
Qed.

Lemma to_bytes_be_length v w b : to_bytes_be v w = Ok b -> zlen b = w.
Proof.
  unfold to_bytes_be. destruct ((v <? 0) || (w <? 0)) eqn:E1; [discriminate|].
  destruct (Z.shiftl 1 (8 * w) <=? v); [discriminate|]. intros H. inversion H; subst.
  apply orb_false_iff in E1 as [_ E1]. apply Z.ltb_ge in E1. rewrite be_enc_f_eq. now apply zlen_be_enc.
Qed.

Lemma take_app_exact {A} (a b : list A) n : zlen a = n -> take n (a ++ b) = a.
Proof. intros <-. unfold take, zlen. rewrite Nat2Z.id. now apply firstn_app_exact. Qed.
Lemma drop_app_exact {A} (a b : list A) n : zlen a = n -> drop n (a ++ b) = b.
Proof. intros <-. unfold drop, zlen. rewrite Nat2Z.id. now apply skipn_app_exact. Qed.

Lemma from_bytes_be_bound l : wf_bytes l -> 0 <= from_bytes_be l < 2 ^ (8 * zlen l).
Proof.
  intros H. unfold from_bytes_be, be_dec. split; [lia|].
  assert (Hw : wf_bytes (rev l)) by (unfold wf_bytes; apply Forall_rev; exact H).
  pose proof (le_dec_bound (rev l) Hw) as B. rewrite rev_length in B.
  apply N2Z.inj_lt in B. rewrite N2Z.inj_pow, N2Z.inj_mul, nat_N_Z in B. exact B.
Qed.
Lemma be_enc_from_bytes l : wf_bytes l -> be_enc (length l) (Z.to_N (from_bytes_be l)) = l.
Proof. intros H. unfold from_bytes_be. rewrite N2Z.id. apply be_enc_dec. exact H. Qed.

(* two numbers side by side in fixed widths: the NXP raw form of signatures (r || s) and of keys (X || Y, modulus || exponent) *)
Definition pair_bytes (w1 w2 a b : Z) : list N := be_enc (Z.to_nat w1) (Z.to_N a) ++ be_enc (Z.to_nat w2) (Z.to_N b).

Lemma pair_enc_ok w1 w2 a b : 0 <= w1 -> 0 <= w2 -> 0 <= a < 2 ^ (8 * w1) -> 0 <= b < 2 ^ (8 * w2) ->
  bind (to_bytes_be a w1) (fun x => bind (to_bytes_be b w2) (fun y => Ok (x ++ y))) = Ok (pair_bytes w1 w2 a b).
Proof. intros H1 H2 [Ha0 Ha] [Hb0 Hb]. now rewrite !to_bytes_be_ok. Qed.
Lemma pair_dec w1 w2 a b : 0 <= w1 -> 0 <= w2 -> 0 <= a < 2 ^ (8 * w1) -> 0 <= b < 2 ^ (8 * w2) ->
  let d := pair_bytes w1 w2 a b in
  zlen d = w1 + w2 /\ from_bytes_be (take w1 d) = a /\ from_bytes_be (drop w1 d) = b.
Proof.
  intros H1 H2 [Ha0 Ha] [Hb0 Hb] d. unfold d, pair_bytes.
  rewrite zlen_app, take_app_exact, drop_app_exact, !zlen_be_enc, !from_bytes_be_enc by (assumption || now apply zlen_be_enc). auto.
Qed.
Lemma pair_enc_dec w d : 0 <= w -> wf_bytes d -> zlen d = 2 * w ->
  let a := from_bytes_be (take w d) in let b := from_bytes_be (drop w d) in
  pair_bytes w w a b = d /\ 0 <= a < 2 ^ (8 * w) /\ 0 <= b < 2 ^ (8 * w).
Proof.
  intros Hw Hwf HL. unfold take, drop. set (x := firstn (Z.to_nat w) d). set (y := skipn (Z.to_nat w) d). cbv zeta.
  assert (Hx : length x = Z.to_nat w) by (unfold x; rewrite firstn_length; unfold zlen in HL; lia).
  assert (Hy : length y = Z.to_nat w) by (unfold y; rewrite skipn_length; unfold zlen in HL; lia).
  pose proof (from_bytes_be_bound x (wf_bytes_firstn _ _ Hwf)) as Bx. pose proof (from_bytes_be_bound y (wf_bytes_skipn _ _ Hwf)) as By.
  unfold zlen in Bx, By. rewrite Hx in Bx. rewrite Hy in By. rewrite Z2Nat.id in Bx, By by lia. split; [|now split].
  unfold pair_bytes. rewrite <- Hx at 1. rewrite <- Hy. rewrite !be_enc_from_bytes by (now apply wf_bytes_firstn || now apply wf_bytes_skipn).
  apply firstn_skipn.
Qed.

Definition lenlen (n : Z) : Z := if n <? 128 then 1 else 1 + (Z.of_N (N.size (Z.to_N n)) + 7) / 8.
Definition tlvlen (n : Z) : Z := 1 + lenlen n + n.
Definition zint_len (n : N) : Z := Z.of_N (N.size n) / 8 + 1.

Lemma zlen_der_tlv tag c : zlen (der_tlv tag c) = tlvlen (zlen c).
Proof.
  unfold der_tlv, tlvlen, lenlen, der_len_bytes, nlen, zlen. rewrite be_enc_f_eq. cbn [length]. rewrite app_length.
  destruct (N.ltb_spec (N.of_nat (length c)) 128) as [H|H].
  - replace (Z.of_nat (length c) <? 128) with true by (symmetry; apply Z.ltb_lt; lia). cbn [length]. lia.
  - replace (Z.of_nat (length c) <? 128) with false by (symmetry; apply Z.ltb_ge; lia).
    cbn [length]. rewrite be_enc_length. replace (Z.to_N (Z.of_nat (length c))) with (N.of_nat (length c)) by lia.
    assert (Z.of_nat (N.to_nat ((N.size (N.of_nat (length c)) + 7) / 8)) = (Z.of_N (N.size (N.of_nat (length c))) + 7) / 8)
      by (rewrite N_nat_Z, N2Z.inj_div, N2Z.inj_add; reflexivity).
    lia.
Qed.

Lemma zlen_der_sig r s :
  zlen (der_sig r s) = tlvlen (tlvlen (zint_len r) + tlvlen (zint_len s)).
Proof.
  assert (C : forall n, zlen (der_int_content n) = zint_len n).
  { intros n. unfold der_int_content, zint_len, zlen. rewrite be_enc_f_eq, be_enc_length, N_nat_Z, N2Z.inj_add, N2Z.inj_div. reflexivity. }
  unfold der_sig. now rewrite zlen_der_tlv, zlen_app, !zlen_der_tlv, !C.
Qed.

Lemma lenlen_small n : 0 <= n < 256 -> lenlen n = if n <? 128 then 1 else 2.
Proof.
  intros H. unfold lenlen. destruct (n <? 128) eqn:E; [reflexivity|]. apply Z.ltb_ge in E.
  assert (7 < N.size (Z.to_N n) <= 8)%N by (split; [apply N_size_gt_iff|apply N_size_le_iff]; change (2 ^ 7)%N with 128%N; change (2 ^ 8)%N with 256%N; lia).
  dlia.
Qed.
Lemma size_bounds_Z v lo hi : 0 <= lo -> 2 ^ lo <= v < 2 ^ hi -> lo < bit_length v <= hi.
Proof.
  intros Hlo [H1 H2]. unfold bit_length.
  assert (Hp : 0 < 2 ^ lo) by (apply Z.pow_pos_nonneg; lia).
  assert (Hhi : 0 <= hi) by (destruct (Z.le_gt_cases 0 hi); [assumption|]; rewrite Z.pow_neg_r in H2 by lia; lia).
  assert (A : (Z.to_N lo < N.size (Z.to_N v))%N).
  { apply N_size_gt_iff. change 2%N with (Z.to_N 2). rewrite <- Z2N.inj_pow by lia. apply Z2N.inj_le; lia. }
  assert (B : (N.size (Z.to_N v) <= Z.to_N hi)%N).
  { apply N_size_le_iff. change 2%N with (Z.to_N 2). rewrite <- Z2N.inj_pow by lia. apply Z2N.inj_lt; lia. }
  lia.
Qed.
Lemma zint_len_range v lo hi : 0 <= lo -> 2 ^ lo <= v < 2 ^ hi -> lo / 8 + 1 <= zint_len (Z.to_N v) <= hi / 8 + 1.
Proof. intros Hlo H. pose proof (size_bounds_Z v lo hi Hlo H). unfold zint_len, bit_length in *. dlia. Qed.
Lemma zint_len_bounds n k :
  (2 ^ (8 * k) <= n < 2 ^ (8 * k + 16))%N -> Z.of_N k + 1 <= zint_len n <= Z.of_N k + 3.
Proof.
  intros [H1 H2]. unfold zint_len. apply N_size_gt_iff in H1. apply N_size_le_iff in H2. dlia.
Qed.

(* the DER length window in which get_ecc_curve recognises curve cv *)
Definition in_window (cv L : Z) : bool :=
  match lookup sig_coord_lengths cv with
  | Some c => (c * sig_win_mul_lo + sig_win_lo <=? L) && (L <? c * sig_win_mul_hi + sig_win_hi)
  | None => false
  end.
(* lengths that get_encoding takes for the raw format *)
Definition is_raw_len (L : Z) : bool := existsb (fun p => snd p =? L / sig_enc_div) sig_coord_lengths.
(* supported curve ids with their coordinate length and key size *)
Definition curve_ok (cv c ks : Z) : Prop :=
  (cv = 0 /\ c = 32 /\ ks = 256) \/ (cv = 1 /\ c = 48 /\ ks = 384) \/ (cv = 2 /\ c = 66 /\ ks = 521).
Definition raw_sig (c r s : Z) : list N := be_enc (Z.to_nat c) (Z.to_N r) ++ be_enc (Z.to_nat c) (Z.to_N s).

(* what the proofs use of a supported curve, read off the generated tables once *)
Lemma curve_ok_facts cv c ks : curve_ok cv c ks ->
  32 <= c <= 66 /\ lookup sig_coord_lengths cv = Some c /\ lookup ecc_curves cv = Some ks /\
  (coordinate_size ks = c /\ signature_size ks = 2 * c /\ ceil_div ks ecc_verify_div = c /\ cli_raw_width ks = c) /\
  (2 ^ ks <= 2 ^ (8 * c) /\ 0 < 2 ^ (8 * (c - 2)) /\ 0 < curve_p ks < 2 ^ (8 * c) /\ curve_n ks < 2 ^ (8 * c)) /\
  (is_raw_len (2 * c) = true /\ sig_get_ecc_curve (2 * c) = Ok cv /\ ecc_get_curve ecc_curves (2 * c) = Ok (cv, ks, false) /\
   key_len_curve c = Ok cv /\ (c <=? cli_prv_max) || (c =? cli_prv_extra) = true) /\
  forall L, in_window cv L = (2 * c + 3 <=? L) && (L <? 2 * c + 9).
Proof. intros [(-> & -> & ->)|[(-> & -> & ->)|(-> & -> & ->)]]; repeat split; try reflexivity; try discriminate; lia. Qed.
Lemma in_window_curve cv L : in_window cv L = true -> exists c ks, curve_ok cv c ks.
Proof.
  unfold in_window, sig_coord_lengths, curve_ok. cbn [lookup].
  destruct (Z.eqb_spec 0 cv); [eexists _, _; left; eauto|]. destruct (Z.eqb_spec 1 cv); [eexists _, _; right; left; eauto|].
  destruct (Z.eqb_spec 2 cv); [eexists _, _; right; right; eauto|discriminate].
Qed.

(* inside a window the length is no raw length and selects the window's curve: 3 x 6 lengths *)
Lemma window_sniff cv L :
  in_window cv L = true -> is_raw_len L = false /\ sig_get_ecc_curve L = Ok cv /\ L < 2 ^ 32.
Proof.
  intros H. destruct (in_window_curve cv L H) as (c & ks & HC). destruct (curve_ok_facts cv c ks HC) as (Hc & _ & _ & _ & _ & _ & HW).
  rewrite HW in H. apply andb_true_iff in H as [H1 H2]. apply Z.leb_le in H1. apply Z.ltb_lt in H2.
  assert (E : L = 2 * c + 3 \/ L = 2 * c + 4 \/ L = 2 * c + 5 \/ L = 2 * c + 6 \/ L = 2 * c + 7 \/ L = 2 * c + 8) by lia.
  destruct HC as [(-> & -> & ->)|[(-> & -> & ->)|(-> & -> & ->)]]; destruct E as [->|[->|[->|[->|[->| ->]]]]]; repeat split; reflexivity.
Qed.

Lemma encode_dss_ok r s : 0 <= r -> 0 <= s -> encode_dss r s = Ok (der_sig (Z.to_N r) (Z.to_N s)).
Proof. intros Hr Hs. unfold encode_dss. now replace ((r <? 0) || (s <? 0)) with false by (symmetry; apply orb_false_iff; split; apply Z.ltb_ge; assumption). Qed.

Lemma sig_parse_eq d : sig_parse d =
  if is_raw_len (zlen d)
  then match sig_get_ecc_curve (zlen d) with
       | Ok cv => Ok (from_bytes_be (take (zlen d / sig_parse_div1) d), from_bytes_be (drop (zlen d / sig_parse_div2) d), cv)
       | Err k => Err k
       end
  else match decode_dss d with
       | Some (r, s) => match sig_get_ecc_curve (zlen d) with Ok cv => Ok (Z.of_N r, Z.of_N s, cv) | Err k => Err k end
       | None => Err 1%N
       end.
Proof.
  unfold sig_parse, sig_get_encoding. fold (is_raw_len (zlen d)). destruct (is_raw_len (zlen d)); [reflexivity|].
  destruct (decode_dss d) as [[r s]|]; reflexivity.
Qed.

Lemma sig_parse_der_in_window r s cv :
  in_window cv (zlen (der_sig r s)) = true ->
  sig_parse (der_sig r s) = Ok (Z.of_N r, Z.of_N s, cv).
Proof. intros HW. destruct (window_sniff _ _ HW) as (HR & HC & HL). now rewrite sig_parse_eq, HR, (der_roundtrip_len r s HL), HC. Qed.

Lemma sniff_sound_der r s cv :
  0 <= r -> 0 <= s ->
  in_window cv (zlen (der_sig (Z.to_N r) (Z.to_N s))) = true ->
  sig_parse_export r s cv 1 = Ok (r, s, cv).
Proof.
  intros Hr Hs HW. unfold sig_parse_export, sig_export. cbn [Z.eqb Pos.eqb]. rewrite encode_dss_ok by assumption. cbn [bind].
  rewrite (sig_parse_der_in_window _ _ cv HW), !Z2N.id by assumption. reflexivity.
Qed.

Lemma sig_export_raw r s cv c ks :
  curve_ok cv c ks -> 0 <= r < 2 ^ (8 * c) -> 0 <= s < 2 ^ (8 * c) -> sig_export r s cv 0 = Ok (raw_sig c r s).
Proof.
  intros HC Hr Hs. destruct (curve_ok_facts cv c ks HC) as (Hc & HL & _). unfold sig_export. cbn [Z.eqb]. rewrite HL.
  apply pair_enc_ok; assumption || lia.
Qed.
Lemma sig_parse_raw_sig r s cv c ks :
  curve_ok cv c ks -> 0 <= r < 2 ^ (8 * c) -> 0 <= s < 2 ^ (8 * c) -> sig_parse (raw_sig c r s) = Ok (r, s, cv).
Proof.
  intros HC Hr Hs. destruct (curve_ok_facts cv c ks HC) as (Hc & _ & _ & _ & _ & (HR & HG & _) & _).
  destruct (pair_dec c c r s) as (L & D1 & D2); try assumption; try lia. change (pair_bytes c c r s) with (raw_sig c r s) in *.
  rewrite sig_parse_eq, L. replace (c + c) with (2 * c) by lia. rewrite HR, HG.
  change sig_parse_div1 with 2. change sig_parse_div2 with 2. rewrite Z.mul_comm, Z.div_mul, D1, D2 by lia. reflexivity.
Qed.
Lemma raw_roundtrip_lemma r s cv c ks :
  curve_ok cv c ks -> 0 <= r < 2 ^ (8 * c) -> 0 <= s < 2 ^ (8 * c) ->
  sig_parse_export r s cv 0 = Ok (r, s, cv).
Proof. intros HC Hr Hs. unfold sig_parse_export. rewrite (sig_export_raw r s cv c ks) by assumption. now apply (sig_parse_raw_sig r s cv c ks). Qed.

(* r and s with at most one leading zero byte in their fixed-width form always land in the window *)
Lemma typical_in_window r s cv c ks :
  curve_ok cv c ks ->
  2 ^ (8 * (c - 2)) <= r < 2 ^ ks -> 2 ^ (8 * (c - 2)) <= s < 2 ^ ks ->
  in_window cv (zlen (der_sig (Z.to_N r) (Z.to_N s))) = true.
Proof.
  intros HC Hr Hs. destruct (curve_ok_facts cv c ks HC) as (Hc & _ & _ & _ & _ & _ & HW). rewrite HW, zlen_der_sig.
  pose proof (zint_len_range r (8 * (c - 2)) ks ltac:(lia) Hr) as Ar. pose proof (zint_len_range s (8 * (c - 2)) ks ltac:(lia) Hs) as As.
  set (a := zint_len (Z.to_N r)) in *. set (b := zint_len (Z.to_N s)) in *.
  (* both numbers take c - 1 .. ks / 8 + 1 content bytes, which is c + 1 for P-256/384 and c for P-521 *)
  assert (c - 1 <= a <= 67 /\ c - 1 <= b <= 67 /\ ks / 8 + 1 <= c + 1 /\ (c = 32 \/ c = 48 \/ c = 66 /\ ks / 8 + 1 = c))
    by (destruct HC as [(_ & -> & ->)|[(_ & -> & ->)|(_ & -> & ->)]]; dlia).
  unfold tlvlen. rewrite (lenlen_small a), (lenlen_small b) by lia.
  replace (a <? 128) with true by (symmetry; apply Z.ltb_lt; lia). replace (b <? 128) with true by (symmetry; apply Z.ltb_lt; lia).
  rewrite lenlen_small by lia. apply andb_true_iff.
  destruct (Z.ltb_spec (1 + 1 + a + (1 + 1 + b)) 128); split; [apply Z.leb_le|apply Z.ltb_lt|apply Z.leb_le|apply Z.ltb_lt]; lia.
Qed.

(* D23: the sniffing is not sound for all r, s *)
Definition r29 : Z := 2 ^ 231 - 5.       (* 29 bytes, top bit clear: DER of (r29, r29) is 64 bytes long *)

Lemma sniff_refuted_small : sig_parse_export 1 1 0 1 = Err 1%N.
Proof. vm_compute. reflexivity. Qed.

Lemma sniff_refuted_rawlen :
  zlen (der_sig (Z.to_N r29) (Z.to_N r29)) = 64 /\
  exists r' s', sig_parse_export r29 r29 0 1 = Ok (r', s', 0) /\ r' <> r29.
Proof.
  split; [vm_compute; reflexivity|].
  eexists. eexists. split; [vm_compute; reflexivity|]. vm_compute. discriminate.
Qed.

(* a P-384 signature whose DER length falls into the P-256 window is attributed to P-256 *)
Definition r31 : Z := 2 ^ 247 - 3.
Lemma sniff_refuted_other_curve : sig_parse_export r31 r31 1 1 = Ok (r31, r31, 0).
Proof. vm_compute. reflexivity. Qed.

(* SignatureProvider.get_signature *)
Lemma get_signature_refuted :
  get_signature (der_sig 1 1) (-1) = Ok (der_sig 1 1) /\ der_sig 1 1 <> raw_sig 32 1 1.
Proof. split; [vm_compute; reflexivity|vm_compute; discriminate]. Qed.

(* RSA signatures (key_size/8 bytes) are never touched *)
Lemma get_signature_rsa_unchanged sig enc ks :
  In ks rsa_key_sizes -> zlen sig = ks / rsa_sig_div -> get_signature sig enc = Ok sig.
Proof.
  intros Hin HL.
  assert (HP : sig_parse sig = Err 1%N).
  { rewrite sig_parse_eq, HL. destruct Hin as [<-|[<-|[<-|[]]]]; (change (is_raw_len _) with false; cbv iota; now destruct (decode_dss sig) as [[r s]|]). }
  unfold get_signature. now rewrite HP.
Qed.

(* PublicKeyEcc.verify_signature re-encoding, PrivateKeyEcc.sign serialisation *)
Lemma verify_reencode_raw r s cv c ks :
  curve_ok cv c ks -> 0 <= r < 2 ^ (8 * c) -> 0 <= s < 2 ^ (8 * c) ->
  verify_reencode (raw_sig c r s) ks = Ok (der_sig (Z.to_N r) (Z.to_N s)).
Proof.
  intros HC Hr Hs. destruct (curve_ok_facts cv c ks HC) as (Hc & _ & _ & (_ & H2 & H3 & _) & _).
  destruct (pair_dec c c r s) as (L & D1 & D2); try assumption; try lia. change (pair_bytes c c r s) with (raw_sig c r s) in *.
  unfold verify_reencode. rewrite H2, H3, L, D1, D2. replace (c + c =? 2 * c) with true by (symmetry; apply Z.eqb_eq; lia).
  apply encode_dss_ok; lia.
Qed.

Lemma verify_reencode_der r s cv c ks :
  curve_ok cv c ks -> in_window cv (zlen (der_sig r s)) = true ->
  verify_reencode (der_sig r s) ks = Ok (der_sig r s).
Proof.
  intros HC HW. destruct (curve_ok_facts cv c ks HC) as (_ & _ & _ & (_ & H2 & _) & _ & _ & HE). rewrite HE in HW.
  unfold verify_reencode. rewrite H2. now replace (_ =? 2 * c) with false by (symmetry; apply Z.eqb_neq; lia).
Qed.

Lemma verify_reencode_sound_lemma r s cv c ks :
  curve_ok cv c ks -> 0 <= r < 2 ^ (8 * c) -> 0 <= s < 2 ^ (8 * c) ->
  verify_reencode (raw_sig c r s) ks = Ok (der_sig (Z.to_N r) (Z.to_N s)) /\
  (in_window cv (zlen (der_sig (Z.to_N r) (Z.to_N s))) = true ->
   verify_reencode (der_sig (Z.to_N r) (Z.to_N s)) ks = Ok (der_sig (Z.to_N r) (Z.to_N s))).
Proof.
  intros HC Hr Hs. split; [apply (verify_reencode_raw r s cv c ks HC Hr Hs)|apply (verify_reencode_der _ _ cv c ks HC)].
Qed.

Lemma verify_reencode_refuted :
  0 < r29 < 2 ^ 256 /\
  exists d, verify_reencode (der_sig (Z.to_N r29) (Z.to_N r29)) 256 = Ok d /\ d <> der_sig (Z.to_N r29) (Z.to_N r29).
Proof.
  split; [split; reflexivity|]. eexists. split; [vm_compute; reflexivity|]. vm_compute. discriminate.
Qed.

(* r, s below 2^(8c), c <= 66: the DER signature is at most 141 bytes, so it decodes *)
Lemma decode_der_sig_bounded r s c :
  0 <= c <= 66 -> 0 <= r < 2 ^ (8 * c) -> 0 <= s < 2 ^ (8 * c) ->
  decode_dss (der_sig (Z.to_N r) (Z.to_N s)) = Some (Z.to_N r, Z.to_N s).
Proof.
  intros Hc Hr Hs. apply der_roundtrip_len. rewrite zlen_der_sig.
  assert (A : forall v, 0 <= v < 2 ^ (8 * c) -> 1 <= zint_len (Z.to_N v) <= 67).
  { intros v [Hv0 Hv]. unfold zint_len.
    assert (N.size (Z.to_N v) <= Z.to_N (8 * c))%N by (apply N_size_le_iff; change 2%N with (Z.to_N 2); rewrite <- Z2N.inj_pow by lia; apply Z2N.inj_lt; lia).
    dlia. }
  pose proof (A r Hr) as Ar. pose proof (A s Hs) as As.
  set (a := zint_len (Z.to_N r)) in *. set (b := zint_len (Z.to_N s)) in *.
  unfold tlvlen. rewrite (lenlen_small a), (lenlen_small b) by lia.
  replace (a <? 128) with true by (symmetry; apply Z.ltb_lt; lia). replace (b <? 128) with true by (symmetry; apply Z.ltb_lt; lia).
  rewrite lenlen_small by lia. change (2 ^ 32) with 4294967296. destruct (_ <? 128); lia.
Qed.

Lemma serialize_der_sig r s cv c ks :
  curve_ok cv c ks -> 0 <= r < 2 ^ (8 * c) -> 0 <= s < 2 ^ (8 * c) ->
  serialize_signature (der_sig (Z.to_N r) (Z.to_N s)) c = Ok (raw_sig c r s).
Proof.
  intros HC Hr Hs. destruct (curve_ok_facts cv c ks HC) as (Hc & _).
  unfold serialize_signature. rewrite (decode_der_sig_bounded r s c), !Z2N.id by lia. apply pair_enc_ok; assumption || lia.
Qed.

(* the two length tables, with the generated constants resolved *)
Lemma rsa_recreate_eq data : rsa_recreate_public_numbers data =
  let L := zlen data in
  if (259 <=? L) && (L <=? 260) then Ok (from_bytes_be (drop 256 data), from_bytes_be (take 256 data))
  else if (387 <=? L) && (L <=? 388) then Ok (from_bytes_be (drop 384 data), from_bytes_be (take 384 data))
  else if (515 <=? L) && (L <=? 516) then Ok (from_bytes_be (drop 512 data), from_bytes_be (take 512 data))
  else Err 1%N.
Proof. reflexivity. Qed.
Lemma ecc_get_curve_eq L : ecc_get_curve ecc_curves L =
  if 64 =? L then Ok (0, 256, false) else if (71 <=? L) && (L <=? 73) then Ok (0, 256, true)
  else if 96 =? L then Ok (1, 384, false) else if (103 <=? L) && (L <=? 105) then Ok (1, 384, true)
  else if 132 =? L then Ok (2, 521, false) else if (139 <=? L) && (L <=? 141) then Ok (2, 521, true)
  else Err 1%N.
Proof. reflexivity. Qed.

Lemma between a b L : (a <=? L) && (L <=? b) = true <-> a <= L <= b.
Proof. rewrite andb_true_iff, !Z.leb_le. reflexivity. Qed.
Lemma not_between a b L : L < a \/ b < L -> (a <=? L) && (L <=? b) = false.
Proof. intros H. apply not_true_iff_false. rewrite between. lia. Qed.

Lemma rsa_recreate_kb kb data : kb = 256 \/ kb = 384 \/ kb = 512 -> kb + 3 <= zlen data <= kb + 4 ->
  rsa_recreate_public_numbers data = Ok (from_bytes_be (drop kb data), from_bytes_be (take kb data)).
Proof.
  intros Hk HL. rewrite rsa_recreate_eq. cbv zeta.
  destruct Hk as [-> | [-> | ->]]; rewrite ?(not_between 259 260), ?(not_between 387 388) by lia; now rewrite (proj2 (between _ _ _)) by lia.
Qed.
Lemma rsa_recreate_lengths data k :
  rsa_recreate_public_numbers data = Ok k -> 259 <= zlen data <= 516.
Proof.
  rewrite rsa_recreate_eq. cbv zeta.
  destruct ((259 <=? _) && _) eqn:E1; [apply between in E1; intros _; lia|]. destruct ((387 <=? _) && _) eqn:E2; [apply between in E2; intros _; lia|].
  destruct ((515 <=? _) && _) eqn:E3; [apply between in E3; intros _; lia|discriminate].
Qed.
Lemma ecc_get_curve_lengths L r :
  ecc_get_curve ecc_curves L = Ok r -> In L [64; 71; 72; 73; 96; 103; 104; 105; 132; 139; 140; 141].
Proof.
  rewrite ecc_get_curve_eq. cbn [In].
  destruct (Z.eqb_spec 64 L); [intros _; lia|]. destruct ((71 <=? L) && _) eqn:E1; [apply between in E1; intros _; lia|].
  destruct (Z.eqb_spec 96 L); [intros _; lia|]. destruct ((103 <=? L) && _) eqn:E2; [apply between in E2; intros _; lia|].
  destruct (Z.eqb_spec 132 L); [intros _; lia|]. destruct ((139 <=? L) && _) eqn:E3; [apply between in E3; intros _; lia|discriminate].
Qed.
Lemma ecc_get_curve_long L : 142 <= L -> ecc_get_curve ecc_curves L = Err 1%N.
Proof.
  intros H. rewrite ecc_get_curve_eq, !not_between by lia.
  now replace (64 =? L) with false by lia; replace (96 =? L) with false by lia; replace (132 =? L) with false by lia.
Qed.

Lemma rsa_raw_roundtrip_lemma e n ks :
  In ks rsa_key_sizes -> 2 ^ (ks - 1) <= n < 2 ^ ks -> 2 ^ 16 <= e < 2 ^ 32 ->
  exists b, rsa_export_nxp e n 0 0 = Ok b /\ rsa_recreate_public_numbers b = Ok (e, n) /\
            (zlen b = ks / 8 + 3 \/ zlen b = ks / 8 + 4).
Proof.
  intros Hin Hn He.
  assert (Hks : 0 < ks /\ (ks / 8 = 256 \/ ks / 8 = 384 \/ ks / 8 = 512) /\ ks = 8 * (ks / 8))
    by (destruct Hin as [<-|[<-|[<-|[]]]]; repeat split; tauto).
  destruct Hks as (Hks0 & Hkb & Hks8).
  assert (Hn0 : 0 <= n) by (assert (0 < 2 ^ (ks - 1)) by (apply Z.pow_pos_nonneg; lia); lia).
  pose proof (size_bounds_Z n (ks - 1) ks ltac:(lia) Hn) as Bn. pose proof (size_bounds_Z e 16 32 ltac:(lia) He) as Be.
  unfold rsa_export_nxp, ceil_div. cbn [Z.eqb]. change rsa_exp_div with 8. change rsa_mod_div with 8.
  set (sn := bit_length n) in *. set (se := bit_length e) in *. set (el := - (- se / 8)). set (ml := - (- sn / 8)).
  assert (Hml : ml = ks / 8) by (unfold ml; dlia). assert (Hel : el = 3 \/ el = 4) by (unfold el; dlia).
  (* the exponent fits its minimal width: e < 2^(size e) <= 2^(8 el) *)
  assert (He' : e < 2 ^ (8 * el)).
  { eapply Z.lt_le_trans; [|apply (Z.pow_le_mono_r 2 se); unfold el; dlia]. unfold se, bit_length.
    rewrite <- (Z2N.id e) at 1 by lia. change 2 with (Z.of_N 2). rewrite <- N2Z.inj_pow. apply N2Z.inj_lt, N.size_gt. }
  clearbody ml el. subst ml. assert (Hn' : n < 2 ^ (8 * (ks / 8))) by (rewrite <- Hks8; tauto).
  destruct (pair_dec (ks / 8) el n e) as (L & D1 & D2); try lia.
  rewrite (to_bytes_be_ok e el), (to_bytes_be_ok n (ks / 8)) by lia. cbn [bind]. fold (pair_bytes (ks / 8) el n e).
  eexists. split; [reflexivity|]. rewrite L. split; [|lia].
  now rewrite (rsa_recreate_kb (ks / 8)), D1, D2 by (rewrite ?L; tauto || lia).
Qed.

Lemma ecc_raw_roundtrip_pair x y cv c ks :
  curve_ok cv c ks -> 0 <= x < curve_p ks -> 0 <= y < curve_p ks -> on_curve ks x y = true ->
  let b := pair_bytes c c x y in
  ecc_export_nxp x y ks = Ok b /\ zlen b = 2 * c /\ ecc_recreate_from_data b (-1) None = Ok (KEcc cv x y).
Proof.
  intros HC Hx Hy Hon b. subst b. destruct (curve_ok_facts cv c ks HC) as (Hc & _ & _ & (H1 & _) & (_ & _ & Hp & _) & (_ & _ & HG & _) & _).
  destruct (pair_dec c c x y) as (L & D1 & D2); try lia.
  unfold ecc_export_nxp. rewrite H1, pair_enc_ok by lia. split; [reflexivity|]. split; [lia|].
  unfold ecc_recreate_from_data. change (curve_list (-1)) with ecc_curves. replace (zlen _) with (2 * c) by lia. rewrite HG.
  change ecc_raw_half with 2. rewrite Z.mul_comm, Z.div_mul, D1, D2, Hon, !Z.mod_small by lia. reflexivity.
Qed.

Lemma ecc_raw_roundtrip_lemma x y cv c ks :
  curve_ok cv c ks -> 0 <= x < curve_p ks -> 0 <= y < curve_p ks -> on_curve ks x y = true ->
  exists b, ecc_export_nxp x y ks = Ok b /\ zlen b = 2 * c /\
            ecc_recreate_from_data b (-1) None = Ok (KEcc cv x y).
Proof. intros HC Hx Hy Hon. eexists. now apply ecc_raw_roundtrip_pair. Qed.

Lemma raw_key_lengths_disjoint_lemma data k :
  rsa_recreate_public_numbers data = Ok k -> ecc_get_curve ecc_curves (zlen data) = Err 1%N.
Proof. intros H. apply rsa_recreate_lengths in H. apply ecc_get_curve_long. lia. Qed.
Lemma raw_key_lengths_disjoint_lemma2 data r :
  ecc_get_curve ecc_curves (zlen data) = Ok r -> rsa_recreate_public_numbers data = Err 1%N.
Proof.
  intros H. destruct (rsa_recreate_public_numbers data) as [k|e] eqn:E.
  - apply raw_key_lengths_disjoint_lemma in E. rewrite E in H. discriminate.
  - revert E. rewrite rsa_recreate_eq. cbv zeta. repeat (destruct (_ && _); [discriminate|]). congruence.
Qed.

(* PublicKey.parse / typed parse on raw exports *)
Lemma pub_parse_raw_ecc_lemma x y cv c ks b pem rv :
  curve_ok cv c ks -> 0 <= x < curve_p ks -> 0 <= y < curve_p ks -> on_curve ks x y = true ->
  ecc_export_nxp x y ks = Ok b -> pem_like b = false ->
  pub_parse b pem None rv = Ok (KEcc cv x y) /\
  ecc_pub_parse b pem None rv = Ok (KEcc cv x y) /\
  rsa_pub_parse b pem None rv = Err 1%N.
Proof.
  intros HC Hx Hy Hon Hex Hpem.
  destruct (ecc_raw_roundtrip_lemma x y cv c ks HC Hx Hy Hon) as (b' & E1 & _ & E3).
  rewrite Hex in E1. inversion E1; subst b'.
  assert (P : pub_parse b pem None rv = Ok (KEcc cv x y)) by (unfold pub_parse; rewrite Hpem, E3; reflexivity).
  repeat split; [exact P| |]; [unfold ecc_pub_parse|unfold rsa_pub_parse]; rewrite P; reflexivity.
Qed.

Lemma pub_parse_raw_rsa_lemma e n ks b pem :
  In ks rsa_key_sizes -> 2 ^ (ks - 1) <= n < 2 ^ ks -> 2 ^ 16 <= e < 2 ^ 32 ->
  rsa_export_nxp e n 0 0 = Ok b -> pem_like b = false ->
  pub_parse b pem None true = Ok (KRsa e n) /\
  rsa_pub_parse b pem None true = Ok (KRsa e n) /\
  ecc_pub_parse b pem None true = Err 1%N.
Proof.
  intros Hin Hn He Hex Hpem.
  destruct (rsa_raw_roundtrip_lemma e n ks Hin Hn He) as (b' & E1 & E2 & _).
  rewrite Hex in E1. inversion E1; subst b'.
  assert (R : ecc_recreate_from_data b (-1) None = Err 1%N).
  { unfold ecc_recreate_from_data. change (curve_list (-1)) with ecc_curves. now rewrite (raw_key_lengths_disjoint_lemma b _ E2). }
  assert (P : pub_parse b pem None true = Ok (KRsa e n)).
  { unfold pub_parse. rewrite Hpem, R. unfold rsa_recreate_from_data. rewrite E2. reflexivity. }
  repeat split; [exact P| |]; [unfold rsa_pub_parse|unfold ecc_pub_parse]; rewrite P; reflexivity.
Qed.

(* data that decode as UTF-8 and contain "----" are never tried as raw keys by PublicKey.parse *)
Lemma pub_parse_pem_like_masks data der rv :
  pem_like data = true -> pub_parse data None der rv = Err 1%N.
Proof. intros H. unfold pub_parse. rewrite H. reflexivity. Qed.

Definition pemlike_raw : list N := repeat 45%N 64.
Lemma pem_like_raw_length_exists : zlen pemlike_raw = 64 /\ pem_like pemlike_raw = true /\ wf_bytes pemlike_raw.
Proof.
  split; [reflexivity|]. split; [vm_compute; reflexivity|].
  unfold pemlike_raw, wf_bytes. apply Forall_forall. intros x Hx. apply repeat_spec in Hx. subst. reflexivity.
Qed.

(* non-vacuity: the generator point of P-256 satisfies the hypotheses of the raw key lemmas *)
Example on_curve_p256_G :
  on_curve 256 48439561293906451759052585252797914202762949526041747995844080717082404635286
               36134250956749795798585127919587881956611106672985015071877198253568414405109 = true.
Proof. vm_compute. reflexivity. Qed.

Lemma sniff_sound_except_known_lemma r s cv c ks enc :
  curve_ok cv c ks -> 0 <= r < 2 ^ (8 * c) -> 0 <= s < 2 ^ (8 * c) ->
  enc = 0 \/ (enc = 1 /\ in_window cv (zlen (der_sig (Z.to_N r) (Z.to_N s))) = true) ->
  sig_parse_export r s cv enc = Ok (r, s, cv).
Proof.
  intros HC Hr Hs [->|[-> HW]].
  - eapply raw_roundtrip_lemma; eassumption.
  - apply sniff_sound_der; [lia|lia|exact HW].
Qed.

(* non-vacuity of the hypotheses of the typical case *)
Example typical_instance : 2 ^ (8 * (32 - 2)) <= 2 ^ 255 + 12345 < 2 ^ 256.
Proof. split; [discriminate|reflexivity]. Qed.

Lemma sig_curve_of_len_inv tbl L cv : sig_curve_of_len tbl L = Ok cv ->
  exists c, In (cv, c) tbl /\
    (L = c * sig_raw_mul \/ (c * sig_win_mul_lo + sig_win_lo <=? L) && (L <? c * sig_win_mul_hi + sig_win_hi) = true).
Proof.
  induction tbl as [|[cv' c'] t IH]; cbn [sig_curve_of_len]; [discriminate|].
  destruct (Z.eqb_spec L (c' * sig_raw_mul)); [intros H; inversion H; subst; exists c'; split; now left|].
  destruct (_ && _) eqn:W; [intros H; inversion H; subst; exists c'; split; [now left|now right]|].
  intros H. destruct (IH H) as (c & Hin & Hc). exists c. split; [now right|exact Hc].
Qed.
Lemma coord_curve cv c : In (cv, c) sig_coord_lengths -> exists ks, curve_ok cv c ks.
Proof. unfold curve_ok. cbn. intros [H|[H|[H|[]]]]; inversion H; subst; eexists; eauto 6. Qed.

(* for DER lengths that get_encoding does not mistake for raw, the window condition is exact *)
Lemma sniff_der_exact_lemma r s cv c ks :
  curve_ok cv c ks -> 0 <= r -> 0 <= s ->
  zlen (der_sig (Z.to_N r) (Z.to_N s)) < 2 ^ 32 ->
  is_raw_len (zlen (der_sig (Z.to_N r) (Z.to_N s))) = false ->
  (sig_parse_export r s cv 1 = Ok (r, s, cv) <-> in_window cv (zlen (der_sig (Z.to_N r) (Z.to_N s))) = true).
Proof.
  intros _ Hr Hs HL HR. split; [|apply sniff_sound_der; assumption].
  unfold sig_parse_export, sig_export. cbn [Z.eqb Pos.eqb]. rewrite encode_dss_ok by assumption. cbn [bind].
  rewrite sig_parse_eq, HR, (der_roundtrip_len _ _ HL).
  destruct (sig_get_ecc_curve _) as [cv'|k] eqn:EC; [|discriminate]. intros H. replace cv' with cv in * by congruence.
  destruct (sig_curve_of_len_inv _ _ _ EC) as (c' & Hin & [Hraw|Hw]); destruct (coord_curve cv c' Hin) as (ks' & HC');
    destruct (curve_ok_facts cv c' ks' HC') as (_ & HLk & _ & _ & _ & (HT & _) & _).
  - rewrite Hraw, Z.mul_comm in HR. change sig_raw_mul with 2 in HR. rewrite HT in HR. discriminate.
  - unfold in_window. now rewrite HLk.
Qed.

Lemma sniff_der_rawlen_lemma r s cv :
  0 <= r -> 0 <= s ->
  is_raw_len (zlen (der_sig (Z.to_N r) (Z.to_N s))) = true ->
  let d := der_sig (Z.to_N r) (Z.to_N s) in
  sig_parse_export r s cv 1 =
  match sig_get_ecc_curve (zlen d) with
  | Ok cv' => Ok (from_bytes_be (take (zlen d / sig_parse_div1) d), from_bytes_be (drop (zlen d / sig_parse_div2) d), cv')
  | Err k => Err k
  end.
Proof.
  intros Hr Hs HR d. unfold sig_parse_export, sig_export. cbn [Z.eqb Pos.eqb]. rewrite encode_dss_ok by assumption. cbn [bind].
  fold d in HR |- *. now rewrite sig_parse_eq, HR.
Qed.

(* nxpcrypto key convert -e RAW *)
Definition p521_gx : Z := 2661740802050217063228768716723360960729859168756973147706671368418802944996427808491545080627771902352094241225065558662157113545570916814161637315895999846.
Definition p521_gy : Z := 3757180025770020463545507224491183603594455134769762486694567779615544477440556316691234405012945539562144444537289428522585666729196580810124344277578376784.
Definition p521_y1 : Z := 226550527432254644762927155718498869710358906817053425319320865507781004639099725838657309164078643711530506222673069010331048069570407113457901669103973732.

Lemma cli_raw_pub_roundtrip_lemma x y cv c ks b pem rv :
  curve_ok cv c ks ->
  0 <= x < curve_p ks -> 0 <= y < curve_p ks -> on_curve ks x y = true ->
  cli_convert_raw_pub x y ks = Ok b -> pem_like b = false ->
  cli_reconstruct b (pub_parse b pem None rv) = Ok (CPub (KEcc cv x y)).
Proof.
  intros HC Hx Hy Hon Hex Hpem.
  destruct (pub_parse_raw_ecc_lemma x y cv c ks b pem rv HC Hx Hy Hon Hex Hpem) as (P & _ & _). now rewrite P.
Qed.

(* a scalar in the curve's width: too short for either public format, so it is read as a private key *)
Lemma cli_raw_prv_roundtrip_enc d cv c ks pem rv :
  curve_ok cv c ks -> 1 <= d < curve_n ks ->
  let b := be_enc (Z.to_nat c) (Z.to_N d) in
  cli_convert_raw_prv d ks = Ok b /\ zlen b = c /\
  (pem_like b = false -> cli_reconstruct b (pub_parse b pem None rv) = Ok (CPrv cv d)).
Proof.
  intros HC Hd b. destruct (curve_ok_facts cv c ks HC) as (Hc & _ & HK & (_ & _ & _ & Hw) & (_ & _ & _ & Hn) & (_ & _ & _ & HKL & HP) & _).
  assert (HL : zlen b = c) by (apply zlen_be_enc; lia).
  unfold cli_convert_raw_prv. rewrite Hw, to_bytes_be_ok by lia. split; [reflexivity|]. split; [exact HL|]. intros Hpem.
  assert (PP : pub_parse b pem None rv = Err 1%N).
  { unfold pub_parse, ecc_recreate_from_data, rsa_recreate_from_data. change (curve_list (-1)) with ecc_curves.
    rewrite Hpem, ecc_get_curve_eq, rsa_recreate_eq, HL. destruct HC as [(_ & -> & _)|[(_ & -> & _)|(_ & -> & _)]]; reflexivity. }
  rewrite PP. unfold cli_reconstruct. rewrite HL, HKL, HK, HP. unfold b. rewrite from_bytes_be_enc by lia.
  now replace ((1 <=? d) && (d <? curve_n ks)) with true by (symmetry; apply andb_true_iff; split; [apply Z.leb_le|apply Z.ltb_lt]; lia).
Qed.
Lemma cli_raw_prv_roundtrip_lemma d cv c ks pem rv :
  curve_ok cv c ks -> 1 <= d < curve_n ks ->
  exists b, cli_convert_raw_prv d ks = Ok b /\
            (pem_like b = false -> cli_reconstruct b (pub_parse b pem None rv) = Ok (CPrv cv d)).
Proof. intros HC Hd. destruct (cli_raw_prv_roundtrip_enc d cv c ks pem rv HC Hd) as (E & _ & P). eexists. split; [exact E|exact P]. Qed.

(* non-vacuity for P-521: the generator point and the scalar 2^520 (both need 66 bytes) convert and read back *)
Example cli_raw_p521_instances :
  on_curve 521 p521_gx p521_gy = true /\
  (exists b, cli_convert_raw_pub p521_gx p521_gy 521 = Ok b /\ zlen b = 132 /\
             cli_reconstruct b (pub_parse b None None true) = Ok (CPub (KEcc 2 p521_gx p521_gy))) /\
  (exists b, cli_convert_raw_prv (2 ^ 520) 521 = Ok b /\ zlen b = 66 /\
             cli_reconstruct b (pub_parse b None None true) = Ok (CPrv 2 (2 ^ 520))).
Proof.
  assert (HC : curve_ok 2 66 521) by (unfold curve_ok; tauto).
  assert (Hon : on_curve 521 p521_gx p521_gy = true) by (vm_compute; reflexivity).
  split; [exact Hon|]. split.
  - destruct (ecc_raw_roundtrip_pair p521_gx p521_gy 2 66 521 HC) as (E & L & _); [split; [discriminate|reflexivity]..|exact Hon|].
    eexists. split; [exact E|]. split; [exact L|].
    apply (cli_raw_pub_roundtrip_lemma _ _ 2 66 521); [exact HC|split; [discriminate|reflexivity]..|exact Hon|exact E|vm_compute; reflexivity].
  - destruct (cli_raw_prv_roundtrip_enc (2 ^ 520) 2 66 521 None true HC) as (E & L & P); [split; [discriminate|reflexivity]|].
    eexists. split; [exact E|]. split; [exact L|]. apply P. vm_compute. reflexivity.
Qed.

(* an invalid scalar in a 66-byte file is refused by the primitive with a ValueError (kind 2), as for 32/48 bytes *)
Example cli_raw_bad_scalar :
  cli_reconstruct (repeat 0%N 66) (pub_parse (repeat 0%N 66) None None true) = Err 2%N /\
  cli_reconstruct (repeat 0%N 32) (pub_parse (repeat 0%N 32) None None true) = Err 2%N.
Proof. split; vm_compute; reflexivity. Qed.

(* every signature is offered to the primitive as it is; nothing but the signature itself and the DER re-encoding of
   its raw reading is ever offered *)
Lemma verify_candidates_self sig ks :
  exists l, verify_candidates sig ks = Ok l /\ In sig l /\
            (forall d, In d l -> d = sig \/ (zlen sig = signature_size ks /\ verify_reencode sig ks = Ok d)).
Proof.
  unfold verify_candidates. destruct (zlen sig =? signature_size ks) eqn:E.
  - assert (Hr : exists d, verify_reencode sig ks = Ok d).
    { unfold verify_reencode. rewrite E, encode_dss_ok by (unfold from_bytes_be; lia). now eexists. }
    destruct Hr as [d Hd]. rewrite Hd. cbn [bind]. change (insert_at ecc_verify_first d [sig]) with [d; sig].
    eexists. split; [reflexivity|]. split; [right; left; reflexivity|].
    intros d' [<-|[<-|[]]]; [right; split; [apply Z.eqb_eq; exact E|reflexivity]|left; reflexivity].
  - eexists. split; [reflexivity|]. split; [left; reflexivity|]. intros d' [<-|[]]. left; reflexivity.
Qed.

Lemma verify_candidates_sound_lemma r s cv c ks :
  curve_ok cv c ks -> 0 <= r < 2 ^ (8 * c) -> 0 <= s < 2 ^ (8 * c) ->
  (exists l, verify_candidates (raw_sig c r s) ks = Ok l /\ In (der_sig (Z.to_N r) (Z.to_N s)) l) /\
  (exists l, verify_candidates (der_sig (Z.to_N r) (Z.to_N s)) ks = Ok l /\ In (der_sig (Z.to_N r) (Z.to_N s)) l).
Proof.
  intros HC Hr Hs. split.
  - destruct (curve_ok_facts cv c ks HC) as (Hc & _ & _ & (_ & H2 & _) & _).
    destruct (pair_dec c c r s) as (L & _); try lia. change (pair_bytes c c r s) with (raw_sig c r s) in L.
    unfold verify_candidates. rewrite H2, L. replace (c + c =? 2 * c) with true by (symmetry; apply Z.eqb_eq; lia).
    rewrite (verify_reencode_raw r s cv c ks HC Hr Hs). cbn [bind].
    change (insert_at ecc_verify_first ?d ?l) with (d :: l). eexists. split; [reflexivity|left; reflexivity].
  - destruct (verify_candidates_self (der_sig (Z.to_N r) (Z.to_N s)) ks) as (l & E & I & _). now exists l.
Qed.
