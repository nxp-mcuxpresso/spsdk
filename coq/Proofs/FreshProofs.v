(* C17: lemmas about Model/FreshModel.v.  The premise `all_percall t = true` of the freshness theorems is closed for the
   generated table (`gen_sites`) by computation in Proofs/FreshGenProofs.v. *)
From Coq Require Import ZArith NArith List Bool Lia.
Require Import Value FreshModel.
Import ListNotations.
Local Open Scope N_scope.

Lemma all_percall_site : forall t s, all_percall t = true -> site_percall t s = true.
Proof.
  unfold all_percall, site_percall. intros t s H.
  rewrite forallb_forall in *. intros r Hr. rewrite (H r Hr). apply orb_true_r.
Qed.

Lemma all_percall_edges : forall t es, all_percall t = true -> first_import_edge t es = None.
Proof.
  intros t es H. induction es as [|e r IH]; simpl; [reflexivity|].
  rewrite (all_percall_site t e H). exact IH.
Qed.

Lemma all_percall_key : forall t s es, all_percall t = true -> cache_key t s es = None.
Proof.
  intros t s es H. unfold cache_key. rewrite (all_percall_edges t es H), (all_percall_site t s H). reflexivity.
Qed.

Lemma all_percall_no_import_rows : forall t m, all_percall t = true ->
  filter (fun r => (row_mod r =? m) && negb (row_pc r)) t = [].
Proof.
  unfold all_percall. intros t m H. induction t as [|r t IH]; simpl in *; [reflexivity|].
  apply andb_true_iff in H. destruct H as [H1 H2]. rewrite H1. simpl. rewrite andb_false_r. apply IH, H2.
Qed.

(* slots of one plan *)
Definition sidx (sl : list slot) : list N := flat_map (fun e => slot_idx (snd e)) sl.

Lemma sidx_app : forall a b, sidx (a ++ b) = sidx a ++ sidx b.
Proof. intros. unfold sidx. apply flat_map_app. Qed.

Lemma indices_app : forall a b, indices (a ++ b) = indices a ++ indices b.
Proof. intros. unfold indices. apply flat_map_app. Qed.

Lemma indices_tag : forall j sl, indices (tag j sl) = sidx sl.
Proof.
  intros j sl. unfold indices, sidx, tag. induction sl as [|e r IH]; simpl; [reflexivity|]. now rewrite IH.
Qed.

Lemma keep_slot_idx : forall k f o, sidx (keep_slot k f o) = if k then slot_idx o else [].
Proof. intros [|] f o; unfold keep_slot, sidx; simpl; [apply app_nil_r|reflexivity]. Qed.

(* nothing, a plan, or imports into a world whose entropy state kept its counter and kept or lost its cache *)
Lemma step_shape : forall t c w o,
  fst (step t c w o) = w \/
  (exists p j no, fst (step t c w o) = fst (run_plan t c w p j no)) \/
  (exists s imp m base,
     r_next s = r_next (w_rs w) /\ (r_cache s = r_cache (w_rs w) \/ r_cache s = []) /\
     fst (step t c w o) = let '(s1, imp1, _) := ensure_import t c s imp m in W s1 imp1 (w_objs w) base (w_slots w)).
Proof.
  intros t c w o. destruct o as [|m|k flag a|j a x|j]; simpl.
  - right; right. exists (RS (r_next (w_rs w)) []), [], 0, (nlen (w_objs w)). split; [reflexivity|]. split; [now right|].
    now destruct (ensure_import t c (RS (r_next (w_rs w)) []) [] 0) as [[s1 imp1] d1].
  - right; right. exists (w_rs w), (w_imp w), m, (w_base w). split; [reflexivity|]. split; [now left|].
    now destruct (ensure_import t c (w_rs w) (w_imp w) m) as [[s1 imp1] d1].
  - destruct (plan_new t k flag a); [right; left; eauto | now left].
  - destruct (j <? w_base w); [now left|].
    destruct (nth_error (w_objs w) (N.to_nat j)); [|now left].
    destruct (plan_act t (w_slots w) j o a x); [right; left; eauto | now left].
  - destruct (j <? w_base w); [now left|].
    destruct (nth_error (w_objs w) (N.to_nat j)); [|now left].
    destruct (config_driven (o_kind o) (o_flag o)); [|now left].
    destruct (plan_new t (o_kind o) (o_flag o) (o_args o)); [right; left; eauto | now left].
Qed.

(* general invariant: everything recorded so far is below the next draw number *)
Definition below (w : world) : Prop :=
  (forall k v, In (k, v) (r_cache (w_rs w)) -> v < r_next (w_rs w)) /\
  (forall i, In i (indices (w_slots w)) -> i < r_next (w_rs w)).

(* relative to a restart point n0 with old slots `old`: cache values and later slots are >= n0 *)
Definition after (n0 : N) (old : list wslot) (w : world) : Prop :=
  n0 <= r_next (w_rs w) /\
  (forall k v, In (k, v) (r_cache (w_rs w)) -> n0 <= v < r_next (w_rs w)) /\
  exists later, w_slots w = old ++ later /\ forall i, In i (indices later) -> n0 <= i < r_next (w_rs w).

Lemma lookup_in : forall k c v, lookup k c = Some v -> In (k, v) c.
Proof.
  intros k c. induction c as [|[k' v'] r IH]; intros v H; simpl in H; [discriminate|].
  destruct (k' =? k) eqn:E; [inversion H; subst; apply N.eqb_eq in E; subst; now left|right; now apply IH].
Qed.

(* state of the entropy stream relative to n0 *)
Definition rs_ok (n0 : N) (s : rs) : Prop :=
  n0 <= r_next s /\ forall k v, In (k, v) (r_cache s) -> n0 <= v < r_next s.

Lemma exec_item_after : forall t n0 s it s' d sl,
  rs_ok n0 s -> exec_item t s it = (s', d, sl) ->
  rs_ok n0 s' /\ r_next s <= r_next s' /\ forall i, In i (sidx sl) -> n0 <= i < r_next s'.
Proof.
  intros t n0 s [f site es g a len keep] s' d sl [Hn Hc] H. simpl in H.
  destruct (invents g a).
  - destruct (cache_key t site es) as [k|].
    + destruct (lookup k (r_cache s)) as [v|] eqn:L.
      * inversion H; subst; clear H. split; [split; assumption|]. split; [lia|].
        intros i Hi. rewrite keep_slot_idx in Hi. destruct keep; [|destruct Hi]. destruct Hi as [Hi|[]]; subst.
        apply (Hc k). now apply lookup_in.
      * inversion H; subst; clear H. unfold rs_ok; simpl. split.
        { split; [lia|]. intros k0 v0 [E|Hin]; [inversion E; subst; lia|]. specialize (Hc k0 v0 Hin). lia. }
        split; [lia|]. intros i Hi. rewrite keep_slot_idx in Hi. destruct keep; [|destruct Hi].
        destruct Hi as [Hi|[]]; subst. lia.
    + inversion H; subst; clear H. unfold rs_ok; simpl. split.
      { split; [lia|]. intros k0 v0 Hin. specialize (Hc k0 v0 Hin). lia. }
      split; [lia|]. intros i Hi. rewrite keep_slot_idx in Hi. destruct keep; [|destruct Hi].
      destruct Hi as [Hi|[]]; subst. lia.
  - inversion H; subst; clear H. split; [split; assumption|]. split; [lia|].
    intros i Hi. rewrite keep_slot_idx in Hi. destruct keep; [|destruct Hi]. destruct a; destruct Hi.
Qed.

Lemma exec_items_after : forall t n0 its s s' d sl,
  rs_ok n0 s -> exec_items t s its = (s', d, sl) ->
  rs_ok n0 s' /\ r_next s <= r_next s' /\ forall i, In i (sidx sl) -> n0 <= i < r_next s'.
Proof.
  intros t n0 its. induction its as [|it r IH]; intros s s' d sl Hs H; simpl in H.
  - inversion H; subst. split; [exact Hs|]. split; [lia|]. intros i [].
  - destruct (exec_item t s it) as [[s1 d1] l1] eqn:E1.
    destruct (exec_items t s1 r) as [[s2 d2] l2] eqn:E2.
    inversion H; subst; clear H.
    destruct (exec_item_after t n0 s it s1 d1 l1 Hs E1) as (S1 & L1 & I1).
    destruct (IH s1 s' d2 l2 S1 E2) as (S2 & L2 & I2).
    split; [exact S2|]. split; [lia|]. intros i Hi. rewrite sidx_app in Hi. apply in_app_or in Hi.
    destruct Hi as [Hi|Hi]; [specialize (I1 i Hi); lia|now apply I2].
Qed.

Lemma import_draws_after : forall n0 es s s' d,
  rs_ok n0 s -> import_draws s es = (s', d) -> rs_ok n0 s' /\ r_next s <= r_next s'.
Proof.
  intros n0 es. induction es as [|[k len] r IH]; intros s s' d Hs H; simpl in H.
  - inversion H; subst. split; [exact Hs|lia].
  - destruct (lookup k (r_cache s)); [eapply IH; eauto|].
    destruct (import_draws (RS (r_next s + 1) ((k, r_next s) :: r_cache s)) r) as [s2 d2] eqn:E.
    inversion H; subst; clear H.
    assert (Hs1 : rs_ok n0 (RS (r_next s + 1) ((k, r_next s) :: r_cache s))).
    { destruct Hs as [Hn Hc]. split; simpl; [lia|]. intros k0 v0 [E0|Hin]; [inversion E0; subst; lia|].
      specialize (Hc k0 v0 Hin). lia. }
    destruct (IH _ _ _ Hs1 E) as [S2 L2]. simpl in L2. split; [exact S2|lia].
Qed.

Lemma import_list_after : forall t n0 ms s imp s' imp' d,
  rs_ok n0 s -> import_list t s imp ms = (s', imp', d) -> rs_ok n0 s' /\ r_next s <= r_next s'.
Proof.
  intros t n0 ms. induction ms as [|m r IH]; intros s imp s' imp' d Hs H; simpl in H.
  - inversion H; subst. split; [exact Hs|lia].
  - destruct (mem m imp); [eapply IH; eauto|].
    destruct (import_rows t s m) as [s1 d1] eqn:E1.
    destruct (import_list t s1 (imp ++ [m]) r) as [[s2 imp2] d2] eqn:E2.
    inversion H; subst; clear H. unfold import_rows in E1.
    destruct (import_draws_after n0 _ s s1 d1 Hs E1) as [S1 L1].
    destruct (IH s1 (imp ++ [m]) s' imp' d2 S1 E2) as [S2 L2]. split; [exact S2|lia].
Qed.

Lemma after_rs : forall n0 old w, after n0 old w -> rs_ok n0 (w_rs w).
Proof. intros n0 old w (H1 & H2 & _). split; assumption. Qed.

Lemma run_plan_after : forall t c n0 old w p j newobj,
  after n0 old w -> after n0 old (fst (run_plan t c w p j newobj)).
Proof.
  intros t c n0 old w [[m its] status] j newobj Hw. pose proof (after_rs _ _ _ Hw) as Hs.
  destruct Hw as (H1 & H2 & later & EL & HL). unfold run_plan, ensure_import.
  destruct (import_list t (w_rs w) (w_imp w) (closure_of c m)) as [[s1 imp1] d1] eqn:E1.
  destruct (import_list_after t n0 _ _ _ _ _ _ Hs E1) as [S1 L1].
  destruct (exec_items t s1 its) as [[s2 d2] sl] eqn:E2.
  destruct (exec_items_after t n0 its s1 s2 d2 sl S1 E2) as (S2 & L2 & I2).
  destruct S2 as [N2 C2].
  destruct (status =? 0); unfold after; simpl.
  - split; [exact N2|]. split; [exact C2|]. exists (later ++ tag j sl). split; [rewrite EL; now rewrite app_assoc|].
    intros i Hi. rewrite indices_app, indices_tag in Hi. apply in_app_or in Hi.
    destruct Hi as [Hi|Hi]; [specialize (HL i Hi); lia|now apply I2].
  - split; [exact N2|]. split; [exact C2|]. exists later. split; [exact EL|].
    intros i Hi. specialize (HL i Hi). lia.
Qed.

(* imports keep whatever lies behind n0 *)
Lemma import_after : forall t c n0 old s imp m objs base later,
  rs_ok n0 s -> (forall i, In i (indices later) -> n0 <= i < r_next s) ->
  after n0 old (let '(s1, imp1, _) := ensure_import t c s imp m in W s1 imp1 objs base (old ++ later)).
Proof.
  intros t c n0 old s imp m objs base later Hs HL. unfold ensure_import.
  destruct (import_list t s imp (closure_of c m)) as [[s1 imp1] d1] eqn:E1.
  destruct (import_list_after t n0 _ _ _ _ _ _ Hs E1) as [[N1 C1] L1].
  unfold after; simpl. split; [exact N1|]. split; [exact C1|]. exists later. split; [reflexivity|].
  intros i Hi. specialize (HL i Hi). lia.
Qed.

Lemma step_after : forall t c n0 old w o, after n0 old w -> after n0 old (fst (step t c w o)).
Proof.
  intros t c n0 old w o Hw.
  destruct (step_shape t c w o) as [->|[(p & j & no & ->)|(s & imp & m & base & Hn & Hc & ->)]];
    [exact Hw | now apply run_plan_after|].
  destruct Hw as (H1 & H2 & later & -> & HL). apply import_after; [|now rewrite Hn].
  split; [now rewrite Hn|]. rewrite Hn. destruct Hc as [->| ->]; [exact H2 | intros k v []].
Qed.

Lemma run_from_after : forall t c n0 old h w, after n0 old w -> after n0 old (run_from t c w h).
Proof.
  intros t c n0 old h. induction h as [|o r IH]; intros w Hw; simpl; [exact Hw|]. apply IH. now apply step_after.
Qed.

(* everything recorded is below next -- follows from `after 1 []` *)
Lemma run_below : forall t c h i, In i (indices (w_slots (run t c h))) -> i < r_next (w_rs (run t c h)).
Proof.
  intros t c h i Hi.
  assert (H0 : after 1 [] init_world).
  { unfold after, init_world; simpl. split; [lia|]. split; [intros k v []|]. exists []. split; [reflexivity|intros j []]. }
  destruct (run_from_after t c 1 [] h init_world H0) as (_ & _ & later & EL & HL).
  unfold run in *. rewrite EL in Hi. simpl in Hi. specialize (HL i Hi). lia.
Qed.

Lemma run_from_app : forall t c h1 h2 w, run_from t c w (h1 ++ h2) = run_from t c (run_from t c w h1) h2.
Proof. intros t c h1. induction h1 as [|o r IH]; intros h2 w; simpl; [reflexivity|apply IH]. Qed.

(* per-call tables: the cache stays empty and no draw number is recorded twice; where the draw numbers lie is
   known for any table (exec_items_after) *)
Lemma NoDup_app_lt : forall (a b : list N) m, NoDup a -> NoDup b ->
  (forall i, In i a -> i < m) -> (forall i, In i b -> m <= i) -> NoDup (a ++ b).
Proof.
  intros a b m Na Nb Ha Hb. induction Na as [|x a Hx _ IH]; [exact Nb|]. simpl. constructor.
  - intro Hin. apply in_app_or in Hin. destruct Hin as [Hin|Hin]; [contradiction|].
    specialize (Hb x Hin). specialize (Ha x (or_introl eq_refl)). lia.
  - apply IH. intros i Hi. apply Ha. now right.
Qed.

Lemma rs_ok_pc : forall s, r_cache s = [] -> rs_ok (r_next s) s.
Proof. intros s Hc. split; [lia|]. rewrite Hc. intros k v []. Qed.

Lemma exec_item_pc : forall t s it s' d sl,
  all_percall t = true -> r_cache s = [] -> exec_item t s it = (s', d, sl) -> r_cache s' = [] /\ NoDup (sidx sl).
Proof.
  intros t s [f site es g a len keep] s' d sl Ht Hc H. simpl in H. rewrite (all_percall_key t site es Ht) in H.
  destruct (invents g a); inversion H; subst; clear H; (split; [exact Hc|]); rewrite keep_slot_idx;
    destruct keep; try constructor; [|destruct a..]; simpl; repeat constructor; intros [].
Qed.

Lemma exec_items_pc : forall t its s s' d sl,
  all_percall t = true -> r_cache s = [] -> exec_items t s its = (s', d, sl) -> r_cache s' = [] /\ NoDup (sidx sl).
Proof.
  intros t its. induction its as [|it r IH]; intros s s' d sl Ht Hc H; simpl in H.
  - inversion H; subst. split; [exact Hc | constructor].
  - destruct (exec_item t s it) as [[s1 d1] l1] eqn:E1.
    destruct (exec_items t s1 r) as [[s2 d2] l2] eqn:E2.
    inversion H; subst; clear H.
    destruct (exec_item_pc t s it s1 d1 l1 Ht Hc E1) as (C1 & N1).
    destruct (IH s1 s' d2 l2 Ht C1 E2) as (C2 & N2).
    destruct (exec_item_after t _ s it s1 d1 l1 (rs_ok_pc s Hc) E1) as (_ & _ & I1).
    destruct (exec_items_after t _ r s1 s' d2 l2 (rs_ok_pc s1 C1) E2) as (_ & _ & I2).
    split; [exact C2|]. rewrite sidx_app. apply (NoDup_app_lt _ _ (r_next s1)); auto; intros i Hi; [apply I1 | apply I2]; exact Hi.
Qed.

Lemma import_rows_pc : forall t s m, all_percall t = true -> import_rows t s m = (s, []).
Proof. intros t s m H. unfold import_rows. rewrite (all_percall_no_import_rows t m H). reflexivity. Qed.

Lemma import_list_pc : forall t ms s imp, all_percall t = true ->
  exists imp', import_list t s imp ms = (s, imp', []).
Proof.
  intros t ms. induction ms as [|m r IH]; intros s imp H; simpl.
  - now exists imp.
  - destruct (mem m imp); [apply IH, H|].
    rewrite (import_rows_pc t s m H). destruct (IH s (imp ++ [m]) H) as [imp' E]. rewrite E. now exists imp'.
Qed.

Lemma ensure_import_pc : forall t c s imp m, all_percall t = true ->
  exists imp', ensure_import t c s imp m = (s, imp', []).
Proof. intros. unfold ensure_import. now apply import_list_pc. Qed.

(* invariant of a per-call world *)
Definition inv (w : world) : Prop :=
  r_cache (w_rs w) = [] /\ NoDup (indices (w_slots w)) /\
  forall i, In i (indices (w_slots w)) -> i < r_next (w_rs w).

Lemma inv_init : inv init_world.
Proof. unfold inv, init_world; simpl. split; [reflexivity|]. split; [constructor | intros i []]. Qed.

Lemma run_plan_inv : forall t c w p j newobj,
  all_percall t = true -> inv w -> inv (fst (run_plan t c w p j newobj)).
Proof.
  intros t c w [[m its] status] j newobj Ht (Hc & Hn & Hb). unfold run_plan.
  destruct (ensure_import_pc t c (w_rs w) (w_imp w) m Ht) as [imp' E]. rewrite E.
  destruct (exec_items t (w_rs w) its) as [[s2 d2] sl] eqn:E2.
  destruct (exec_items_pc t its (w_rs w) s2 d2 sl Ht Hc E2) as (C2 & N2).
  destruct (exec_items_after t _ its (w_rs w) s2 d2 sl (rs_ok_pc _ Hc) E2) as (_ & L2 & I2).
  destruct (status =? 0); unfold inv; simpl; (split; [exact C2|]).
  - rewrite indices_app, indices_tag. split; [now apply (NoDup_app_lt _ _ (r_next (w_rs w))); auto; apply I2|].
    intros i Hi. apply in_app_or in Hi. destruct Hi as [Hi|Hi]; [specialize (Hb i Hi); lia | now apply I2].
  - split; [exact Hn|]. intros i Hi. specialize (Hb i Hi). lia.
Qed.

Lemma step_inv : forall t c w o, all_percall t = true -> inv w -> inv (fst (step t c w o)).
Proof.
  intros t c w o Ht Hw.
  destruct (step_shape t c w o) as [->|[(p & j & no & ->)|(s & imp & m & base & Hn & Hc & ->)]];
    [exact Hw | now apply run_plan_inv|].
  destruct (ensure_import_pc t c s imp m Ht) as [imp' E]. rewrite E.
  destruct Hw as (Hc0 & Hf & H1). unfold inv; simpl. rewrite Hn. destruct Hc as [->| ->]; auto.
Qed.

Lemma run_from_inv : forall t c h w, all_percall t = true -> inv w -> inv (run_from t c w h).
Proof.
  intros t c h. induction h as [|o r IH]; intros w Ht Hw; simpl; [exact Hw|].
  apply IH; [exact Ht|]. now apply step_inv.
Qed.

(* no draw number is used twice: every site per-call => for all histories *)
Theorem fresh_nodup : forall t c, all_percall t = true ->
  forall h, NoDup (indices (w_slots (run t c h))).
Proof.
  intros t c Ht h. unfold run. destruct (run_from_inv t c h init_world Ht inv_init) as (_ & Hn & _). exact Hn.
Qed.

(* two slot entries with the same draw number are one and the same entry *)
Lemma nodup_flat_unique : forall (sl : list wslot) e1 e2 i,
  NoDup (indices sl) -> In e1 sl -> In e2 sl -> snd e1 = ODraw i -> snd e2 = ODraw i -> e1 = e2.
Proof.
  induction sl as [|e r IH]; intros e1 e2 i Hn H1 H2 O1 O2; [destruct H1|].
  unfold indices in Hn. simpl in Hn. fold (indices r) in Hn.
  assert (Hr : NoDup (indices r)).
  { clear -Hn. induction (slot_idx (snd e)) as [|x l IHl]; simpl in Hn; [exact Hn|]. inversion Hn; auto. }
  assert (Hin : forall e', In e' r -> snd e' = ODraw i -> In i (indices r)).
  { intros e' He' Oe'. unfold indices. apply in_flat_map. exists e'. split; [exact He'|]. rewrite Oe'. now left. }
  destruct H1 as [H1|H1], H2 as [H2|H2]; subst.
  - reflexivity.
  - exfalso. rewrite O1 in Hn. simpl in Hn. inversion Hn as [|? ? Hx _]; subst. apply Hx. eapply Hin; eauto.
  - exfalso. rewrite O2 in Hn. simpl in Hn. inversion Hn as [|? ? Hx _]; subst. apply Hx. eapply Hin; eauto.
  - eapply IH; eauto.
Qed.

Theorem fresh_slot_unique : forall t c, all_percall t = true ->
  forall h a fa b fb i,
    In (a, fa, ODraw i) (w_slots (run t c h)) -> In (b, fb, ODraw i) (w_slots (run t c h)) ->
    a = b /\ fa = fb.
Proof.
  intros t c Ht h a fa b fb i Ha Hb.
  assert (E : (a, fa, ODraw i) = (b, fb, ODraw i)).
  { eapply nodup_flat_unique; [apply (fresh_nodup t c Ht h)|exact Ha|exact Hb|reflexivity|reflexivity]. }
  inversion E. auto.
Qed.

(* (key, nonce) pairs: if two different artifacts had the same pair and one component were invented,
   its draw number would sit in both artifacts *)
Theorem ctr_pair_unique_lem : forall t c, all_percall t = true ->
  forall h a b fk fn fk' fn' k n,
    a <> b ->
    In (a, fk, k) (w_slots (run t c h)) -> In (a, fn, n) (w_slots (run t c h)) ->
    In (b, fk', k) (w_slots (run t c h)) -> In (b, fn', n) (w_slots (run t c h)) ->
    is_draw k = true \/ is_draw n = true -> False.
Proof.
  intros t c Ht h a b fk fn fk' fn' k n Hab Hak Han Hbk Hbn [Hd|Hd].
  - destruct k as [| |i]; try discriminate. destruct (fresh_slot_unique t c Ht h a fk b fk' i Hak Hbk). contradiction.
  - destruct n as [| |i]; try discriminate. destruct (fresh_slot_unique t c Ht h a fn b fn' i Han Hbn). contradiction.
Qed.

(* necessity: the pre-repair shapes share *)
Definition shares (t : table) (h : list op) : bool :=
  let l := indices (w_slots (run t [] h)) in
  negb (N.of_nat (length (nodup N.eq_dec l)) =? N.of_nat (length l)).

Lemma default_param_object_shared :
  shares [((2, 511), false, 32)] [Restart; New 2 0 []; New 2 0 []] = true /\
  shares [((2, 160), false, 31)] [Restart; New 1 0 []; New 1 0 []] = true /\
  shares [((3, 1854), false, 33)] [Restart; New 4 0 []; New 4 4 []; Act 0 1 AAbsent; Act 1 1 AAbsent] = true.
Proof. vm_compute. repeat split. Qed.

Lemma shares_not_nodup : forall t h, shares t h = true -> ~ NoDup (indices (w_slots (run t [] h))).
Proof.
  unfold shares. intros t h H Hn. rewrite (nodup_fixed_point N.eq_dec Hn) in H.
  rewrite N.eqb_refl in H. discriminate.
Qed.

(* the three import-time shapes that existed before the repairs (default-argument SBV2xAdvancedParams() of
   BootImageV21 / BootImageV20, class-body NEEDED_MEMBERS draw of the MBI mixin) each admit a history in which two
   artifacts share draws: the per-call premise of fresh_nodup cannot be dropped *)
Lemma import_time_shapes_refuted :
  (~ NoDup (indices (w_slots (run [((2, 511), false, 32)] [] [Restart; New 2 0 []; New 2 0 []])))) /\
  (~ NoDup (indices (w_slots (run [((2, 160), false, 31)] [] [Restart; New 1 0 []; New 1 0 []])))) /\
  (~ NoDup (indices (w_slots (run [((3, 1854), false, 33)] []
                                  [Restart; New 4 0 []; New 4 4 []; Act 0 1 AAbsent; Act 1 1 AAbsent])))).
Proof.
  destruct default_param_object_shared as (H1 & H2 & H3).
  repeat split; apply shares_not_nodup; assumption.
Qed.
