(* Proofs/HabDcdProofs.v -- C07: the DCD command codec of Model/HabModel.v parses back what the HAB TLV encoding says. *)
From Coq Require Import ZArith NArith List Bool Lia.
Require Import Value Bytes BytesProofs HabModel HabProofs.
Import ListNotations.
Local Open Scope Z_scope.

(* specification of the DCD commands (HAB4 TLV encoding) *)
Inductive dcmd :=
| DWrite (nb ops : Z) (pairs : list (Z * Z))
| DCheck (nb ops addr mask : Z) (count : option Z)
| DNop (par : Z)
| DUnlock (eng feat uid : Z).

Definition wpar (nb ops : Z) : Z := ops * 8 + nb.
Definition pairs_bytes (pairs : list (Z * Z)) : list N := concat (map (fun p => hbe 4 (fst p) ++ hbe 4 (snd p)) pairs).
Fixpoint flat (pairs : list (Z * Z)) : list Z := match pairs with [] => [] | p :: t => fst p :: snd p :: flat t end.

Definition dcmd_bytes (d : dcmd) : list N :=
  match d with
  | DWrite nb ops pairs => hdr 204 (4 + 8 * hlen pairs) (wpar nb ops) ++ pairs_bytes pairs
  | DCheck nb ops a m cnt => hdr 207 (match cnt with Some _ => 16 | None => 12 end) (wpar nb ops) ++ hbe 4 a ++ hbe 4 m
                             ++ match cnt with Some n => hbe 4 n | None => [] end
  | DNop par => hdr 192 4 par
  | DUnlock eng feat uid => hdr 178 (if need_uid eng feat then 16 else 8) eng ++ hbe 4 feat
                            ++ (if need_uid eng feat then hbe 8 uid else [])
  end.

Definition nb_ok (nb ops : Z) : Prop := (nb = 1 \/ nb = 2 \/ nb = 4) /\ 0 <= ops <= 3.
Definition dcmd_wf (d : dcmd) : Prop :=
  match d with
  | DWrite nb ops pairs => nb_ok nb ops /\ Forall (fun p => fits 4 (fst p) = true /\ fits 4 (snd p) = true) pairs /\ 4 + 8 * hlen pairs < 65536
  | DCheck nb ops a m cnt => nb_ok nb ops /\ fits 4 a = true /\ fits 4 m = true /\
                             match cnt with Some n => 0 < n /\ fits 4 n = true | None => True end
  | DNop par => fits 1 par = true
  | DUnlock eng feat uid => engine_known eng = true /\ fits 1 eng = true /\ fits 4 feat = true /\ fits 8 uid = true /\
                            (need_uid eng feat = false -> uid = 0)
  end.

(* what the model's parser builds for a command *)
Definition dcmd_pcmd (d : dcmd) : pcmd :=
  match d with
  | DWrite nb ops pairs => {| pc_tag := 204; pc_size := 4 + 8 * hlen pairs; pc_bytes := dcmd_bytes d; pc_par := wpar nb ops;
                              pc_loc := -1; pc_fmt := 0; pc_fields := flat pairs |}
  | DCheck nb ops a m cnt => {| pc_tag := 207; pc_size := (match cnt with Some _ => 16 | None => 12 end); pc_bytes := dcmd_bytes d;
                                pc_par := wpar nb ops; pc_loc := -1; pc_fmt := 0;
                                pc_fields := [a; m; match cnt with Some n => n | None => -1 end] |}
  | DNop par => {| pc_tag := 192; pc_size := 4; pc_bytes := dcmd_bytes d; pc_par := par; pc_loc := -1; pc_fmt := 0; pc_fields := [] |}
  | DUnlock eng feat uid => {| pc_tag := 178; pc_size := (if need_uid eng feat then 16 else 8); pc_bytes := dcmd_bytes d; pc_par := eng;
                               pc_loc := -1; pc_fmt := 0; pc_fields := [feat; uid] |}
  end.

Lemma wpar_fits nb ops : nb_ok nb ops -> fits 1 (wpar nb ops) = true /\
  Z.land (wpar nb ops) 7 = nb /\ Z.land (Z.shiftr (wpar nb ops) 3) 3 = ops /\ Z.lor (Z.shiftl ops 3) nb = wpar nb ops /\
  existsb (Z.eqb nb) [1; 2; 4] = true.
Proof.
  intros [[-> | [-> | ->]] Ho]; assert (ops = 0 \/ ops = 1 \/ ops = 2 \/ ops = 3) as [-> | [-> | [-> | ->]]] by lia;
    repeat split; reflexivity.
Qed.

Lemma hlen_pairs_bytes pairs : hlen (pairs_bytes pairs) = 8 * hlen pairs.
Proof. exact (hlen_blocks_bytes pairs). Qed.

Lemma flat_bytes pairs : concat (map (hbe 4) (flat pairs)) = pairs_bytes pairs.
Proof.
  induction pairs as [|p t IH]; [reflexivity|]. unfold pairs_bytes in *. cbn [flat map concat]. rewrite IH. now rewrite <- app_assoc.
Qed.

Lemma hlen_flat pairs : hlen (flat pairs) = 2 * hlen pairs.
Proof. induction pairs as [|p t IH]; [reflexivity|]. cbn [flat]. rewrite !hlen_cons, IH. lia. Qed.

(* the pair loop of CmdWriteData.parse *)
Lemma pairs_be_spec pairs : forall fuel pre post idx,
  Forall (fun p => fits 4 (fst p) = true /\ fits 4 (snd p) = true) pairs ->
  hlen pre = idx -> (length pairs < fuel)%nat ->
  pairs_be fuel (pre ++ pairs_bytes pairs ++ post) idx (idx + 8 * hlen pairs) = Ok (flat pairs).
Proof.
  induction pairs as [|p t IH]; intros fuel pre post idx HF Hp Hf.
  - destruct fuel; [reflexivity|]. cbn [pairs_be]. change (hlen (@nil (Z * Z))) with 0. replace (idx <? idx + 8 * 0) with false by lia. reflexivity.
  - destruct fuel as [|fuel]; [cbn in Hf; lia|]. apply Forall_cons_iff in HF as [[Fa Fv] HF'].
    cbn [pairs_be]. rewrite hlen_cons. pose proof (hlen_nonneg t) as Ht.
    replace (idx <? idx + 8 * (1 + hlen t)) with true by lia.
    unfold pairs_bytes. cbn [map concat]. fold (pairs_bytes t).
    rewrite have_true by (rewrite !hlen_app, !hlen_hbe, Hp; pose proof (hlen_nonneg (pairs_bytes t)); pose proof (hlen_nonneg post); lia).
    cbn [negb].
    assert (E1 : u32be_at (pre ++ ((hbe 4 (fst p) ++ hbe 4 (snd p)) ++ pairs_bytes t) ++ post) idx = fst p).
    { rewrite <- !app_assoc. now apply u32be_at_mid. }
    assert (E2 : u32be_at (pre ++ ((hbe 4 (fst p) ++ hbe 4 (snd p)) ++ pairs_bytes t) ++ post) (idx + 4) = snd p).
    { rewrite <- !app_assoc. rewrite (app_assoc pre). apply u32be_at_mid; [|assumption]. rewrite hlen_app, hlen_hbe. lia. }
    rewrite E1, E2.
    assert (E3 : pre ++ ((hbe 4 (fst p) ++ hbe 4 (snd p)) ++ pairs_bytes t) ++ post
                 = (pre ++ hbe 4 (fst p) ++ hbe 4 (snd p)) ++ pairs_bytes t ++ post) by now rewrite <- !app_assoc.
    rewrite E3. replace (idx + 8 * (1 + hlen t)) with (idx + 8 + 8 * hlen t) by lia.
    rewrite IH; [reflexivity | assumption | rewrite !hlen_app, !hlen_hbe; lia | cbn [length] in Hf; lia].
Qed.

Lemma tag_known_204 : existsb (Z.eqb 204) [177; 190; 202; 204; 207; 192; 180; 178] = true. Proof. reflexivity. Qed.

Lemma cmd_parse_write nb ops pairs rest : dcmd_wf (DWrite nb ops pairs) ->
  cmd_parse (dcmd_bytes (DWrite nb ops pairs) ++ rest) = Ok (dcmd_pcmd (DWrite nb ops pairs)).
Proof.
  intros (Hn & HF & HL). destruct (wpar_fits nb ops Hn) as (Fp & E1 & E2 & E3 & E4).
  pose proof (hlen_nonneg pairs) as Hp. cbn [dcmd_bytes]. rewrite <- app_assoc.
  unfold cmd_parse.
  destruct (hdr_reads 204 (4 + 8 * hlen pairs) (wpar nb ops) (pairs_bytes pairs ++ rest)) as (-> & -> & -> & -> & ->);
    [reflexivity | apply fits2; lia | assumption |].
  cbn [negb existsb Z.eqb Pos.eqb orb].
  replace (4 + 8 * hlen pairs <? 4) with false by lia. cbn [existsb] in E4. rewrite E1, E2, E4. cbn [negb].
  rewrite (pairs_be_spec pairs _ (hdr 204 (4 + 8 * hlen pairs) (wpar nb ops)) rest 4 HF (hlen_hdr _ _ _)).
  2:{ pose proof (hlen_pairs_bytes pairs) as Hb. pose proof (hlen_nonneg rest) as Hr.
      assert (Hl : hlen (hdr 204 (4 + 8 * hlen pairs) (wpar nb ops) ++ pairs_bytes pairs ++ rest) = 4 + 8 * hlen pairs + hlen rest)
        by (rewrite !hlen_app, hlen_hdr, Hb; lia).
      unfold hlen in *. lia. }
  cbn [bind]. rewrite hlen_flat, flat_bytes, E3. cbn [dcmd_pcmd dcmd_bytes].
  replace (4 + 4 * (2 * hlen pairs)) with (4 + 8 * hlen pairs) by lia. reflexivity.
Qed.

Lemma cmd_parse_nop par rest : dcmd_wf (DNop par) -> cmd_parse (dcmd_bytes (DNop par) ++ rest) = Ok (dcmd_pcmd (DNop par)).
Proof.
  intros Fp. cbn [dcmd_bytes dcmd_wf] in *.
  unfold cmd_parse. destruct (hdr_reads 192 4 par rest) as (-> & -> & -> & -> & ->); [reflexivity | reflexivity | assumption |].
  reflexivity.
Qed.

Lemma cmd_parse_check nb ops a m cnt rest : dcmd_wf (DCheck nb ops a m cnt) ->
  cmd_parse (dcmd_bytes (DCheck nb ops a m cnt) ++ rest) = Ok (dcmd_pcmd (DCheck nb ops a m cnt)).
Proof.
  intros (Hn & Fa & Fm & Hc). destruct (wpar_fits nb ops Hn) as (Fp & E1 & E2 & E3 & E4).
  cbn [dcmd_bytes]. set (L := match cnt with Some _ => 16 | None => 12 end).
  assert (HL : L = 12 \/ L = 16) by (destruct cnt; unfold L; lia).
  set (tail := match cnt with Some n => hbe 4 n | None => [] end).
  rewrite <- !app_assoc.
  unfold cmd_parse.
  destruct (hdr_reads 207 L (wpar nb ops) (hbe 4 a ++ hbe 4 m ++ tail ++ rest)) as (-> & -> & -> & -> & ->);
    [reflexivity | apply fits2; lia | assumption |].
  cbn [negb existsb Z.eqb Pos.eqb orb].
  replace (L <? 4) with false by lia. cbn [existsb] in E4. rewrite E1, E2, E4.
  assert (Ea : forall r, u32be_at (hdr 207 L (wpar nb ops) ++ hbe 4 a ++ r) 4 = a)
    by (intros r; apply u32be_at_mid; [apply hlen_hdr | assumption]).
  assert (Em : forall r, u32be_at (hdr 207 L (wpar nb ops) ++ hbe 4 a ++ hbe 4 m ++ r) 8 = m).
  { intros r. rewrite (app_assoc (hdr 207 L (wpar nb ops))). apply u32be_at_mid; [|assumption]. rewrite hlen_app, hlen_hdr, hlen_hbe. reflexivity. }
  rewrite !Ea, !Em.
  rewrite have_true by (rewrite !hlen_app, hlen_hdr, !hlen_hbe; pose proof (hlen_nonneg tail); pose proof (hlen_nonneg rest); lia). cbn [negb].
  unfold L, tail in *. destruct cnt as [n|].
  - destruct Hc as [Hn0 Fn]. change (8 <? 16 - 4) with true. cbn [andb].
    rewrite have_true by (rewrite !hlen_app, hlen_hdr, !hlen_hbe; pose proof (hlen_nonneg rest); lia). cbn [negb].
    assert (En : u32be_at (hdr 207 16 (wpar nb ops) ++ hbe 4 a ++ hbe 4 m ++ hbe 4 n ++ rest) 12 = n).
    { rewrite (app_assoc (hbe 4 a)). rewrite (app_assoc (hdr 207 16 (wpar nb ops))). apply u32be_at_mid; [|assumption].
      rewrite !hlen_app, hlen_hdr, !hlen_hbe. reflexivity. }
    rewrite En. replace (n =? 0) with false by lia. cbn [negb andb]. cbn [dcmd_pcmd dcmd_bytes]. rewrite E3.
    change (12 + 4) with 16. reflexivity.
  - change (8 <? 12 - 4) with false. cbn [andb negb]. cbn [dcmd_pcmd dcmd_bytes]. rewrite E3.
    change (12 + 0) with 12. now rewrite !app_nil_r.
Qed.

Lemma cmd_parse_unlock eng feat uid rest : dcmd_wf (DUnlock eng feat uid) ->
  cmd_parse (dcmd_bytes (DUnlock eng feat uid) ++ rest) = Ok (dcmd_pcmd (DUnlock eng feat uid)).
Proof.
  intros (Hk & Fe & Ff & Fu & Hu). cbn [dcmd_bytes].
  set (L := if need_uid eng feat then 16 else 8). assert (HL : L = 8 \/ L = 16) by (unfold L; destruct (need_uid eng feat); lia).
  set (tail := if need_uid eng feat then hbe 8 uid else []).
  rewrite <- !app_assoc.
  unfold cmd_parse. destruct (hdr_reads 178 L eng (hbe 4 feat ++ tail ++ rest)) as (-> & -> & -> & -> & ->);
    [reflexivity | apply fits2; lia | assumption |].
  cbn [negb existsb Z.eqb Pos.eqb orb].
  replace (L <? 4) with false by lia.
  rewrite have_true by (rewrite !hlen_app, hlen_hdr, !hlen_hbe; pose proof (hlen_nonneg tail); pose proof (hlen_nonneg rest); lia).
  cbn [negb]. rewrite Hk. cbn [negb].
  assert (Efe : forall r, u32be_at (hdr 178 L eng ++ hbe 4 feat ++ r) 4 = feat)
    by (intros r; apply u32be_at_mid; [apply hlen_hdr | assumption]).
  rewrite !Efe. unfold L, tail in *. cbn [dcmd_pcmd dcmd_bytes].
  destruct (need_uid eng feat) eqn:En.
  - rewrite have_true by (rewrite !hlen_app, hlen_hdr, !hlen_hbe; pose proof (hlen_nonneg rest); lia). cbn [negb andb].
    assert (Eu : u64be_at (hdr 178 16 eng ++ hbe 4 feat ++ hbe 8 uid ++ rest) 8 = uid).
    { rewrite (app_assoc (hdr 178 16 eng)). apply (be_at_mid 8); [|assumption]. rewrite hlen_app, hlen_hdr, hlen_hbe. reflexivity. }
    rewrite Eu. reflexivity.
  - cbn [andb]. rewrite (Hu eq_refl). now rewrite !app_nil_r.
Qed.

Theorem cmd_parse_spec d rest : dcmd_wf d -> cmd_parse (dcmd_bytes d ++ rest) = Ok (dcmd_pcmd d).
Proof.
  destruct d; intros H; [now apply cmd_parse_write | now apply cmd_parse_check | now apply cmd_parse_nop | now apply cmd_parse_unlock].
Qed.

Lemma pcmd_size_bytes d : dcmd_wf d -> pc_size (dcmd_pcmd d) = hlen (dcmd_bytes d) /\ 4 <= pc_size (dcmd_pcmd d) /\
  pc_bytes (dcmd_pcmd d) = dcmd_bytes d /\ existsb (Z.eqb (pc_tag (dcmd_pcmd d))) dcd_tags = true.
Proof.
  destruct d; intros H; cbn [dcmd_pcmd dcmd_bytes pc_size pc_bytes pc_tag].
  - pose proof (hlen_nonneg pairs). rewrite hlen_app, hlen_hdr, hlen_pairs_bytes. repeat split; try lia.
  - destruct count; rewrite !hlen_app, hlen_hdr, !hlen_hbe; change (hlen (@nil N)) with 0; repeat split; lia.
  - rewrite hlen_hdr. repeat split; lia.
  - destruct (need_uid eng feat); rewrite !hlen_app, hlen_hdr, !hlen_hbe; change (hlen (@nil N)) with 0; repeat split; lia.
Qed.

(* so a specification command's object is one the loop of SegDCD.parse walks over *)
Lemma dcmd_ok d : dcmd_wf d -> cmd_ok (dcmd_pcmd d).
Proof.
  intros W. destruct (pcmd_size_bytes d W) as (E & G & B & T). unfold cmd_ok. rewrite B.
  split; [intros rest; now apply cmd_parse_spec | now repeat split].
Qed.

Definition cmds_bytes (cmds : list dcmd) : list N := concat (map dcmd_bytes cmds).
Definition cmds_size (cmds : list dcmd) : Z := fold_right (fun c a => pc_size (dcmd_pcmd c) + a) 0 cmds.

Lemma cmds_obj cmds : Forall dcmd_wf cmds ->
  Forall cmd_ok (map dcmd_pcmd cmds) /\ concat (map pc_bytes (map dcmd_pcmd cmds)) = cmds_bytes cmds.
Proof.
  induction 1 as [|c t Hc _ (I1 & I2)]; [split; [constructor | reflexivity]|]. unfold cmds_bytes in *. cbn [map concat].
  rewrite I2, (proj1 (proj2 (proj2 (pcmd_size_bytes c Hc)))). split; [constructor; [now apply dcmd_ok | exact I1] | reflexivity].
Qed.

Lemma cmds_size_len cmds : cmds_len (map dcmd_pcmd cmds) = cmds_size cmds.
Proof. unfold cmds_len, cmds_size. induction cmds as [|c t IH]; [reflexivity|]. cbn [map fold_right]. now rewrite IH. Qed.

(* specification encoding of a DCD: header (tag 0xD2, total length, version) followed by the commands *)
Definition dcd_bytes (ver : Z) (cmds : list dcmd) : list N := hdr 210 (4 + cmds_size cmds) ver ++ cmds_bytes cmds.
Definition dcd_obj (ver : Z) (cmds : list dcmd) : dcd := {| dc_par := ver; dc_cmds := map dcmd_pcmd cmds |}.
Definition dcd_wf (ver : Z) (cmds : list dcmd) : Prop := fits 1 ver = true /\ Forall dcmd_wf cmds /\ 4 + cmds_size cmds < 65536.

Lemma dcd_obj_size ver cmds : dcd_size (dcd_obj ver cmds) = 4 + cmds_size cmds.
Proof. exact (f_equal (Z.add 4) (cmds_size_len cmds)). Qed.

Lemma dcd_obj_export ver cmds : Forall dcmd_wf cmds -> dcd_export (dcd_obj ver cmds) = dcd_bytes ver cmds.
Proof. intros HF. unfold dcd_export, dcd_bytes. rewrite dcd_obj_size. f_equal. exact (proj2 (cmds_obj cmds HF)). Qed.

(* the object of a specification-encoded DCD parses back from its export (HabProofs.dcd_stable_of_cmds) *)
Theorem dcd_spec_stable ver cmds : dcd_wf ver cmds -> dcd_stable (dcd_obj ver cmds).
Proof.
  intros (Fv & HF & HL). apply dcd_stable_of_cmds; [exact Fv | exact (proj1 (cmds_obj cmds HF)) | now rewrite dcd_obj_size].
Qed.

(* SegDCD.parse of a specification-encoded DCD (followed by anything) gives the command objects, and their export is the input *)
Theorem dcd_parse_spec ver cmds rest : dcd_wf ver cmds ->
  dcd_parse (dcd_bytes ver cmds ++ rest) = Ok (dcd_obj ver cmds) /\ dcd_export (dcd_obj ver cmds) = dcd_bytes ver cmds.
Proof.
  intros W. pose proof (dcd_obj_export ver cmds (proj1 (proj2 W))) as E. split; [|exact E].
  rewrite <- E. now apply dcd_spec_stable.
Qed.

Example dcd_wf_nonvacuous :
  dcd_wf 65 [DWrite 4 0 [(1074774120, 4294967295); (1074774124, 7)]; DCheck 4 1 1074626896 1 (Some 5); DNop 0;
             DUnlock 33 13 1234605616436508552; DUnlock 30 3 0; DCheck 1 3 16 255 None].
Proof.
  unfold dcd_wf. split; [reflexivity|]. split; [|vm_compute; reflexivity].
  repeat (apply Forall_cons; [|]); try apply Forall_nil; unfold dcmd_wf, nb_ok.
  - split; [split; lia|]. split; [|cbn; lia]. repeat (apply Forall_cons; [split; reflexivity|]). apply Forall_nil.
  - repeat split; try reflexivity; lia.
  - reflexivity.
  - repeat split; try reflexivity. intros; discriminate.
  - repeat split; reflexivity.
  - repeat split; try reflexivity; lia.
Qed.

(* the size the DCD object reports (used for the Authenticate Data block) is the number of bytes it exports *)
Lemma dcd_obj_sized ver cmds : Forall dcmd_wf cmds -> dcd_size (dcd_obj ver cmds) = hlen (dcd_bytes ver cmds).
Proof.
  intros HF. destruct (cmds_obj cmds HF) as [Ok_ _]. rewrite <- (dcd_obj_export ver cmds HF). unfold dcd_export, dcd_obj. cbn [dc_cmds dc_par].
  now rewrite hlen_app, hlen_hdr, (proj1 (cmds_ok_facts _ Ok_)).
Qed.
