(* Proofs/MbiSweepProofs.v -- C01: sweeps over every class / family of the generated database, and the witnesses of
   the findings (F1..F5, F7 repaired: positive instances; F8: refutation), computed on the model. *)
From Coq Require Import ZArith NArith List Bool Lia.
Require Import Value Bytes BytesProofs MbiMixinModel GenMbi MbiModel MbiProofs MbiRtProofs MbiKindsProofs.
Import ListNotations.
Local Open Scope Z_scope.

(* ------------------------------------------------------------------ class kinds *)
Definition class_eqb (a b : mbi_class) : bool :=
  (c_type a =? c_type b) && list_eqb Z.eqb (map mixin_id (c_mixins a)) (map mixin_id (c_mixins b)).
Definition in_db (c : mbi_class) : bool := existsb (class_eqb c) gen_compositions.

Definition kind_signed_v1 (c : mbi_class) : bool :=
  supported c && Z.eqb (opt_mixin_id (provider c SCollect)) (mixin_id ExportMixinAppTrustZoneCertBlock) &&
  Z.eqb (opt_mixin_id (provider c SSign)) (mixin_id ExportMixinRsaSign) && has c MixinCertBlockV1.
Definition kind_signed_v21 (c : mbi_class) : bool :=
  supported c && Z.eqb (opt_mixin_id (provider c SCollect)) (mixin_id ExportMixinAppCertBlockManifest) &&
  Z.eqb (opt_mixin_id (provider c SSign)) (mixin_id ExportMixinEccSign) && has c MixinCertBlockV21 && has_manifest c.
Definition kind_encrypted (c : mbi_class) : bool :=
  supported c && Z.eqb (opt_mixin_id (provider c SCollect)) (mixin_id ExportMixinAppTrustZoneCertBlockEncrypt) &&
  Z.eqb (opt_mixin_id (provider c SSign)) (mixin_id ExportMixinRsaSign) && has c MixinCertBlockV1 && has c MixinCtrInitVector.

(* structural hypotheses of disassemble_cuts_collect for the signed classes without relocation-table mixin *)
Definition cert_cut_hyp (c : mbi_class) : bool :=
  negb (c_type c =? 0) &&
  (opt_mixin_id (provider c SDisassemble) =? opt_mixin_id (provider c SCollect)).
(* every class of the database: duplicate-free mixin list, image type in 0..63, an App mixin, one of the kinds that have a
   round-trip theorem (or a BCA / FCF class, which Model/MbiBcaModel.v covers) *)
Definition wf_class (c : mbi_class) : bool :=
  nodupb (c_mixins c) && (0 <=? c_type c) && (c_type c <? 64) && has c MixinApp &&
  negb (has c MixinTrustZone && has c MixinTrustZoneMandatory) &&
  (wf_plain_crc c || wf_v1 c || wf_v21 c || wf_enc c || negb (supported c)) &&
  (if (kind_signed_v1 c || kind_signed_v21 c) && negb (has c MixinRelocTable) then cert_cut_hyp c else true).
Lemma wf_class_all : forallb wf_class gen_compositions = true.
Proof. vm_compute. reflexivity. Qed.

Definition offers_of (f : Z * (Z * list (Z * (Z * Z)))) : list (Z * (Z * Z)) := snd (snd f).
Definition comp_of (o : Z * (Z * Z)) : option mbi_class := nth_comp (snd (snd o)).
Definition count_offers (p : mbi_class -> bool) : nat :=
  length (filter (fun o => match comp_of o with Some c => p c | None => false end) (flat_map offers_of gen_families)).
Definition kind_counts : nat * nat * nat * nat * nat * nat :=
  (count_offers (fun _ => true), count_offers wf_plain_crc, count_offers wf_v1, count_offers wf_v21,
   count_offers wf_enc, count_offers (fun c => negb (supported c))).
(* the five kinds partition the offers of the database: together with wf_class_all (every composition is of some kind)
   the equality of the sums says that no offer is counted twice *)
Lemma kinds_partition_offers :
  let '(t, p, v1, v21, e, u) := kind_counts in t = (p + v1 + v21 + e + u)%nat.
Proof. vm_compute. reflexivity. Qed.

(* ------------------------------------------------------------------ class selection at parse time *)
Definition subset_mixins (a b : list mixin) : bool := forallb (fun m => existsb (mixin_eqb m) b) a.
(* the selected class parses what the exporting class wrote when it has (at least) the same mixins *)
Definition sel_ok (c c' : mbi_class) : bool := (c_type c =? c_type c') && subset_mixins (c_mixins c) (c_mixins c').
(* pairs (exporting class, class selected by MasterBootImage.parse) that are NOT compatible: finding C01-F8 *)
Definition ambiguous_pair (c c' : mbi_class) : bool := negb (sel_ok c c').
Definition offer_selection (f : Z * (Z * list (Z * (Z * Z)))) (o : Z * (Z * Z)) : option (mbi_class * mbi_class) :=
  match comp_of o with
  | Some c =>
      let ty := if fst (snd f) <? 0 then c_type c else fst (snd f) in
      match select_offer (offers_of f) ty with
      | Some o' => match comp_of o' with Some c' => Some (c, c') | None => None end
      | None => None
      end
  | None => None
  end.
Definition all_selections : list (option (mbi_class * mbi_class)) :=
  flat_map (fun f => map (offer_selection f) (offers_of f)) gen_families.
Definition known_ambiguous (c c' : mbi_class) : bool :=
  (* plain load-to-RAM parsed as plain XIP, signed RAM parsed as signed XIP without load address, fixed image type *)
  let lost := filter (fun m => negb (existsb (mixin_eqb m) (c_mixins c'))) (c_mixins c) in
  forallb (fun m => match m with
                    | MixinIvt | MixinLoadAddress | MixinBcaTable | MixinFcfObsolete | ExportMixinAppFcf => true
                    | _ => false end) lost.
Lemma class_selection_all :
  forallb (fun s => match s with
                    | Some (c, c') => sel_ok c c' || known_ambiguous c c'
                    | None => false
                    end) all_selections = true.
Proof. vm_compute. reflexivity. Qed.
Definition selection_counts : nat * nat :=
  (length all_selections,
   length (filter (fun s => match s with Some (c, c') => ambiguous_pair c c' | None => true end) all_selections)).

(* ------------------------------------------------------------------ witnesses of the findings, computed on the model *)
Definition k0 (sg : nat) : crypto :=
  {| k_sign := fun _ => zeros sg; k_hmac := fun _ _ => zeros 32; k_ctr := fun _ _ _ d => d; k_hash := fun _ _ => zeros 32 |}.
Definition bytes_seq (n : nat) : list N := map N.of_nat (seq 1 n).
Definition x0 (n : nat) : mbi :=
  {| m_app := bytes_seq n; m_load := 4096; m_imgver := 0; m_subtype := 0; m_fwver := 0; m_tz := TzDisabled; m_hwkey := false;
     m_ks := None; m_hmac := None; m_iv := []; m_table := None; m_cert := None; m_digest := 0 |}.
(* a well-formed certificate block v1: "cert", 1.0, header length 32, flags, build || image length || 0 certificates, table length 0, RKHT *)
Definition cert1 : cert := CertV1 ([99; 101; 114; 116; 1; 0; 0; 0; 32; 0; 0; 0] ++ zeros 8)%N (zeros 136) 256.
Definition cert21 : cert := CertV21 ([99; 104; 100; 114; 1; 0; 2; 0; 16; 0; 0; 0] ++ zeros 4)%N 64.

Definition c_crc_ram : mbi_class :=
  {| c_type := 2; c_mixins := [MixinApp; MixinRelocTable; MixinLoadAddress; MixinIvt; MixinTrustZone; MixinHwKey;
                               ExportMixinAppTrustZone; ExportMixinCrcSign] |}.
Definition c_signed_xip : mbi_class :=
  {| c_type := 4; c_mixins := [MixinApp; MixinIvt; MixinTrustZone; MixinCertBlockV1; ExportMixinAppTrustZoneCertBlock;
                               ExportMixinRsaSign] |}.
Definition c_encrypted : mbi_class :=
  {| c_type := 3; c_mixins := [MixinApp; MixinRelocTable; MixinLoadAddress; MixinIvt; MixinTrustZone; MixinCertBlockV1; MixinHwKey;
                               MixinKeyStore; MixinHmacMandatory; MixinCtrInitVector; ExportMixinAppTrustZoneCertBlockEncrypt;
                               ExportMixinRsaSign; ExportMixinHmacKeyStoreFinalize] |}.
Definition c_signed_ram : mbi_class :=
  {| c_type := 1; c_mixins := [MixinApp; MixinRelocTable; MixinLoadAddress; MixinIvt; MixinTrustZone; MixinCertBlockV1;
                               MixinHmacMandatory; MixinKeyStore; MixinHwKey; ExportMixinAppTrustZoneCertBlock;
                               ExportMixinRsaSign; ExportMixinHmacKeyStoreFinalize] |}.
Definition c_manifest : mbi_class :=
  {| c_type := 4; c_mixins := [MixinApp; MixinIvt; MixinLoadAddress; MixinCertBlockV21; MixinManifestDigest;
                               ExportMixinAppCertBlockManifest; ExportMixinEccSign] |}.

Definition bytes_of (r : res (list N)) : list N := match r with Ok b => b | Err _ => [] end.

(* ---- the repaired findings F1..F5, F7 as positive computed instances on classes of the database ---- *)
(* F1 (repaired): an image WITH a relocation table parses back, table and application included *)
Definition x_reloc : mbi := set_table (x0 64) (Some [{| e_img := [1; 2; 3; 4]%N; e_dst := 536870912; e_flags := 1 |}]).
Definition im_reloc : list N := bytes_of (export_mbi (k0 0) c_crc_ram x_reloc).
Lemma fixed_reloc_table :
  in_db c_crc_ram = true /\ export_mbi (k0 0) c_crc_ram x_reloc = Ok im_reloc /\
  parse_mbi (k0 0) c_crc_ram 1140 0 None im_reloc = Ok (parsed c_crc_ram x_reloc None).
Proof. repeat split; vm_compute; reflexivity. Qed.

(* F2 (repaired): a payload without table whose tail looks like a table header comes back whole *)
Definition x_tail : mbi :=
  set_app (x0 80) (firstn 64 (bytes_seq 80) ++ [76; 66; 84; 76; 0; 0; 0; 0; 0; 0; 0; 0; 64; 0; 0; 0]%N).
Definition im_tail : list N := bytes_of (export_mbi (k0 0) c_crc_ram x_tail).
Lemma fixed_reloc_like_tail :
  export_mbi (k0 0) c_crc_ram x_tail = Ok im_tail /\
  parse_mbi (k0 0) c_crc_ram 1140 0 None im_tail = Ok (parsed c_crc_ram x_tail None).
Proof. repeat split; vm_compute; reflexivity. Qed.

(* F3 (repaired): HMAC class, application of 56 bytes: the builder refuses *)
Definition x_hmac (n : nat) : mbi := set_cert (set_hmac (x0 n) (Some (zeros 32))) (Some cert1).
Lemma fixed_hmac_short_app :
  in_db c_signed_ram = true /\ validate c_signed_ram (x_hmac 56) = Ok tt /\
  export_mbi (k0 256) c_signed_ram (x_hmac 56) = Err E_REJECT.
Proof. repeat split; vm_compute; reflexivity. Qed.

(* F4 (repaired): encrypted class, application of exactly 64 bytes: emitted length = IVT word 0x20, and it parses back *)
Definition x_enc : mbi := set_iv (x_hmac 64) (zeros 16).
Definition im_enc : list N := bytes_of (export_mbi (k0 256) c_encrypted x_enc).
Lemma fixed_double_hmac :
  in_db c_encrypted = true /\ export_mbi (k0 256) c_encrypted x_enc = Ok im_enc /\ zlen im_enc = rd32 OFF_LEN im_enc /\
  parse_mbi (k0 256) c_encrypted 1140 256 (Some (zeros 32)) im_enc = Ok (parsed c_encrypted x_enc (Some (zeros 32))).
Proof. repeat split; vm_compute; reflexivity. Qed.

(* F5 (repaired): manifest class, default TrustZone parses back as default TrustZone *)
Definition x_manifest : mbi := set_cert (set_tz (x0 64) TzEnabled) (Some cert21).
Definition im_manifest : list N := bytes_of (export_mbi (k0 64) c_manifest x_manifest).
Lemma fixed_manifest_default_tz :
  in_db c_manifest = true /\ export_mbi (k0 64) c_manifest x_manifest = Ok im_manifest /\
  parse_mbi (k0 64) c_manifest 1100 64 None im_manifest = Ok (parsed c_manifest x_manifest None).
Proof. repeat split; vm_compute; reflexivity. Qed.

(* F7 (repaired): certificate block v1 + custom TrustZone parses back (plain and behind HMAC + key store) *)
Definition x_v1_tz : mbi := set_cert (set_tz (x0 64) (TzCustom (bytes_seq 464))) (Some cert1).
Definition im_v1_tz : list N := bytes_of (export_mbi (k0 256) c_signed_xip x_v1_tz).
Definition x_ram_tz : mbi := set_ks (set_tz (x_hmac 64) (TzCustom (bytes_seq 1140))) (Some (zeros 1424)).
Definition im_ram_tz : list N := bytes_of (export_mbi (k0 256) c_signed_ram x_ram_tz).
(* the two parses are instances of roundtrip_v1_full: only the exports are evaluated *)
Lemma export_evaluated k c x : (exists b, export_mbi k c x = Ok b) -> export_mbi k c x = Ok (bytes_of (export_mbi k c x)).
Proof. intros (b & ->). reflexivity. Qed.
Lemma fixed_certv1_custom_tz :
  in_db c_signed_xip = true /\ export_mbi (k0 256) c_signed_xip x_v1_tz = Ok im_v1_tz /\
  parse_mbi (k0 256) c_signed_xip 464 256 None im_v1_tz = Ok (parsed c_signed_xip (set_load x_v1_tz 0) None) /\
  export_mbi (k0 256) c_signed_ram x_ram_tz = Ok im_ram_tz /\
  parse_mbi (k0 256) c_signed_ram 1140 256 (Some (zeros 32)) im_ram_tz = Ok (parsed c_signed_ram x_ram_tz (Some (zeros 32))).
Proof.
  assert (E1 : export_mbi (k0 256) c_signed_xip x_v1_tz = Ok im_v1_tz) by (apply export_evaluated; eexists; vm_compute; reflexivity).
  assert (E2 : export_mbi (k0 256) c_signed_ram x_ram_tz = Ok im_ram_tz) by (apply export_evaluated; eexists; vm_compute; reflexivity).
  assert (SEQ : forall n, length (bytes_seq n) = n) by (intros n; unfold bytes_seq; now rewrite map_length, seq_length).
  split; [vm_compute; reflexivity|]. split; [exact E1|]. split; [|split; [exact E2|]].
  - change (parsed c_signed_xip (set_load x_v1_tz 0) None) with (parsed c_signed_xip x_v1_tz None).
    eapply proj1, roundtrip_v1_full with (pre := ([99; 101; 114; 116; 1; 0; 0; 0; 32; 0; 0; 0] ++ zeros 8)%N) (post := zeros 136) (sg := 256%nat);
      [vm_compute; reflexivity | apply Nat.leb_le; vm_compute; reflexivity | vm_compute; reflexivity | vm_compute; split; congruence
      | vm_compute; split; congruence | reflexivity | apply cert1_wf_instance | reflexivity | lia | intros d; apply zeros_length
      | intros key d; apply zeros_length | | | | exact E1].
    + intros b H. discriminate H.
    + intros d H. injection H as <-. rewrite SEQ. split; [reflexivity | lia].
    + intros es H. discriminate H.
  - eapply proj1, roundtrip_v1_full with (pre := ([99; 101; 114; 116; 1; 0; 0; 0; 32; 0; 0; 0] ++ zeros 8)%N) (post := zeros 136) (sg := 256%nat);
      [vm_compute; reflexivity | apply Nat.leb_le; vm_compute; reflexivity | vm_compute; reflexivity | vm_compute; split; congruence
      | vm_compute; split; congruence | reflexivity | apply cert1_wf_instance | reflexivity | lia | intros d; apply zeros_length
      | intros key d; apply zeros_length | | | | exact E2].
    + intros b H. injection H as <-. split; [apply zeros_length | vm_compute; reflexivity].
    + intros d H. injection H as <-. rewrite SEQ. split; [reflexivity | lia].
    + intros es H. discriminate H.
Qed.

(* F8: some offer is parsed with a class that has no load address although the exporting class has one *)
Definition bad_selection (s : option (mbi_class * mbi_class)) : bool :=
  match s with
  | Some (c, c') => negb (sel_ok c c') && has_attr c ALoadAddress && negb (has_attr c' ALoadAddress)
  | None => false
  end.

Lemma repaired_findings_hold :
  (in_db c_crc_ram = true /\ export_mbi (k0 0) c_crc_ram x_reloc = Ok im_reloc /\
   parse_mbi (k0 0) c_crc_ram 1140 0 None im_reloc = Ok (parsed c_crc_ram x_reloc None)) /\
  (export_mbi (k0 0) c_crc_ram x_tail = Ok im_tail /\
   parse_mbi (k0 0) c_crc_ram 1140 0 None im_tail = Ok (parsed c_crc_ram x_tail None)) /\
  (in_db c_signed_ram = true /\ validate c_signed_ram (x_hmac 56) = Ok tt /\
   export_mbi (k0 256) c_signed_ram (x_hmac 56) = Err E_REJECT) /\
  (in_db c_encrypted = true /\ export_mbi (k0 256) c_encrypted x_enc = Ok im_enc /\ zlen im_enc = rd32 OFF_LEN im_enc /\
   parse_mbi (k0 256) c_encrypted 1140 256 (Some (zeros 32)) im_enc = Ok (parsed c_encrypted x_enc (Some (zeros 32)))) /\
  (in_db c_manifest = true /\ export_mbi (k0 64) c_manifest x_manifest = Ok im_manifest /\
   parse_mbi (k0 64) c_manifest 1100 64 None im_manifest = Ok (parsed c_manifest x_manifest None)) /\
  (in_db c_signed_xip = true /\ export_mbi (k0 256) c_signed_xip x_v1_tz = Ok im_v1_tz /\
   parse_mbi (k0 256) c_signed_xip 464 256 None im_v1_tz = Ok (parsed c_signed_xip (set_load x_v1_tz 0) None) /\
   export_mbi (k0 256) c_signed_ram x_ram_tz = Ok im_ram_tz /\
   parse_mbi (k0 256) c_signed_ram 1140 256 (Some (zeros 32)) im_ram_tz = Ok (parsed c_signed_ram x_ram_tz (Some (zeros 32)))).
Proof. exact (conj fixed_reloc_table (conj fixed_reloc_like_tail (conj fixed_hmac_short_app (conj fixed_double_hmac (conj fixed_manifest_default_tz fixed_certv1_custom_tz))))). Qed.
