(* Proofs/BdProofs.v -- lemmas about Model/BdModel.v over the tables of Gen/GenBd.v (C19). *)
From Coq Require Import String Ascii ZArith NArith List Bool Lia Arith.
Require Import Value Bytes BytesProofs GenBd BdModel.
Import ListNotations.
Local Open Scope string_scope.
Local Open Scope list_scope.
Local Open Scope Z_scope.
Definition std_py (o : binop) : pyop :=
  match o with
  | Add => PyAdd | Sub => PySub | Mul => PyMult | Div => PyFloorDiv | Mod => PyMod | Shl => PyLShift
  | Shr => PyRShift | BAnd => PyBitAnd | BOr => PyBitOr | BXor => PyBitXor
  end.

Lemma expr_table_standard : forall o, lookup_op (binop_text o) expr_ops = Some (std_py o, false).
Proof. destruct o; reflexivity. Qed.

Definition std_cmp (o : cmpop) : pyop :=
  match o with CLt => PyLt | CLe => PyLtE | CGt => PyGt | CGe => PyGtE | CEq => PyEq | CNe => PyNotEq end.

Lemma bool_table_standard : forall o, lookup_op (cmpop_text o) bool_ops = Some (std_cmp o, false).
Proof. destruct o; reflexivity. Qed.
(* && / || : bool(a and b) / bool(a or b), truth values *)
Lemma bool_table_and : lookup_op "&&" bool_ops = Some (PyAndBool, false).
Proof. reflexivity. Qed.
Lemma bool_table_or : lookup_op "||" bool_ops = Some (PyOrBool, false).
Proof. reflexivity. Qed.
Lemma defined_looks_up_names : defined_by_name = true.
Proof. reflexivity. Qed.
Lemma size_mask_spec : forall s, lookup_mask (isize_text s) size_masks = Some (Z.ones (spec_size_bits s)).
Proof. destruct s; reflexivity. Qed.
Lemma blob_marker_present : blob_bytes_in_order = true.
Proof. reflexivity. Qed.
Lemma encrypt_counter_is_address : encrypt_counter_from_address = true.
Proof. reflexivity. Qed.
Lemma section_options_are_refused : section_options_refused = true.
Proof. reflexivity. Qed.
(* the lexer's literal rules are the non-greedy ones (texts of the regular expressions, extracted on this run) *)
Lemma literal_regexes_non_greedy :
  regex_of "STRING_LITERAL" = Some "\""[^\""\n]*\""" /\
  regex_of "INT_LITERAL" = Some "\b([0-9]+[K]?|0[xX][0-9a-fA-F]+)\b|'[^'\n]*'".
Proof. split; reflexivity. Qed.
Lemma unary_minus_negates : str_in "-" unary_negating = true.
Proof. reflexivity. Qed.
Lemma unary_plus_identity : str_in "+" unary_negating = false.
Proof. reflexivity. Qed.
Lemma period_not_in_chain : lookup_op "." expr_ops = None.
Proof. reflexivity. Qed.

(* sanity of the parser over the extracted table (kept out of Model/ so that the model still builds when the table changes) *)
Example ex_prec : parse_tokens [TNum 2; TOp Add; TNum 3; TOp Mul; TNum 4] = Some (EBin Add (ELit 2) (EBin Mul (ELit 3) (ELit 4))).
Proof. vm_compute. reflexivity. Qed.
Example ex_unary : parse_tokens [TNum 7; TOp Div; TOp Sub; TNum 2; TOp Div; TNum 2]
                   = Some (EBin Div (ELit 7) (ENeg (EBin Div (ELit 2) (ELit 2)))).
Proof. vm_compute. reflexivity. Qed.

(* the extracted precedence tuple orders the operators of the language exactly as the C table does, and all of them
   associate to the left (stated on the relative order, so that extra rows for other tokens do not matter) *)
Definition prec_agrees (p q : string * nat) : bool :=
  match Nat.compare (prec_level precedence (fst p)) (prec_level precedence (fst q)), Nat.compare (snd p) (snd q) with
  | Eq, Eq | Lt, Lt | Gt, Gt => true
  | _, _ => false
  end.
Definition left_and_present (p : string * nat) : bool :=
  match assoc_of precedence (fst p) with LeftA => negb (Nat.eqb (prec_level precedence (fst p)) 0) | _ => false end.

Lemma prec_table_documented :
  (forall p q, In p c_table -> In q c_table ->
     Nat.compare (prec_level precedence (fst p)) (prec_level precedence (fst q)) = Nat.compare (snd p) (snd q)) /\
  (forall p, In p c_table -> assoc_of precedence (fst p) = LeftA /\ prec_level precedence (fst p) <> 0%nat) /\
  unary_lvl = lvl Sub /\ (forall o, (lvl o < size_lvl)%nat).
Proof.
  assert (H1 : forallb (fun p => forallb (prec_agrees p) c_table) c_table = true) by (vm_compute; reflexivity).
  assert (H2 : forallb left_and_present c_table = true) by (vm_compute; reflexivity).
  split; [|split; [|split]].
  - intros p q Hp Hq. rewrite forallb_forall in H1. specialize (H1 p Hp). rewrite forallb_forall in H1. specialize (H1 q Hq).
    unfold prec_agrees in H1.
    destruct (Nat.compare (prec_level precedence (fst p)) (prec_level precedence (fst q))), (Nat.compare (snd p) (snd q));
      try reflexivity; discriminate.
  - intros p Hp. rewrite forallb_forall in H2. specialize (H2 p Hp). unfold left_and_present in H2.
    destruct (assoc_of precedence (fst p)); try discriminate. split; [reflexivity|].
    intros E. rewrite E in H2. discriminate.
  - reflexivity.
  - destruct o; vm_compute; repeat constructor.
Qed.

Definition has_row (tbl : list (string * pyop * bool)) (t : string) : bool :=
  match lookup_op t tbl with Some _ => true | None => false end.

Lemma every_operator_production_has_a_row :
  (forall t, In t expr_binary_tokens -> exists r, lookup_op t expr_ops = Some r) /\
  (forall t, In t bool_binary_tokens -> exists r, lookup_op t bool_ops = Some r) /\
  (forall o, In (binop_text o) expr_binary_tokens) /\
  (forall o, In (cmpop_text o) bool_binary_tokens) /\
  In "&&" bool_binary_tokens /\ In "||" bool_binary_tokens /\
  unary_tokens = ["+"; "-"].
Proof.
  assert (H1 : forallb (has_row expr_ops) expr_binary_tokens = true) by (vm_compute; reflexivity).
  assert (H2 : forallb (has_row bool_ops) bool_binary_tokens = true) by (vm_compute; reflexivity).
  rewrite forallb_forall in H1, H2. unfold has_row in H1, H2. repeat split.
  - intros t Ht. specialize (H1 t Ht). destruct (lookup_op t expr_ops) as [r|]; [now exists r|discriminate].
  - intros t Ht. specialize (H2 t Ht). destruct (lookup_op t bool_ops) as [r|]; [now exists r|discriminate].
  - destruct o; vm_compute; tauto.
  - destruct o; vm_compute; tauto.
  - vm_compute; tauto.
  - vm_compute; tauto.
Qed.

Lemma apply_std_spec : forall o a b, to_opt (apply_py (std_py o) a b) = spec_binop o a b.
Proof.
  intros o a b; destruct o; simpl; try reflexivity.
  - destruct (b =? 0); reflexivity.
  - destruct (b =? 0); reflexivity.
  - destruct (b <? 0) eqn:E; [reflexivity|]. simpl. rewrite Z.shiftl_mul_pow2 by lia. reflexivity.
  - destruct (b <? 0) eqn:E; [reflexivity|]. simpl. rewrite Z.shiftr_div_pow2 by lia. reflexivity.
Qed.

Lemma to_opt_bind {A B} (r : res A) (f : A -> res B) :
  to_opt (bind r f) = obind (to_opt r) (fun a => to_opt (f a)).
Proof. destruct r; reflexivity. Qed.

Theorem expr_sem : forall env e, to_opt (eval_impl env e) = eval_spec env e.
Proof.
  intros env e. induction e as [z|x|o a IHa b IHb|a IHa|a IHa|a IHa s]; cbn [eval_impl eval_spec].
  - reflexivity.
  - destruct (lookup_var x env) as [[z|s|s|b]|]; reflexivity.
  - rewrite to_opt_bind, IHa. destruct (eval_spec env a) as [va|]; [|reflexivity]. cbn [obind].
    rewrite to_opt_bind, IHb. destruct (eval_spec env b) as [vb|]; [|reflexivity]. cbn [obind].
    rewrite expr_table_standard. apply apply_std_spec.
  - rewrite to_opt_bind, IHa, unary_minus_negates. now destruct (eval_spec env a).
  - rewrite to_opt_bind, IHa, unary_plus_identity. now destruct (eval_spec env a).
  - rewrite to_opt_bind, IHa, period_not_in_chain, size_mask_spec. destruct (eval_spec env a) as [v|]; [|reflexivity].
    cbn [obind to_opt]. now rewrite Z.land_ones by (destruct s; cbn; lia).
Qed.

(* the suffix binds tighter than the binary operators: 0xa.b + 0xb.b is (0xa.b) + (0xb.b) *)
Example size_suffix_binds_tightest :
  parse_tokens [TNum 10; TSize SzB; TOp Add; TNum 11; TSize SzB] = Some (EBin Add (ESize (ELit 10) SzB) (ESize (ELit 11) SzB)) /\
  eval_impl [] (ESize (ELit 85) SzB) = Ok 85 /\ eval_impl [] (ESize (ELit 4386) SzH) = Ok 4386.
Proof. repeat split; vm_compute; reflexivity. Qed.

Theorem division_is_c_division_on_naturals :
  forall a b, 0 <= a -> 0 < b ->
    spec_binop Div a b = Some (Z.quot a b) /\ spec_binop Mod a b = Some (Z.rem a b).
Proof.
  intros a b Ha Hb. simpl. replace (b =? 0) with false by (symmetry; apply Z.eqb_neq; lia).
  rewrite Z.quot_div_nonneg, Z.rem_mod_nonneg by lia. split; reflexivity.
Qed.

Lemma b2z_01 : forall b, b2z b = 0 \/ b2z b = 1.
Proof. destruct b; simpl; auto. Qed.

Lemma apply_cmp_spec : forall o a b, apply_py (std_cmp o) a b = Ok (b2z (spec_cmp o a b)).
Proof. destruct o; reflexivity. Qed.

Theorem bool_sem : forall env b, to_opt (beval_impl env b) = beval_spec env b.
Proof.
  intros env b. induction b as [e|o a IHa c IHc|a IHa c IHc|a IHa c IHc|a IHa|x]; cbn [beval_impl beval_spec].
  - apply expr_sem.
  - rewrite to_opt_bind, IHa. destruct (beval_spec env a) as [va|]; [|reflexivity]. cbn [obind].
    rewrite to_opt_bind, IHc. destruct (beval_spec env c) as [vc|]; [|reflexivity]. cbn [obind].
    rewrite bool_table_standard. cbn [apply_row]. now rewrite apply_cmp_spec.
  - rewrite to_opt_bind, IHa. destruct (beval_spec env a) as [va|]; [|reflexivity]. cbn [obind].
    rewrite to_opt_bind, IHc, bool_table_and. now destruct (beval_spec env c).
  - rewrite to_opt_bind, IHa. destruct (beval_spec env a) as [va|]; [|reflexivity]. cbn [obind].
    rewrite to_opt_bind, IHc, bool_table_or. now destruct (beval_spec env c).
  - rewrite to_opt_bind, IHa. now destruct (beval_spec env a).
  - unfold defined_impl, is_defined. now rewrite defined_looks_up_names.
Qed.

Example bool_sem_instances :
  beval_impl [] (BAndL (BInt (ELit 2)) (BInt (ELit 3))) = Ok 1 /\ beval_impl [] (BOrL (BInt (ELit 0)) (BInt (ELit 5))) = Ok 1 /\
  beval_impl [] (BCmp CEq (BAndL (BInt (ELit 2)) (BInt (ELit 3))) (BInt (ELit 1))) = Ok 1 /\
  beval_impl [(7%N, DInt 0)] (BDefined 7) = Ok 1 /\ beval_impl [(7%N, DInt 0)] (BDefined 8) = Ok 0.
Proof. repeat split. Qed.

Lemma lookup_var_app_some : forall x e1 e2 v, lookup_var x e1 = Some v -> lookup_var x (e1 ++ e2) = Some v.
Proof.
  induction e1 as [|[y w] t IH]; simpl; intros e2 v H; [discriminate|].
  destruct (N.eqb x y); [assumption | apply IH; assumption].
Qed.

Lemma lookup_var_app_none : forall x e1 e2, lookup_var x e1 = None -> lookup_var x (e1 ++ e2) = lookup_var x e2.
Proof.
  induction e1 as [|[y w] t IH]; simpl; intros e2 H; [reflexivity|].
  destruct (N.eqb x y); [discriminate | apply IH; assumption].
Qed.

Lemma lookup_var_notin : forall x e, ~ In x (map fst e) -> lookup_var x e = None.
Proof.
  induction e as [|[y w] t IH]; simpl; intros H; [reflexivity|].
  destruct (N.eqb x y) eqn:E.
  - apply N.eqb_eq in E. subst. exfalso. apply H. left. reflexivity.
  - apply IH. intros Hin. apply H. right. assumption.
Qed.

Lemma run_constants_names : forall defs st st',
  run_constants st defs = Ok st' ->
  map fst (st_vars st') = map fst (st_vars st) ++ map fst defs /\ exists ext, st_vars st' = st_vars st ++ ext.
Proof.
  induction defs as [|[x b] r IH]; simpl; intros st st' H.
  - inversion H; subst. rewrite app_nil_r. split; [reflexivity | exists []; rewrite app_nil_r; reflexivity].
  - destruct (beval_impl (st_vars st) b) as [z|k]; simpl in H; [|discriminate].
    apply IH in H. simpl in H. destruct H as [H1 [ext H2]]. split.
    + rewrite H1, map_app. simpl. rewrite <- app_assoc. reflexivity.
    + exists ((x, DInt z) :: ext). rewrite H2, <- app_assoc. reflexivity.
Qed.

Lemma run_constants_app : forall d1 d2 st,
  run_constants st (d1 ++ d2) = bind (run_constants st d1) (fun st1 => run_constants st1 d2).
Proof.
  induction d1 as [|[x b] r IH]; simpl; intros d2 st; [reflexivity|].
  destruct (beval_impl (st_vars st) b); simpl; [apply IH | reflexivity].
Qed.

(* A constant that is defined once is evaluated in the environment of the definitions that precede it, and every
   later reference (in the final environment) resolves to that value. *)
Theorem consts_resolve :
  forall st defs1 x b defs2 st',
    run_constants st (defs1 ++ (x, b) :: defs2) = Ok st' ->
    ~ In x (map fst (st_vars st)) -> ~ In x (map fst defs1) ->
    exists st1 z, run_constants st defs1 = Ok st1 /\ beval_impl (st_vars st1) b = Ok z /\
                  lookup_var x (st_vars st') = Some (DInt z).
Proof.
  intros st defs1 x b defs2 st' H Hx1 Hx2.
  rewrite run_constants_app in H. destruct (run_constants st defs1) as [st1|k] eqn:E1; simpl in H; [|discriminate].
  destruct (beval_impl (st_vars st1) b) as [z|k] eqn:Eb; simpl in H; [|discriminate].
  exists st1, z. split; [reflexivity|]. split; [assumption|].
  apply run_constants_names in H. simpl in H. destruct H as [_ [ext H]]. rewrite H.
  apply lookup_var_app_some. rewrite lookup_var_app_none.
  - simpl. rewrite N.eqb_refl. reflexivity.
  - apply lookup_var_notin. apply run_constants_names in E1. destruct E1 as [E1 _]. rewrite E1.
    intros Hin. apply in_app_or in Hin. tauto.
Qed.

Example consts_resolve_instance :
  exists st', run_constants st0 [(1%N, BInt (ELit 5)); (2%N, BInt (EBin Add (EVar 1) (ELit 1))); (3%N, BInt (EBin Mul (EVar 2) (EVar 1)))] = Ok st'
              /\ lookup_var 3%N (st_vars st') = Some (DInt 30).
Proof. eexists. split; reflexivity. Qed.

(* Statements.  Each component the parser stores (target, memory option, call argument) is first shown to evaluate as
   the specification reads it; the dictionary handed to the handler is then a literal list for each shape of its
   optional entries, on which the handler is evaluated and compared with the specified command. *)
Lemma log2_bytes_le v k : 0 < v -> 0 <= k -> Z.log2 v / 8 + 1 <= k <-> v < 2 ^ (8 * k).
Proof. intros Hv Hk. rewrite (Z.log2_lt_pow2 v (8 * k)) by lia. dlia. Qed.

Lemma bytes_cnt_le v k : 0 <= v -> 0 < k -> k mod 4 = 0 -> (bytes_cnt v <=? k) = (v <? 2 ^ (8 * k)).
Proof.
  intros Hv Hk H4. unfold bytes_cnt. destruct (Z.eqb_spec v 0) as [->|Hn].
  - assert (0 < 2 ^ (8 * k)) by (apply Z.pow_pos_nonneg; lia). lia.
  - pose proof (log2_bytes_le v k ltac:(lia) ltac:(lia)) as L. cbv zeta.
    destruct (2 <? Z.log2 v / 8 + 1); dlia.
Qed.

Lemma fill_word_spec : forall p, to_opt (fill_word p) = spec_fill_word p.
Proof.
  intros p. unfold fill_word, spec_fill_word.
  destruct (Z.ltb_spec p 0); [reflexivity|]. destruct (Z.eqb_spec p 0) as [->|Hn]; [reflexivity|].
  pose proof (log2_bytes_le p 1 ltac:(lia) ltac:(lia)) as L1. pose proof (log2_bytes_le p 2 ltac:(lia) ltac:(lia)) as L2.
  pose proof (log2_bytes_le p 3 ltac:(lia) ltac:(lia)) as L3. pose proof (log2_bytes_le p 4 ltac:(lia) ltac:(lia)) as L4.
  change (2 ^ (8 * 1)) with 256 in L1. change (2 ^ (8 * 2)) with 65536 in L2. change (2 ^ (8 * 3)) with 16777216 in L3.
  change (2 ^ (8 * 4)) with 4294967296 in L4. pose proof (Z.log2_nonneg p).
  set (n0 := Z.log2 p / 8 + 1) in *. assert (1 <= n0) by (subst n0; dlia). cbv zeta.
  destruct (Z.ltb_spec p 256); [now replace n0 with 1 by lia|].
  destruct (Z.ltb_spec p 65536); [now replace n0 with 2 by lia|].
  destruct (Z.ltb_spec p 4294967296).
  - assert (n0 = 3 \/ n0 = 4) as [->| ->] by lia; reflexivity.
  - replace (n0 =? 3) with false by lia. replace (n0 =? 1) with false by lia. replace (n0 =? 2) with false by lia.
    now replace (n0 =? 4) with false by lia.
Qed.

Lemma sev_ev : forall c e, sev c e = to_opt (ev c e).
Proof. intros. unfold sev, ev. symmetry. apply expr_sem. Qed.
Lemma mem_flags_0 : mem_flags 0 = 0.
Proof. reflexivity. Qed.

#[local] Arguments Z.modulo : simpl never.
#[local] Arguments h_prog : simpl never.
#[local] Arguments opt_mem_id : simpl never.
#[local] Arguments dint : simpl nomatch.

Lemma cmd_prog_4 : forall addr w1 w2,
  to_opt (cmd_prog addr 4 w1 w2) =
  obind (guard (u32 addr && u32 w1 && u32 w2)) (fun _ => Some (mk 10 (Z.lor (b2z (negb (w2 =? 0))) 1024) addr w1 w2 PNone 4)).
Proof.
  intros. unfold cmd_prog, guard. simpl.
  destruct (u32 addr), (u32 w1), (u32 w2); reflexivity.
Qed.

Lemma h_prog_blob : forall d addr m b0 b',
  dget "address" d = Some (DInt addr) -> dget "load_opt" d = Some m -> get_mem_id m = Ok 4 ->
  dget "values" d = Some (DBlob (b0 :: b')) ->
  to_opt (h_prog d) = spec_prog_blob addr (b0 :: b').
Proof.
  intros d addr m b0 b' Ha Hm Hg Hv. unfold h_prog, spec_prog_blob. rewrite Ha, Hm, Hv. cbn [dint bind]. rewrite Hg.
  cbn [bind truthy List.length Nat.eqb negb].
  rewrite (bytes_cnt_le _ 4), (bytes_cnt_le _ 8) by (apply N2Z.is_nonneg || reflexivity). change (swap32 0) with 0.
  generalize (Z.of_N (be_dec (b0 :: b'))). intros v. cbv zeta.
  change (2 ^ (8 * 4)) with 4294967296. change (2 ^ (8 * 8)) with 18446744073709551616.
  destruct (v <? 4294967296).
  - rewrite cmd_prog_4. reflexivity.
  - destruct (v <? 18446744073709551616); [rewrite cmd_prog_4|]; reflexivity.
Qed.

Definition tgt_dict (al : Z * option Z) : dict :=
  ("address", DInt (fst al)) :: match snd al with Some l => [("length", DInt l)] | None => [] end.
Definition opt_dict (key : string) (ov : option dval) : dict := match ov with Some v => [(key, v)] | None => [] end.
Definition memopt_val (c : pctx) (o : memopt) : option (option dval) :=
  match o with
  | MNone => Some None
  | MName s => if String.eqb s "" then None else Some (Some (DName s))
  | MAt e => option_map (fun v => Some (DInt v)) (sev c e)
  end.
(* each component evaluates as the specification reads it; F is what the parser does with the component's dictionary *)
Lemma to_opt_bind_ev {C} c e (F : Z -> res C) : to_opt (bind (ev c e) F) = obind (sev c e) (fun v => to_opt (F v)).
Proof. now rewrite to_opt_bind, sev_ev. Qed.

Lemma bind_target {C} c t (F : dict -> res C) :
  to_opt (bind (d_target c t) F) = obind (spec_target c t) (fun al => to_opt (F (tgt_dict al))).
Proof.
  rewrite to_opt_bind. destruct t as [e|a b]; cbn [d_target spec_target]; rewrite !to_opt_bind_ev.
  - now destruct (sev c e).
  - destruct (sev c a); [|reflexivity]. cbn [obind]. rewrite to_opt_bind_ev. now destruct (sev c b).
Qed.

Lemma bind_memopt {C} key c o (F : dict -> res C) :
  to_opt (bind (d_memopt key c o) F) = obind (memopt_val c o) (fun ov => to_opt (F (opt_dict key ov))).
Proof.
  rewrite to_opt_bind. destruct o as [|s|e]; cbn [d_memopt memopt_val]; [reflexivity|now destruct (String.eqb s "")|].
  rewrite to_opt_bind_ev. now destruct (sev c e).
Qed.

Lemma memopt_val_none c o : memopt_val c o = Some None -> o = MNone.
Proof. destruct o as [|s|e]; cbn; [reflexivity|destruct (String.eqb s "")|destruct (sev c e)]; discriminate. Qed.

Lemma spec_mem_val c o : spec_mem c o = obind (memopt_val c o) (fun ov => to_opt (opt_mem_id ov)).
Proof.
  destruct o as [|s|e]; cbn [spec_mem memopt_val]; [reflexivity| |].
  - destruct (String.eqb s "") eqn:E; [apply String.eqb_eq in E; subst; reflexivity|].
    cbn [obind]. unfold opt_mem_id, truthy. rewrite E. cbn [negb get_mem_id].
    destruct (lookup_legacy s legacy_mem) as [[t|]|]; try reflexivity. now destruct (t =? 0).
  - destruct (sev c e) as [v|]; [|reflexivity]. cbn [option_map obind]. unfold opt_mem_id, truthy.
    destruct (v =? 0) eqn:E; [apply Z.eqb_eq in E; subst|]; reflexivity.
Qed.

Lemma st_erase : forall c fs kbs o t,
   to_opt (compile_impl c fs kbs (SErase o t)) = stmt_spec c fs kbs (SErase o t).
Proof.
  intros c fs kbs o t. unfold compile_impl. cbn [stmt_dict stmt_spec]. rewrite to_opt_bind.
  rewrite bind_memopt, spec_mem_val.
  destruct (memopt_val c o) as [ov|]; [|reflexivity]. cbn [obind].
  rewrite bind_target.
  destruct (spec_target c t) as [[a ol]|]; [|now destruct (opt_mem_id ov)]. cbn [obind to_opt].
  destruct ov as [v|], ol as [l|]; cbn; unfold h_erase; cbn.
  all: destruct (opt_mem_id _) as [m|]; [|reflexivity]; cbn. all: now destruct (u32 a).
Qed.

Lemma st_erase_all : forall c fs kbs o,
   to_opt (compile_impl c fs kbs (SEraseAll o)) = stmt_spec c fs kbs (SEraseAll o).
Proof.
  intros c fs kbs o. unfold compile_impl. cbn [stmt_dict stmt_spec]. rewrite to_opt_bind.
  rewrite bind_memopt, spec_mem_val.
  destruct (memopt_val c o) as [[v|]|]; [| |reflexivity]; cbn; unfold h_erase; cbn.
  all: now destruct (opt_mem_id _).
Qed.

Lemma st_enable : forall c fs kbs o e,
   to_opt (compile_impl c fs kbs (SEnable o e)) = stmt_spec c fs kbs (SEnable o e).
Proof.
  intros c fs kbs o e. unfold compile_impl. cbn [stmt_dict stmt_spec]. rewrite to_opt_bind.
  rewrite bind_memopt, spec_mem_val.
  destruct (memopt_val c o) as [ov|]; [|reflexivity]. cbn [obind]. rewrite to_opt_bind_ev.
  destruct (sev c e) as [a|]; [|now destruct (opt_mem_id ov)].
  destruct ov as [v|]; cbn; unfold h_enable; cbn.
  all: now destruct (opt_mem_id _).
Qed.

Lemma st_call : forall c fs kbs j t a,
   to_opt (compile_impl c fs kbs (SCall j t a)) = stmt_spec c fs kbs (SCall j t a).
Proof.
  intros c fs kbs j t a. unfold compile_impl. cbn [stmt_dict]. rewrite to_opt_bind, to_opt_bind_ev.
  assert (S : stmt_spec c fs kbs (SCall j t a) = obind (sev c t) (fun addr => obind (spec_arg c a) (fun arg =>
                obind (guard (u32 addr)) (fun _ => Some (mk (if j then 4 else 5) 0 addr 0 arg PNone (-1))))))
    by now destruct j.
  rewrite S. clear S. destruct (sev c t) as [addr|]; [|reflexivity]. cbn [obind].
  destruct a as [| |e]; cbn [d_callarg spec_arg bind obind];
    [| |rewrite to_opt_bind, to_opt_bind_ev; destruct (sev c e) as [v|]; [|reflexivity]];
    destruct j; cbn; unfold h_jump, h_call; cbn; now destruct (u32 addr).
Qed.

Lemma st_jump_sp : forall c fs kbs sp t a,
   to_opt (compile_impl c fs kbs (SJumpSp sp t a)) = stmt_spec c fs kbs (SJumpSp sp t a).
Proof.
  intros c fs kbs sp t a. unfold compile_impl. cbn [stmt_dict stmt_spec]. rewrite to_opt_bind, to_opt_bind_ev.
  destruct (sev c sp) as [vsp|]; [|reflexivity]. cbn [obind]. rewrite to_opt_bind_ev.
  destruct (sev c t) as [addr|]; [|reflexivity]. cbn [obind].
  destruct a as [| |e]; cbn [d_callarg spec_arg bind obind];
    [| |rewrite to_opt_bind, to_opt_bind_ev; destruct (sev c e) as [v|]; [|reflexivity]];
    cbn; unfold h_jump; cbn; now destruct (u32 addr).
Qed.

Lemma st_version : forall c fs kbs n e,
   to_opt (compile_impl c fs kbs (SVersionCheck n e)) = stmt_spec c fs kbs (SVersionCheck n e).
Proof.
  intros c fs kbs n e. unfold compile_impl. cbn [stmt_dict stmt_spec]. rewrite to_opt_bind, to_opt_bind_ev.
  now destruct (sev c e).
Qed.

Lemma ext_mem_pos m : is_ext_mem m = true -> 0 < m.
Proof. unfold is_ext_mem, ext_mem_tags. cbn [existsb]. lia. Qed.
Lemma byte_flags m : 0 <= m <= 255 -> Z.land (Z.shiftl m 8) 65280 = Z.shiftl m 8.
Proof.
  intros H. change 65280 with (Z.shiftl (Z.ones 8) 8). rewrite <- Z.shiftl_land, Z.land_ones by lia.
  now rewrite Z.mod_small by (change (2 ^ 8) with 256; lia).
Qed.

(* CmdKeyStoreBackupRestore: the checks of the constructor, and the memory id packed into the flags *)
Lemma keystore_cmd tag a m :
  to_opt (if negb (is_ext_mem m) then Err 1%N else if negb (u32 a) then Err 1%N
          else if (m <? 0) || (255 <? m) then Err 1%N
          else Ok (mk tag (Z.land (Z.shiftl m 8) 65280) a 4 0 PNone m)) =
  obind (guard (u32 a && is_ext_mem m && (m <=? 255))) (fun _ => Some (mk tag (Z.shiftl m 8) a 4 0 PNone m)).
Proof.
  destruct (is_ext_mem m) eqn:E; [|now rewrite andb_false_r]. apply ext_mem_pos in E.
  destruct (u32 a); [|reflexivity]. destruct (Z.leb_spec m 255); cbn [negb andb].
  - replace ((m <? 0) || (255 <? m)) with false by lia. now rewrite byte_flags by lia.
  - now replace ((m <? 0) || (255 <? m)) with true by lia.
Qed.

Lemma st_keystore : forall c fs kbs b o t,
   to_opt (compile_impl c fs kbs (SKeystore b o t)) = stmt_spec c fs kbs (SKeystore b o t).
Proof.
  intros c fs kbs b o t. unfold compile_impl. cbn [stmt_dict]. rewrite to_opt_bind.
  rewrite bind_memopt.
  assert (S : stmt_spec c fs kbs (SKeystore b o t) = obind (memopt_val c o) (fun ov => obind (spec_target c t) (fun al =>
     match ov with
     | Some (DInt m) => obind (guard (u32 (fst al) && is_ext_mem m && (m <=? 255))) (fun _ =>
                 Some (mk (if b then 12 else 13) (Z.shiftl m 8) (fst al) 4 0 PNone m))
     | _ => None end))).
  { destruct o as [|s|e]; cbn [stmt_spec memopt_val obind].
    - now destruct (spec_target c t).
    - destruct (String.eqb s ""); [reflexivity|]. now destruct (spec_target c t).
    - now destruct (sev c e). }
  rewrite S. clear S. destruct (memopt_val c o) as [ov|]; [|reflexivity]. cbn [obind].
  rewrite bind_target.
  destruct (spec_target c t) as [[a ol]|]; [|reflexivity]. cbn [obind fst].
  destruct ov as [[m| | |]|], ol as [l|], b; cbn; unfold h_keystore; cbn; try reflexivity; apply keystore_cmd.
Qed.

Definition load_dict (ov : option dval) (dd : dict) (al : Z * option Z) : dict :=
  dupdate (dupdate (dupdate [] (opt_dict "load_opt" ov)) dd) (tgt_dict al).

(* load_stmt read through the specification of its option and target; the data part is left as the parser stores it *)
Lemma to_opt_d_load {C} c o d t (F : string * dict -> res C) :
  to_opt (bind (d_load c o d t) F) =
  obind (memopt_val c o) (fun ov => obind (to_opt (d_ldata c d)) (fun dd => obind (spec_target c t) (fun al =>
    to_opt (F (if dhas "pattern" dd && negb (dhas "load_opt" (opt_dict "load_opt" ov)) then "fill" else "load",
               load_dict ov dd al))))).
Proof.
  rewrite to_opt_bind. unfold d_load. rewrite bind_memopt.
  destruct (memopt_val c o) as [ov|]; [|reflexivity]. cbn [obind]. rewrite to_opt_bind.
  destruct (d_ldata c d) as [dd|]; [|reflexivity]. cbn [to_opt obind].
  rewrite bind_target. now destruct (spec_target c t).
Qed.

Lemma st_fill : forall c fs kbs e t,
   to_opt (compile_impl c fs kbs (SLoad MNone (LPattern e) t)) = stmt_spec c fs kbs (SLoad MNone (LPattern e) t).
Proof.
  intros c fs kbs e t. unfold compile_impl. cbn [stmt_dict stmt_spec]. rewrite to_opt_d_load.
  cbn [memopt_val obind d_ldata]. rewrite to_opt_bind_ev.
  destruct (sev c e) as [p|]; [|now destruct (spec_target c t)]. cbn [obind to_opt].
  destruct (spec_target c t) as [[a ol]|]; [|reflexivity]. cbn [obind fst snd].
  rewrite <- fill_word_spec.
  destruct ol as [l|]; cbn; unfold h_fill; cbn.
  all: destruct (_ mod 4 =? 0); [|reflexivity]; cbn; destruct (fill_word p); [|reflexivity]; cbn; now destruct (u32 a).
Qed.

Lemma opt_mem_id_nonzero v m : opt_mem_id (Some v) = Ok m -> m <> 0 -> get_mem_id v = Ok m.
Proof. unfold opt_mem_id. destruct (truthy (Some v)); [auto|]. intros H; injection H as <-. congruence. Qed.

Lemma h_prog_pattern d a p v :
  dget "address" d = Some (DInt a) -> dget "load_opt" d = Some v -> get_mem_id v = Ok 4 ->
  dget "values" d = None -> dget "pattern" d = Some (DInt p) -> p <> 0 ->
  to_opt (h_prog d) = obind (guard ((0 <? p) && (p <? 4294967296) && u32 a)) (fun _ => Some (mk 10 1024 a p 0 PNone 4)).
Proof.
  intros Ha Ho Hg Hv Hp Hn. unfold h_prog. rewrite Ha, Ho, Hv, Hp. cbn [dint bind truthy]. rewrite Hg. cbn [bind].
  replace (negb (p =? 0)) with true by lia. destruct (Z.ltb_spec p 0); [now replace (0 <? p) with false by lia|].
  replace (0 <? p) with true by lia. rewrite (bytes_cnt_le p 4) by (lia || reflexivity). change (2 ^ (8 * 4)) with 4294967296. cbn [andb].
  destruct (p <? 4294967296) eqn:E; [|reflexivity]. rewrite cmd_prog_4.
  assert (U : u32 p = true) by (unfold u32; lia). rewrite U. now destruct (u32 a).
Qed.

Lemma st_prog : forall c fs kbs o e t, o <> MNone ->
   to_opt (compile_impl c fs kbs (SLoad o (LPattern e) t)) = stmt_spec c fs kbs (SLoad o (LPattern e) t).
Proof.
  intros c fs kbs o e t Ho. unfold compile_impl. cbn [stmt_dict]. rewrite to_opt_d_load.
  assert (S : stmt_spec c fs kbs (SLoad o (LPattern e) t) =
          obind (spec_mem c o) (fun m => obind (spec_target c t) (fun al => obind (sev c e) (fun p =>
          obind (guard ((m =? 4) && (0 <? p) && (p <? 4294967296) && u32 (fst al))) (fun _ =>
          Some (mk 10 1024 (fst al) p 0 PNone 4)))))) by now destruct o.
  rewrite S, spec_mem_val. clear S.
  destruct (memopt_val c o) as [ov|] eqn:Eo; [|reflexivity]. cbn [obind d_ldata]. rewrite to_opt_bind_ev.
  destruct (sev c e) as [p|]; [|destruct (opt_mem_id ov); [now destruct (spec_target c t)|reflexivity]]. cbn [obind to_opt].
  destruct (spec_target c t) as [[a ol]|]; [|now destruct (opt_mem_id ov)]. cbn [obind fst].
  destruct ov as [v|]; [|now apply memopt_val_none in Eo].
  destruct (opt_mem_id (Some v)) as [m|] eqn:Em; destruct ol as [l|]; cbn; unfold h_load; cbn; rewrite Em; try reflexivity; cbn.
  all: destruct (Z.eqb_spec p 0) as [->|Hp]; [now destruct (m =? 4)|]; destruct (Z.eqb_spec m 4) as [->|]; [|reflexivity]; cbn.
  all: apply opt_mem_id_nonzero in Em; [|discriminate].
  all: now erewrite h_prog_pattern by (reflexivity || eassumption).
Qed.

Lemma st_loadfile : forall c fs kbs o p t,
   to_opt (compile_impl c fs kbs (SLoad o (LFile p) t)) = stmt_spec c fs kbs (SLoad o (LFile p) t).
Proof.
  intros c fs kbs o p t. unfold compile_impl. cbn [stmt_dict stmt_spec spec_data]. rewrite to_opt_d_load, spec_mem_val.
  destruct (memopt_val c o) as [ov|]; [|reflexivity]. cbn [obind d_ldata to_opt].
  destruct (spec_target c t) as [[a ol]|]; [|now destruct (opt_mem_id ov)]. cbn [obind fst].
  destruct ol as [l|], ov as [v|]; cbn; unfold h_load; cbn.
  all: destruct (opt_mem_id _) as [m|]; [|reflexivity]; cbn; destruct p as [|p0 p']; [reflexivity|]; cbn; unfold load_binary.
  all: destruct (lookup_file (p0 :: p') fs); [|reflexivity]; cbn; unfold cmd_load; now destruct (u32 a).
Qed.

(* a source is the path it names *)
Lemma st_loadsrc : forall c fs kbs o x t,
   to_opt (compile_impl c fs kbs (SLoad o (LSource x) t)) = stmt_spec c fs kbs (SLoad o (LSource x) t).
Proof.
  intros c fs kbs o x t. pose proof (st_loadfile c fs kbs o) as F.
  unfold compile_impl in *. cbn [stmt_dict stmt_spec spec_data] in *. unfold d_load in *. cbn [d_ldata].
  destruct (lookup_src x (srcs c)) as [p|]; [apply F|].
  rewrite to_opt_bind, bind_memopt, spec_mem_val. destruct (memopt_val c o) as [ov|]; [|reflexivity].
  cbn. destruct (opt_mem_id ov); [now destruct (spec_target c t)|reflexivity].
Qed.

Lemma cmd_load_spec a p m : to_opt (cmd_load a p m) = obind (guard (u32 a)) (fun _ => Some (mk 2 (mem_flags m) a 0 0 p m)).
Proof. unfold cmd_load. now destruct (u32 a). Qed.

Lemma st_blob : forall c fs kbs o b t,
   to_opt (compile_impl c fs kbs (SLoad o (LBlob b) t)) = stmt_spec c fs kbs (SLoad o (LBlob b) t).
Proof.
  intros c fs kbs o b t. unfold compile_impl. cbn [stmt_dict stmt_spec spec_data]. rewrite to_opt_d_load, spec_mem_val.
  destruct (memopt_val c o) as [ov|]; [|reflexivity]. cbn [obind d_ldata to_opt].
  destruct (spec_target c t) as [[a ol]|]; [|now destruct (opt_mem_id ov)]. cbn [obind fst].
  rewrite andb_false_l, blob_marker_present.
  destruct (opt_mem_id ov) as [m|] eqn:Em; destruct ov as [v|], ol as [l|]; cbn; unfold h_load; cbn; rewrite ?Em; try reflexivity;
    try (injection Em as <-); cbn.
  all: destruct b as [|b0 b']; [reflexivity || now destruct (m =? 4)|]; cbn; try apply cmd_load_spec.
  all: destruct (Z.eqb_spec m 4) as [->|]; [|apply cmd_load_spec]; apply opt_mem_id_nonzero in Em; [|discriminate].
  all: now apply (h_prog_blob _ a v).
Qed.

Lemma st_keywrap : forall c fs kbs id b a,
   to_opt (compile_impl c fs kbs (SKeywrap id b a)) = stmt_spec c fs kbs (SKeywrap id b a).
Proof.
  intros c fs kbs id b a. unfold compile_impl. cbn [stmt_dict stmt_spec]. rewrite to_opt_bind, to_opt_bind_ev.
  destruct (sev c id) as [vid|]; [|reflexivity]. cbn [obind]. rewrite to_opt_bind_ev.
  destruct (sev c a) as [addr|]; [|reflexivity]. cbn; unfold h_keywrap; cbn.
  destruct (resolve_keyblob kbs vid) as [k|]; [|reflexivity]. cbn.
  destruct (Nat.eqb (List.length b) 16); [|reflexivity]. apply cmd_load_spec.
Qed.

(* the end of _encrypt: a load command whose payload is encrypted when the key blob says so (condition C),
   which requires an aligned address (condition B) *)
Lemma load_guarded {K} (r : res K) (C : K -> bool) (B : bool) a (P : K -> payload) Q :
  to_opt (bind r (fun k => if C k then if negb B then Err 1%N else cmd_load a (P k) 0 else cmd_load a Q 0)) =
  match to_opt r with
  | Some k => obind (guard (u32 a)) (fun _ =>
                if C k then obind (guard B) (fun _ => Some (mk 2 0 a 0 0 (P k) 0)) else Some (mk 2 0 a 0 0 Q 0))
  | None => None
  end.
Proof.
  destruct r as [k|]; [|reflexivity]. cbn [bind to_opt].
  destruct (C k); [destruct B|]; cbn [negb]; rewrite ?cmd_load_spec, ?mem_flags_0; now destruct (u32 a).
Qed.

Lemma st_encrypt : forall c fs kbs id o d t,
   to_opt (compile_impl c fs kbs (SEncrypt id o d t)) = stmt_spec c fs kbs (SEncrypt id o d t).
Proof.
  intros c fs kbs id o d t. unfold compile_impl. cbn [stmt_dict stmt_spec]. rewrite to_opt_bind, to_opt_bind_ev.
  destruct (sev c id) as [vid|]; [|reflexivity]. cbn [obind]. rewrite to_opt_d_load.
  assert (O : match o with MAt e => obind (sev c e) (fun _ => Some tt) | MName s => if String.eqb s "" then None else Some tt | MNone => Some tt end
              = obind (memopt_val c o) (fun _ => Some tt)).
  { destruct o as [|s|e]; cbn [memopt_val]; [reflexivity|now destruct (String.eqb s "")|now destruct (sev c e)]. }
  rewrite O. clear O. destruct (memopt_val c o) as [ov|]; [|reflexivity]. cbn [obind].
  destruct d as [e|p|x|b]; cbn [d_ldata spec_data].
  3: destruct (lookup_src x (srcs c)) as [p|]; [|now destruct (spec_target c t)].   (* a source is the path it names *)
  2-3: destruct (spec_target c t) as [[a ol]|]; [|reflexivity]; cbn [obind fst];
    destruct ol as [l|], ov as [v|]; cbn; unfold h_encrypt; cbn;
    (destruct p as [|p0 p']; [reflexivity|]); cbn; unfold load_binary; (destruct (lookup_file (p0 :: p') fs); [|reflexivity]);
    cbn [bind obind]; apply load_guarded.
  - rewrite to_opt_bind_ev. destruct (sev c e) as [pv|]; [|now destruct (spec_target c t)].
    destruct (spec_target c t) as [[a [l|]]|]; [| |reflexivity]; destruct ov as [v|]; cbn; try reflexivity; unfold h_encrypt; reflexivity.
  - rewrite blob_marker_present. destruct (spec_target c t) as [[a ol]|]; [|reflexivity]. cbn [obind fst].
    destruct ol as [l|], ov as [v|]; cbn; unfold h_encrypt; cbn.
    all: destruct b as [|b0 b']; [reflexivity|]; cbn [bind obind]; apply load_guarded.
Qed.

Theorem stmt_sem :
  forall c fs kbs s, to_opt (compile_impl c fs kbs s) = stmt_spec c fs kbs s.
Proof.
  intros c fs kbs s. destruct s as [o d t|o t|o| |o e|j t a|sp t a| |n e|b o t|id b a|id o d t].
  - destruct d as [e|p|x|b].
    + destruct o as [|s|eo]; [apply st_fill | apply st_prog; discriminate | apply st_prog; discriminate].
    + apply st_loadfile.
    + apply st_loadsrc.
    + apply st_blob.
  - apply st_erase.
  - apply st_erase_all.
  - reflexivity.
  - apply st_enable.
  - apply st_call.
  - apply st_jump_sp.
  - reflexivity.
  - apply st_version.
  - apply st_keystore.
  - apply st_keywrap.
  - apply st_encrypt.
Qed.

(* whatever SPSDK accepts is the specified command: never mis-translated *)
Theorem stmt_never_mistranslated :
  forall c fs kbs s cmd, compile_impl c fs kbs s = Ok cmd -> stmt_spec c fs kbs s = Some cmd.
Proof. intros c fs kbs s cmd H. rewrite <- stmt_sem. rewrite H. reflexivity. Qed.

(* statements of every kind that compile to a command, and the witnesses of the repaired defects *)
Example stmt_instances :
  let c := {| vars := [(1%N, DInt 4096)]; srcs := [(2%N, [102%N])] |} in
  let fs := [([102%N], [1%N; 2%N; 3%N])] in
  let kbs := [(0, [("start", DInt 134221824); ("end", DInt 134226943); ("key", DStr (repeat 48%N 32)); ("counter", DStr (repeat 48%N 16))])] in
  forallb (fun s => is_ok (compile_impl c fs kbs s))
    [SLoad MNone (LPattern (EBin Add (EVar 1) (ESize (ELit 4386) SzH))) (TRange (ELit 8192) (EBin Mul (ELit 3) (EVar 1)));
     SLoad (MName "fuse") (LPattern (ELit 1)) (TAddr (ELit 16777608));
     SLoad (MName "fuse") (LBlob [136; 153; 170; 187; 204; 221; 238; 255]%N) (TAddr (ELit 16777608));
     SLoad (MName "sdcard") (LSource 2) (TAddr (ELit 134218120)); SLoad (MAt (ELit 288)) (LFile [102%N]) (TAddr (ELit 16));
     SLoad MNone (LBlob [255; 46; 144; 7; 119; 95; 29; 32]%N) (TAddr (ELit 2684354560));
     SErase (MAt (ELit 288)) (TRange (ELit 134221824) (ELit 134247588)); SEraseAll (MAt (ELit 8)); SEraseUnsecureAll;
     SEnable (MAt (ELit 9)) (ELit 1097728); SCall true (ELit 4294901760) (AArg (ELit 5)); SCall false (ELit 256) (AArg (ELit 5));
     SJumpSp (ELit 536874496) (ELit 4096) AEmpty; SReset;
     SVersionCheck true (ELit 2); SKeystore true (MAt (ELit 9)) (TAddr (ELit 134219776));
     SKeywrap (ELit 0) (repeat 1%N 16) (ELit 134217728); SEncrypt (ELit 0) MNone (LSource 2) (TAddr (ELit 134222848))] = true
  /\ option_map c_payload (to_opt (compile_impl c fs kbs (SLoad MNone (LBlob [170; 187; 204; 221]%N) (TAddr (ELit 256)))))
       = Some (PBytes [170; 187; 204; 221]%N)
  /\ option_map (fun x => (c_count x, c_data x)) (to_opt (compile_impl c fs kbs (SLoad (MName "fuse") (LBlob [136; 153; 170; 187; 204; 221; 238; 255]%N) (TAddr (ELit 16777608)))))
       = Some (3148519816, 4293844428)         (* 0xBBAA9988, 0xFFEEDDCC: as in legacy_real_example3.sb *)
  /\ (exists k cc d, option_map c_payload (to_opt (compile_impl c fs kbs (SEncrypt (ELit 0) MNone (LSource 2) (TAddr (ELit 134222848)))))
       = Some (PEnc k cc 134221824 134226943 false 134222848 134222848 d)).
Proof.
  intros c fs kbs. split; [vm_compute; reflexivity|]. split; [vm_compute; reflexivity|]. split; [vm_compute; reflexivity|].
  eexists. eexists. eexists. vm_compute. reflexivity.
Qed.

Theorem unsupported_refused : forall u, unsupported_outcome u = Err 1%N.
Proof. intros u. destruct u; vm_compute; reflexivity. Qed.

Lemma mapM_all_ok {A B} (f : A -> res B) : forall l r, mapM f l = Ok r -> forall a, In a l -> exists b, f a = Ok b.
Proof.
  induction l as [|x t IH]; simpl; intros r H a Ha; [contradiction|].
  destruct (f x) as [b|k] eqn:E; simpl in H; [|discriminate].
  destruct (mapM f t) as [bs|k] eqn:E2; simpl in H; [|discriminate].
  destruct Ha as [Ha|Ha]; [subst; exists b; assumption | eapply IH; [reflexivity | assumption]].
Qed.

(* a configuration in which some section carries options is never turned into commands *)
Theorem section_options_refused_by_load :
  forall fs cf sec, In sec (cf_sections cf) -> cs_opts sec <> [] -> is_ok (load_config fs cf) = false.
Proof.
  intros fs cf sec Hin Hne. unfold load_config. destruct (cf_opts cf); [|reflexivity].
  destruct (mapM _ (cf_sections cf)) as [r|k] eqn:E; [|reflexivity].
  destruct (mapM_all_ok _ _ _ E sec Hin) as [b Hb]. destruct (cs_opts sec); [congruence|].
  rewrite section_options_are_refused in Hb. discriminate.
Qed.

Lemma find_keyblob_unique : forall kbs id c, NoDup (map fst kbs) -> In (id, c) kbs -> find_keyblob id kbs = Some c.
Proof.
  induction kbs as [|[i d] t IH]; simpl; intros id c Hnd Hin; [contradiction|].
  inversion Hnd as [|x l Hni Hnd']; subst.
  destruct Hin as [H|H].
  - inversion H; subst. rewrite Z.eqb_refl. reflexivity.
  - destruct (i =? id) eqn:E.
    + apply Z.eqb_eq in E. subst. exfalso. apply Hni. change id with (fst (id, c)). apply in_map. assumption.
    + apply IH; assumption.
Qed.

Theorem keyblob_resolves :
  forall kbs id c s e k ct kb cb,
    NoDup (map fst kbs) -> In (id, c) kbs ->
    dget "start" c = Some (DInt s) -> dget "end" c = Some (DInt e) ->
    dget "key" c = Some (DStr k) -> dget "counter" c = Some (DStr ct) ->
    fromhex k = Some kb -> fromhex ct = Some cb -> List.length kb = 16%nat -> List.length cb = 8%nat ->
    0 <= s <= e -> e <= 4294967295 -> Z.land s 1023 = 0 ->
    resolve_keyblob kbs id =
      Ok {| kb_start := s; kb_end := e; kb_key := kb; kb_ctr := cb; kb_swap := truthy (dget "byte_swap" c) |}.
Proof.
  intros kbs id c s e k ct kb cb Hnd Hin Hs He Hk Hc Hkb Hcb Lk Lc Hr He2 Hal.
  unfold resolve_keyblob. rewrite (find_keyblob_unique kbs id c Hnd Hin).
  unfold dhas. rewrite Hs, He, Hk, Hc. simpl. rewrite Hkb, Hcb, Lk, Lc. simpl.
  replace (s <? 0) with false by (symmetry; apply Z.ltb_ge; lia).
  replace (e <? s) with false by (symmetry; apply Z.ltb_ge; lia).
  replace (4294967295 <? e) with false by (symmetry; apply Z.ltb_ge; lia).
  simpl. rewrite Hal. reflexivity.
Qed.

Lemma mapM_Forall2 {A B} (f : A -> res B) (P : A -> B -> Prop) :
  (forall a b, f a = Ok b -> P a b) -> forall l r, mapM f l = Ok r -> Forall2 P l r.
Proof.
  intros HP. induction l as [|a t IH]; simpl; intros r H.
  - inversion H. constructor.
  - destruct (f a) as [b|k] eqn:E; simpl in H; [|discriminate].
    destruct (mapM f t) as [bs|k]; simpl in H; [|discriminate]. inversion H. constructor; [apply HP; assumption | apply IH; reflexivity].
Qed.

Lemma mapM_length {A B} (f : A -> res B) : forall l r, mapM f l = Ok r -> List.length r = List.length l.
Proof.
  intros l r H. apply (mapM_Forall2 f (fun _ _ => True)) in H; [|trivial]. induction H; cbn [List.length]; congruence.
Qed.

(* load_from_config: when it succeeds, every section of the configuration yields one section of commands and every
   statement dictionary of a section yields exactly one command, in order; and parsing keeps one dictionary per statement *)
Theorem exactly_one_command :
  (forall fs cf l, load_config fs cf = Ok l ->
     Forall2 (fun sec cmds => List.length cmds = List.length (cs_cmds sec)) (cf_sections cf) l) /\
  (forall p cf, parse_program p = Ok cf ->
     Forall2 (fun s sec => List.length (cs_cmds sec) = List.length (sec_stmts s)) (p_sections p) (cf_sections cf)).
Proof.
  split.
  - intros fs cf l H. unfold load_config in H. destruct (cf_opts cf); [|discriminate].
    eapply mapM_Forall2; [|exact H]. intros sec cmds Hc. simpl in Hc.
    destruct (cs_opts sec); [eapply mapM_length; exact Hc | first [discriminate Hc | eapply mapM_length; exact Hc]].
  - intros p cf H. unfold parse_program in H.
    destruct (run_blocks (p_extern p) st0 (p_blocks p)) as [st|k]; simpl in H; [|discriminate].
    destruct (mapM _ (p_sections p)) as [secs|k] eqn:E; simpl in H; [|discriminate]. inversion H. simpl.
    eapply mapM_Forall2; [|exact E]. intros s sec Hs. unfold parse_section in Hs.
    destruct (eval_impl _ (sec_id s)); simpl in Hs; [|discriminate].
    destruct (mapM _ (sec_opts s)); simpl in Hs; [|discriminate].
    destruct (mapM _ (sec_stmts s)) as [ds|k] eqn:E2; simpl in Hs; [|discriminate]. inversion Hs. simpl. eapply mapM_length. exact E2.
Qed.

(* Quoted literals end at the first closing quote *)
Lemma scan_quoted_plain : forall q body rest acc, plain q body = true ->
  scan_quoted q (body ++ q :: rest) acc = Some (rev acc ++ body, rest).
Proof.
  intros q body. induction body as [|c t IH]; simpl; intros rest acc H.
  - rewrite N.eqb_refl, app_nil_r. reflexivity.
  - apply andb_true_iff in H. destruct H as [Hc Ht]. apply andb_true_iff in Hc. destruct Hc as [H1 H2].
    apply negb_true_iff in H1. apply negb_true_iff in H2. rewrite H1, H2.
    rewrite IH by assumption. simpl. rewrite <- app_assoc. reflexivity.
Qed.

Lemma lex_quoted_plain q body rest : plain q body = true -> lex_quoted q (q :: body ++ q :: rest) = Some (body, rest).
Proof. intros H. unfold lex_quoted. rewrite N.eqb_refl. now rewrite scan_quoted_plain. Qed.

(* two quoted literals on one line are two literals: lexing `q body1 q mid q body2 q rest` yields body1 and leaves
   `mid q body2 q rest`, from which (after mid) body2 is read the same way *)
Theorem quoted_literals_separate :
  forall q body1 mid body2 rest, plain q body1 = true -> plain q body2 = true ->
    lex_quoted q (q :: body1 ++ q :: mid ++ q :: body2 ++ q :: rest) = Some (body1, mid ++ q :: body2 ++ q :: rest) /\
    lex_quoted q (q :: body2 ++ q :: rest) = Some (body2, rest).
Proof. intros q body1 mid body2 rest H1 H2. split; now apply lex_quoted_plain. Qed.

(* The printer is inverted by the precedence parser *)
Lemma lvl_pos : forall o, (1 <= lvl o)%nat.
Proof. destruct o; vm_compute; lia. Qed.

Definition stops (m : nat) (ts : list token) : Prop :=
  match ts with
  | TSize _ :: _ => (size_lvl < m)%nat
  | TOp o :: _ => (lvl o < m)%nat
  | _ => True
  end.

Lemma stops_mono : forall m m' ts, (m <= m')%nat -> stops m ts -> stops m' ts.
Proof. intros m m' [|[z|x|o| | |s] t] H; simpl; intros; try exact I; lia. Qed.

Lemma loop_stops : forall pe n m lhs ts, stops m ts -> parse_loop pe (S n) m lhs ts = Some (lhs, ts).
Proof.
  intros pe n m lhs [|[z|x|o| | |s] t] H; simpl in *; try reflexivity.
  - replace (Nat.leb m (lvl o)) with false by (symmetry; apply Nat.leb_gt; assumption). reflexivity.
  - replace (Nat.leb m size_lvl) with false by (symmetry; apply Nat.leb_gt; assumption). reflexivity.
Qed.

Definition pe_le (p q : operand_parser) : Prop := forall m ts r, p m ts = Some r -> q m ts = Some r.

Lemma atom_mono : forall p q ts r, pe_le p q -> parse_atom p ts = Some r -> parse_atom q ts = Some r.
Proof.
  intros p q ts r H. destruct ts as [|[z|x|o| | |s] t]; simpl; try (intros; assumption).
  - destruct o; try (intros; assumption).
    + destruct (p (S unary_lvl) t) as [[e r']|] eqn:E; [|discriminate]. rewrite (H _ _ _ E). auto.
    + destruct (p (S unary_lvl) t) as [[e r']|] eqn:E; [|discriminate]. rewrite (H _ _ _ E). auto.
  - destruct (p 0%nat t) as [[e r']|] eqn:E; [|discriminate]. rewrite (H _ _ _ E). auto.
Qed.

Lemma loop_mono : forall p q, pe_le p q -> forall n n' m lhs ts r, (n <= n')%nat ->
  parse_loop p n m lhs ts = Some r -> parse_loop q n' m lhs ts = Some r.
Proof.
  intros p q H. induction n as [|n IH]; intros n' m lhs ts r Hn; simpl; [discriminate|].
  destruct n' as [|n']; [lia|]. simpl.
  destruct ts as [|[z|x|o| | |s] t]; try (intros; assumption).
  - destruct (Nat.leb m (lvl o) && negb (Nat.eqb (lvl o) 0)); [|auto].
    destruct (p (S (lvl o)) t) as [[rhs r']|] eqn:E; [|discriminate]. rewrite (H _ _ _ E). apply IH. lia.
  - destruct (Nat.leb m size_lvl); [|auto]. apply IH. lia.
Qed.

Lemma expr_mono : forall f f', (f <= f')%nat -> pe_le (parse_expr f) (parse_expr f').
Proof.
  induction f as [|f IH]; intros f' Hf m ts r; simpl; [discriminate|].
  destruct f' as [|f']; [lia|]. simpl. assert (Hle : pe_le (parse_expr f) (parse_expr f')) by (apply IH; lia).
  destruct (parse_atom (parse_expr f) ts) as [[a r']|] eqn:E; [|discriminate].
  rewrite (atom_mono _ _ _ _ Hle E). apply loop_mono; [assumption | lia].
Qed.

Lemma loop_op : forall pe n m lhs o r, (m <= lvl o)%nat ->
  parse_loop pe (S n) m lhs (TOp o :: r) =
  match pe (S (lvl o)) r with Some (rhs, r') => parse_loop pe n m (EBin o lhs rhs) r' | None => None end.
Proof.
  intros. simpl. replace (Nat.leb m (lvl o)) with true by (symmetry; apply Nat.leb_le; assumption).
  replace (Nat.eqb (lvl o) 0) with false by (symmetry; apply Nat.eqb_neq; pose proof (lvl_pos o); lia). reflexivity.
Qed.
Lemma loop_size : forall pe n m lhs s r, (m <= size_lvl)%nat ->
  parse_loop pe (S n) m lhs (TSize s :: r) = parse_loop pe n m (ESize lhs s) r.
Proof.
  intros. simpl. replace (Nat.leb m size_lvl) with true by (symmetry; apply Nat.leb_le; assumption). reflexivity.
Qed.
Fixpoint cost (m : nat) (e : expr) : nat :=
  match e with
  | ELit _ | EVar _ => 1
  | EBin o a b => let c := cost (lvl o) a + cost (S (lvl o)) b + 2 in if Nat.leb m (lvl o) then c else c + 2
  | ENeg a | EPos a => cost (S unary_lvl) a + 4
  | ESize a s => let c := cost size_lvl a + 2 in if Nat.leb m size_lvl then c else c + 2
  end%nat.

Lemma loop_fuel F G n k e rest r : (F <= G)%nat -> (F <= n)%nat ->
  parse_loop (parse_expr F) F k e rest = Some r -> parse_loop (parse_expr G) n k e rest = Some r.
Proof. intros H Hn. apply loop_mono; [now apply expr_mono|exact Hn]. Qed.

(* "(" body ")": once the body is read up to the closing parenthesis, the loop goes on behind it *)
Lemma parse_paren body e F G k rest r :
  parse_expr G 0 (body ++ TRp :: rest) = Some (e, TRp :: rest) -> (F <= G)%nat ->
  parse_loop (parse_expr F) F k e rest = Some r -> parse_expr (S G) k (paren body ++ rest) = Some r.
Proof.
  intros Hb HF Hl. unfold paren. cbn [app]. rewrite <- app_assoc. cbn [app].
  cbn [parse_expr parse_atom]. rewrite Hb. now apply (loop_fuel F).
Qed.

(* Printing e in a context of level m and then parsing, with enough fuel G, reads e back and continues the operator
   loop as if e had been the operand just read: F is the fuel that loop needs, cost m e what reading e adds. *)
Lemma parse_print_loop : forall e, canonical e = true -> forall m k rest F G r,
  (k <= m)%nat -> stops (S m) rest -> (F + cost m e < G)%nat ->
  parse_loop (parse_expr F) F k e rest = Some r ->
  parse_expr G k (print_at m e ++ rest) = Some r.
Proof.
  induction e as [z|x|o a IHa b IHb|a IHa|a IHa|a IHa s]; intros Hc m k rest F G r Hk Hst HG Hl;
    cbn [canonical print_at cost] in *.
  - apply Z.leb_le in Hc. replace (z <? 0)%Z with false by lia. destruct G as [|G]; [lia|].
    cbn [app parse_expr parse_atom]. apply (loop_fuel F); [lia|lia|exact Hl].
  - destruct G as [|G]; [lia|]. cbn [app parse_expr parse_atom]. apply (loop_fuel F); [lia|lia|exact Hl].
  - apply andb_true_iff in Hc. destruct Hc as [Hca Hcb].
    assert (Hnp : forall m k rest F G r, (m <= lvl o)%nat -> (k <= m)%nat -> stops (S m) rest ->
              (F + (cost (lvl o) a + cost (S (lvl o)) b + 2) < G)%nat ->
              parse_loop (parse_expr F) F k (EBin o a b) rest = Some r ->
              parse_expr G k ((print_at (lvl o) a ++ TOp o :: print_at (S (lvl o)) b) ++ rest) = Some r).
    { clear m k rest F G r Hk Hst HG Hl. intros m k rest F G r Hm Hk Hst HG Hl.
      rewrite <- app_assoc. cbn [app].
      apply (IHa Hca (lvl o) k _ (S (F + cost (S (lvl o)) b + 1))); [lia|cbn; lia|lia|].
      rewrite loop_op by lia.
      rewrite (IHb Hcb (S (lvl o)) (S (lvl o)) rest (S F) _ (b, rest));
        [apply (loop_fuel F); [lia|lia|exact Hl]|lia|eapply stops_mono; [|exact Hst]; lia|lia|].
      apply loop_stops. eapply stops_mono; [|exact Hst]. lia. }
    destruct (Nat.leb m (lvl o)) eqn:Em.
    + apply Nat.leb_le in Em. now apply (Hnp m k rest F).
    + destruct G as [|G]; [lia|]. apply (parse_paren _ (EBin o a b) F); [|lia|exact Hl].
      apply (Hnp 0%nat 0%nat _ (S F)); [lia|lia|exact I|lia|]. now apply loop_stops.
  - destruct G as [|[|G]]; try lia. apply (parse_paren _ (ENeg a) F); [|lia|exact Hl].
    cbn [app parse_expr parse_atom].
    rewrite (IHa Hc (S unary_lvl) (S unary_lvl) (TRp :: rest) (S F) _ (a, TRp :: rest));
      [|lia|exact I|lia|now apply loop_stops]. destruct G as [|G]; [lia|]. now apply loop_stops.
  - destruct G as [|[|G]]; try lia. apply (parse_paren _ (EPos a) F); [|lia|exact Hl].
    cbn [app parse_expr parse_atom].
    rewrite (IHa Hc (S unary_lvl) (S unary_lvl) (TRp :: rest) (S F) _ (a, TRp :: rest));
      [|lia|exact I|lia|now apply loop_stops]. destruct G as [|G]; [lia|]. now apply loop_stops.
  - (* size suffix: a postfix operator of level size_lvl (0 when PERIOD has no precedence) *)
    assert (Hnp : forall m k rest F G r, (m <= size_lvl)%nat -> (k <= m)%nat -> (F + (cost size_lvl a + 2) < G)%nat ->
              parse_loop (parse_expr F) F k (ESize a s) rest = Some r ->
              parse_expr G k ((print_at size_lvl a ++ [TSize s]) ++ rest) = Some r).
    { clear m k rest F G r Hk Hst HG Hl. intros m k rest F G r Hm Hk HG Hl.
      rewrite <- app_assoc. cbn [app].
      apply (IHa Hc size_lvl k _ (S (S F))); [lia|cbn; lia|lia|].
      rewrite loop_size by lia. apply (loop_fuel F); [lia|lia|exact Hl]. }
    destruct (Nat.leb m size_lvl) eqn:Em.
    + apply Nat.leb_le in Em. now apply (Hnp m k rest F).
    + destruct G as [|G]; [lia|]. apply (parse_paren _ (ESize a s) F); [|lia|exact Hl].
      apply (Hnp 0%nat 0%nat _ (S F)); [lia|lia|lia|]. now apply loop_stops.
Qed.

Lemma cost_le_length : forall e m, (cost m e <= 2 * List.length (print_at m e))%nat.
Proof.
  induction e as [z|x|o a IHa b IHb|a IHa|a IHa|a IHa s]; intros m; simpl.
  - destruct (z <? 0)%Z; simpl; lia.
  - lia.
  - specialize (IHa (lvl o)). specialize (IHb (S (lvl o))).
    destruct (Nat.leb m (lvl o)); unfold paren; simpl; repeat rewrite app_length; simpl; repeat rewrite app_length; simpl; lia.
  - specialize (IHa (S unary_lvl)). unfold paren. simpl. rewrite app_length. simpl. lia.
  - specialize (IHa (S unary_lvl)). unfold paren. simpl. rewrite app_length. simpl. lia.
  - specialize (IHa size_lvl).
    destruct (Nat.leb m size_lvl); unfold paren; simpl; repeat rewrite app_length; simpl; repeat rewrite app_length; simpl; lia.
Qed.

Theorem print_parse : forall e, canonical e = true -> parse_tokens (print_expr e) = Some e.
Proof.
  intros e Hc. unfold parse_tokens, print_expr.
  assert (H : parse_expr (S (1 + cost 0 e)) 0 (print_at 0 e ++ []) = Some (e, [])).
  { apply (parse_print_loop e Hc 0%nat 0%nat [] 1%nat); [lia|exact I|lia|reflexivity]. }
  rewrite app_nil_r in H.
  assert (Hf : (S (1 + cost 0 e) <= 2 * List.length (print_at 0 e) + 2)%nat) by (pose proof (cost_le_length e 0%nat); lia).
  rewrite (expr_mono _ _ Hf _ _ _ H). reflexivity.
Qed.

Example print_parse_instance :
  canonical (EBin Mul (EBin Mul (ELit 2) (ENeg (ELit 3))) (ESize (EBin Add (ELit 4) (EVar 1)) SzB)) = true /\
  parse_tokens (print_expr (EBin Sub (ELit 1) (EBin Sub (ELit 2) (ELit 3)))) = Some (EBin Sub (ELit 1) (EBin Sub (ELit 2) (ELit 3))).
Proof. split; vm_compute; reflexivity. Qed.
