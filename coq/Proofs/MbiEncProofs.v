(* Proofs/MbiEncProofs.v -- C01: parse (export x) = x for the encrypted + signed load-to-RAM class kind.
   The cipher is any function k_ctr that preserves the length and is an involution for fixed key / IV (AES-CTR is:
   CryptoProofs.ctr_involutive_l); no other property of the cipher is used. *)
From Coq Require Import ZArith NArith List Bool Lia.
Require Import Value Bytes BytesProofs MbiMixinModel GenMbi MbiModel MbiProofs MbiRtProofs MbiKindsProofs.
Require Modes CryptoProofs.
Import ListNotations.
Local Open Scope Z_scope.

Lemma upd_set_tz x t dek m st : (m <> MixinTrustZone /\ m <> MixinTrustZoneMandatory /\ is_manifest_mixin m = false) ->
  upd (set_tz x t) dek m st = upd x dek m st.
Proof. intros (H1 & H2 & H3). destruct m; try reflexivity; try congruence; discriminate H3. Qed.

Lemma rounds_state_set_tz c x t dek :
  set_tz (rounds_state c (set_tz x t) dek) (if existsb is_tz_giver (c_mixins c) then m_tz x else TzEnabled) = rounds_state c x dek.
Proof. unfold rounds_state. apply mbi_ext; reflexivity. Qed.

Lemma set_tz_same (x : mbi) : set_tz x (m_tz x) = x.
Proof. destruct x; reflexivity. Qed.

(* post_encrypt(revert=True) puts the cipher text together again: the first 56 bytes saved behind the certificate block,
   bytes 56..64 from the tail of the IVT, the rest from where it was left *)
Lemma post_encrypt_revert_layout c st pre post sg (EE enc_ivt cb iv : list N) alen :
  provider c SPostEncrypt = Some ExportMixinAppTrustZoneCertBlockEncrypt -> m_cert st = Some (CertV1 pre post sg) ->
  cert_size (CertV1 pre post sg) = length cb -> length enc_ivt = 64%nat -> skipn 56 enc_ivt = sub EE 56 64 ->
  rd32 OFF_CRC enc_ivt = Z.of_nat alen -> (64 <= alen <= length EE)%nat -> length iv = 16%nat ->
  post_encrypt_revert c st (enc_ivt ++ sub EE 64 alen ++ cb ++ firstn 56 EE ++ iv ++ skipn alen EE) = Ok EE.
Proof.
  intros Ppost STC CS Lei TAIL CRC A64 Liv. unfold post_encrypt_revert. rewrite Ppost, STC, CS. f_equal.
  assert (Lsub : length (sub EE 64 alen) = (alen - 64)%nat) by (unfold sub; apply slice_length; lia).
  assert (L56 : length (firstn 56 EE) = 56%nat) by (rewrite firstn_length; lia).
  set (G0 := enc_ivt ++ sub EE 64 alen ++ cb ++ firstn 56 EE ++ iv ++ skipn alen EE).
  replace (natz (rd32 OFF_CRC G0)) with alen
    by (unfold G0; rewrite rd32_app by (rewrite off_crc_eq; lia); rewrite CRC; unfold natz; lia).
  replace (sub G0 (alen + length cb) (alen + length cb + 56)) with (firstn 56 EE).
  2:{ unfold G0. rewrite (app_assoc enc_ivt), (app_assoc (enc_ivt ++ _)). symmetry.
      apply slice_app_mid; rewrite ?app_length, ?Lei, ?Lsub, ?L56; lia. }
  replace (sub G0 56 alen) with (sub EE 56 64 ++ sub EE 64 alen).
  2:{ unfold G0. rewrite <- (firstn_skipn 56 enc_ivt) at 1. rewrite TAIL, <- !app_assoc. rewrite (app_assoc (sub EE 56 64)). symmetry.
      apply slice_app_mid; [rewrite firstn_length; lia|].
      rewrite app_length, Lsub. unfold sub. rewrite slice_length by lia. lia. }
  replace (skipn (alen + length cb + 56 + 16) G0) with (skipn alen EE).
  2:{ unfold G0. rewrite (app_assoc enc_ivt), (app_assoc (enc_ivt ++ _)), (app_assoc ((enc_ivt ++ _) ++ _)), (app_assoc (((enc_ivt ++ _) ++ _) ++ _)).
      symmetry. apply skipn_app_exact. rewrite !app_length, Lei, Lsub, L56, Liv. lia. }
  rewrite <- app_assoc. apply split4. lia.
Qed.

(* encrypt(revert=True) with the key and IV the mixins parsed is the cipher applied a second time *)
Lemma encrypt_revert_enc k c st kb kt (iv P : list N) :
  provider c SEncrypt = Some ExportMixinAppTrustZoneCertBlockEncrypt ->
  m_hmac st = Some (kb :: kt) -> m_iv st = iv -> iv <> [] ->
  (forall key dv iv d, k_ctr k key dv iv (k_ctr k key dv iv d) = d) ->
  encrypt_revert k c st (k_ctr k (kb :: kt) (enc_derive st) iv P) = Ok P.
Proof. intros PE SH SI NI KI. unfold encrypt_revert. rewrite PE, SH, SI. destruct iv; [contradiction|]. now rewrite KI. Qed.

(* disassemble_image of the encrypted kind reads custom TrustZone data again, from the decrypted image, and cuts them
   off; so it does not matter what the TrustZone mixin saw in the cipher text *)
Lemma disassemble_enc c x dek tzsize g (app' tb : list N) :
  provider c SDisassemble = Some ExportMixinAppTrustZoneCertBlockEncrypt ->
  existsb is_tz_giver (c_mixins c) = true ->
  (forall d, m_tz x = TzCustom d -> length d = tzsize /\ (0 < tzsize)%nat) ->
  reloc_cut c (rounds_state c x dek) (app' ++ tb) = Ok (set_table (rounds_state c x dek) (m_table x), app') ->
  clean_ivt app' = clean_ivt (m_app x) -> (56 <= length app')%nat -> (length app' mod 4 = 0)%nat ->
  disassemble c tzsize (rounds_state c (set_tz x (tz_seen x g)) dek) (app' ++ tb ++ tz_export (m_tz x)) = Ok (parsed c x dek).
Proof.
  intros Pdis GIV HZ RC CL L L4. set (x' := set_tz x (tz_seen x g)). set (st := rounds_state c x' dek). set (P := app' ++ tb ++ tz_export (m_tz x)).
  assert (STZ : m_tz st = tz_seen x g) by (unfold st, rounds_state; cbn [m_tz]; now rewrite GIV).
  assert (RTZ : m_tz (rounds_state c x dek) = m_tz x) by (unfold rounds_state; cbn [m_tz]; now rewrite GIV).
  assert (DT : (if tz_is_custom (m_tz st)
                then bind (tz_from_binary tzsize (match tzsize with O => P | _ => take_last tzsize P end)) (fun t => Ok (set_tz st t))
                else Ok st) = Ok (rounds_state c x dek) /\ cut_tz (rounds_state c x dek) P = app' ++ tb).
  { rewrite STZ. unfold cut_tz. rewrite RTZ. unfold st, x', tz_seen, P.
    destruct (m_tz x) as [|d|] eqn:Et; cbn [tz_is_custom tz_export].
    - rewrite <- Et, set_tz_same, !app_nil_r. split; reflexivity.
    - destruct (HZ d eq_refl) as [Ld Lz]. destruct tzsize as [|n]; [lia|]. rewrite <- Ld.
      rewrite (app_assoc app' tb), take_last_app, tz_from_binary_exact. cbn [bind].
      split.
      + f_equal. rewrite <- (rounds_state_set_tz c x (TzCustom g) dek). rewrite GIV, Et. reflexivity.
      + destruct d as [|d0 dr] eqn:Ed; [simpl in Ld; lia|]. rewrite <- Ed. apply drop_last_app.
    - rewrite <- Et, set_tz_same, !app_nil_r. split; reflexivity. }
  destruct DT as [DT1 DT2]. unfold disassemble. rewrite Pdis, DT1. cbn [bind]. rewrite DT2, RC. cbn [bind fst snd].
  rewrite pad4_id by (rewrite clean_ivt_length; assumption). rewrite CL. reflexivity.
Qed.

(* The TrustZone mixin reads custom data from the still encrypted image ([tz_seen]); disassemble reads them again
   after decryption, so the parsed object is that of x all the same. *)
Theorem roundtrip_enc_full :
  forall (k : crypto) (c : mbi_class) (x : mbi) (tzsize sigsz : nat) (dek : option (list N)) (im pre post : list N) (sg : nat),
    wf_enc c = true ->
    (56 <= length (m_app x))%nat -> (length (m_app x) mod 4 = 0)%nat ->
    0 <= m_subtype x < 4 -> 0 <= m_imgver x < 65536 ->
    m_cert x = Some (CertV1 pre post sg) -> cert1_wf pre post -> sigsz = sg -> (0 < sg)%nat ->
    (forall d, length (k_sign k d) = sg) -> (forall key data, length (k_hmac k key data) = 32%nat) ->
    (forall key dv iv d, length (k_ctr k key dv iv d) = length d) ->
    (forall key dv iv d, k_ctr k key dv iv (k_ctr k key dv iv d) = d) ->
    (forall b, m_ks x = Some b -> length b = 1424%nat /\ has_attr c AKeyStore = true) ->
    (forall d, m_tz x = TzCustom d -> length d = tzsize /\ (0 < tzsize)%nat) ->
    (forall es, m_table x = Some es -> has_attr c AAppTable = true /\ entries_ok es) ->
    dek = m_hmac x ->
    export_mbi k c x = Ok im ->
    parse_mbi k c tzsize sigsz dek im = Ok (parsed c x dek) /\
    (canonical c x dek -> parsed c x dek = set_app x (clean_ivt (m_app x)) /\ export_mbi k c (parsed c x dek) = Ok im).
Proof.
  intros k c x tzsize sigsz dek im pre post sg W L L4 R2 R3 HC CW SGE SGP KS KH KC KI KSL HZ HTb DEK E. split.
  2:{ intros C. split; [now apply parsed_canonical | apply reexport_parsed; try assumption; apply (wf_enc_spec c W)]. }
  destruct (export_enc_shape k c x im pre post sg W L HC KH KS KC KSL R2 R3 E)
    as (app' & tb & cb & enc_ivt & kb & kt & HK & Liv & U & TB & UI & CB & Ge & -> & FREV).
  cbv zeta in UI, CB, FREV |- *.
  destruct (wf_enc_spec c W) as (WA & Wnd & Wa & Wi & Wt & Wv1 & Wtz & Whm & Wiv & Pcol & Pdis & Penc & Ppost & Psign & Pfin).
  destruct (enc_class c WA) as (SUP & HMA & G7 & G5 & GIV & HTZ).
  assert (R1 : 0 <= c_type c < 64) by lia.
  assert (TZA : has_attr c ATrustZone = true)
    by (rewrite has_attr_tz; destruct (has c MixinTrustZone), (has c MixinTrustZoneMandatory); (discriminate Wtz || reflexivity)).
  set (P := app' ++ tb ++ tzb_of x) in *.
  set (EE := k_ctr k (kb :: kt) (enc_derive x) (m_iv x) P) in *.
  set (alen := natz (app_len c x)) in *.
  destruct (ivt_header c x _ _ _ _ L U) as (La & CL & _ & IWA & _).
  pose proof (app_len_table c x tb app' Wnd Wa La TB) as AL.
  assert (NAL : alen = (length app' + length tb)%nat) by (unfold alen; rewrite AL; unfold natz, zlen; lia).
  assert (A64 : (64 <= alen)%nat) by (unfold alen, natz; lia).
  assert (LE : length EE = (alen + length (tzb_of x))%nat) by (unfold EE; rewrite KC; unfold P; rewrite !app_length; lia).
  assert (L64' : (56 <= length (firstn 64 EE))%nat) by (rewrite firstn_length; lia).
  destruct (ivt_header c x _ _ _ _ L64' UI) as (Lei & _ & IW1 & IW2 & IW3 & IW4). rewrite firstn_length, Nat.min_l in Lei by lia.
  assert (IW3' : rd32 OFF_CRC enc_ivt = app_len c x) by (rewrite IW3; apply ivt_crc_nonzero; lia).
  set (iv := m_iv x) in *.
  set (T1 := cb ++ firstn 56 EE ++ iv ++ skipn alen EE) in *.
  set (G0 := enc_ivt ++ sub EE 64 alen ++ T1).
  assert (GE : enc_inner k enc_ivt EE cb iv alen = G0 ++ k_sign k G0) by reflexivity.
  set (sig := k_sign k G0) in *. set (G := G0 ++ sig) in *. rewrite GE in *.
  assert (Lsig : length sig = sg) by apply KS.
  assert (Lsub : length (sub EE 64 alen) = (alen - 64)%nat) by (unfold sub; apply slice_length; lia).
  destruct (cert_v1_parse_export pre post sg _ cb (firstn 56 EE ++ iv ++ skipn alen EE ++ sig) CW CB) as [CP Lcb].
  assert (Lskip : length (skipn alen EE) = length (tzb_of x)) by (rewrite skipn_length; lia).
  assert (L56 : length (firstn 56 EE) = 56%nat) by (rewrite firstn_length; lia).
  assert (LT1 : length T1 = (length cb + 56 + 16 + length (tzb_of x))%nat) by (unfold T1; rewrite !app_length, L56, Liv, Lskip; lia).
  assert (LG0 : length G0 = (alen + length T1)%nat) by (unfold G0; rewrite !app_length, Lei, Lsub; lia).
  assert (LG : length G = (alen + length T1 + sg)%nat) by (unfold G; rewrite app_length, LG0, Lsig; lia).
  pose proof (has_gives_attr c ACertBlock _ Wv1 eq_refl) as HACB.
  assert (PFXG : forall o, (o + 4 <= 56)%nat -> rd32 o G = rd32 o enc_ivt)
    by (intros o Ho; unfold G, G0; rewrite <- !app_assoc; apply rd32_app; lia).
  destruct (with_hmac_image k c x G R1 R2 R3 KH KSL HMA) as (Ldata & PFX0 & SKP0 & KSF & SHIFT & PKS);
    [intros _; exact Whm | lia | unfold get_flags; rewrite PFXG by (rewrite off_flags_eq; lia); exact IW2|].
  rewrite Whm in Ldata, SKP0, SHIFT.
  set (data := with_hmac k c x G) in *. set (S := (32 + if ks_truthy_obj (m_ks x) then 1424 else 0)%nat) in *.
  assert (SKP : forall n, (64 <= n)%nat -> skipn (n + S) data = skipn n G) by (intros n Hn; apply SKP0; intros _; exact Hn).
  assert (PFX : forall o, (o + 4 <= 56)%nat -> rd32 o data = rd32 o enc_ivt) by (intros o Ho; rewrite PFX0, PFXG by lia; reflexivity).
  assert (CS : cert_size (CertV1 pre post sg) = length cb) by (cbn [cert_size]; destruct CW as (Wp & _); rewrite Lcb, Wp; lia).
  assert (TL : total_len c x + Z.of_nat sg + 56 + 16 = zlen data).
  { assert (N : forall m, allowed_enc m = false -> has c m = false) by (intros m; apply (has_allowed allowed_enc c m WA)).
    rewrite (total_len_cert_v1 c x pre post sg tb (zlen app') Wnd Wa Wv1 Wtz) by (first [assumption | apply zlen_nonneg | apply N; reflexivity]).
    rewrite (hz_true _ _ _ Whm). cbn [mix_len]. cbn [cert_size] in CS. rewrite HK, CS. unfold zlen. rewrite Ldata, LG, LT1, NAL, La. unfold S, tzb_of.
    change (Z.of_nat HMAC_SZ) with 32. lia. }
  destruct (signed_header c x _ _ enc_ivt data L64' UI) as (DF & DL & OFF);
    [lia | rewrite Ldata, LG; lia | exact PFX | pose proof (zlen_nonneg data); lia |].
  assert (ALZ : app_len c x = Z.of_nat alen) by (unfold alen, natz; lia).
  assert (SKC : skipn (natz (app_len c x + hmac_ks_shift c data)) data = cb ++ firstn 56 EE ++ iv ++ skipn alen EE ++ sig).
  { rewrite SHIFT, ALZ. replace (natz (Z.of_nat alen + Z.of_nat S)) with (alen + S)%nat by (unfold natz; lia).
    rewrite SKP by lia. unfold G, G0, T1. rewrite <- !app_assoc. rewrite (app_assoc enc_ivt). apply skipn_app_exact.
    rewrite app_length, Lei, Lsub. lia. }
  set (otz := natz (app_len c x + Z.of_nat (cert_size (CertV1 pre post sg)) + hmac_ks_shift c data)).
  assert (OTZ : otz = (alen + length cb + S)%nat) by (unfold otz; rewrite CS, SHIFT, ALZ; unfold natz; lia).
  set (g := sub data otz (otz + tzsize)).
  set (x' := set_tz x (tz_seen x g)).
  assert (PO : parse_ok c x' dek tzsize sigsz data (c_mixins c)).
  { intros m Hi st Inv Wt'.
    assert (Hal : allowed_enc m = true) by (eapply forallb_forall in WA; eauto).
    destruct (simple_mixin m) eqn:Sm.
    { unfold x'. rewrite upd_set_tz by (destruct m; try discriminate Sm; repeat split; discriminate). now apply mix_parse_simple. }
    assert (CST : pre_parsed_cert m = true -> m_cert st = Some (CertV1 pre post sg)).
    { intros PPm. now rewrite (waits_cert c x' m st HACB PPm Wt' Inv). }
    assert (TZP : m = MixinTrustZone \/ m = MixinTrustZoneMandatory ->
                  mix_parse c tzsize sigsz dek data m st = Ok (upd x' dek m st)).
    { intros Hm. assert (Ec : m_cert st = Some (CertV1 pre post sg)) by (apply CST; destruct Hm as [-> | ->]; reflexivity).
      rewrite (mix_parse_tz_cert c x tzsize sigsz dek data m st _ _ R1 R2 R3 DF HACB TZA Ec OFF); [destruct Hm as [-> | ->]; reflexivity | | exact Hm].
      fold otz. intros Q. destruct (m_tz x) as [|d|] eqn:Et; try discriminate Q. destruct (HZ d eq_refl) as [Ld Lz].
      unfold sub. rewrite slice_length; [lia|]. rewrite Ldata, LG, LT1, OTZ. unfold tzb_of. rewrite Et. cbn [tz_export]. lia. }
    destruct m; try discriminate Hal; try discriminate Sm; [apply TZP; now left | apply TZP; now right | | |].
    - (* MixinCertBlockV1 *)
      unfold upd. change (m_cert x') with (m_cert x). rewrite HC. subst sigsz.
      exact (mix_parse_cert_v1 c tzsize sg dek data st _ cb (firstn 56 EE ++ iv ++ skipn alen EE ++ sig) pre post OFF SKC CP).
    - (* MixinKeyStore *)
      apply PKS.
    - (* MixinCtrInitVector *)
      unfold mix_parse, upd. rewrite (CST eq_refl), OFF. cbn [bind]. change (m_iv x') with iv. do 2 f_equal.
      rewrite CS, SHIFT, ALZ.
      replace (natz (Z.of_nat alen + Z.of_nat (length cb) + 56 + Z.of_nat S)) with ((alen + length cb + 56) + S)%nat by (unfold natz; lia).
      change IV_SZ with 16%nat.
      replace (alen + length cb + 56 + S + 16)%nat with ((alen + length cb + 56 + 16) + S)%nat by lia.
      replace (sub data (alen + length cb + 56 + S) (alen + length cb + 56 + 16 + S)) with (sub G (alen + length cb + 56) (alen + length cb + 56 + 16))
        by (unfold sub, slice; rewrite <- SKP by lia; f_equal; lia).
      unfold G, G0, T1. rewrite <- !app_assoc.
      rewrite (app_assoc enc_ivt), (app_assoc (enc_ivt ++ _)), (app_assoc ((enc_ivt ++ _) ++ _)).
      apply slice_app_mid; rewrite ?app_length, ?Lei, ?Lsub, ?L56, ?Liv; lia. }
  destruct (parse_signed k c x' dek tzsize sigsz data (CertV1 pre post sg) G0 sig SUP PO) as (STC & PM); try assumption;
    [now rewrite G5|]. rewrite PM by apply FREV.
  set (st := rounds_state c x' dek) in *.
  assert (TAIL : skipn 56 enc_ivt = sub EE 56 64).
  { destruct (update_ivt_form c x _ _ _ _ L64' UI) as (wt & wf & wc & wl & U1 & U2 & U3 & U4 & ->).
    apply u32_length in U1, U2, U3, U4. rewrite ivt_frame_tail by assumption. apply skipn_firstn_sub. }
  assert (PER : post_encrypt_revert c st G0 = Ok EE)
    by (apply (post_encrypt_revert_layout c st pre post sg); try assumption; [now rewrite IW3' | lia]).
  rewrite PER. cbn [bind].
  assert (STK : m_ks st = m_ks x).
  { unfold st, rounds_state; cbn [m_ks]. change (m_ks x') with (m_ks x).
    destruct (m_ks x) as [b0|] eqn:Eb; [destruct (KSL b0 eq_refl) as [_ ->]; reflexivity | destruct (has_attr c AKeyStore); reflexivity]. }
  assert (ER : encrypt_revert k c st EE = Ok P).
  { unfold EE, enc_derive. rewrite <- STK. apply encrypt_revert_enc; try assumption.
    - unfold st, rounds_state; cbn [m_hmac]. now rewrite G7, Whm, DEK.
    - unfold st, rounds_state; cbn [m_iv]. now rewrite (has_gives_attr c ACtrIv _ Wiv eq_refl).
    - intros Q. apply (f_equal (@length N)) in Q. rewrite Liv in Q. discriminate Q. }
  rewrite ER. cbn [bind].
  apply (disassemble_enc c x dek tzsize g app' tb Pdis); try assumption; try lia; [now rewrite GIV | | now rewrite La].
  apply (reloc_cut_ok c x); try assumption; [lia | reflexivity].
Qed.

(* ------------------------------------------------------------------ the cipher instantiated: CTR mode (coq/Crypto/Modes.v)
   over ANY block function with 16-byte output.  Length preservation and involution are theorems of CTR mode
   (CryptoProofs.ctr_length, ctr_involutive_l): nothing is assumed about the block cipher itself.
   (An IV that is not 16 bytes long is refused by mix_validate before any encryption; ctr_of is the identity there.) *)
Definition ctr_of (F : list N -> bool -> list N -> list N) (key : list N) (dv : bool) (iv d : list N) : list N :=
  if Nat.eqb (length iv) 16 then Modes.ctr_xcrypt (F key dv) iv d else d.

Lemma ctr_of_length F : (forall key dv b, length b = 16%nat -> length (F key dv b) = 16%nat) ->
  forall key dv iv d, length (ctr_of F key dv iv d) = length d.
Proof.
  intros HF key dv iv d. unfold ctr_of. destruct (Nat.eqb (length iv) 16) eqn:E; [|reflexivity].
  apply Nat.eqb_eq in E. apply CryptoProofs.ctr_length; [apply HF | exact E].
Qed.
Lemma ctr_of_involutive F : (forall key dv b, length b = 16%nat -> length (F key dv b) = 16%nat) ->
  forall key dv iv d, ctr_of F key dv iv (ctr_of F key dv iv d) = d.
Proof.
  intros HF key dv iv d. unfold ctr_of. destruct (Nat.eqb (length iv) 16) eqn:E; [|reflexivity].
  apply Nat.eqb_eq in E. apply CryptoProofs.ctr_involutive_l; [apply HF | exact E].
Qed.

Theorem roundtrip_enc_ctr :
  forall (F : list N -> bool -> list N -> list N) (k : crypto) (c : mbi_class) (x : mbi) (tzsize sigsz : nat)
         (dek : option (list N)) (im pre post : list N) (sg : nat),
    k_ctr k = ctr_of F -> (forall key dv b, length b = 16%nat -> length (F key dv b) = 16%nat) ->
    wf_enc c = true ->
    (56 <= length (m_app x))%nat -> (length (m_app x) mod 4 = 0)%nat ->
    0 <= m_subtype x < 4 -> 0 <= m_imgver x < 65536 ->
    m_cert x = Some (CertV1 pre post sg) -> cert1_wf pre post -> sigsz = sg -> (0 < sg)%nat ->
    (forall d, length (k_sign k d) = sg) -> (forall key data, length (k_hmac k key data) = 32%nat) ->
    (forall b, m_ks x = Some b -> length b = 1424%nat /\ has_attr c AKeyStore = true) ->
    (forall d, m_tz x = TzCustom d -> length d = tzsize /\ (0 < tzsize)%nat) ->
    (forall es, m_table x = Some es -> has_attr c AAppTable = true /\ entries_ok es) ->
    dek = m_hmac x ->
    export_mbi k c x = Ok im ->
    parse_mbi k c tzsize sigsz dek im = Ok (parsed c x dek).
Proof.
  intros F k c x tzsize sigsz dek im pre post sg HK HF. intros.
  eapply proj1, roundtrip_enc_full; try eassumption; rewrite HK; [apply ctr_of_length | apply ctr_of_involutive]; exact HF.
Qed.

(* the encrypted class of the database (mimxrt5xx/6xx load-to-RAM, encrypted) is wf_enc *)
Example wf_enc_instance :
  wf_enc {| c_type := 3; c_mixins := [MixinApp; MixinRelocTable; MixinLoadAddress; MixinIvt; MixinTrustZone; MixinCertBlockV1; MixinHwKey;
                                      MixinKeyStore; MixinHmacMandatory; MixinCtrInitVector; ExportMixinAppTrustZoneCertBlockEncrypt;
                                      ExportMixinRsaSign; ExportMixinHmacKeyStoreFinalize] |} = true.
Proof. vm_compute. reflexivity. Qed.
