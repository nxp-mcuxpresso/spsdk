(* Proofs/DatProofs.v -- C15 lemmas: struct codec, credential round trip, signed range, response binding. *)
From Coq Require Import ZArith NArith List Bool Lia.
Require Import Value Bytes BytesProofs Sha2 GenRot RotModel RotProofs GenDat DatModel.
Import ListNotations.
Local Open Scope N_scope.
Local Arguments le_enc : simpl never.
Local Arguments le_dec : simpl never.
Local Arguments N.ltb : simpl never.
Local Arguments firstn : simpl never.
Local Arguments skipn : simpl never.

Lemma app_inj_len {A} (a b c d : list A) : length a = length c -> a ++ b = c ++ d -> a = c /\ b = d.
Proof.
  revert c; induction a as [|x a IH]; intros [|y c] HL H; simpl in *; try discriminate.
  - now split.
  - inversion H; subst. destruct (IH c) as [-> ->]; [lia|assumption|]. now split.
Qed.
Lemma app_inj_tail_len {A} (a b c d : list A) : length b = length d -> a ++ b = c ++ d -> a = c /\ b = d.
Proof.
  intros HL H. assert (HA : length a = length c).
  { apply (f_equal (@length A)) in H. rewrite !app_length in H. lia. }
  now apply app_inj_len.
Qed.
Lemma nlen_nat {A} (a : list A) : N.to_nat (nlen a) = length a.
Proof. unfold nlen. lia. Qed.

Definition fval_ok (i : fitem) (v : fval) : Prop :=
  match i, v with
  | FU16, XI n => n < 65536
  | FU32, XI n => n < 4294967296
  | FS k, XB b => length b = k
  | _, _ => False
  end.

Lemma pack_s_exact n b : length b = n -> pack_s n b = b.
Proof. intros <-. unfold pack_s. rewrite firstn_all, Nat.sub_diag. simpl. apply app_nil_r. Qed.
Lemma pack_s_length n b : length (pack_s n b) = n.
Proof. unfold pack_s. rewrite app_length, firstn_length, zeros_length. lia. Qed.

Lemma pack1_ok i v : fval_ok i v -> exists b, pack1 i v = Ok b /\ length b = fwidth i.
Proof.
  destruct i, v; simpl; intros H; try contradiction.
  - apply N.ltb_lt in H. rewrite H. eexists; split; [reflexivity|apply le_enc_length].
  - apply N.ltb_lt in H. rewrite H. eexists; split; [reflexivity|apply le_enc_length].
  - eexists; split; [reflexivity|]. apply pack_s_length.
Qed.
Lemma pack1_length i v b : pack1 i v = Ok b -> length b = fwidth i.
Proof.
  destruct i, v; simpl; try discriminate.
  - destruct (v <? 65536); [|discriminate]. intros H; inversion H; subst. apply le_enc_length.
  - destruct (v <? 4294967296); [|discriminate]. intros H; inversion H; subst. apply le_enc_length.
  - intros H; inversion H; subst. apply pack_s_length.
Qed.
Lemma pack_length f : forall vs b, pack f vs = Ok b -> length b = calcsize f.
Proof.
  induction f as [|i f IH]; intros [|v vs] b; simpl; try discriminate.
  - intros H; inversion H; reflexivity.
  - destruct (pack1 i v) as [a|] eqn:E1; [|discriminate]. simpl.
    destruct (pack f vs) as [c|] eqn:E2; [|discriminate]. simpl. intros H; inversion H; subst.
    rewrite app_length, (pack1_length _ _ _ E1), (IH _ _ E2). reflexivity.
Qed.

Lemma unpack1_pack1 i v b rest : fval_ok i v -> pack1 i v = Ok b -> unpack1 i (b ++ rest) = v.
Proof.
  destruct i, v; simpl; intros H; try contradiction.
  - pose proof H as H'. apply N.ltb_lt in H'. rewrite H'. intros E; inversion E; subst.
    rewrite firstn_app_exact by apply le_enc_length. f_equal. apply le_dec_enc_small. simpl. lia.
  - pose proof H as H'. apply N.ltb_lt in H'. rewrite H'. intros E; inversion E; subst.
    rewrite firstn_app_exact by apply le_enc_length. f_equal. apply le_dec_enc_small. simpl. lia.
  - intros E; inversion E; subst. rewrite pack_s_exact by reflexivity. now rewrite firstn_app_exact.
Qed.

Lemma struct_roundtrip_lemma f : forall vs b rest,
  Forall2 fval_ok f vs -> pack f vs = Ok b -> unpack f (b ++ rest) = vs.
Proof.
  induction f as [|i f IH]; intros vs b rest HF; inversion HF as [|? v ? vs' Hv Hvs]; subst; simpl.
  - reflexivity.
  - destruct (pack1 i v) as [a|] eqn:E1; [|discriminate]. simpl.
    destruct (pack f vs') as [c|] eqn:E2; [|discriminate]. simpl. intros H; inversion H; subst.
    rewrite <- app_assoc. rewrite (unpack1_pack1 _ _ _ _ Hv E1). f_equal.
    rewrite skipn_app_exact by apply (pack1_length _ _ _ E1). now apply IH.
Qed.
Lemma pack_total f : forall vs, Forall2 fval_ok f vs -> exists b, pack f vs = Ok b.
Proof.
  induction f as [|i f IH]; intros vs HF; inversion HF as [|? v ? vs' Hv Hvs]; subst; simpl.
  - now eexists.
  - destruct (pack1_ok _ _ Hv) as (a & -> & _). destruct (IH _ Hvs) as (c & ->). simpl. now eexists.
Qed.
Lemma pack_app f g : forall vs ws a b, pack f vs = Ok a -> pack g ws = Ok b -> pack (f ++ g) (vs ++ ws) = Ok (a ++ b).
Proof.
  induction f as [|i f IH]; intros [|v vs] ws a b; simpl; try discriminate.
  - intros H; inversion H; subst. now intros ->.
  - destruct (pack1 i v) as [x|]; [|discriminate]. simpl.
    destruct (pack f vs) as [y|] eqn:E; [|discriminate]. simpl. intros H; inversion H; subst. intros Hg.
    rewrite (IH _ _ _ _ E Hg). simpl. now rewrite app_assoc.
Qed.
Lemma pack_blobs bs : pack (map (fun b => FS (length b)) bs) (map XB bs) = Ok (concat bs).
Proof.
  induction bs as [|b t IH]; [reflexivity|]. cbn [map pack pack1 bind concat]. now rewrite IH, pack_s_exact.
Qed.

Lemma unpack_from_at f vs b d pre rest o :
  Forall2 fval_ok f vs -> pack f vs = Ok b -> d = pre ++ b ++ rest -> length pre = o -> unpack_from f d o = Ok vs.
Proof.
  intros HF Hb -> <-. unfold unpack_from. rewrite !app_length, (pack_length _ _ _ Hb).
  replace (length pre + (calcsize f + length rest) <? length pre + calcsize f)%nat with false by (symmetry; apply Nat.ltb_ge; lia).
  now rewrite skipn_app_exact, (struct_roundtrip_lemma f vs b rest HF Hb).
Qed.
Example struct_roundtrip_nontrivial : Forall2 fval_ok [FU16; FU32; FS 3] [XI 258; XI 1; XB [7; 8; 9]].
Proof. repeat constructor; simpl; lia. Qed.

Lemma u32_ok_enc v : v < 4294967296 -> u32 v = Ok (le_enc 4 v) /\ le_dec (le_enc 4 v) = v.
Proof. intros H. unfold u32. rewrite (proj2 (N.ltb_lt _ _) H). split; [reflexivity|]. apply le_dec_enc_small. simpl. lia. Qed.
Lemma u32_inv v b : u32 v = Ok b -> b = le_enc 4 v /\ length b = 4%nat /\ le_dec b = v.
Proof.
  unfold u32. destruct (v <? 4294967296) eqn:E; [|discriminate]. intros H; inversion H. apply N.ltb_lt in E.
  split; [reflexivity|]. split; [apply le_enc_length|apply (u32_ok_enc v E)].
Qed.
Lemma u32_inj v v' b : u32 v = Ok b -> u32 v' = Ok b -> v = v'.
Proof. intros H H'. apply u32_inv in H as (_ & _ & <-). now apply u32_inv in H' as (_ & _ & <-). Qed.

(* the response starts with the credential, then the beacon, then (ECC protocols) the uuid, then the signature *)
Lemma dar_embeds_lemma u dcb beacon uuid sig r :
  length uuid = 16%nat -> dar_export u dcb beacon uuid sig = Ok r ->
  exists bb, u32 beacon = Ok bb /\ r = dcb ++ bb ++ (if u then uuid else []) ++ sig
             /\ firstn (length dcb) r = dcb /\ le_dec (firstn 4 (skipn (length dcb) r)) = beacon
             /\ (u = true -> firstn 16 (skipn (length dcb + 4) r) = uuid)
             /\ skipn (length dcb + 4 + (if u then 16 else 0)) r = sig.
Proof.
  intros HU. unfold dar_export, dar_common. destruct (u32 beacon) as [bb|] eqn:EB; [|discriminate]. simpl.
  destruct sig as [|s0 sig]; [discriminate|]. intros H; inversion H; subst. clear H.
  destruct (u32_inv _ _ EB) as (_ & LB & DB). exists bb. split; [reflexivity|].
  rewrite (pack_s_exact 16 uuid HU).
  split; [now rewrite <- !app_assoc|]. rewrite <- !app_assoc.
  split; [now apply firstn_app_exact|].
  split; [now rewrite skipn_app_exact, firstn_app_exact|].
  split.
  - intros ->. rewrite skipn_app_more, skipn_app_exact by easy. now apply firstn_app_exact.
  - rewrite <- Nat.add_assoc, skipn_app_more, skipn_app_more by easy. destruct u; [now apply skipn_app_exact|reflexivity].
Qed.

(* injectivity of the signed message: credential, beacon, uuid and challenge are all determined by it *)
Example dar_binds_nontrivial :
  exists m, dar_tbs true [1; 2] 7 (zeros 16) (zeros 32) = Ok m /\ length m = 54%nat.
Proof. eexists. split; [vm_compute; reflexivity|reflexivity]. Qed.

(* RSA keys as the 1.x credentials carry them: modulus of exactly kb bytes, exponent in 4 bytes, numbers `cryptography` accepts *)
Definition rsa_key_wf (kb : nat) (k : key) : Prop :=
  match k with
  | KRsa n e => byte_len n = kb /\ e < 4294967296 /\ rsa_numbers_ok n e = true
  | KEcc _ _ _ => False
  end.
Lemma rsa_export4_ok kb k : rsa_key_wf kb k ->
  exists b, rsa_export_w 4 k = Ok b /\ length b = (kb + 4)%nat /\ ((kb = 256 \/ kb = 512)%nat -> pub_parse b = Ok k).
Proof.
  destruct k as [n e|]; [|contradiction]. intros (Hn & He & Hok). unfold rsa_export_w.
  rewrite to_bytes_ok by (simpl; lia). cbn [bind]. eexists. split; [reflexivity|].
  assert (L : length (be_min n ++ be_encf 4 e) = (kb + 4)%nat) by (rewrite app_length, be_min_length, be_encf_length; lia).
  split; [exact L|]. intros Hkb. unfold pub_parse. rewrite (raw_decode_rsa kb) by tauto.
  rewrite firstn_app_exact, skipn_app_exact by (now rewrite be_min_length). rewrite be_dec_be_min, be_dec_be_encf by (simpl; lia).
  cbn [bind]. now rewrite Hok.
Qed.

(* ECC keys: a point of the curve the protocol version names *)
Definition ecc_key_wf (c : N) (k : key) : Prop :=
  match k with KEcc c' x y => c' = c /\ on_curve c x y = true | KRsa _ _ => False end.
Lemma ecc_key_wf_inv c k : ecc_key_wf c k -> exists x y, k = KEcc c x y /\ on_curve c x y = true.
Proof. destruct k as [|c' x y]; [contradiction|]. intros [-> H]. now exists x, y. Qed.
(* in the terms of C03: keys of one curve whose coordinates fit its width *)
Lemma ecc_keys_rot c ks : c = 256 \/ c = 384 \/ c = 521 -> Forall (ecc_key_wf c) ks -> Forall (is_ecc c) ks /\ Forall key_ok ks.
Proof.
  intros Hc H. split; (eapply Forall_impl; [|exact H]); intros k Hk; destruct (ecc_key_wf_inv c k Hk) as (x & y & -> & HO);
    [reflexivity|now apply on_curve_key_ok].
Qed.
Local Opaque on_curve curve_p curve_b.
Lemma ecc_blob_ok c k : c = 256 \/ c = 384 \/ c = 521 -> ecc_key_wf c k ->
  exists b, raw_key k = Ok b /\ length b = (2 * coord_size c)%nat /\ pub_parse b = Ok k.
Proof.
  intros Hc Hk. destruct (ecc_key_wf_inv c k Hk) as (x & y & -> & HO). rewrite raw_key_ecc by now apply on_curve_key_ok.
  eexists. split; [reflexivity|]. split; [rewrite app_length, !be_encf_length; lia|].
  unfold pub_parse. now rewrite raw_decode_ecc.
Qed.

Lemma slices_of_concat k (items : list (list N)) r : Forall (fun x => length x = k) items ->
  map (fun i => slice (concat items ++ r) (i * k) ((i + 1) * k)) (seq 0 (length items)) = items.
Proof.
  induction 1 as [|x t Hx _ IH]; [reflexivity|]. cbn [length seq map concat]. rewrite <- app_assoc. f_equal.
  - change (0 * k)%nat with 0%nat. rewrite slice_0. apply firstn_app_exact. lia.
  - rewrite <- seq_shift, map_map. rewrite <- IH at 2. apply map_ext. intros i. rewrite slice_app_r by lia. f_equal; lia.
Qed.
Lemma concat_zero_chunks j : concat (repeat (zeros 32) j) = zeros (32 * j).
Proof.
  induction j as [|j IH]; [reflexivity|]. cbn [repeat concat]. rewrite IH. unfold zeros. rewrite <- repeat_app. f_equal. lia.
Qed.

(* RotMetaRSA.export: the items in order, zero filled to 128 bytes *)
Lemma fill_spec items : forall buf i, Forall (fun x => length x = 32%nat) items -> length buf = 128%nat ->
  (i + length items <= 4)%nat ->
  rsa_meta_fill buf i items = firstn (32 * i) buf ++ concat items ++ skipn (32 * (i + length items)) buf.
Proof.
  induction items as [|x t IH]; intros buf i HF HL HI.
  - cbn [rsa_meta_fill concat length app]. rewrite Nat.add_0_r. symmetry. apply firstn_skipn.
  - inversion HF as [|? ? Hx Ht]; subst. cbn [rsa_meta_fill length] in *. unfold slice_assign.
    replace (i * 32)%nat with (32 * i)%nat by lia. set (pre := firstn (32 * i) buf).
    assert (Lp : length (pre ++ x) = (32 * S i)%nat) by (unfold pre; rewrite app_length, firstn_length; lia).
    rewrite IH by (assumption || lia || (rewrite !app_length, skipn_length; unfold pre; rewrite firstn_length; lia)).
    rewrite (app_assoc pre x), (firstn_app_exact _ _ _ Lp).
    replace (32 * (S i + length t))%nat with (32 * S i + 32 * length t)%nat by lia.
    rewrite (skipn_app_more _ _ _ _ Lp), <- skipn_add. cbn [concat]. rewrite <- !app_assoc. do 4 f_equal. lia.
Qed.
Lemma rsa_meta_export_spec items : Forall (fun x => length x = 32%nat) items -> (length items <= 4)%nat ->
  rsa_meta_fill (zeros 128) 0 items = concat items ++ zeros (128 - length (concat items)).
Proof.
  intros HF HL. rewrite (fill_spec items (zeros 128) 0 HF (zeros_length 128)) by lia.
  change (firstn (32 * 0) (zeros 128)) with (@nil N). cbn [app]. unfold zeros. rewrite skipn_repeat, (concat_length_uniform 32) by assumption.
  reflexivity.
Qed.
Lemma all_zero_zeros n : all_zero (zeros n) = true.
Proof. unfold all_zero, zeros. induction n; [reflexivity|]. cbn [repeat forallb]. now rewrite IHn. Qed.
Definition rsa_items_wf (items : list (list N)) : Prop :=
  (length items <= 4)%nat /\ Forall (fun x => length x = 32%nat) items /\ Forall (fun x => all_zero x = false) items.
Lemma rsa_meta_roundtrip items : rsa_items_wf items ->
  rsa_meta_parse (rsa_meta_fill (zeros 128) 0 items) = Ok (RMRsa items) /\ length (rsa_meta_fill (zeros 128) 0 items) = 128%nat.
Proof.
  intros (HL & H32 & HZ). rewrite (rsa_meta_export_spec items H32 HL), (concat_length_uniform 32) by assumption.
  replace (128 - 32 * length items)%nat with (32 * (4 - length items))%nat by lia. rewrite <- concat_zero_chunks, <- concat_app.
  set (full := items ++ repeat (zeros 32) (4 - length items)).
  assert (HF : Forall (fun x => length x = 32%nat) full).
  { unfold full. apply Forall_app. split; [assumption|]. apply Forall_forall. intros x Hx. apply repeat_spec in Hx. subst. apply zeros_length. }
  assert (HN : length full = 4%nat) by (unfold full; rewrite app_length, repeat_length; lia).
  assert (LC : length (concat full) = 128%nat) by (rewrite (concat_length_uniform 32 full HF), HN; reflexivity).
  split; [|exact LC]. unfold rsa_meta_parse, nlen. rewrite LC. change (N.of_nat 128 <? 128) with false. cbv iota.
  change [0; 1; 2; 3]%nat with (seq 0 4). replace (seq 0 4) with (seq 0 (length full)) by (now rewrite HN).
  pose proof (slices_of_concat 32 full [] HF) as HC. rewrite app_nil_r in HC. rewrite HC.
  do 2 f_equal. unfold full. rewrite filter_app.
  assert (F1 : filter (fun it => negb (all_zero it)) items = items).
  { clear -HZ. induction items as [|x t IH]; [reflexivity|]. inversion HZ; subst. cbn [filter]. rewrite H1. cbn [negb]. now rewrite IH. }
  assert (F2 : forall j, filter (fun it => negb (all_zero it)) (repeat (zeros 32) j) = []).
  { induction j as [|j IH]; [reflexivity|]. cbn [repeat filter]. rewrite all_zero_zeros. exact IH. }
  rewrite F1, F2. apply app_nil_r.
Qed.

Definition u32_ok (v : N) : Prop := v < 4294967296.

(* the values _get_data_to_sign packs, in the order of the class, once the three blobs are known *)
Lemma dc_fields c d mb db rb :
  rotmeta_export (d_meta d) = Ok mb -> dck_blob c d = Ok db -> (c = CEle \/ rot_blob c d = Ok rb) ->
  map_res (field_val c d) (dc_order c) = Ok (
    let h := [XI (d_major d); XI (d_minor d); XI (d_socc d); XB (d_uuid d)] in
    let cc := [XI (d_socu d); XI (d_vu d); XI (d_beacon d)] in
    match c with CRsa => h ++ [XB mb; XB db] ++ cc ++ [XB rb] | CEcc => h ++ cc ++ [XB mb; XB rb; XB db] | CEle => h ++ cc ++ [XB mb; XB db] end).
Proof.
  intros Em Ed Er. destruct c; cbn [dc_order rsa_order ecc_order ele_order map_res]; unfold field_val; cbn [N.eqb Pos.eqb]; rewrite Em, Ed;
    try (destruct Er as [Er|Er]; [discriminate|rewrite Er]); reflexivity.
Qed.
Lemma head_fields_ok maj mi socc uuid socu vu beacon :
  maj < 65536 -> mi < 65536 -> u32_ok socc -> length uuid = 16%nat -> u32_ok socu -> u32_ok vu -> u32_ok beacon ->
  Forall2 fval_ok head_fmt [XI maj; XI mi; XI socc; XB uuid; XI socu; XI vu; XI beacon].
Proof. intros. repeat constructor; assumption. Qed.

Lemma dc_export_tbs c d t : dc_tbs c d = Ok t -> dc_sig_width c d = Ok (length (d_sig d)) -> d_sig d <> [] ->
  dc_export c d = Ok (t ++ d_sig d).
Proof.
  intros Et Ew Hne. unfold dc_export. destruct (d_sig d) as [|s0 sg] eqn:ES; [contradiction|]. rewrite <- ES in *.
  rewrite Et, Ew. cbn [bind]. now rewrite pack_s_exact.
Qed.

(* RSA credentials: protocol 1.0 / 1.1 *)
Definition rsa_kb (mi : N) : nat := if mi =? 0 then 256%nat else 512%nat.
Definition wf_dc_rsa (d : dc) : Prop :=
  d_major d = 1 /\ (d_minor d = 0 \/ d_minor d = 1) /\ u32_ok (d_socc d) /\ length (d_uuid d) = 16%nat /\
  (exists items, d_meta d = RMRsa items /\ rsa_items_wf items) /\
  rsa_key_wf (rsa_kb (d_minor d)) (d_dck d) /\ u32_ok (d_socu d) /\ u32_ok (d_vu d) /\ u32_ok (d_beacon d) /\
  rsa_key_wf (rsa_kb (d_minor d)) (d_rot d) /\ length (d_sig d) = rsa_kb (d_minor d).

Lemma dc_roundtrip_rsa d : wf_dc_rsa d ->
  exists b t, dc_tbs CRsa d = Ok t /\ dc_export CRsa d = Ok b /\ b = t ++ d_sig d /\ forall extra, rsa_parse (b ++ extra) = Ok d.
Proof.
  destruct d as [maj mi socc uuid meta dck socu vu beacon rot sig]. unfold wf_dc_rsa. cbn [d_major d_minor d_socc d_uuid d_meta d_dck d_socu d_vu d_beacon d_rot d_sig].
  intros (-> & Hmi & Hsocc & Huuid & (items & -> & Hitems) & Hdck & Hsocu & Hvu & Hbeacon & Hrot & Hsig).
  destruct (rsa_meta_roundtrip items Hitems) as [Hmp Hml].
  set (mb := rsa_meta_fill (zeros 128) 0 items) in *. set (kb := rsa_kb mi) in *.
  assert (Hkb : (kb = 256 \/ kb = 512)%nat) by (destruct Hmi as [-> | ->]; [now left|now right]).
  destruct (rsa_export4_ok _ _ Hdck) as (db & Edb & Ldb & Pdb). specialize (Pdb Hkb).
  destruct (rsa_export4_ok _ _ Hrot) as (rb & Erb & Lrb & Prb). specialize (Prb Hkb).
  (* the version words are unpacked on their own first: pack them apart from the rest *)
  set (v2 := [XI 1; XI mi]). set (vs := [XI socc; XB uuid; XB mb; XB db; XI socu; XI vu; XI beacon; XB rb]).
  set (ft := [FU32; FS 16; FS 128; FS (kb + 4); FU32; FU32; FU32; FS (kb + 4)]).
  assert (HV2 : Forall2 fval_ok [FU16; FU16] v2) by (repeat constructor; cbn [fval_ok]; lia).
  assert (HVt : Forall2 fval_ok ft vs) by (repeat constructor; cbn [fval_ok]; assumption).
  assert (HV : Forall2 fval_ok (rsa_fmt (kb + 4) ++ [FS kb]) (v2 ++ vs ++ [XB sig])).
  { apply (Forall2_app HV2 (l2 := ft ++ [FS kb])), (Forall2_app HVt). now repeat constructor. }
  destruct (pack_total _ _ HV2) as (t2 & E2). destruct (pack_total _ _ HVt) as (tt & Ett).
  pose proof (pack_app _ _ _ _ _ _ E2 Ett : pack (rsa_fmt (kb + 4)) (v2 ++ vs) = _) as Et.
  assert (Eks : rsa_key_size mi = Ok (kb + 4)%nat) by (destruct Hmi as [-> | ->]; reflexivity).
  assert (Esg : rsa_sig_size mi = Ok kb) by (destruct Hmi as [-> | ->]; reflexivity).
  set (d0 := {| d_major := 1; d_minor := mi; d_socc := socc; d_uuid := uuid; d_meta := RMRsa items; d_dck := dck;
                d_socu := socu; d_vu := vu; d_beacon := beacon; d_rot := rot; d_sig := sig |}).
  assert (Etbs : dc_tbs CRsa d0 = Ok (t2 ++ tt)).
  { unfold dc_tbs, dc_format. cbn [d_minor d0]. rewrite Eks. cbn [bind]. now rewrite (dc_fields CRsa d0 mb db rb) by (auto). }
  assert (Hne : sig <> []) by (intros ->; cbn [length] in Hsig; destruct Hkb; lia).
  exists ((t2 ++ tt) ++ sig), (t2 ++ tt). split; [exact Etbs|]. split.
  { apply (dc_export_tbs CRsa d0); [exact Etbs| |exact Hne]. unfold dc_sig_width. cbn [d_minor d_sig d0]. now rewrite Esg, Hsig. }
  split; [reflexivity|]. intros extra. unfold rsa_parse.
  rewrite (unpack_from_at _ _ _ _ [] (tt ++ sig ++ extra) 0 HV2 E2) by (now rewrite <- ?app_assoc). cbn [bind nth xi v2].
  replace (version_ok 1 mi) with true by (destruct Hmi as [-> | ->]; reflexivity). cbn [negb]. rewrite Eks, Esg. cbn [bind].
  pose proof (pack_app _ _ _ _ _ _ Et (pack_blobs [sig])) as EP. cbn [map concat] in EP. rewrite Hsig, app_nil_r in EP.
  rewrite <- (app_assoc v2) in EP. rewrite (unpack_from_at _ _ _ _ [] extra 0 HV EP) by reflexivity.
  cbn [bind app nth xb xi v2 vs]. rewrite Hmp. cbn [bind]. rewrite Pdb. cbn [bind]. rewrite Prb. reflexivity.
Qed.

(* ECC credentials: protocol 2.0 / 2.1 / 2.2 *)
Lemma small_cases n : n < 5 -> n = 0 \/ n = 1 \/ n = 2 \/ n = 3 \/ n = 4.
Proof. intros H. lia. Qed.
Lemma flags_roundtrip used cnt : flags_validate used cnt = true ->
  exists fb, flags_export used cnt = Ok fb /\ length fb = 4%nat /\ flags_parse fb = Ok (used, cnt).
Proof.
  unfold flags_validate. intros H. apply andb_true_iff in H as [H1 H2].
  apply negb_true_iff, N.ltb_ge in H1. apply negb_true_iff, N.ltb_ge in H2.
  assert (Hc : cnt < 5) by lia. assert (Hu : used < 5) by lia.
  destruct (small_cases _ Hc) as [-> | [-> | [-> | [-> | ->]]]];
    destruct (small_cases _ Hu) as [-> | [-> | [-> | [-> | ->]]]]; try lia;
    (eexists; split; [vm_compute; reflexivity|split; vm_compute; reflexivity]).
Qed.

Definition ecc_curve (mi : N) : N := if mi =? 0 then 256 else if mi =? 1 then 384 else 521.
Definition ecc_hs (mi : N) : N := if mi =? 0 then 32 else if mi =? 1 then 48 else 66.
(* digest length of the table entries: SHA-256 / SHA-384 / SHA-512 *)
Definition ecc_hl (mi : N) : N := if mi =? 0 then 32 else if mi =? 1 then 48 else 64.
Definition ecc_items_wf (hl cnt : N) (items : list (list N)) : Prop :=
  (cnt <= 1 -> items = []) /\ (1 < cnt -> length items = N.to_nat cnt /\ Forall (fun x => length x = N.to_nat hl) items).
Definition wf_dc_ecc (d : dc) : Prop :=
  d_major d = 2 /\ (d_minor d = 0 \/ d_minor d = 1 \/ d_minor d = 2) /\ u32_ok (d_socc d) /\ length (d_uuid d) = 16%nat /\
  (exists used cnt items, d_meta d = RMEcc (ecc_hs (d_minor d)) used cnt items /\ flags_validate used cnt = true
                          /\ ecc_items_wf (ecc_hl (d_minor d)) cnt items) /\
  ecc_key_wf (ecc_curve (d_minor d)) (d_dck d) /\ u32_ok (d_socu d) /\ u32_ok (d_vu d) /\ u32_ok (d_beacon d) /\
  ecc_key_wf (ecc_curve (d_minor d)) (d_rot d) /\ length (d_sig d) = (2 * N.to_nat (ecc_hs (d_minor d)))%nat.

Lemma dc_roundtrip_ecc d : wf_dc_ecc d ->
  exists b t, dc_tbs CEcc d = Ok t /\ dc_export CEcc d = Ok b /\ b = t ++ d_sig d /\ forall extra, ecc_parse (b ++ extra) = Ok d.
Proof.
  destruct d as [maj mi socc uuid meta dck socu vu beacon rot sig]. unfold wf_dc_ecc.
  cbn [d_major d_minor d_socc d_uuid d_meta d_dck d_socu d_vu d_beacon d_rot d_sig].
  intros (-> & Hmi & Hsocc & Huuid & (used & cnt & items & -> & Hfl & Hit) & Hdck & Hsocu & Hvu & Hbeacon & Hrot & Hsig).
  set (c := ecc_curve mi) in *. set (hs := ecc_hs mi) in *. set (w := (2 * N.to_nat hs)%nat) in *.
  assert (Hc : c = 256 \/ c = 384 \/ c = 521) by (unfold c, ecc_curve; destruct Hmi as [-> | [-> | ->]]; auto).
  assert (Hcs : (2 * coord_size c)%nat = w) by (unfold c, w, hs, ecc_curve, ecc_hs; destruct Hmi as [-> | [-> | ->]]; reflexivity).
  destruct (ecc_blob_ok c dck Hc Hdck) as (db & Edb & Ldb & Pdb). destruct (ecc_blob_ok c rot Hc Hrot) as (rb & Erb & Lrb & Prb).
  rewrite Hcs in Ldb, Lrb.
  destruct (flags_roundtrip used cnt Hfl) as (fb & Efb & Lfb & Pfb).
  set (tb := if (1 <? length items)%nat then concat items else []). set (mb := fb ++ tb).
  assert (Emb : rotmeta_export (RMEcc hs used cnt items) = Ok mb) by (cbn [rotmeta_export]; now rewrite Efb).
  destruct (ecc_key_wf_inv c dck Hdck) as (xd & yd & -> & _). destruct (ecc_key_wf_inv c rot Hrot) as (xr & yr & -> & _).
  set (hv := [XI 2; XI mi; XI socc; XB uuid; XI socu; XI vu; XI beacon]).
  assert (HV1 : Forall2 fval_ok head_fmt hv) by (apply head_fields_ok; assumption || lia).
  destruct (pack_total _ _ HV1) as (hb & Ehb). pose proof (pack_length _ _ _ Ehb) as Lhb. change (calcsize head_fmt) with 36%nat in Lhb.
  set (d0 := {| d_major := 2; d_minor := mi; d_socc := socc; d_uuid := uuid; d_meta := RMEcc hs used cnt items;
                d_dck := KEcc c xd yd; d_socu := socu; d_vu := vu; d_beacon := beacon; d_rot := KEcc c xr yr; d_sig := sig |}).
  assert (Etbs : dc_tbs CEcc d0 = Ok (hb ++ mb ++ rb ++ db)).
  { unfold dc_tbs, dc_format, d0. cbn [d_rot d_dck d_meta]. rewrite Emb. cbn [bind]. rewrite (dc_fields CEcc _ mb db rb) by auto. cbn [bind].
    pose proof (pack_blobs [mb; rb; db]) as E3. cbn [map concat] in E3. rewrite Lrb, Ldb, app_nil_r, <- Hcs in E3.
    exact (pack_app head_fmt _ hv _ _ _ Ehb E3). }
  assert (Hne : sig <> []) by (intros ->; cbn [length] in Hsig; unfold w, hs, ecc_hs in Hsig; destruct Hmi as [-> | [-> | ->]]; discriminate).
  exists ((hb ++ mb ++ rb ++ db) ++ sig), (hb ++ mb ++ rb ++ db). split; [exact Etbs|]. split; [now apply (dc_export_tbs CEcc d0)|].
  split; [reflexivity|]. intros extra. unfold ecc_parse.
  set (b := ((hb ++ mb ++ rb ++ db) ++ sig) ++ extra).
  assert (Eb : b = hb ++ (fb ++ tb) ++ (rb ++ db ++ sig) ++ extra) by (unfold b, mb; now rewrite <- !app_assoc).
  rewrite (unpack_from_at head_fmt hv hb b [] _ 0 HV1 Ehb Eb eq_refl). cbn [bind]. unfold hv. cbn [nth xi xb].
  replace (version_ok 2 mi) with true by (destruct Hmi as [-> | [-> | ->]]; reflexivity). cbn [negb].
  replace (ecc_hash_size mi) with (Ok hs) by (unfold hs, ecc_hs; destruct Hmi as [-> | [-> | ->]]; reflexivity). cbn [bind].
  replace (mem_n hs (map fst g_hash_sizes)) with true by (unfold hs, ecc_hs; destruct Hmi as [-> | [-> | ->]]; reflexivity). cbn [negb].
  assert (Emp : ecc_meta_parse hs (skipn 36 b) = Ok (RMEcc hs used cnt items)).
  { rewrite Eb, skipn_app_exact, <- app_assoc by exact Lhb. unfold ecc_meta_parse.
    rewrite firstn_app_exact, Pfb, skipn_app_exact by exact Lfb. cbn [bind].
    do 2 f_equal. destruct Hit as [Hi1 Hi2]. destruct (1 <? cnt) eqn:E1.
    - apply N.ltb_lt in E1. destruct (Hi2 E1) as [Hl Hf]. unfold tb.
      replace (1 <? length items)%nat with true by (symmetry; apply Nat.ltb_lt; lia). rewrite <- Hl.
      replace (ecc_item_size hs) with (N.to_nat (ecc_hl mi)) by (unfold hs, ecc_hs, ecc_hl; destruct Hmi as [-> | [-> | ->]]; reflexivity).
      now apply slices_of_concat.
    - apply N.ltb_ge in E1. now rewrite (Hi1 E1). }
  rewrite Emp. cbn [bind]. rewrite Emb. cbn [bind]. fold w.
  assert (HV3 : Forall2 fval_ok [FS w; FS w; FS w] [XB rb; XB db; XB sig]) by (repeat constructor; assumption).
  pose proof (pack_blobs [rb; db; sig]) as E3. cbn [map concat] in E3. rewrite Lrb, Ldb, Hsig, app_nil_r in E3.
  rewrite (unpack_from_at _ _ _ b (hb ++ mb) extra _ HV3 E3); [|unfold b; now rewrite <- !app_assoc|now rewrite app_length, Lhb].
  cbn [bind nth xb]. rewrite Pdb. cbn [bind]. rewrite Prb. reflexivity.
Qed.

Definition wf_dc (c : klass) (d : dc) : Prop :=
  match c with CRsa => wf_dc_rsa d | CEcc => wf_dc_ecc d | CEle => False end.

(* export is the signed bytes followed by the signature, and parses back, also with anything behind it (a response) *)
Lemma dc_roundtrip_tbs c d : wf_dc c d ->
  exists b t, dc_tbs c d = Ok t /\ dc_export c d = Ok b /\ b = t ++ d_sig d /\ forall extra, dc_parse_class c (b ++ extra) = Ok d.
Proof. destruct c; cbn [wf_dc]; [apply dc_roundtrip_rsa|apply dc_roundtrip_ecc|contradiction]. Qed.

(* non-vacuity: concrete well-formed credentials of both classes *)
Definition g256 : key := KEcc 256 0x6B17D1F2E12C4247F8BCE6E563A440F277037D812DEB33A0F4A13945D898C296
                                  0x4FE342E2FE1A7F9B8EE7EB4A7C0F9E162BCE33576B315ECECBB6406837BF51F5.
Definition g521 : key := KEcc 521
  0x00C6858E06B70404E9CD9E3ECB662395B4429C648139053FB521F828AF606B4D3DBAA14B5E77EFE75928FE1DC127A2FFA8DE3348B3C1856A429BF97E7E31C2E5BD66
  0x011839296A789A3BC0045C8A5FB42C7D1BD998F54449579B446817AFBD17273E662C97EE72995EF42640C550B9013FAD0761353C7086A272C24088BE94769FD16650.
Example wf_dc_ecc_nontrivial :
  wf_dc CEcc {| d_major := 2; d_minor := 0; d_socc := 4; d_uuid := zeros 16;
                d_meta := RMEcc 32 1 2 [sha256 [1]; sha256 [2]]; d_dck := g256; d_socu := 1; d_vu := 2; d_beacon := 3;
                d_rot := g256; d_sig := repeat 7 64 |}.
Proof.
  cbn [wf_dc]. unfold wf_dc_ecc. cbn [d_major d_minor d_socc d_uuid d_meta d_dck d_socu d_vu d_beacon d_rot d_sig].
  split; [reflexivity|]. split; [now left|]. split; [unfold u32_ok; lia|]. split; [reflexivity|]. split.
  - exists 1, 2, [sha256 [1]; sha256 [2]]. split; [reflexivity|]. split; [reflexivity|]. split; [intros H; lia|].
    intros _. split; [reflexivity|]. repeat constructor; apply sha256_length.
  - assert (W : ecc_key_wf 256 g256) by (split; [reflexivity|vm_compute; reflexivity]).
    unfold u32_ok. split; [exact W|]. split; [lia|]. split; [lia|]. split; [lia|]. split; [exact W|reflexivity].
Qed.
Example wf_dc_rsa_nontrivial :
  wf_dc CRsa {| d_major := 1; d_minor := 0; d_socc := 1; d_uuid := zeros 16; d_meta := RMRsa [repeat 9 32];
                d_dck := KRsa (2 ^ 2047 + 1) 65537; d_socu := 1; d_vu := 2; d_beacon := 3; d_rot := KRsa (2 ^ 2047 + 3) 3;
                d_sig := repeat 7 256 |}.
Proof.
  cbn [wf_dc]. unfold wf_dc_rsa. cbn [d_major d_minor d_socc d_uuid d_meta d_dck d_socu d_vu d_beacon d_rot d_sig].
  split; [reflexivity|]. split; [now left|]. split; [unfold u32_ok; lia|]. split; [reflexivity|]. split.
  - exists [repeat 9 32]. split; [reflexivity|]. split; [cbn [length]; lia|]. split; repeat constructor.
  - unfold u32_ok, rsa_key_wf. repeat split; try lia; vm_compute; reflexivity.
Qed.

(* the signed message: everything in front of the signature field, which is the concatenation of the packed fields *)
Lemma pack_concat f : forall vs t, pack f vs = Ok t ->
  exists pieces, t = concat pieces /\ Forall2 (fun p iv => pack1 (fst iv) (snd iv) = Ok p) pieces (combine f vs).
Proof.
  induction f as [|i f IH]; intros [|v vs] t; cbn [pack]; try discriminate.
  - intros H; inversion H. exists []. split; [reflexivity|constructor].
  - destruct (pack1 i v) as [a|] eqn:E1; [|discriminate]. cbn [bind].
    destruct (pack f vs) as [c|] eqn:E2; [|discriminate]. cbn [bind]. intros H; inversion H; subst.
    destruct (IH _ _ E2) as (ps & -> & HF). exists (a :: ps). split; [reflexivity|]. cbn [combine]. constructor; assumption.
Qed.
Lemma dc_sig_covers_all_lemma c d b : dc_export c d = Ok b ->
  exists t w f vs pieces,
    dc_tbs c d = Ok t /\ dc_sig_width c d = Ok w /\ b = t ++ pack_s w (d_sig d) /\ firstn (length t) b = t
    /\ dc_format c d = Ok f /\ map_res (field_val c d) (dc_order c) = Ok vs
    /\ t = concat pieces /\ Forall2 (fun p iv => pack1 (fst iv) (snd iv) = Ok p) pieces (combine f vs).
Proof.
  unfold dc_export. destruct (d_sig d) as [|s0 sg] eqn:ES; [discriminate|].
  destruct (dc_tbs c d) as [t|] eqn:ET; [|discriminate]. cbn [bind].
  destruct (dc_sig_width c d) as [w|] eqn:EW; [|discriminate]. cbn [bind]. intros H; inversion H; subst. clear H.
  unfold dc_tbs in ET. destruct (dc_format c d) as [f|] eqn:EF; [|discriminate]. cbn [bind] in ET.
  destruct (map_res (field_val c d) (dc_order c)) as [vs|] eqn:EV; [|discriminate]. cbn [bind] in ET.
  destruct (pack_concat _ _ _ ET) as (ps & Ec & HF).
  exists t, w, f, vs, ps. repeat split; try assumption; try reflexivity. now apply firstn_app_exact.
Qed.
(* every field of the credential is among the packed ones: version, SoC class, uuid, RoT meta, DCK, constraints, beacon
   (and the RoT public key where the class carries one) *)
Lemma dc_order_complete c : forall fid, In fid [1; 2; 3; 4; 5; 6; 7; 8; 9] -> In fid (dc_order c).
Proof. destruct c; intros fid H; cbn in H; cbn; intuition. Qed.
Lemma dc_order_rot_pub c : c <> CEle -> In 10 (dc_order c).
Proof. destruct c; intros H; cbn; intuition. Qed.

(* the verifier accepts an exported credential and asks for exactly one signature check: RoT key of the credential,
   message = all bytes in front of the signature *)
Lemma dc_verify_lemma c d : wf_dc c d ->
  exists b t, dc_export c d = Ok b /\ dc_tbs c d = Ok t /\ b = t ++ d_sig d
              /\ forall extra, dc_verify c (b ++ extra) = Ok (d, SigVerify (d_rot d) t (d_sig d)).
Proof.
  intros H. destruct (dc_roundtrip_tbs c d H) as (b & t & Et & Eb & Es & P). exists b, t. repeat split; try assumption.
  intros extra. unfold dc_verify. rewrite P. cbn [bind]. rewrite Eb. cbn [bind]. do 3 f_equal.
  subst b. rewrite <- app_assoc. apply firstn_app_exact. rewrite app_length. lia.
Qed.

(* what the device does with credential | beacon | [uuid] | signature: the uuid (ECC protocols) must be its own, then it
   asks for the credential's check and for the DCK signature over everything in front of the signature and its challenge *)
Lemma dar_verify_eq c (u : bool) b bb uu sig d o dev ch :
  (forall x, dc_verify c (b ++ x) = Ok (d, o)) -> dc_export c d = Ok b -> length bb = 4%nat ->
  length uu = (if u then 16 else 0)%nat ->
  dar_verify c u (b ++ bb ++ uu ++ sig) dev ch =
    if u && negb (eqb_list uu dev) then Err 1
    else Ok (d, le_dec bb, [o; SigVerify (d_dck d) ((b ++ bb ++ uu) ++ ch) sig]).
Proof.
  intros V Eb Lbb Luu. unfold dar_verify. rewrite V. cbn [bind]. rewrite Eb. cbn [bind]. rewrite skipn_app_exact by reflexivity.
  replace (length (bb ++ uu ++ sig) <? 4 + (if u then 16 else 0))%nat with false by (symmetry; apply Nat.ltb_ge; rewrite !app_length; lia).
  rewrite firstn_app_exact, skipn_app_exact by exact Lbb.
  replace (if u then firstn 16 (uu ++ sig) else []) with uu by (destruct u; [now rewrite firstn_app_exact|now destruct uu]).
  destruct (u && negb (eqb_list uu dev)); [reflexivity|].
  assert (L : length (b ++ bb ++ uu) = (length b + 4 + (if u then 16 else 0))%nat) by (rewrite !app_length; lia).
  replace (b ++ bb ++ uu ++ sig) with ((b ++ bb ++ uu) ++ sig) by (now rewrite <- !app_assoc).
  now rewrite (firstn_app_exact _ _ _ L), (skipn_app_exact _ _ _ L).
Qed.

(* finite sweep over the database: parse selects the class the credential was created with.
   DebugCredentialCertificate.parse picks the class from the facts of the SOCC's family ambassador (falling back to the
   container-v1 EdgeLock class when that family uses container v2, whose parser has refused the data first); the credential
   was created with the facts of its own family/revision *)
Definition amb_facts (socc : N) : option (N * N) :=
  match find (fun r => fst r =? socc) g_socc_table with Some (_, (e, c, _, _)) => Some (e, c) | None => None end.
Definition parse_class (ae ac maj mi : N) : res klass :=
  match class_of ae ac maj mi with Ok (Some c) => Ok c | Ok None => Ok CEle | Err k => Err k end.
Definition dispatch_agrees (fam : N * (N * N * N)) (v : N * N) : bool :=
  let '(socc, (ele, cnt, _)) := fam in
  match amb_facts socc with
  | None => false
  | Some (ae, ac) =>
      match class_of ele cnt (fst v) (snd v), parse_class ae ac (fst v) (snd v) with
      | Ok (Some c), Ok c' => (klass_id c =? klass_id c')%Z
      | Ok None, _ => true          (* a container-v2 credential (AHAB certificate) is taken by the first step of parse *)
      | Err j, Err k => j =? k
      | _, _ => false
      end
  end.
(* the sweep is not vacuous: some revision is created with EdgeLock container v1 while its SOCC's ambassador uses v2 *)
Lemma parse_dispatch_fallback_used :
  exists fam, In fam g_family_table /\ (let '(socc, (ele, cnt, _)) := fam in
     negb (ele =? 0) && (cnt =? 1) && match amb_facts socc with Some (_, ac) => ac =? 2 | None => false end) = true.
Proof.
  assert (H : existsb (fun fam => let '(socc, (ele, cnt, _)) := fam in
     negb (ele =? 0) && (cnt =? 1) && match amb_facts socc with Some (_, ac) => ac =? 2 | None => false end) g_family_table = true)
    by (vm_compute; reflexivity).
  apply existsb_exists in H as (fam & Hf & H). now exists fam.
Qed.

(* what create_from_yaml_config has checked and built when it succeeds, and conversely *)
Lemma dc_create_iff ele cnt socc ks rot_id dck uuid socu vu beacon fca c d :
  dc_create ele cnt socc ks rot_id dck uuid socu vu beacon fca = Ok (c, d) <->
  exists rot v m, nth_error ks (N.to_nat rot_id) = Some rot /\ version_of_key rot = Ok v /\
    class_of ele cnt (fst v) (snd v) = Ok (Some c) /\ length uuid = 16%nat /\
    is_ecc_key dck = is_ecc_key rot /\ key_bits dck = key_bits rot /\ rot_meta_create c ks rot_id fca = Ok m /\
    d = {| d_major := fst v; d_minor := snd v; d_socc := socc; d_uuid := uuid; d_meta := m; d_dck := dck;
           d_socu := socu; d_vu := vu; d_beacon := beacon; d_rot := rot; d_sig := [] |}.
Proof.
  unfold dc_create. split.
  - destruct (nth_error ks (N.to_nat rot_id)) as [rot|] eqn:EN; [|discriminate].
    destruct (version_of_key rot) as [v|] eqn:EV; [|discriminate]. cbn [bind].
    destruct (class_of ele cnt (fst v) (snd v)) as [[c'|]|] eqn:EC; cbn [bind]; try discriminate;
      destruct (length uuid =? 16)%nat eqn:EU; try discriminate; cbn [negb];
      destruct (Bool.eqb (is_ecc_key dck) (is_ecc_key rot)) eqn:E1; try discriminate;
      destruct (key_bits dck =? key_bits rot) eqn:E2; try discriminate. cbn [andb negb].
    destruct (rot_meta_create c' ks rot_id fca) as [m|] eqn:EM; [|discriminate]. cbn [bind]. intros H; inversion H; subst.
    exists rot, v, m. apply Nat.eqb_eq in EU. apply Bool.eqb_prop in E1. apply N.eqb_eq in E2. now repeat split.
  - intros (rot & v & m & -> & -> & Ec & EU & E1 & E2 & EM & ->). cbn [bind]. rewrite Ec. cbn [bind].
    now rewrite EU, E1, E2, Bool.eqb_reflx, N.eqb_refl, EM.
Qed.
Lemma rot_meta_rsa_inv ks rot_id fca m : rot_meta_create CRsa ks rot_id fca = Ok m ->
  (length ks <= 4)%nat /\ exists items, map_res dc_rsa_item ks = Ok items /\ m = RMRsa items.
Proof.
  unfold rot_meta_create. destruct (4 <? nlen ks) eqn:E4; [discriminate|]. apply N.ltb_ge in E4.
  destruct (map_res dc_rsa_item ks) as [items|]; [|discriminate]. intros H; inversion H. split; [unfold nlen in E4; lia|now exists items].
Qed.
Lemma rot_meta_ecc_inv ks rot_id fca m : rot_meta_create CEcc ks rot_id fca = Ok m ->
  exists k0 t items, ks = k0 :: t /\ forallb is_ecc_key ks = true /\ mem_n (N.of_nat (coord_size (key_bits k0))) (map fst g_hash_sizes) = true /\
    dc_ecc_items ks = Ok items /\ flags_validate rot_id (nlen ks) = true /\ m = RMEcc (N.of_nat (coord_size (key_bits k0))) rot_id (nlen ks) items.
Proof.
  unfold rot_meta_create. destruct ks as [|k0 t] eqn:EK; [discriminate|]. rewrite <- EK.
  destruct (forallb is_ecc_key ks); cbn [negb]; [|discriminate]. destruct (forallb (fun k => _ =? _) ks); cbn [negb]; [|discriminate].
  destruct (mem_n _ _) eqn:F3; cbn [negb]; [|discriminate]. destruct (dc_ecc_items ks) as [items|]; [|discriminate]. cbn [bind].
  destruct (flags_validate rot_id (nlen ks)) eqn:FV; [|discriminate]. intros H; inversion H. now exists k0, t, items.
Qed.

(* the RoT hash of a created RSA credential is C03's debug-credential hash of the key set *)
Lemma dc_rsa_item_length k b : dc_rsa_item k = Ok b -> length b = 32%nat.
Proof.
  unfold dc_rsa_item. destruct k as [n e|]; [|discriminate]. destruct (to_bytes 3 e); [|discriminate]. cbn [bind].
  intros H; inversion H. apply sha256_length.
Qed.
