(* Proofs/AreaProofs.v -- lemmas about Model/AreaModel.v (C12), on top of Proofs/RegsProofs.v (C11). *)
From Coq Require Import ZArith NArith List Bool Lia ZifyBool.
Require Import Value Bytes BytesProofs Writes GenMisc MiscModel MiscProofs GenRegs RegsModel RegsProofs GenAreaFns GenAreas AreaModel.
Import ListNotations.
Local Open Scope Z_scope.

Lemma place_all_fold ims : forall buf, Forall (fits (zlen buf)) ims ->
  place_all buf ims = Ok (fold_left (fun b w => splice b (Z.to_nat (fst w)) (snd w)) ims buf).
Proof.
  induction ims as [|im t IH]; intros buf H; cbn [place_all fold_left]; [reflexivity|].
  inversion H as [|? ? (F1 & F2) Ht]; subst.
  replace ((fst im <? 0) || (zlen buf <? fst im + zlen (snd im))) with false by lia.
  apply IH. unfold zlen in *. rewrite splice_length by lia. exact Ht.
Qed.

Lemma insert_img_rel (R : Z * list N -> Z * list N -> Prop) a a' : (forall x y, R x y -> fst x = fst y) -> R a a' ->
  forall l l', Forall2 R l l' -> Forall2 R (insert_img a l) (insert_img a' l').
Proof.
  intros HR Ha. induction 1 as [|c c' t t' Hc Ht IH]; cbn [insert_img]; [repeat constructor; assumption|].
  rewrite (HR _ _ Ha), (HR _ _ Hc). destruct (fst a' <? fst c'); repeat constructor; assumption.
Qed.

Lemma sort_images_rel (R : Z * list N -> Z * list N -> Prop) : (forall x y, R x y -> fst x = fst y) ->
  forall l l', Forall2 R l l' -> Forall2 R (sort_images l) (sort_images l').
Proof.
  intros HR l l' H. unfold sort_images.
  assert (G : forall acc acc', Forall2 R acc acc' ->
              Forall2 R (fold_left (fun l x => insert_img x l) l acc) (fold_left (fun l x => insert_img x l) l' acc')).
  { induction H as [|a a' t t' Ha Ht IH]; intros acc acc' Hacc; cbn [fold_left]; [assumption|].
    apply IH. now apply insert_img_rel. }
  apply G. constructor.
Qed.

Definition same_geom (x y : Z * list N) : Prop := fst x = fst y /\ length (snd x) = length (snd y).

Lemma image_size_rel l l' : Forall2 same_geom l l' -> image_size l = image_size l'.
Proof.
  intros H. unfold image_size. generalize 0. induction H as [|x y t t' (G1 & G2) Ht IH]; intros m; cbn [fold_left]; [reflexivity|].
  unfold zlen. rewrite G1, G2. apply IH.
Qed.

Definition reg_imgs (g : regs) : list (Z * list N) := map (reg_img (g_big g)) (g_regs g).

(* every register starts at a non-negative offset and, when the size is given, ends inside the binary *)
Definition reg_fits (size : Z) (r : reg) : Prop :=
  0 <= s_offset (r_base r) /\ (size = 0 \/ s_offset (r_base r) + s_width (r_base r) / 8 <= size).
Definition regs_fit (g : regs) (size : Z) : Prop := Forall (reg_fits size) (g_regs g).

Definition total_of (g : regs) (size : Z) : Z := if size =? 0 then image_size (reg_imgs g) else size.

Lemma total_of_nonneg g size : 0 <= size -> 0 <= total_of g size.
Proof. intros H. unfold total_of, image_size. destruct (size =? 0); [apply writes_end_bound|exact H]. Qed.

Lemma reg_imgs_fit g size : wf_regs g -> regs_fit g size -> Forall (fits (total_of g size)) (reg_imgs g).
Proof.
  intros Hg Hf. unfold reg_imgs. apply Forall_forall. intros im Hin. apply in_map_iff in Hin. destruct Hin as (r & <- & Hr).
  unfold regs_fit in Hf. rewrite Forall_forall in Hf. destruct (Hf r Hr) as (F1 & F2).
  assert (Hw : wf_reg r) by (unfold wf_regs in Hg; rewrite Forall_forall in Hg; now apply Hg).
  split; [exact F1|]. rewrite reg_img_len by assumption. cbn [fst reg_img]. unfold total_of.
  destruct (Z.eqb_spec size 0) as [E|E]; [|destruct F2; [contradiction|assumption]].
  rewrite <- (reg_img_len (g_big g) r Hw). apply (proj2 (writes_end_bound _ 0) (reg_img (g_big g) r)). now apply in_map.
Qed.

Lemma export_with_ok g size fill : wf_regs g -> regs_fit g size -> 0 <= size ->
  let buf := repeat fill (Z.to_nat (total_of g size)) in
  children_fit g (sort_images (reg_imgs g)) (zlen buf) /\ zlen buf = total_of g size /\
  export_with g size fill = Ok (fold_left (fun b w => splice b (Z.to_nat (fst w)) (snd w)) (sort_images (reg_imgs g)) buf).
Proof.
  intros Hg Hf Hs buf. pose proof (total_of_nonneg g size Hs) as Ht.
  assert (Lb : zlen buf = total_of g size) by (unfold zlen, buf; rewrite repeat_length; lia).
  assert (Hc : children_fit g (sort_images (reg_imgs g)) (zlen buf)).
  { rewrite Lb. apply children_fit_sorted. now apply reg_imgs_fit. }
  split; [exact Hc|]. split; [exact Lb|].
  unfold export_with. rewrite images_ok by assumption. cbn [bind]. apply place_all_fold, Hc.
Qed.

Lemma export_with_size g size fill bin : wf_regs g -> regs_fit g size -> 0 <= size ->
  export_with g size fill = Ok bin -> zlen bin = total_of g size.
Proof.
  intros Hg Hf Hs E. destruct (export_with_ok g size fill Hg Hf Hs) as (Hc & Lb & Ex). rewrite Ex in E. injection E as <-.
  now rewrite (proj1 (fold_splice_written _ _ (proj2 Hc))).
Qed.

(* the hidden registers of the exported object hold what the receiving (fresh) object holds: hidden registers are not parsed *)
Definition hidden_agree (g g0 : regs) : Prop :=
  forall i r, nth_error (g_regs g) i = Some r -> s_hidden (r_base r) = true -> nth_error (g_regs g0) i = Some r.

Lemma same_layout_len g g1 : same_layout g g1 -> length (g_regs g1) = length (g_regs g).
Proof.
  intros H. destruct (regs_eq_inv g g1 H) as (_ & Hm).
  rewrite <- (map_length erase_r (g_regs g1)), <- Hm. apply map_length.
Qed.

Lemma regs_fit_layout g g' n : same_layout g g' -> regs_fit g n -> regs_fit g' n.
Proof.
  intros Hsl Hf. apply Forall_forall. intros r' Hin. destruct (In_nth_error _ _ Hin) as (i & Ei).
  destruct (same_layout_nth g' g i r' (eq_sym Hsl) Ei) as (r & Er & Ee).
  unfold regs_fit in Hf. rewrite Forall_forall in Hf. specialize (Hf r (nth_error_In _ _ Er)). unfold reg_fits in *.
  now rewrite <- (erase_r_proj s_offset (fun _ => eq_refl) Ee), <- (erase_r_proj s_width (fun _ => eq_refl) Ee).
Qed.

Lemma reg_imgs_geom g g' : wf_regs g -> wf_regs g' -> same_layout g g' -> Forall2 same_geom (reg_imgs g) (reg_imgs g').
Proof.
  intros Hg Hg' Hsl. unfold reg_imgs. apply Forall2_nth; [rewrite !map_length; symmetry; now apply same_layout_len|].
  intros k x y Hx Hy. rewrite nth_error_map in Hx, Hy.
  destruct (nth_error (g_regs g) k) as [r|] eqn:Er; [|discriminate]. injection Hx as <-.
  destruct (same_layout_nth g g' k r Hsl Er) as (r' & Er' & Ee). rewrite Er' in Hy. injection Hy as <-.
  unfold same_geom, reg_img. cbn [fst snd].
  now rewrite !enc_length, (erase_r_proj s_offset (fun _ => eq_refl) Ee), (erase_r_proj s_width (fun _ => eq_refl) Ee).
Qed.

Theorem export_parse_export_lemma g g0 size fill :
  wf_regs g -> wf_regs g0 -> same_layout g g0 -> hidden_agree g g0 -> regs_fit g size -> 0 <= size -> (fill < 256)%N ->
  exists bin g', export_with g size fill = Ok bin /\ zlen bin = total_of g size /\
                 parse g0 bin = Ok g' /\ wf_regs g' /\ same_layout g g' /\ export_with g' size fill = Ok bin.
Proof.
  intros Hg Hg0 Hsl Hh Hf Hs Hfill.
  destruct (export_with_ok g size fill Hg Hf Hs) as (Hc & Lb & Ex).
  set (buf := repeat fill (Z.to_nat (total_of g size))) in *.
  destruct (fold_splice_written _ buf (proj2 Hc)) as (L & Hk). cbv zeta in L, Hk.
  set (bin := fold_left _ (sort_images (reg_imgs g)) buf) in *.
  assert (Hbig : g_big g0 = g_big g) by (destruct (regs_eq_inv g g0 Hsl); congruence).
  assert (Hwb : wf_bytes bin).
  { apply (children_wf g _ _ buf Hc). apply Forall_forall. intros y Hy. apply repeat_spec in Hy. now subst. }
  assert (Hin : forall k r1, nth_error (g_regs g0) k = Some r1 ->
            0 <= s_offset (r_base r1) /\ s_offset (r_base r1) + s_width (r_base r1) / 8 <= zlen bin).
  { intros k r1 E. pose proof (reg_imgs_fit g0 size Hg0 (regs_fit_layout g g0 size Hsl Hf)) as F.
    rewrite Forall_forall in F. destruct (F (reg_img (g_big g0) r1)) as (F1 & F2); [apply in_map; eapply nth_error_In; eassumption|].
    rewrite reg_img_len in F2 by exact (wf_regs_nth g0 k r1 Hg0 E).
    unfold total_of in F2. rewrite <- (image_size_rel _ _ (reg_imgs_geom g g0 Hg Hg0 Hsl)) in F2. fold (total_of g size) in F2.
    rewrite L, Lb. exact (conj F1 F2). }
  destruct (parse_total g0 bin Hg0 Hwb) as (g' & P1 & (Hg' & Hsl') & P4); [intros k r1 E _; exact (Hin k r1 E)|].
  assert (Hsl2 : same_layout g g') by (eapply same_layout_trans; eassumption).
  exists bin, g'. split; [exact Ex|]. split; [now rewrite L|]. split; [exact P1|]. split; [exact Hg'|]. split; [exact Hsl2|].
  (* export of the parsed object: same buffer; every image holds the same bytes as before or the bytes read from bin *)
  destruct (export_with_ok g' size fill Hg' (regs_fit_layout g g' size Hsl2 Hf) Hs) as (Hc' & _ & ->).
  pose proof (reg_imgs_geom g g' Hg Hg' Hsl2) as Hgeo.
  assert (Et : total_of g' size = total_of g size) by (unfold total_of; now rewrite (image_size_rel _ _ Hgeo)).
  rewrite Et in *. fold buf in Hc' |- *.
  destruct (fold_splice_written _ buf (proj2 Hc')) as (L' & Hk'). cbv zeta in L', Hk'.
  f_equal. apply zget_ext; [now rewrite L', L|]. intros k _. rewrite Hk'.
  apply (written_again k (zget bin k) (sort_images (reg_imgs g))) with (a := zget buf k); [|symmetry; apply Hk|now left].
  apply sort_images_rel; [now intros x y ((G1 & _) & _)|].
  apply Forall2_nth; [unfold reg_imgs; rewrite !map_length; symmetry; now apply same_layout_len|].
  unfold reg_imgs. intros i x y Hx Hy. rewrite nth_error_map in Hx, Hy.
  destruct (nth_error (g_regs g) i) as [r|] eqn:Er; [|discriminate]. injection Hx as <-.
  destruct (same_layout_nth g g0 i r Hsl Er) as (r1 & Er1 & Ee).
  rewrite (P4 i r1 Er1), <- (proj1 (regs_eq_inv _ _ Hsl')) in Hy. injection Hy as <-.
  destruct (s_hidden (r_base r1)) eqn:Eh.
  - (* hidden: the receiving object holds the same register *)
    unfold parsed_reg. rewrite Eh. rewrite (erase_r_proj s_hidden (fun _ => eq_refl) Ee) in Eh.
    rewrite (Hh i r Er Eh) in Er1. injection Er1 as <-. rewrite Hbig. split; [split; reflexivity|now left].
  - destruct (Hin i r1 Er1) as (I1 & I2).
    rewrite (reg_img_parsed _ bin r1 (wf_regs_nth g0 i r1 Hg0 Er1) Eh Hwb I1 I2).
    rewrite (erase_r_proj s_offset (fun _ => eq_refl) Ee), (erase_r_proj s_width (fun _ => eq_refl) Ee) in *.
    pose proof (reg_img_len (g_big g) r (wf_regs_nth g i r Hg Er)) as Lr. unfold zlen in Lr, I2.
    cbn [fst snd reg_img] in *. split; [split; [reflexivity|rewrite slice_length; lia]|right].
    unfold covers, zlen. cbn [fst snd reg_img]. rewrite Lr. intros Hck. rewrite zget_slice by lia.
    replace ((0 <=? k - s_offset (r_base r)) && (k - s_offset (r_base r) <? s_offset (r_base r) + s_width (r_base r) / 8 - s_offset (r_base r)))
      with true by lia.
    f_equal. lia.
Qed.

Definition reg_end (r : reg) : Z := s_offset (r_base r) + s_width (r_base r) / 8.
Definition disjoint_regs (r r' : reg) : Prop := reg_end r <= s_offset (r_base r') \/ reg_end r' <= s_offset (r_base r).
Definition isolated (g : regs) (i : nat) : Prop :=
  forall j r r', nth_error (g_regs g) i = Some r -> nth_error (g_regs g) j = Some r' -> j <> i -> disjoint_regs r r'.

Theorem export_reg_bytes_lemma g size fill i r bin : wf_regs g -> regs_fit g size -> 0 <= size ->
  nth_error (g_regs g) i = Some r -> isolated g i -> export_with g size fill = Ok bin ->
  slice bin (Z.to_nat (s_offset (r_base r))) (Z.to_nat (reg_end r)) =
  enc (g_big g) (Z.to_nat (s_width (r_base r) / 8)) (reg_stored r true).
Proof.
  intros Hg Hf Hs E Hiso Ex. destruct (export_with_ok g size fill Hg Hf Hs) as (Hc & _ & Ex'). rewrite Ex in Ex'. injection Ex' as ->.
  apply (reg_bytes_at g _ _ i r Hg Hc E). intros j r' Ej Hne. exact (Hiso j r r' E Ej Hne).
Qed.

(* what the documentation demands of a register with a computed field:
   method 0 (pfr_reg_inverse_high_half):   bits 16..31 are the bitwise inverse of bits 0..15
   method 1 (pfr_reg_inverse_lower_8_bits): bits 8..15 are the bitwise inverse of bits 0..7 *)
Definition computed_rel (m v : Z) : Prop :=
  (m = 0 -> getbits v 16 16 = Z.lxor (getbits v 0 16) 65535) /\
  (m = 1 -> getbits v 8 8 = Z.lxor (getbits v 0 8) 255).

(* both methods have one shape: keep every bit of the W-bit value outside the field [lo + w, lo + 2w) and put the
   inverse of the w bits below it there; the masks of the source are the instances W = 32, (lo, w) = (0, 16), (0, 8) *)
Lemma inverse_field_shape v lo w W : 0 <= lo -> 0 < w -> lo + 2 * w <= W -> in_range W v ->
  Z.lor (Z.land v (Z.land (Z.ones W) (Z.lnot (fieldmask (lo + w) w))))
        (Z.shiftl (Z.lxor (Z.land (Z.shiftr v lo) (Z.ones w)) (Z.ones w)) (lo + w))
  = setbits v (lo + w) w (Z.lxor (getbits v lo w) (Z.ones w)).
Proof.
  intros Hlo Hw HW Hv. apply Z.bits_inj'. intros n Hn.
  rewrite testbit_setbits, Z.lor_spec, !Z.land_spec, Z.lnot_spec, testbit_fieldmask, Z.shiftl_spec, Z.testbit_ones by lia.
  destruct (Z.leb_spec (lo + w) n) as [H1|H1]; cbn [andb negb].
  - destruct (Z.ltb_spec n (lo + w + w)) as [H2|H2]; cbn [andb negb]; [now rewrite !andb_false_r|].
    rewrite (small_bits _ w (n - (lo + w))) by (try lia; apply lxor_range; (lia || apply getbits_range || apply ones_range); lia).
    replace (0 <=? n) with true by lia. rewrite orb_false_r, andb_true_r. cbn [andb].
    destruct (Z.ltb_spec n W); [apply andb_true_r|]. now rewrite (small_bits v W n) by (assumption || lia).
  - rewrite (Z.testbit_neg_r _ (n - (lo + w))) by lia. replace (0 <=? n) with true by lia. replace (n <? W) with true by lia.
    now rewrite !andb_true_r, orb_false_r.
Qed.

Lemma py_compute_spec m v : in_range 32 v -> (m = 0 \/ m = 1) ->
  exists v', py_compute m v = Ok v' /\ in_range 32 v' /\ computed_rel m v'.
Proof.
  intros HV Hm. exists (setbits v (if m =? 0 then 16 else 8) (if m =? 0 then 16 else 8)
                         (Z.lxor (getbits v 0 (if m =? 0 then 16 else 8)) (Z.ones (if m =? 0 then 16 else 8)))).
  destruct Hm as [-> | ->]; cbn [Z.eqb]; 
    (split; [unfold py_compute, py_pfr_reg_inverse_high_half, py_pfr_reg_inverse_lower_8_bits; cbn [Z.eqb]; cbv zeta; apply f_equal|]).
  - exact (inverse_field_shape v 0 16 32 ltac:(lia) ltac:(lia) ltac:(lia) HV).
  - destruct (inverse_field v 0 16 32) as (R & C & _); try (assumption || lia). split; [exact R|]. split; [intros _; exact C|discriminate].
  - exact (inverse_field_shape v 0 8 32 ltac:(lia) ltac:(lia) ltac:(lia) HV).
  - destruct (inverse_field v 0 8 32) as (R & C & _); try (assumption || lia). split; [exact R|]. split; [discriminate|intros _; exact C].
Qed.

Definition comp_reg (c : nat * nat * Z) : nat := fst (fst c).
(* the register of a computed field exists, is 32 bits wide, the method is one of the translated ones *)
Definition comp_ok (g : regs) (c : nat * nat * Z) : Prop :=
  exists s, t_sreg g (Top (comp_reg c)) = Some s /\ s_width s = 32 /\ (snd c = 0 \/ snd c = 1).

Lemma comp_ok_layout g g' c : same_layout g g' -> comp_ok g c -> comp_ok g' c.
Proof.
  intros Hsl (s & E & W & M). destruct (same_layout_sreg g g' _ s Hsl E) as (s' & E' & Ee).
  exists s'. split; [exact E'|]. split; [now rewrite (erase_s_proj s_width (fun _ => eq_refl) Ee)|exact M].
Qed.

Lemma recompute_lemma cfg : forall comps g, wf_regs g -> Forall (comp_ok g) comps -> NoDup (map comp_reg comps) ->
  exists g', recompute g cfg comps = Ok g' /\ wf_regs g' /\ same_layout g g' /\
    (forall u raw, ~ In (top_of u) (map comp_reg comps) -> t_get g' u raw = t_get g u raw) /\
    (forall i k m e, In (i, k, m) comps -> cfg_lookup cfg (Top i) None = Some e -> needs_compute e k = true ->
       exists v, t_get g' (Top i) true = Ok v /\ in_range 32 v /\ computed_rel m v).
Proof.
  induction comps as [|((i, k), m) rest IH]; intros g Hg Hc Hnd; cbn [recompute].
  - exists g. split; [reflexivity|]. split; [assumption|]. split; [apply same_layout_refl|]. split; [reflexivity|].
    intros ? ? ? ? [].
  - inversion Hc as [|? ? (s & Es & Ws & Hm) Hrest]; subst. cbn [comp_reg fst snd] in Es, Hm.
    cbn [map comp_reg fst] in Hnd. inversion Hnd as [|? ? Hni Hnd']; subst.
    assert (Hstep : forall g1, wf_regs g1 -> same_layout g g1 ->
              (forall u raw, top_of u <> i -> t_get g1 u raw = t_get g u raw) ->
              (forall e, cfg_lookup cfg (Top i) None = Some e -> needs_compute e k = true ->
                 exists v, t_get g1 (Top i) true = Ok v /\ in_range 32 v /\ computed_rel m v) ->
              exists g', recompute g1 cfg rest = Ok g' /\ wf_regs g' /\ same_layout g g' /\
                (forall u raw, ~ In (top_of u) (map comp_reg ((i, k, m) :: rest)) -> t_get g' u raw = t_get g u raw) /\
                (forall i0 k0 m0 e, In (i0, k0, m0) ((i, k, m) :: rest) -> cfg_lookup cfg (Top i0) None = Some e ->
                   needs_compute e k0 = true -> exists v, t_get g' (Top i0) true = Ok v /\ in_range 32 v /\ computed_rel m0 v)).
    { intros g1 Hg1 Hsl1 Hfr1 Hhere.
      destruct (IH g1 Hg1) as (g' & R & W' & Sl' & Fr' & Co'); [|assumption|].
      { eapply Forall_impl; [|exact Hrest]. intros c. now apply comp_ok_layout. }
      exists g'. split; [exact R|]. split; [exact W'|]. split; [eapply same_layout_trans; eassumption|]. split.
      - intros u raw Hu. cbn [map comp_reg fst In] in Hu. rewrite Fr' by tauto. apply Hfr1. intros Heq. apply Hu. left. now symmetry.
      - intros i0 k0 m0 e [Heq|Hin] Hl Hn.
        + injection Heq as <- <- <-. destruct (Hhere e Hl Hn) as (v & G & Rg & Cr). exists v. split; [|tauto].
          rewrite Fr'; [exact G|]. cbn [top_of]. exact Hni.
        + eapply Co'; eassumption. }
    destruct (cfg_lookup cfg (Top i) None) as [e|] eqn:El.
    + destruct (needs_compute e k) eqn:En.
      * destruct (t_get_total g (Top i) s true Hg Es) as (v & Gv & Rv). rewrite Ws in Rv.
        destruct (py_compute_spec m v Rv Hm) as (v' & Cv & Rv' & Cr).
        assert (Rv'' : in_range (s_width s) v') by now rewrite Ws.
        destruct (t_set_ok g (Top i) s v' true Hg Es Rv'') as (g1 & S1 & S2 & S3 & S4 & S5 & _).
        rewrite Gv. cbn [bind]. rewrite Cv. cbn [bind]. rewrite S1. cbn [bind].
        apply (Hstep g1 S2 S3); [intros u raw Hu; apply S5; exact Hu|].
        intros e' He' _. exists v'. tauto.
      * apply (Hstep g Hg (same_layout_refl g)); [reflexivity|]. intros e' He'. injection He' as <-. congruence.
    + apply (Hstep g Hg (same_layout_refl g)); [reflexivity|]. discriminate.
Qed.

Definition reg_fits_b (size : Z) (r : reg) : bool :=
  (0 <=? s_offset (r_base r)) && ((size =? 0) || (reg_end r <=? size)).
Definition disjoint_b (r r' : reg) : bool := (reg_end r <=? s_offset (r_base r')) || (reg_end r' <=? s_offset (r_base r)).
Definition indexed {A} (l : list A) : list (nat * A) := combine (seq 0 (length l)) l.
Definition isolated_b (g : regs) (i : nat) : bool :=
  match nth_error (g_regs g) i with
  | None => true
  | Some r => forallb (fun jr => Nat.eqb (fst jr) i || disjoint_b r (snd jr)) (indexed (g_regs g))
  end.
(* the hidden bit-field named in the database is exactly the bits the method fills *)
Definition comp_field_b (s : sreg) (k : nat) (m : Z) : bool :=
  match nth_error (s_fields s) k with
  | Some f => if m =? 0 then (f_off f =? 16) && (f_width f =? 16) else (f_off f =? 8) && (f_width f =? 8)
  | None => false
  end.
Definition comp_ok_b (g : regs) (c : nat * nat * Z) : bool :=
  match t_sreg g (Top (comp_reg c)) with
  | Some s => (s_width s =? 32) && ((snd c =? 0) || (snd c =? 1)) && isolated_b g (comp_reg c) && comp_field_b s (snd (fst c)) (snd c)
  | None => false
  end.
Fixpoint nodup_b (l : list nat) : bool :=
  match l with [] => true | x :: t => negb (existsb (Nat.eqb x) t) && nodup_b t end.
Definition area_total (A : area) : Z := if a_sized A then a_size A else 0.

(* the bit-fields of one register do not overlap (registers merged as aliases could) *)
Fixpoint fields_disjoint_b (fs : list field) : bool :=
  match fs with
  | [] => true
  | f :: t => forallb (fun f' => (f_off f + f_width f <=? f_off f') || (f_off f' + f_width f' <=? f_off f)) t && fields_disjoint_b t
  end.
Definition reg_fields_disjoint_b (r : reg) : bool :=
  fields_disjoint_b (s_fields (r_base r)) && forallb (fun s => fields_disjoint_b (s_fields s)) (r_subs r).

Definition wf_area_b (A : area) : bool :=
  forallb reg_fields_disjoint_b (g_regs (a_regs A)) &&
  wf_regs_b false (a_regs A) &&
  forallb (reg_fits_b (area_total A)) (g_regs (a_regs A)) &&
  (0 <=? a_size A) && (negb (a_sized A) || ((0 <? a_size A) && (0 <=? a_kind A) && (a_kind A <=? 3))) &&
  (a_fill A <? 256)%N &&
  forallb (comp_ok_b (a_regs A)) (a_computed A) && nodup_b (map comp_reg (a_computed A)) &&
  match a_seal A with Some (start, count) => (0 <=? start) && (0 <=? count) && (start + 4 * count <=? a_size A) | None => true end &&
  (* a segment class with a documented SIZE exports exactly that many bytes *)
  (a_sized A || (a_size A =? 0) || (image_size (reg_imgs (a_regs A)) =? a_size A)) &&
  (* the optional XMCD register is described only for XMCD *)
  match a_opt A with Some _ => a_kind A =? 7 | None => true end.

Lemma nth_error_indexed {A} (l : list A) : forall j x, nth_error l j = Some x -> In (j, x) (indexed l).
Proof.
  unfold indexed. assert (G : forall s j x, nth_error l j = Some x -> In ((s + j)%nat, x) (combine (seq s (length l)) l)).
  { induction l as [|a t IH]; intros s j x H; [destruct j; discriminate|]. destruct j as [|j]; cbn in *.
    - injection H as <-. left. f_equal. lia.
    - right. replace (s + S j)%nat with (S s + j)%nat by lia. now apply IH. }
  intros j x H. exact (G 0%nat j x H).
Qed.

Lemma isolated_b_sound g i : isolated_b g i = true -> isolated g i.
Proof.
  unfold isolated_b, isolated. intros H j r r' Ei Ej Hne. rewrite Ei in H. rewrite forallb_forall in H.
  specialize (H (j, r') (nth_error_indexed _ j r' Ej)). cbn [fst snd] in H.
  replace (Nat.eqb j i) with false in H by (symmetry; now apply Nat.eqb_neq). cbn [orb] in H.
  unfold disjoint_b in H. unfold disjoint_regs. lia.
Qed.

Lemma nodup_b_sound l : nodup_b l = true -> NoDup l.
Proof.
  induction l as [|x t IH]; intros H; [constructor|]. cbn in H. apply andb_true_iff in H. destruct H as (H1 & H2).
  constructor; [|now apply IH]. intros Hin. apply negb_true_iff in H1.
  assert (existsb (Nat.eqb x) t = true) by (apply existsb_exists; exists x; split; [assumption|apply Nat.eqb_refl]). congruence.
Qed.

Lemma comp_ok_b_sound g c : comp_ok_b g c = true -> comp_ok g c /\ isolated g (comp_reg c).
Proof.
  unfold comp_ok_b, comp_ok. destruct (t_sreg g (Top (comp_reg c))) as [s|]; [|discriminate]. intros H.
  apply andb_true_iff in H. destruct H as (H & _). apply andb_true_iff in H. destruct H as (H & H3).
  apply andb_true_iff in H. destruct H as (H1 & H2).
  split; [|now apply isolated_b_sound]. exists s. split; [reflexivity|]. split; lia.
Qed.

Record wf_area (A : area) : Prop := {
  wa_regs : wf_regs (a_regs A);
  wa_fit : regs_fit (a_regs A) (area_total A);
  wa_size : 0 <= a_size A;
  wa_sized : a_sized A = true -> 0 < a_size A /\ 0 <= a_kind A <= 3;
  wa_fill : (a_fill A < 256)%N;
  wa_comp : Forall (fun c => comp_ok (a_regs A) c /\ isolated (a_regs A) (comp_reg c)) (a_computed A);
  wa_nodup : NoDup (map comp_reg (a_computed A));
  wa_seal : forall start count, a_seal A = Some (start, count) -> 0 <= start /\ 0 <= count /\ start + 4 * count <= a_size A;
  wa_doc : a_sized A = false -> a_size A <> 0 -> image_size (reg_imgs (a_regs A)) = a_size A;
  wa_opt : a_kind A <> 7 -> a_opt A = None
}.

Lemma wf_area_b_sound A : wf_area_b A = true -> wf_area A.
Proof.
  unfold wf_area_b. rewrite !andb_true_iff.
  intros ((((((((((_ & Cw) & Cf) & Cs) & Cz) & Cfill) & Cc) & Cn) & Cseal) & Cdoc) & Copt).
  constructor.
  - now apply wf_regs_b_sound.
  - unfold regs_fit. apply Forall_forall. intros r Hr. rewrite forallb_forall in Cf. specialize (Cf r Hr).
    clear - Cf. unfold reg_fits_b, reg_end in Cf. unfold reg_fits. lia.
  - clear - Cs. lia.
  - intros Hs. rewrite Hs in Cz. clear - Cz. cbn in Cz. lia.
  - apply N.ltb_lt. exact Cfill.
  - apply Forall_forall. intros c Hc. rewrite forallb_forall in Cc. now apply comp_ok_b_sound, Cc.
  - now apply nodup_b_sound.
  - intros start count E. rewrite E in Cseal. clear - Cseal. lia.
  - intros Hs Hn. rewrite Hs in Cdoc. clear - Cdoc Hn. cbn in Cdoc. lia.
  - intros Hk. destruct (a_opt A); [clear - Copt Hk; lia|reflexivity].
Qed.

Definition state_of (A : area) (g : regs) : Prop := wf_regs g /\ same_layout (a_regs A) g.

Lemma state_fresh A : wf_area A -> state_of A (a_regs A).
Proof. intros W. split; [apply W|apply same_layout_refl]. Qed.

Lemma isolated_layout g g' i : same_layout g g' -> isolated g i -> isolated g' i.
Proof.
  intros Hsl Hi j r r' Ei Ej Hne.
  destruct (same_layout_nth g' g i r (eq_sym Hsl) Ei) as (r0 & Er0 & E0).
  destruct (same_layout_nth g' g j r' (eq_sym Hsl) Ej) as (r1 & Er1 & E1).
  specialize (Hi j r0 r1 Er0 Er1 Hne). unfold disjoint_regs, reg_end in *.
  now rewrite <- (erase_r_proj s_offset (fun _ => eq_refl) E0), <- (erase_r_proj s_width (fun _ => eq_refl) E0),
              <- (erase_r_proj s_offset (fun _ => eq_refl) E1), <- (erase_r_proj s_width (fun _ => eq_refl) E1).
Qed.

Lemma state_fit A g : wf_area A -> a_sized A = true -> state_of A g ->
  regs_fit g (a_size A) /\ total_of g (a_size A) = a_size A.
Proof.
  intros W Hs (_ & Hsl). destruct (wa_sized A W Hs) as (Hpos & _). split.
  - apply (regs_fit_layout (a_regs A)); [exact Hsl|]. pose proof (wa_fit A W) as F. unfold area_total in F. now rewrite Hs in F.
  - unfold total_of. now replace (a_size A =? 0) with false by lia.
Qed.

(* size: every export of a PFR / IFR area has exactly BINARY_SIZE bytes, sealed or not;
   sealing only replaces the seal words *)
Definition seal_bytes (count : Z) : list N := List.concat (repeat SEAL (Z.to_nat count)).

Lemma seal_bytes_length count : 0 <= count -> zlen (seal_bytes count) = 4 * count.
Proof.
  intros H. unfold seal_bytes, zlen. rewrite <- (Z2Nat.id count) at 2 by assumption.
  induction (Z.to_nat count) as [|n IH]; [reflexivity|]. cbn [repeat List.concat]. rewrite app_length. cbn [SEAL length]. lia.
Qed.

(* BaseConfigArea.export: the register image, the seal words replaced on request, the size checked *)
Lemma area_export_sized A g add_seal : wf_area A -> a_sized A = true -> state_of A g ->
  exists d, export_with g (a_size A) (a_fill A) = Ok d /\ zlen d = a_size A /\
    let out := match add_seal, a_seal A with
               | true, Some (start, count) => splice d (Z.to_nat start) (seal_bytes count)
               | _, _ => d
               end in
    area_export A g add_seal = Ok out /\ zlen out = a_size A.
Proof.
  intros W Hs St. destruct (state_fit A g W Hs St) as (Hf & Et). destruct St as (Hg & _).
  destruct (export_with g (a_size A) (a_fill A)) as [d|] eqn:Ex;
    [|destruct (export_with_ok g _ (a_fill A) Hg Hf (wa_size A W)) as (_ & _ & Ex'); congruence].
  pose proof (export_with_size g _ _ d Hg Hf (wa_size A W) Ex) as Ld. rewrite Et in Ld.
  exists d. split; [reflexivity|]. split; [exact Ld|]. unfold area_export. rewrite Hs, Ex. cbn [bind].
  assert (L : zlen (match add_seal, a_seal A with
                    | true, Some (start, count) => splice d (Z.to_nat start) (seal_bytes count) | _, _ => d end) = a_size A).
  { destruct add_seal; [|exact Ld]. destruct (a_seal A) as [(start, count)|] eqn:Es; [|exact Ld].
    destruct (wa_seal A W start count Es) as (S1 & S2 & S3). pose proof (seal_bytes_length count S2).
    unfold zlen in *. rewrite splice_length; lia. }
  cbv zeta. unfold seal_bytes in *. rewrite L, Z.eqb_refl. split; reflexivity.
Qed.

(* every register that shares no byte with another one is found in the binary, in the byte order of the file *)
Theorem area_value_in_binary_lemma A g i r bin : wf_area A -> a_sized A = true -> state_of A g ->
  nth_error (g_regs g) i = Some r -> isolated (a_regs A) i -> area_export A g false = Ok bin ->
  slice bin (Z.to_nat (s_offset (r_base r))) (Z.to_nat (reg_end r)) =
  enc (g_big g) (Z.to_nat (s_width (r_base r) / 8)) (reg_stored r true).
Proof.
  intros W Hs St E Hi Ex. destruct (area_export_sized A g false W Hs St) as (d & Ed & _ & Ex' & _).
  cbv zeta in Ex'. rewrite Ex in Ex'. injection Ex' as <-.
  apply (export_reg_bytes_lemma g (a_size A) (a_fill A) i r bin (proj1 St) (proj1 (state_fit A g W Hs St)) (wa_size A W) E);
    [|exact Ed]. exact (isolated_layout _ _ i (proj2 St) Hi).
Qed.

Lemma tz_words_length P cu : forall i ws, tz_words P cu i = Ok ws -> length ws = length P.
Proof.
  induction P as [|(n, d) t IH]; intros i ws H; cbn [tz_words] in H; [now injection H as <-|].
  destruct (tz_value _) as [w|]; [|discriminate]. cbn [bind] in H.
  destruct (tz_words t cu (i + 1)) as [ws'|] eqn:E; [|discriminate]. cbn [bind] in H. injection H as <-. cbn. f_equal. eapply IH; eassumption.
Qed.

Lemma flat_enc_length ws : length (flat_map (fun w => le_enc 4 (Z.to_N w)) ws) = (4 * length ws)%nat.
Proof. induction ws as [|w t IH]; [reflexivity|]. cbn [flat_map]. rewrite app_length, le_enc_length, IH. cbn. lia. Qed.

Lemma tz_unpack_enc ws : Forall (fun w => 0 <= w < 2 ^ 32) ws ->
  forall rest, tz_unpack (length ws) (flat_map (fun w => le_enc 4 (Z.to_N w)) ws ++ rest) = ws.
Proof.
  induction 1 as [|w t Hw Ht IH]; intros rest; [reflexivity|].
  change (length (w :: t)) with (S (length t)). cbn [tz_unpack].
  change (flat_map (fun w0 => le_enc 4 (Z.to_N w0)) (w :: t)) with (le_enc 4 (Z.to_N w) ++ flat_map (fun w0 => le_enc 4 (Z.to_N w0)) t).
  rewrite <- app_assoc.
  rewrite firstn_app_exact, skipn_app_exact by apply le_enc_length.
  rewrite le_dec_enc_small by (change (2 ^ (8 * N.of_nat 4))%N with (Z.to_N (2 ^ 32)); lia).
  rewrite Z2N.id by lia. f_equal. apply IH.
Qed.

Lemma tz_custom_seq ws : forall s i acc,
  tz_custom (combine (zseq s (length ws)) (map VInt ws)) i acc =
  if (s <=? i) && (i <? s + zlen ws) then Some (VInt (nth (Z.to_nat (i - s)) ws 0)) else acc.
Proof.
  induction ws as [|w t IH]; intros s i acc; unfold zlen; cbn [length zseq map combine tz_custom].
  - replace ((s <=? i) && (i <? s + Z.of_nat 0)) with false by lia. reflexivity.
  - rewrite IH. unfold zlen. destruct (Z.eqb_spec i s) as [->|Hne].
    + replace ((s + 1 <=? s) && (s <? s + 1 + Z.of_nat (length t))) with false by lia.
      replace ((s <=? s) && (s <? s + Z.of_nat (S (length t)))) with true by lia. now rewrite Z.sub_diag.
    + destruct (Z.leb_spec (s + 1) i); destruct (Z.ltb_spec i (s + 1 + Z.of_nat (length t))); cbn [andb].
      * replace ((s <=? i) && (i <? s + Z.of_nat (S (length t)))) with true by lia.
        replace (Z.to_nat (i - s)) with (S (Z.to_nat (i - (s + 1)))) by lia. reflexivity.
      * replace ((s <=? i) && (i <? s + Z.of_nat (S (length t)))) with false by lia. reflexivity.
      * replace ((s <=? i) && (i <? s + Z.of_nat (S (length t)))) with false by lia. reflexivity.
      * replace ((s <=? i) && (i <? s + Z.of_nat (S (length t)))) with false by lia. reflexivity.
Qed.

Lemma tz_words_custom P : forall ws cu s, length ws = length P ->
  (forall j w, nth_error ws j = Some w -> tz_custom cu (s + Z.of_nat j) None = Some (VInt w)) ->
  tz_words P cu s = Ok ws.
Proof.
  induction P as [|(n, d) t IH]; intros ws cu s Hl H; destruct ws as [|w ws']; try discriminate; cbn [tz_words]; [reflexivity|].
  pose proof (H 0%nat w eq_refl) as H0. rewrite Z.add_0_r in H0. rewrite H0. cbn [tz_value bind].
  rewrite (IH ws' cu (s + 1)); [reflexivity|cbn in Hl; lia|].
  intros j x Hj. specialize (H (S j) x Hj). replace (s + 1 + Z.of_nat j) with (s + Z.of_nat (S j)) by lia. exact H.
Qed.

(* structural classes of the recorded findings: the positive theorems above do not speak about these areas *)
Definition has_alt_b (A : area) : bool :=
  existsb (fun r => match s_alt (r_base r) with [] => false | _ => true end) (g_regs (a_regs A)).
Definition short_group_b (r : reg) : bool :=
  match r_subs r with
  | [] => false
  | s0 :: _ => negb (Z.of_nat (length (r_subs r)) * s_width s0 =? s_width (r_base r))
  end.
Definition has_short_group_b (A : area) : bool := existsb short_group_b (g_regs (a_regs A)).
Definition beyond_size_b (A : area) : bool :=
  negb (a_sized A) && negb (a_size A =? 0) && (a_size A <? image_size (reg_imgs (a_regs A))).
Definition known_class_b (A : area) : bool := has_alt_b A || has_short_group_b A || beyond_size_b A.

(* A member of a recorded class is excused for the defect that defines the class and for nothing else: wf_area_x_b is
   wf_area_b with exactly three clauses relaxed, each only where the defect is exhibited:
     - a top-level register that HAS alternative widths may have them (they must be positive multiples of 8 up to the width);
     - a grouped register that IS wider than its sub-registers may be (sub-registers of one width, not more than the group);
     - a segment register file that IS longer than the documented SIZE may be (never shorter).
   Everything else (widths, value ranges, bit-fields inside their register and pairwise disjoint, registers inside a sized
   binary, fill, seal, computed fields, duplicate computed registers, the XMCD option) is demanded of every area. *)
Definition has_alt_reg_b (r : reg) : bool := match s_alt (r_base r) with [] => false | _ => true end.
Definition wf_reg_x_b (r : reg) : bool :=
  wf_sreg_b (has_alt_reg_b r) (r_base r) && forallb (wf_sreg_b false) (r_subs r) &&
  match r_subs r with
  | [] => true
  | s0 :: _ => forallb (fun s => s_width s =? s_width s0) (r_subs r) &&
               (if short_group_b r then Z.of_nat (length (r_subs r)) * s_width s0 <? s_width (r_base r)
                else Z.of_nat (length (r_subs r)) * s_width s0 =? s_width (r_base r)) &&
               (s_value (r_base r) =? 0)
  end.
Definition wf_area_x_b (A : area) : bool :=
  forallb reg_fields_disjoint_b (g_regs (a_regs A)) &&
  forallb wf_reg_x_b (g_regs (a_regs A)) &&
  forallb (reg_fits_b (area_total A)) (g_regs (a_regs A)) &&
  (0 <=? a_size A) && (negb (a_sized A) || ((0 <? a_size A) && (0 <=? a_kind A) && (a_kind A <=? 3))) &&
  (a_fill A <? 256)%N &&
  forallb (comp_ok_b (a_regs A)) (a_computed A) && nodup_b (map comp_reg (a_computed A)) &&
  match a_seal A with Some (start, count) => (0 <=? start) && (0 <=? count) && (start + 4 * count <=? a_size A) | None => true end &&
  (a_sized A || (a_size A =? 0) || (if beyond_size_b A then true else image_size (reg_imgs (a_regs A)) =? a_size A)) &&
  match a_opt A with Some _ => a_kind A =? 7 | None => true end.

(* every area of every family and revision in the database satisfies every clause outside its recorded defect, and is
   fully well formed unless it exhibits one of the three recorded defects *)
Lemma all_areas_swept_lemma : forallb (fun A => wf_area_x_b A && (wf_area_b A || known_class_b A)) all_areas = true.
Proof. vm_compute. reflexivity. Qed.

(* the classes are not empty words: the recorded findings are in today's data *)
Lemma known_classes_inhabited_lemma :
  existsb has_alt_b all_areas = true /\ existsb has_short_group_b all_areas = true /\ existsb beyond_size_b all_areas = true.
Proof. vm_compute. repeat split. Qed.

(* finding C12-F1: a group register declared wider than its sub-registers drops the upper part of an in-range value *)
Definition truncating_group_b (A : area) : bool :=
  existsb (fun ir =>
    short_group_b (snd ir) &&
    let W := s_width (r_base (snd ir)) in
    match t_set (a_regs A) (Top (fst ir)) (2 ^ (W - 1)) true with
    | Ok g => match t_get g (Top (fst ir)) true with Ok v => negb (v =? 2 ^ (W - 1)) | Err _ => false end
    | Err _ => false
    end) (indexed (g_regs (a_regs A))).

(* the hypotheses of the theorems are satisfiable on real data: the first CMPA layout of the database *)
Example ex_area_wf : match all_areas with A :: _ => wf_area_b A = true /\ a_sized A = true | [] => False end.
Proof. vm_compute. split; reflexivity. Qed.
Example ex_hidden_agree A : hidden_agree (a_regs A) (a_regs A).
Proof. intros i r E _. exact E. Qed.

Definition nentry (fs : list field) (V : Z) : centry :=
  match fs with [] => CVal (VInt V) | _ => CFields (numeric_cfg 0 fs V) end.

Lemma load_nentry g1 t s V : wf_regs g1 -> t_sreg g1 t = Some s -> in_range (s_width s) V ->
  (s_fields s = [] \/ tiles (s_fields s) (s_width s)) ->
  exists g2, load_entry g1 t (nentry (s_fields s) V) = (g2, Ok tt) /\ wf_regs g2 /\ same_layout g1 g2 /\
             t_get g2 t false = Ok V /\ (forall u r', top_of u <> top_of t -> t_get g2 u r' = t_get g1 u r').
Proof.
  intros Hg Hs HV Ht. unfold nentry. destruct (s_fields s) as [|f0 fr] eqn:Ef.
  - destruct (t_set_ok g1 t s V false Hg Hs HV) as (g2 & T1 & T2 & T3 & T4 & T5 & _).
    exists g2. unfold load_entry. rewrite Hs. cbn [cfg_value to_int bind]. rewrite T1. repeat split; assumption.
  - destruct Ht as [Ht|Ht]; [discriminate|]. rewrite <- Ef in *.
    destruct (config_numeric_lemma g1 t s V Hg Hs HV Ht) as (g2 & L & W & S & G & _ & Fr). exists g2. repeat split; assumption.
Qed.

Definition fields_of (g : regs) (i : nat) : list field :=
  match t_sreg g (Top i) with Some s => s_fields s | None => [] end.

Lemma fields_of_layout g g' i : same_layout g g' -> fields_of g' i = fields_of g i.
Proof.
  intros H. unfold fields_of. destruct (t_sreg g (Top i)) as [s|] eqn:E.
  - destruct (same_layout_sreg g g' _ s H E) as (s' & -> & Ee). now rewrite (erase_s_proj s_fields (fun _ => eq_refl) Ee).
  - destruct (t_sreg g' (Top i)) as [s'|] eqn:E'; [|reflexivity].
    destruct (same_layout_sreg g' g _ s' (eq_sym H) E') as (s & E2 & _). congruence.
Qed.

(* register i can carry the value V through a configuration *)
Definition cfg_ok (g : regs) (iv : nat * Z) : Prop :=
  exists s, t_sreg g (Top (fst iv)) = Some s /\ in_range (s_width s) (snd iv) /\
            (s_fields s = [] \/ tiles (s_fields s) (s_width s)).

Lemma cfg_ok_layout g g' iv : same_layout g g' -> cfg_ok g iv -> cfg_ok g' iv.
Proof.
  intros H (s & E & R & T). destruct (same_layout_sreg g g' _ s H E) as (s' & E' & Ee).
  exists s'. rewrite (erase_s_proj s_fields (fun _ => eq_refl) Ee), (erase_s_proj s_width (fun _ => eq_refl) Ee). tauto.
Qed.

Definition numeric_config (g : regs) (l : list (nat * Z)) : list (ref * centry) :=
  map (fun iv => (Top (fst iv), nentry (fields_of g (fst iv)) (snd iv))) l.

Lemma load_numeric_all : forall l g1, wf_regs g1 -> NoDup (map fst l) -> Forall (cfg_ok g1) l ->
  exists g2, load_cfg g1 (numeric_config g1 l) = (g2, Ok tt) /\ wf_regs g2 /\ same_layout g1 g2 /\
    (forall i V, In (i, V) l -> t_get g2 (Top i) false = Ok V) /\
    (forall u r', ~ In (top_of u) (map fst l) -> t_get g2 u r' = t_get g1 u r').
Proof.
  induction l as [|(i, V) rest IH]; intros g1 Hg Hnd Hc; cbn [numeric_config map load_cfg].
  - exists g1. split; [reflexivity|]. split; [assumption|]. split; [apply same_layout_refl|]. split; [intros ? ? []|reflexivity].
  - inversion Hc as [|? ? (s & Es & Rs & Ts) Hrest]; subst. cbn [fst snd] in *.
    inversion Hnd as [|? ? Hni Hnd']; subst.
    assert (Ef : fields_of g1 i = s_fields s) by (unfold fields_of; now rewrite Es). rewrite Ef.
    destruct (load_nentry g1 (Top i) s V Hg Es Rs Ts) as (g2 & L1 & L2 & L3 & L4 & L5). rewrite L1.
    destruct (IH g2 L2 Hnd') as (g3 & M1 & M2 & M3 & M4 & M5).
    { eapply Forall_impl; [|exact Hrest]. intros iv. now apply cfg_ok_layout. }
    assert (En : numeric_config g1 rest = numeric_config g2 rest).
    { unfold numeric_config. apply map_ext. intros iv. now rewrite (fields_of_layout g1 g2 _ L3). }
    fold (numeric_config g1 rest). rewrite En, M1.
    exists g3. split; [reflexivity|]. split; [assumption|]. split; [eapply same_layout_trans; eassumption|]. split.
    + intros i0 V0 [Heq|Hin]; [|now apply M4]. injection Heq as <- <-. rewrite M5; [exact L4|]. exact Hni.
    + intros u r' Hu. cbn [map fst In] in Hu. rewrite M5 by tauto. apply L5. cbn [top_of]. intros Heq. apply Hu. left. now symmetry.
Qed.

Fixpoint values_from (g : regs) (i : nat) (n : nat) : list (nat * Z) :=
  match n with
  | O => []
  | S k => match t_get g (Top i) false with Ok v => (i, v) :: values_from g (S i) k | Err _ => values_from g (S i) k end
  end.
Definition values_of (g : regs) : list (nat * Z) := values_from g 0 (length (g_regs g)).

Lemma values_from_fst g n : forall i x, In x (map fst (values_from g i n)) -> (i <= x < i + n)%nat.
Proof.
  induction n as [|n IH]; intros i x H; cbn [values_from] in H; [destruct H|].
  destruct (t_get g (Top i) false); cbn [map fst In] in H; [destruct H as [<-|H]; [lia|]|]; apply IH in H; lia.
Qed.

Lemma values_from_nodup g n : forall i, NoDup (map fst (values_from g i n)).
Proof.
  induction n as [|n IH]; intros i; cbn [values_from]; [constructor|].
  destruct (t_get g (Top i) false); [|apply IH]. cbn [map fst]. constructor; [|apply IH].
  intros H. apply values_from_fst in H. lia.
Qed.

Lemma values_from_in g n : forall i j V, In (j, V) (values_from g i n) -> t_get g (Top j) false = Ok V.
Proof.
  induction n as [|n IH]; intros i j V H; cbn [values_from] in H; [destruct H|].
  destruct (t_get g (Top i) false) eqn:E; [destruct H as [Heq|H]; [injection Heq as <- <-; exact E|]|]; eapply IH; eassumption.
Qed.

Lemma values_from_all g n : wf_regs g -> forall i j, (i <= j < i + n)%nat -> (j < length (g_regs g))%nat ->
  exists V, In (j, V) (values_from g i n).
Proof.
  intros Hg. induction n as [|n IH]; intros i j Hj Hl; [lia|]. cbn [values_from].
  destruct (Nat.eq_dec j i) as [->|Hne].
  - destruct (nth_error (g_regs g) i) as [r|] eqn:E; [|apply nth_error_None in E; lia].
    destruct (t_get_total g (Top i) (r_base r) false Hg) as (v & G & _); [cbn [t_sreg]; now rewrite E|].
    rewrite G. exists v. now left.
  - destruct (IH (S i) j) as (V & HV); [lia|assumption|]. exists V. destruct (t_get g (Top i) false); [now right|assumption].
Qed.

Definition all_tiled (g : regs) : Prop :=
  forall i s, t_sreg g (Top i) = Some s -> s_fields s = [] \/ tiles (s_fields s) (s_width s).

(* loading the numeric content of the configuration of g into any object g0 of the same layout gives every top-level
   register (hence every bit-field) the value it has in g *)
Theorem config_roundtrip_lemma_area g g0 : wf_regs g -> wf_regs g0 -> same_layout g g0 -> all_tiled g ->
  exists g', load_cfg g0 (numeric_config g0 (values_of g)) = (g', Ok tt) /\ wf_regs g' /\ same_layout g g' /\
    forall i, (i < length (g_regs g))%nat -> t_get g' (Top i) false = t_get g (Top i) false.
Proof.
  intros Hg Hg0 Hsl Ht.
  destruct (load_numeric_all (values_of g) g0 Hg0 (values_from_nodup g _ 0)) as (g' & L1 & L2 & L3 & L4 & _).
  { apply Forall_forall. intros (i, V) Hin. pose proof (values_from_in g _ 0 i V Hin) as G.
    apply (cfg_ok_layout g g0 _ Hsl). cbn [t_get] in G.
    destruct (nth_error (g_regs g) i) as [r|] eqn:E; [|discriminate].
    assert (Es : t_sreg g (Top i) = Some (r_base r)) by (cbn [t_sreg]; now rewrite E).
    destruct (t_get_total g (Top i) (r_base r) false Hg Es) as (v & G' & R). cbn [t_get] in G'. rewrite E in G'. rewrite G in G'. injection G' as <-.
    exists (r_base r). split; [exact Es|]. split; [exact R|]. now apply (Ht i). }
  exists g'. split; [exact L1|]. split; [exact L2|]. split; [eapply same_layout_trans; eassumption|].
  intros i Hi. destruct (values_from_all g (length (g_regs g)) Hg 0 i) as (V & HV); [lia|assumption|].
  rewrite (L4 i V HV). symmetry. eapply values_from_in; eassumption.
Qed.

Definition tiles_b (fs : list field) (W : Z) : bool := forallb (covered fs) (zseq 0 (Z.to_nat W)).

Lemma zseq_in n k : forall s, s <= n < s + Z.of_nat k -> In n (zseq s k).
Proof.
  induction k as [|k IH]; intros s H; [lia|]. cbn [zseq]. destruct (Z.eq_dec n s) as [->|Hne]; [now left|].
  right. apply IH. lia.
Qed.

Lemma tiles_b_sound fs W : tiles_b fs W = true -> tiles fs W.
Proof.
  unfold tiles_b, tiles. intros H n Hn. rewrite forallb_forall in H. apply H. apply zseq_in. lia.
Qed.

Definition tiled_regs_b (g : regs) : bool :=
  forallb (fun r => match s_fields (r_base r) with [] => true | fs => tiles_b fs (s_width (r_base r)) end) (g_regs g).

Lemma tiled_regs_b_sound g : tiled_regs_b g = true -> all_tiled g.
Proof.
  unfold tiled_regs_b, all_tiled. intros H i s Es. cbn [t_sreg] in Es.
  destruct (nth_error (g_regs g) i) as [r|] eqn:E; [|discriminate]. cbn [option_map] in Es. injection Es as <-.
  rewrite forallb_forall in H. specialize (H r (nth_error_In _ _ E)).
  destruct (s_fields (r_base r)) as [|f t] eqn:Ef; [now left|right]. rewrite <- Ef in *. now apply tiles_b_sound.
Qed.

Lemma all_tiled_layout g g' : same_layout g g' -> all_tiled g -> all_tiled g'.
Proof.
  intros Hsl Ht i s' Es'. destruct (same_layout_sreg g' g _ s' (eq_sym Hsl) Es') as (s & Es & Ee).
  rewrite <- (erase_s_proj s_fields (fun _ => eq_refl) Ee), <- (erase_s_proj s_width (fun _ => eq_refl) Ee). now apply (Ht i).
Qed.

(* how much of the database this covers is measured by the check (tiled_regs_b over all_areas) *)
Example ex_tiled : match all_areas with A :: _ => tiled_regs_b (a_regs A) = true | [] => False end.
Proof. vm_compute. reflexivity. Qed.
