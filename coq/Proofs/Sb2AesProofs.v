(* C04: the premise of the concrete-AES image theorems.  For byte-valued keys under a legal KEK the CryptoRef AES has the
   key-wrap law (Sb2Proofs.keys_wrap_aes, from aes_dec_enc and RFC 3394 in Proofs/CryptoProofs.v), so the theorems of
   Sb2Proofs.v apply to sbE / sbD. *)
From Coq Require Import ZArith NArith List Bool Lia.
Require Import Value Bytes BytesProofs GenSb2 Sha2 Aes Modes Hmac KeyWrap Crc Sb2Model.
Require Import Sb2Proofs.
Import ListNotations.
Local Open Scope N_scope.

Definition aes_keys_ok (x : sbin) : Prop :=
  aes_key_ok (x_kek x) = true /\ wf_bytes (x_kek x) /\ wf_bytes (x_dek x) /\ wf_bytes (x_mac x).

Lemma keys_wrap_sbin_aes x : wf_sbin x -> aes_keys_ok x -> keys_wrap sbE sbD (x_kek x) (x_dek x) (x_mac x).
Proof. intros (_ & Ld & Lm & _) (Hk & Wk & Wd & Wm). now apply keys_wrap_aes. Qed.

(* the premises are satisfiable: the demo input *)
Example aes_keys_ok_demo flags : aes_keys_ok (demo flags demo_secs).
Proof.
  unfold aes_keys_ok, demo. cbn [x_kek x_dek x_mac]. split; [reflexivity|].
  repeat split; apply wf_bytesb_spec; reflexivity.
Qed.
