(* Proofs/DatHashProofs.v -- C15: the RoT hash of a created ECC credential is the C03 construction. *)
From Coq Require Import ZArith NArith List Bool Lia.
Require Import Value Bytes BytesProofs Sha2 GenRot RotModel RotProofs GenDat DatModel DatProofs DatCreateProofs.
Import ListNotations.
Local Open Scope N_scope.
Local Opaque on_curve curve_p curve_b.

(* (a) model identity, for every key list: what calculate_hash returns for the created credential is C03's dc_ecc_hash *)
Lemma dc_rot_hash_ecc_model ele cnt socc ks rot_id dck uuid socu vu beacon fca d sig :
  dc_create ele cnt socc ks rot_id dck uuid socu vu beacon fca = Ok (CEcc, d) ->
  dc_calc_hash CEcc (dc_with_sig d sig) = dc_ecc_hash ks rot_id.
Proof.
  intros H. apply dc_create_iff in H as (rot & v & m & EN & _ & _ & _ & _ & _ & EM & ->).
  apply rot_meta_ecc_inv in EM as (k0 & t & items & EK & F1 & F3 & EI & FV & ->).
  unfold dc_with_sig, dc_calc_hash, dc_ecc_hash. cbn [d_meta d_rot ecc_table]. rewrite EI. cbn [bind].
  unfold flags_validate in FV. apply andb_true_iff in FV as [FV1 FV2]. apply negb_true_iff in FV1, FV2. rewrite FV1, FV2. cbn [orb].
  replace (1 <? nlen items) with (1 <? length items)%nat
    by (unfold nlen; destruct (Nat.ltb_spec 1 (length items)); symmetry; [apply N.ltb_lt|apply N.ltb_ge]; lia).
  destruct (if (1 <? length items)%nat then concat items else []) as [|b0 tb].
  - rewrite EN. now replace (is_ecc_key rot) with true by (symmetry; rewrite forallb_forall in F1; eapply F1, nth_error_In, EN).
  - replace (nlen ks =? 0) with false by (now rewrite EK). rewrite EK.
    (* the coordinate size is one of the HASH_SIZES keys: both tables give the same digest *)
    unfold mem_n in F3. apply existsb_exists in F3 as (x & Hx & Hxe). apply N.eqb_eq in Hxe. rewrite Hxe.
    change (map fst g_hash_sizes) with [32; 48; 66] in Hx. cbn [In] in Hx.
    destruct Hx as [<- | [<- | [<- | []]]]; reflexivity.
Qed.

(* (b) the C03 statement for points of P-256 / P-384: the debug-credential hash is the documented RoT hash of the
   certificate-block-v2.1 tools (rot_spec_v21): one key -> its hash, several -> hash of the table of hashes *)
Lemma dc_ecc_hash_spec c ks rot_id : (c = 256 \/ c = 384) -> ks <> [] -> (length ks <= 4)%nat -> (N.to_nat rot_id < length ks)%nat ->
  Forall (ecc_key_wf c) ks -> dc_ecc_hash ks rot_id = Ok (rot_spec_v21 ks).
Proof. intros Hc _ HL Hid Hks. destruct (ecc_keys_rot c ks) as [HF HK]; [tauto|assumption|]. now apply (dc_ecc_ok c). Qed.

(* the hypotheses of the property (created ECC credential -> its RoT hash is the image-tool value) are satisfiable *)
Example dc_rot_hash_ecc_nontrivial :
  exists d, dc_create 0 1 4 [g256; g256] 1 g256 (zeros 16) 1 2 3 false = Ok (CEcc, d) /\ Forall (ecc_key_wf 256) [g256; g256].
Proof.
  assert (W : ecc_key_wf 256 g256) by (split; [reflexivity|vm_compute; reflexivity]).
  eexists. split; [vm_compute; reflexivity|exact (Forall_cons _ W (Forall_cons _ W (Forall_nil _)))].
Qed.
