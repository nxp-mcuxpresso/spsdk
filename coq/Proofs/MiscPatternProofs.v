(* MiscPatternProofs.v -- C20: BinaryPattern.get_block / align_block against a pattern
   stream specification (the byte at index i of an infinite stream). *)
From Coq Require Import ZArith NArith List Bool Lia.
Require Import Value Bytes BytesProofs GenMisc MiscModel MiscProofs.
Import ListNotations.
Local Open Scope Z_scope.

(* the repeating unit of a numeric pattern: big-endian, minimal width (at least one byte) *)
Definition num_unit (v : Z) : list N := be_enc (Z.to_nat (width_spec v false)) (Z.to_N v).
Definition pattern_byte (p : pattern) (i : nat) : N :=
  match p with
  | PZeros => 0%N
  | POnes => 255%N
  | PInc => (N.of_nat i mod 256)%N
  | PNum v => nth (i mod length (num_unit v)) (num_unit v) 0%N
  end.
Definition pattern_prefix (p : pattern) (n : nat) : list N := map (pattern_byte p) (seq 0 n).
Definition pattern_defined (p : pattern) : Prop := match p with PNum v => 0 <= v | _ => True end.

Lemma repeat_map_seq {A} (x : A) n : repeat x n = map (fun _ => x) (seq 0 n).
Proof.
  induction n as [|n IH]; [reflexivity|].
  cbn [repeat seq map]. rewrite <- seq_shift, map_map. now rewrite IH.
Qed.

Lemma inc_block_map_seq n s :
  inc_block n s = map (fun i => ((s + N.of_nat i) mod 256)%N) (seq 0 n).
Proof.
  revert s. induction n as [|n IH]; intros s; [reflexivity|].
  cbn [inc_block seq map]. rewrite <- seq_shift, map_map, IH.
  f_equal.
  - f_equal. lia.
  - apply map_ext. intros i. f_equal. lia.
Qed.

Lemma mod_wrap i L : L <> 0%nat -> ((L + i) mod L = i mod L)%nat.
Proof.
  intros HL. replace (L + i)%nat with (i + 1 * L)%nat by lia. apply Nat.mod_add. exact HL.
Qed.

Lemma cycle_fuel_restart n pat : cycle_fuel n pat [] = cycle_fuel n pat pat.
Proof. destruct n as [|n]; [reflexivity|]. destruct pat; reflexivity. Qed.

(* key lemma: the model's cursor walk equals index arithmetic modulo the unit length *)
Lemma cycle_fuel_skipn n pat off : pat <> [] -> (off <= length pat)%nat ->
  cycle_fuel n pat (skipn off pat) =
  map (fun i => nth ((off + i) mod length pat) pat 0%N) (seq 0 n).
Proof.
  intros Hp. revert off. induction n as [|n IH]; intros off Hoff; [reflexivity|].
  assert (HL : length pat <> 0%nat) by (destruct pat; [congruence|discriminate]).
  assert (Hlt : forall o, (o < length pat)%nat ->
            cycle_fuel (S n) pat (skipn o pat) =
            map (fun i => nth ((o + i) mod length pat) pat 0%N) (seq 0 (S n))).
  { intros o Ho. cbn [seq map]. rewrite <- seq_shift, map_map.
    destruct (skipn o pat) as [|c t] eqn:E.
    - apply skipn_nil_inv in E. lia.
    - cbn [cycle_fuel].
      apply (skipn_cons_inv pat o c t 0%N) in E. destruct E as (H1 & H2 & H3).
      rewrite <- H2. rewrite IH by lia.
      f_equal.
      + rewrite Nat.add_0_r, Nat.mod_small by lia. symmetry. exact H1.
      + apply map_ext. intros i. replace (S o + i)%nat with (o + S i)%nat by lia. reflexivity. }
  destruct (Nat.eq_dec off (length pat)) as [->|Hne].
  - rewrite skipn_all, cycle_fuel_restart.
    pose proof (Hlt 0%nat ltac:(lia)) as H0. cbn [skipn] in H0. rewrite H0.
    apply map_ext. intros i. rewrite mod_wrap by exact HL. reflexivity.
  - apply Hlt. lia.
Qed.

Lemma cycle_fuel_stream n pat : pat <> [] ->
  cycle_fuel n pat pat = map (fun i => nth (i mod length pat) pat 0%N) (seq 0 n).
Proof.
  intros Hp. exact (cycle_fuel_skipn n pat 0 Hp (Nat.le_0_l _)).
Qed.

Lemma pattern_prefix_0 p : pattern_prefix p 0 = [].
Proof. reflexivity. Qed.

Lemma pattern_prefix_length p n : length (pattern_prefix p n) = n.
Proof. unfold pattern_prefix. now rewrite map_length, seq_length. Qed.

Lemma num_unit_spec v : 0 <= v ->
  value_to_bytes_int v false 0 true = Ok (num_unit v) /\ be_dec (num_unit v) = Z.to_N v /\
  (0 < length (num_unit v))%nat /\
  (forall c, 0 <= c -> v < 2 ^ (8 * c) -> v <> 0 -> Z.of_nat (length (num_unit v)) <= c).
Proof.
  intros Hv. destruct (width_spec_fits v false Hv) as [Hf Hp]. unfold num_unit. rewrite be_enc_length.
  split; [now apply value_to_bytes_int_eq|]. split; [|split; [lia|]].
  - apply be_dec_enc_small. replace (8 * N.of_nat (Z.to_nat (width_spec v false)))%N
      with (N.of_nat (Z.to_nat (8 * width_spec v false))) by lia. apply lt_pow_to_N; lia.
  - intros c Hc Hb Hne. rewrite Z2Nat.id by lia. apply width_spec_minimal; lia.
Qed.

Lemma pattern_block_spec p n : pattern_defined p -> pattern_block p n = Ok (pattern_prefix p n).
Proof.
  destruct p as [| | |v]; cbn [pattern_defined]; intros Hd; cbn [pattern_block]; unfold pattern_prefix.
  - f_equal. rewrite repeat_map_seq. apply map_ext. reflexivity.
  - f_equal. rewrite repeat_map_seq. apply map_ext. reflexivity.
  - f_equal. rewrite inc_block_map_seq. apply map_ext. reflexivity.
  - destruct (num_unit_spec v Hd) as (E & _ & Hl & _). rewrite E. f_equal.
    rewrite cycle_fuel_stream.
    + apply map_ext. reflexivity.
    + intros H0. rewrite H0 in Hl. cbn in Hl. lia.
Qed.

Lemma pattern_block_rejects v n : v < 0 -> pattern_block (PNum v) n = Err 1%N.
Proof.
  intros H. cbn [pattern_block]. now rewrite value_to_bytes_neg_rejected.
Qed.

Lemma pattern_defined_dec p : pattern_defined p \/ exists v, p = PNum v /\ v < 0.
Proof.
  destruct p as [| | |v]; try (left; exact I).
  destruct (Z_lt_le_dec v 0) as [Hn|Hp]; [right; exists v; split; [reflexivity|exact Hn]|left; exact Hp].
Qed.

(* with a defined pattern the padding is the pattern's prefix, whatever its length *)
Lemma align_block_defined d a p r : pattern_defined p -> py_align (Z.of_nat (length d)) a = Ok r ->
  align_block d a p = Ok (d ++ pattern_prefix p (Z.to_nat (r - Z.of_nat (length d)))).
Proof.
  intros Hd H. rewrite (align_block_eq d a p r H). cbv zeta. rewrite pattern_block_spec by exact Hd.
  destruct (Z.to_nat (r - Z.of_nat (length d))); [|reflexivity]. now rewrite pattern_prefix_0, app_nil_r.
Qed.

Lemma align_block_pattern d a p d2 : align_block d a p = Ok d2 ->
  exists r, py_align (Z.of_nat (length d)) a = Ok r /\ Z.of_nat (length d) <= r /\
    d2 = d ++ pattern_prefix p (Z.to_nat (r - Z.of_nat (length d))).
Proof.
  intros H. destruct (align_block_appends d a p d2 H) as (_ & r & _ & E & _). exists r. split; [exact E|].
  split; [apply py_align_spec in E; lia|].
  destruct (pattern_defined_dec p) as [Hd|(v & -> & Hv)].
  - rewrite (align_block_defined d a p r Hd E) in H. now injection H.
  - rewrite (align_block_eq d a _ r E) in H. cbv zeta in H.
    destruct (Z.to_nat (r - Z.of_nat (length d))); [injection H as <-; now rewrite pattern_prefix_0, app_nil_r|].
    now rewrite pattern_block_rejects in H.
Qed.

Lemma align_block_total d a p : 0 < a -> pattern_defined p ->
  exists r, py_align (Z.of_nat (length d)) a = Ok r /\
    align_block d a p = Ok (d ++ pattern_prefix p (Z.to_nat (r - Z.of_nat (length d)))) /\
    Z.of_nat (length d) <= r < Z.of_nat (length d) + a /\ r mod a = 0.
Proof.
  intros Ha Hd. destruct (align_ok (Z.of_nat (length d)) a ltac:(lia) Ha) as (r & Hr & Hle & Hm & Hlt).
  exists r. split; [exact Hr|]. split; [now apply align_block_defined|]. split; [split; assumption|exact Hm].
Qed.

(* a negative numeric pattern is rejected exactly when padding is needed *)
Lemma align_block_negative_pattern d a v : 0 < a -> v < 0 ->
  align_block d a (PNum v) = if Z.of_nat (length d) mod a =? 0 then Ok d else Err 1%N.
Proof.
  intros Ha Hv. destruct (align_ok (Z.of_nat (length d)) a ltac:(lia) Ha) as (r & Hr & Hle & Hm & Hlt).
  rewrite (align_block_eq d a _ r Hr). cbv zeta. destruct (Z.eqb_spec (Z.of_nat (length d) mod a) 0) as [Em|Em].
  - pose proof (align_least (Z.of_nat (length d)) a r _ ltac:(lia) Ha Hr (Z.le_refl _) Em).
    now replace (Z.to_nat (r - Z.of_nat (length d))) with 0%nat by lia.
  - assert (r <> Z.of_nat (length d)) by (intros ->; contradiction).
    destruct (Z.to_nat (r - Z.of_nat (length d))) eqn:En; [lia|]. now rewrite pattern_block_rejects.
Qed.

Example pattern_prefix_ex1 : pattern_prefix (PNum 0x010203) 7 = [1;2;3;1;2;3;1]%N.
Proof. vm_compute. reflexivity. Qed.
Example pattern_prefix_ex2 : pattern_prefix PInc 3 = [0;1;2]%N.
Proof. vm_compute. reflexivity. Qed.
Example align_block_ex1 : align_block [9;9;9]%N 8 (PNum 0x1234) = Ok [9;9;9;0x12;0x34;0x12;0x34;0x12]%N.
Proof. vm_compute. reflexivity. Qed.
Example align_block_ex2 : align_block [9;9]%N 2 (PNum (-1)) = Ok [9;9]%N /\ align_block [9]%N 2 (PNum (-1)) = Err 1%N.
Proof. vm_compute. split; reflexivity. Qed.

Print Assumptions pattern_block_spec.
Print Assumptions align_block_pattern.
Print Assumptions align_block_total.
Print Assumptions align_block_negative_pattern.
Print Assumptions num_unit_spec.

Lemma pattern_block_spec_l p n :
  (pattern_defined p -> pattern_block p n = Ok (pattern_prefix p n)) /\
  (~ pattern_defined p -> pattern_block p n = Err 1%N).
Proof.
  split; [apply pattern_block_spec|]. intros H.
  destruct (pattern_defined_dec p) as [Hd|(v & -> & Hv)]; [contradiction|]. now apply pattern_block_rejects.
Qed.

Lemma align_block_total_l d a p :
  (0 < a -> pattern_defined p ->
     exists r, py_align (Z.of_nat (length d)) a = Ok r /\
       align_block d a p = Ok (d ++ pattern_prefix p (Z.to_nat (r - Z.of_nat (length d)))) /\
       Z.of_nat (length d) <= r < Z.of_nat (length d) + a /\ r mod a = 0) /\
  (a <= 0 -> align_block d a p = Err 1%N) /\
  (forall v, p = PNum v -> 0 < a -> v < 0 ->
     align_block d a p = if Z.of_nat (length d) mod a =? 0 then Ok d else Err 1%N).
Proof.
  split; [apply align_block_total|]. split; [apply align_block_rejects|].
  intros v -> Ha Hv. now apply align_block_negative_pattern.
Qed.

Example pattern_defined_ex : pattern_defined (PNum 0x1234) /\ pattern_defined PInc /\ ~ pattern_defined (PNum (-1)).
Proof. cbn. lia. Qed.
Print Assumptions pattern_block_spec_l.
Print Assumptions align_block_total_l.
