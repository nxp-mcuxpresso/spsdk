(* Proofs/FlashEncProofs.v -- lemmas for C13 (flash encryption: OTFAD, IEE, BEE).
   An image walk is `run` over the chunks of the image (so its laws are those of chunks); `rt` relates a plaintext to
   the ciphertext the hardware turns back into it and is closed under appending whole fetches, which gives the
   roundtrip for the aligned walk (IEE) and for the grid walk (OTFAD, BEE) from a per-piece premise; each engine then
   supplies its piece: which region SPSDK and the hardware select, and that the hardware undoes the piece. *)
From Coq Require Import ZArith NArith List Bool Lia.
Require Import Value Bytes BytesProofs GenMisc MiscModel MiscProofs Aes Modes KeyWrap Crc CryptoProofs GenFlashEnc FlashEncModel.
Import ListNotations.
Local Open Scope Z_scope.

(* a walk hands the chunks of the data to f, each with its address *)
Fixpoint run {A} (f : Z -> list N -> A) (a : Z) (ps : list (list N)) : list A :=
  match ps with
  | [] => []
  | p :: t => f a p :: run f (a + zlen p) t
  end.

Lemma walk_run {A} (f : Z -> list N -> A) u fuel : forall a d, walk f u fuel a d = run f a (chunks_fuel fuel u d).
Proof.
  induction fuel as [|fu IH]; intros a d; [reflexivity|].
  cbn [walk chunks_fuel]. destruct d; [reflexivity|]. cbn [run]. now rewrite IH.
Qed.

Lemma pieces_run {A} (f : Z -> list N -> A) u a d : pieces f u a d = run f a (chunks u d).
Proof. apply walk_run. Qed.

Lemma run_app {A} (f : Z -> list N -> A) ps : forall a qs,
  run f a (ps ++ qs) = run f a ps ++ run f (a + zlen (concat ps)) qs.
Proof.
  induction ps as [|p ps IH]; intros a qs; cbn [app run concat].
  - now rewrite Z.add_0_r.
  - now rewrite IH, zlen_app, Z.add_assoc.
Qed.

Lemma run_shift {A} (f : Z -> list N -> A) delta ps : forall a,
  run f (a + delta) ps = run (fun x => f (x + delta)) a ps.
Proof.
  induction ps as [|p ps IH]; intros a; [reflexivity|]. cbn [run]. f_equal.
  rewrite <- IH. f_equal. lia.
Qed.

Lemma run_length {A} (f : Z -> list N -> A) ps : forall a, length (run f a ps) = length ps.
Proof. induction ps as [|p ps IH]; intros a; [reflexivity|]. cbn [run length]. now rewrite IH. Qed.

Lemma run_id ps a : run (fun _ b => b) a ps = ps.
Proof. revert a. induction ps as [|p ps IH]; intros a; [reflexivity|]. cbn [run]. now rewrite IH. Qed.

(* pieces of a chunking are non-empty, so a function matters only on the addresses walked *)
Lemma run_ext_range {A} (f f' : Z -> list N -> A) u ps : (0 < u)%nat -> chunked u ps -> forall a,
  (forall a' b, a <= a' < a + zlen (concat ps) -> f a' b = f' a' b) -> run f a ps = run f' a ps.
Proof.
  intros Hu. induction ps as [|p ps IH]; intros Hc a H; [reflexivity|].
  cbn [run]. cbn [concat] in H. rewrite zlen_app in H.
  assert (Hp : 0 < zlen p) by (unfold zlen; cbn [chunked] in Hc; destruct ps; lia).
  pose proof (zlen_nonneg (concat ps)). f_equal.
  - apply H. lia.
  - apply IH; [cbn [chunked] in Hc; destruct ps; [exact I | tauto]|]. intros a' b Ha'. apply H. lia.
Qed.

Lemma pieces_cons {A} (f : Z -> list N -> A) unit addr data :
  (0 < unit)%nat -> data <> [] ->
  pieces f unit addr data =
  f addr (firstn unit data) :: pieces f unit (addr + zlen (firstn unit data)) (skipn unit data).
Proof. intros Hu Hd. now rewrite !pieces_run, chunks_eq. Qed.

Lemma pieces_single {A} (f : Z -> list N -> A) unit addr data :
  (0 < unit)%nat -> data <> [] -> (length data <= unit)%nat -> pieces f unit addr data = [f addr data].
Proof.
  intros Hu Hd Hl. rewrite pieces_cons by assumption.
  rewrite firstn_all2 by lia. rewrite skipn_all2 by lia. reflexivity.
Qed.

(* a piece boundary can be moved to any multiple of the unit: "depends only on the absolute address" *)
Lemma pieces_app {A} (f : Z -> list N -> A) unit q addr x y :
  (0 < unit)%nat -> length x = (q * unit)%nat ->
  pieces f unit addr (x ++ y) = pieces f unit addr x ++ pieces f unit (addr + zlen x) y.
Proof. intros Hu Hx. now rewrite !pieces_run, (chunks_app unit q), run_app, concat_chunks. Qed.

Lemma seq_concat_app a b :
  seq_concat (a ++ b) =
  match seq_concat a with
  | Ok x => match seq_concat b with Ok y => Ok (x ++ y) | Err k => Err k end
  | Err k => Err k
  end.
Proof.
  induction a as [|r a IH]; simpl.
  - destruct (seq_concat b); reflexivity.
  - destruct r as [x|k]; [|reflexivity]. rewrite IH.
    destruct (seq_concat a); [|reflexivity]. destruct (seq_concat b); [|reflexivity]. now rewrite app_assoc.
Qed.

(* "address only" for the plain walk (IEE); the grid walk of OTFAD and BEE has grid_address_only_l *)
Lemma walk_address_only_l (g : Z -> list N -> res (list N)) unit q base x y :
  (0 < unit)%nat -> length x = (q * unit)%nat ->
  seq_concat (pieces g unit base (x ++ y)) =
  match seq_concat (pieces g unit base x) with
  | Ok cx => match seq_concat (pieces g unit (base + zlen x) y) with Ok cy => Ok (cx ++ cy) | Err k => Err k end
  | Err k => Err k
  end.
Proof. intros Hu Hx. rewrite (pieces_app g unit q) by assumption. apply seq_concat_app. Qed.

Lemma concat_pieces_app (f : Z -> list N -> list N) unit q addr x y :
  (0 < unit)%nat -> length x = (q * unit)%nat ->
  concat (pieces f unit addr (x ++ y)) = concat (pieces f unit addr x) ++ concat (pieces f unit (addr + zlen x) y).
Proof. intros Hu Hx. rewrite (pieces_app f unit q) by assumption. apply concat_app. Qed.

Lemma pieces_ext_range {A} (f f' : Z -> list N -> A) unit addr data : (0 < unit)%nat ->
  (forall a b, addr <= a < addr + zlen data -> f a b = f' a b) ->
  pieces f unit addr data = pieces f' unit addr data.
Proof.
  intros Hu H. rewrite !pieces_run. apply (run_ext_range f f' unit _ Hu); [now apply chunked_chunks|].
  now rewrite concat_chunks.
Qed.

Lemma concat_pieces_id unit addr data : (0 < unit)%nat -> concat (pieces (fun _ b => b) unit addr data) = data.
Proof. intros. now rewrite pieces_run, run_id, concat_chunks. Qed.

Lemma pieces_shift {A} (f : Z -> list N -> A) u delta a d :
  pieces f u (a + delta) d = pieces (fun x => f (x + delta)) u a d.
Proof. rewrite !pieces_run. apply run_shift. Qed.

(* a block-wise inverse: h undoes f on every block of a string made of whole blocks *)
Lemma run_inverse (f h : Z -> list N -> list N) (u : nat) bs : Forall (fun b => length b = u) bs -> forall a,
  (forall j b, (j < length bs)%nat -> length b = u ->
     length (f (a + Z.of_nat (j * u)) b) = u /\ h (a + Z.of_nat (j * u)) (f (a + Z.of_nat (j * u)) b) = b) ->
  run h a (run f a bs) = bs /\ Forall (fun c => length c = u) (run f a bs).
Proof.
  induction 1 as [|b bs Hb _ IH]; intros a H; [split; [reflexivity | constructor]|].
  destruct (H 0%nat b ltac:(cbn [length]; lia) Hb) as [L0 I0]. cbn [Nat.mul Z.of_nat] in L0, I0. rewrite Z.add_0_r in L0, I0.
  cbn [run]. replace (zlen (f a b)) with (zlen b) by (unfold zlen; now rewrite L0, Hb).
  destruct (IH (a + zlen b)) as [I1 L1].
  - intros j c Hj Hc. replace (a + zlen b + Z.of_nat (j * u)) with (a + Z.of_nat (S j * u)) by (unfold zlen; lia).
    apply H; [cbn [length]; lia | assumption].
  - rewrite I0, I1. split; [reflexivity | now constructor].
Qed.

Lemma pieces_inverse (f h : Z -> list N -> list N) (u : nat) (q : nat) a d :
  (0 < u)%nat -> length d = (q * u)%nat ->
  (forall j b, (j < q)%nat -> length b = u ->
     length (f (a + Z.of_nat (j * u)) b) = u /\ h (a + Z.of_nat (j * u)) (f (a + Z.of_nat (j * u)) b) = b) ->
  concat (pieces h u a (concat (pieces f u a d))) = d /\ length (concat (pieces f u a d)) = length d.
Proof.
  intros Hu Hd H. pose proof (chunks_full u d q Hu Hd) as Hf.
  assert (Hq : length (chunks u d) = q).
  { pose proof (concat_length_uniform u _ Hf) as E. rewrite concat_chunks in E by assumption. nia. }
  destruct (run_inverse f h u _ Hf a) as [I L]; [now rewrite Hq|].
  rewrite !pieces_run, (chunks_concat u _ Hu L), I, concat_chunks by assumption. split; [reflexivity|].
  rewrite (concat_length_uniform u _ L), run_length. lia.
Qed.

(* an encrypting walk followed by the hardware model *)
Section Roundtrip.
Variable hw : Z -> list N -> list N.            (* the hardware on one fetch of w bytes *)
Variable w : nat.
Hypothesis Hw : (0 < w)%nat.
Variable Q : Z -> Prop.                         (* "this address is outside every active region" *)

Definition fetched (a : Z) (c : list N) : list N := concat (pieces hw w a c).

(* the hardware turns c, fetched at a, back into p (c may carry padding) and c is p outside the regions *)
Definition rt (a : Z) (p c : list N) : Prop :=
  (length p <= length c)%nat /\ length (fetched a c) = length c /\ firstn (length p) (fetched a c) = p /\
  (forall i, (i < length p)%nat -> Q (a + Z.of_nat i) -> nth i c 0%N = nth i p 0%N).

Lemma rt_id a p : fetched a p = p -> rt a p p.
Proof. intros H. unfold rt. rewrite H. repeat split; auto. apply firstn_all. Qed.

(* what the theorems about whole images say *)
Lemma rt_spec a p c : rt a p c ->
  (length p <= length c)%nat /\ firstn (length p) (concat (pieces hw w a c)) = p /\
  (forall i, (i < length p)%nat -> Q (a + Z.of_nat i) -> nth i c 0%N = nth i p 0%N).
Proof. intros (H1 & _ & H3 & H4). auto. Qed.

(* a piece of whole fetches that was not padded can be followed by the rest of the image *)
Lemma rt_app a p c rest out q : rt a p c -> length c = length p -> length p = (q * w)%nat ->
  rt (a + zlen p) rest out -> rt a (p ++ rest) (c ++ out).
Proof.
  intros (L1 & L2 & L3 & L4) Hc Hq (R1 & R2 & R3 & R4). unfold rt, fetched in *.
  rewrite (concat_pieces_app hw w q) by (try assumption; congruence).
  replace (zlen c) with (zlen p) by (unfold zlen; congruence).
  rewrite firstn_all2 in L3 by lia. rewrite L3. repeat split.
  - rewrite !app_length. lia.
  - rewrite !app_length. congruence.
  - rewrite app_length, firstn_app, Nat.add_comm, Nat.add_sub, R3, firstn_all2 by lia. reflexivity.
  - intros i Hi HQ. rewrite app_length in Hi. destruct (Nat.lt_ge_cases i (length p)) as [Hlt|Hge].
    + rewrite !app_nth1 by lia. now apply L4.
    + rewrite !app_nth2 by lia. rewrite Hc. apply R4; [lia|].
      replace (a + zlen p + Z.of_nat (i - length p)) with (a + Z.of_nat i) by (unfold zlen; lia). exact HQ.
Qed.

Variable g : Z -> list N -> res (list N).
Variable unit k : nat.
Hypothesis Hk : unit = (k * w)%nat.
Hypothesis Hk0 : (0 < k)%nat.
Variable al : Z -> Prop.                        (* alignment invariant of the piece addresses *)
Variable good : list N -> Prop.                 (* a property of the image inherited by its pieces *)
Hypothesis good_firstn : forall n l, good l -> good (firstn n l).
Hypothesis good_skipn : forall n l, good l -> good (skipn n l).
Hypothesis al_step : forall a, al a -> al (a + Z.of_nat unit).
Hypothesis g_ok : forall a p, al a -> p <> [] -> (length p <= unit)%nat -> good p ->
  exists c, g a p = Ok c /\ rt a p c /\ (length p = unit -> length c = unit).

Lemma walk_roundtrip data : forall base, al base -> good data ->
  exists out, seq_concat (pieces g unit base data) = Ok out /\ rt base data out.
Proof.
  assert (Hu : (0 < unit)%nat) by nia.
  induction data as [data IH] using (induction_ltof1 _ (@length N)). unfold ltof in IH. intros base Hal Hg.
  destruct data as [|x d']; [exists []; split; [reflexivity | now apply rt_id]|].
  set (data := x :: d') in *. assert (Hne : data <> []) by discriminate.
  rewrite (pieces_cons g unit base data Hu Hne).
  set (p := firstn unit data). set (rest := skipn unit data).
  assert (Hp : p <> []) by (unfold p, data; destruct unit; [lia | discriminate]).
  destruct (g_ok base p Hal Hp) as (c & Hc & Hrt & Hfull);
    [unfold p; rewrite firstn_length; lia | now apply good_firstn|].
  cbn [seq_concat]. rewrite Hc.
  destruct (Nat.le_gt_cases (length data) unit) as [Hle|Hgt].
  - unfold rest, p in *. rewrite skipn_all2 by assumption. rewrite firstn_all2 in Hrt by assumption.
    exists (c ++ []). split; [reflexivity|]. now rewrite app_nil_r.
  - assert (Lp : length p = unit) by (unfold p; rewrite firstn_length; lia).
    destruct (IH rest) with (base := base + zlen p) as (out & Ho & Hr).
    + unfold rest. rewrite skipn_length. lia.
    + unfold zlen. rewrite Lp. now apply al_step.
    + now apply good_skipn.
    + rewrite Ho. exists (c ++ out). split; [reflexivity|].
      rewrite <- (firstn_skipn unit data).
      apply (rt_app _ _ _ _ _ k Hrt); [rewrite Lp; now apply Hfull | now rewrite Lp | exact Hr].
Qed.
End Roundtrip.

(* if every piece of the walk comes back unchanged, so does the image *)
Lemma seq_concat_pieces_id (g : Z -> list N -> res (list N)) unit (al : Z -> Prop) : (0 < unit)%nat ->
  (forall a, al a -> al (a + Z.of_nat unit)) -> forall data base, al base ->
  (forall a p, al a -> base <= a -> a + zlen p <= base + zlen data -> p <> [] -> (length p <= unit)%nat -> g a p = Ok p) ->
  seq_concat (pieces g unit base data) = Ok data.
Proof.
  intros Hu Hstep data. induction data as [data IH] using (induction_ltof1 _ (@length N)). unfold ltof in IH.
  intros base Hal H. destruct data as [|x d']; [reflexivity|]. set (data := x :: d') in *.
  rewrite (pieces_cons g unit base data Hu) by discriminate. cbn [seq_concat].
  pose proof (firstn_skipn unit data) as Hs. pose proof (zlen_nonneg (skipn unit data)) as Hr.
  assert (Hz : zlen (firstn unit data) + zlen (skipn unit data) = zlen data) by (rewrite <- zlen_app; now rewrite Hs).
  rewrite H; try assumption; try lia.
  - destruct (Nat.le_gt_cases (length data) unit) as [Hle|Hgt].
    + rewrite skipn_all2, firstn_all2 by assumption. cbn. now rewrite app_nil_r.
    + rewrite IH; [now rewrite Hs | rewrite skipn_length; unfold data; cbn [length]; lia | |].
      * unfold zlen. rewrite firstn_length, Nat.min_l by lia. now apply Hstep.
      * intros a p Ha Hlo Hhi. apply H; [assumption | pose proof (zlen_nonneg (firstn unit data)); lia | lia].
  - unfold data. destruct unit; [lia | discriminate].
  - rewrite firstn_length. lia.
Qed.

(* the grid walk (first piece up to the next unit boundary, then whole units) *)
Lemma lor_1023 x : Z.lor x 1023 = 1024 * (x / 1024) + 1023.
Proof.
  assert (H1 : Z.lor x 1023 = Z.lor (Z.ldiff x 1023) 1023).
  { apply Z.bits_inj'. intros n Hn. rewrite !Z.lor_spec, Z.ldiff_spec.
    destruct (Z.testbit x n), (Z.testbit 1023 n); reflexivity. }
  assert (H2 : Z.land (Z.ldiff x 1023) 1023 = 0).
  { apply Z.bits_inj'. intros n Hn. rewrite Z.land_spec, Z.ldiff_spec, Z.bits_0.
    destruct (Z.testbit x n), (Z.testbit 1023 n); reflexivity. }
  rewrite H1, <- (Z.lxor_lor _ _ H2), <- (Z.add_nocarry_lxor _ _ H2).
  change 1023 with (Z.ones 10) at 1. rewrite Z.ldiff_ones_r by lia.
  rewrite Z.shiftl_mul_pow2, Z.shiftr_div_pow2 by lia. change (2 ^ 10) with 1024. lia.
Qed.

Lemma neg_mod_cases base U : 0 < U ->
  (base mod U = 0 /\ (- base) mod U = 0) \/ (base mod U <> 0 /\ (- base) mod U = U - base mod U).
Proof.
  intros HU. destruct (Z.eq_dec (base mod U) 0) as [E|E].
  - left. split; [exact E|]. apply Z.mod_opp_l_z; [lia | exact E].
  - right. split; [exact E|]. apply Z.mod_opp_l_nz; [lia | exact E].
Qed.

Lemma neg_mod_aligns base U : 0 < U -> (base + (- base) mod U) mod U = 0.
Proof. intros HU. rewrite Z.add_mod_idemp_r, Z.add_opp_diag_r by lia. apply Z.mod_0_l. lia. Qed.

Lemma neg_mod_16 base kk : 0 < kk -> base mod 16 = 0 -> ((- base) mod (16 * kk)) mod 16 = 0.
Proof.
  intros Hk H16. rewrite (Z.mod_eq (- base) (16 * kk)) by lia.
  apply Z.mod_divide; [lia|]. apply Z.divide_sub_r.
  - apply Z.divide_opp_r. apply Z.mod_divide; [lia | exact H16].
  - apply Z.divide_mul_l. apply Z.divide_mul_l. apply Z.divide_refl.
Qed.

Section GridRoundtrip.
Variable g : Z -> list N -> res (list N).
Variable hb : Z -> list N -> list N.            (* the hardware on one 16-byte fetch *)
Variable unit k : nat.
Hypothesis Hk : unit = (k * 16)%nat.
Hypothesis Hk0 : (0 < k)%nat.
Variable Q : Z -> Prop.
Variable good : list N -> Prop.
Hypothesis good_firstn : forall n l, good l -> good (firstn n l).
Hypothesis good_skipn : forall n l, good l -> good (skipn n l).

(* a piece that lies inside one unit of the grid; whole 16-byte blocks are not padded *)
Hypothesis g_ok : forall a p, 0 <= a -> a mod 16 = 0 -> p <> [] -> a mod Z.of_nat unit + zlen p <= Z.of_nat unit ->
  good p -> exists c, g a p = Ok c /\ rt hb 16 Q a p c /\ (Nat.modulo (length p) 16 = 0%nat -> length c = length p).

Lemma grid_aligned b d : 0 <= b -> b mod Z.of_nat unit = 0 -> good d ->
  exists out, seq_concat (pieces g unit b d) = Ok out /\ rt hb 16 Q b d out.
Proof.
  intros Hb Hal Hg.
  apply (walk_roundtrip hb 16 ltac:(lia) Q g unit k Hk Hk0 (fun a => 0 <= a /\ a mod Z.of_nat unit = 0) good
           good_firstn good_skipn); [| |split; assumption | assumption].
  - intros a [A1 A2]. split; [lia|]. now rewrite <- Z.add_mod_idemp_r, Z_mod_same_full, Z.add_0_r by lia.
  - intros a p [A1 A2] Hp Hl Hgp.
    destruct (g_ok a p A1) as (c & Hc & Hrt & Hlen); try assumption.
    + apply Z.mod_divide in A2; [|lia]. apply Z.mod_divide; [lia|]. destruct A2 as [z ->].
      exists (z * Z.of_nat k). lia.
    + rewrite A2. unfold zlen. lia.
    + exists c. split; [exact Hc|]. split; [exact Hrt|]. intros Lp. rewrite <- Lp. apply Hlen.
      rewrite Lp, Hk. apply Nat.mod_mul. lia.
Qed.

Lemma grid_roundtrip base data : 0 <= base -> base mod 16 = 0 -> good data ->
  exists out, seq_concat (grid_pieces g unit base data) = Ok out /\ rt hb 16 Q base data out.
Proof.
  intros Hb H16 Hg. unfold grid_pieces, grid_first.
  set (U := Z.of_nat unit). assert (HU : U = 16 * Z.of_nat k) by lia. assert (HUp : 0 < U) by lia.
  set (m := (- base) mod U). pose proof (Z.mod_pos_bound (- base) U HUp) as Hm. fold m in Hm.
  pose proof (neg_mod_aligns base U HUp) as Hma. fold m in Hma.
  pose proof (zlen_nonneg data) as Hzd.
  destruct (Z.to_nat (Z.min (zlen data) m)) as [|n] eqn:Ef.
  - cbn [app]. rewrite Z.add_0_r. change (skipn 0 data) with data.
    destruct data as [|x d']; [exists []; split; [reflexivity | now apply rt_id]|].
    apply grid_aligned; try assumption. fold U.
    assert (m = 0) by (unfold zlen in Ef; cbn [length] in Ef; lia). now rewrite H, Z.add_0_r in Hma.
  - set (f := S n) in *.
    assert (Hf1 : (f <= length data)%nat) by (unfold zlen in Ef; lia).
    assert (Hf2 : Z.of_nat f <= m) by lia.
    set (p0 := firstn f data). set (rest := skipn f data).
    assert (Lp0 : length p0 = f) by (unfold p0; rewrite firstn_length; lia).
    assert (Hp0 : p0 <> []) by (intros E0; rewrite E0 in Lp0; discriminate).
    assert (Hin : base mod U + zlen p0 <= U).
    { unfold zlen. rewrite Lp0. destruct (neg_mod_cases base U HUp) as [[_ E2]|[_ E2]]; fold m in E2; lia. }
    destruct (g_ok base p0 Hb H16 Hp0 Hin (good_firstn f data Hg)) as (c0 & Hc0 & Hrt & Hlen).
    rewrite seq_concat_app. cbn [seq_concat]. rewrite Hc0, app_nil_r.
    rewrite <- (firstn_skipn f data). fold p0. fold rest.
    destruct rest as [|y r'] eqn:Er.
    + cbn. exists (c0 ++ []). split; [reflexivity|]. now rewrite !app_nil_r.
    + (* whole units follow: the first piece ends on the grid and has a multiple of 16 bytes *)
      rewrite <- Er in *. assert (Hrl : length rest = (length data - f)%nat) by (unfold rest; apply skipn_length).
      assert (Hfe : Z.of_nat f = m) by (rewrite Er in Hrl; cbn [length] in Hrl; unfold zlen in Ef; lia).
      assert (Hf16 : Nat.modulo f 16 = 0%nat).
      { apply Nat2Z.inj. rewrite Nat2Z.inj_mod, Hfe. unfold m. rewrite HU. apply neg_mod_16; lia. }
      destruct (mod_mult_exists f 16 ltac:(lia) Hf16) as [q Hq].
      destruct (grid_aligned (base + Z.of_nat f) rest) as (outr & Hor & Hr).
      { lia. } { now rewrite Hfe. } { unfold rest. now apply good_skipn. }
      rewrite Hor. exists (c0 ++ outr). split; [reflexivity|].
      apply (rt_app hb 16 ltac:(lia) Q base p0 c0 rest outr q Hrt); [apply Hlen | | unfold zlen]; now rewrite Lp0.
Qed.
End GridRoundtrip.

(* address-only for the grid walk: cutting at a multiple of the unit behind a grid-aligned prefix *)
Lemma grid_pieces_aligned {A} (f : Z -> list N -> A) unit base data :
  (0 < unit)%nat -> base mod Z.of_nat unit = 0 -> grid_pieces f unit base data = pieces f unit base data.
Proof.
  intros Hu Hal. unfold grid_pieces, grid_first.
  rewrite (Z.mod_opp_l_z base (Z.of_nat unit)) by (try assumption; lia).
  pose proof (zlen_nonneg data). rewrite Z.min_r by lia. simpl. now rewrite Z.add_0_r.
Qed.

(* padding to whole 16-byte blocks with any filler: pad16 (zeros) and pad16_rnd (the pinned generator) *)
Definition padk (fill : nat -> list N) (l : list N) : list N :=
  match Nat.modulo (length l) 16 with O => l | S r => l ++ fill (16 - S r)%nat end.

Lemma pad16_padk l : pad16 l = padk zeros l.
Proof. unfold pad16, padk, BS. now destruct (Nat.modulo (length l) 16). Qed.

Section Padk.
Variable fill : nat -> list N.

Lemma padk_cases l : (padk fill l = l /\ Nat.modulo (length l) 16 = 0%nat) \/
                     (exists k, (0 < k < 16)%nat /\ padk fill l = l ++ fill k /\ Nat.modulo (length l + k) 16 = 0%nat).
Proof.
  unfold padk. destruct (Nat.modulo (length l) 16) eqn:E; [left; auto|].
  right. exists (16 - S n)%nat.
  pose proof (Nat.mod_upper_bound (length l) 16 ltac:(lia)) as Hb.
  pose proof (Nat.div_mod (length l) 16 ltac:(lia)) as Hd.
  repeat split; try lia.
  replace (length l + (16 - S n))%nat with ((length l / 16 + 1) * 16)%nat by lia.
  apply Nat.mod_mul. lia.
Qed.

Lemma padk_length_ge l : (length l <= length (padk fill l))%nat.
Proof. destruct (padk_cases l) as [[-> _]|(k & _ & -> & _)]; [lia|]. rewrite app_length. lia. Qed.
Hypothesis fill_length : forall n, length (fill n) = n.

Lemma padk_length_mod l : Nat.modulo (length (padk fill l)) 16 = 0%nat.
Proof. destruct (padk_cases l) as [[-> H]|(k & _ & -> & H)]; [exact H|]. now rewrite app_length, fill_length. Qed.
Lemma padk_prefix l : firstn (length l) (padk fill l) = l.
Proof. destruct (padk_cases l) as [[-> _]|(k & _ & -> & _)]; [apply firstn_all | now apply firstn_app_exact]. Qed.
Lemma padk_le l m : (length l <= m)%nat -> Nat.modulo m 16 = 0%nat -> (length (padk fill l) <= m)%nat.
Proof.
  intros Hl Hm. destruct (padk_cases l) as [[-> _]|(k & Hk & -> & H)]; [lia|].
  rewrite app_length, fill_length.
  pose proof (Nat.div_mod m 16 ltac:(lia)). pose proof (Nat.div_mod (length l + k) 16 ltac:(lia)).
  destruct (Nat.le_gt_cases (length l + k) m); [assumption|]. exfalso.
  assert ((length l + k) / 16 <= m / 16)%nat by (apply Nat.div_le_mono; lia). nia.
Qed.
Lemma padk_aligned l : Nat.modulo (length l) 16 = 0%nat -> padk fill l = l.
Proof. intros H. unfold padk. now rewrite H. Qed.
Lemma padk_nonnil l : l <> [] -> padk fill l <> [].
Proof. intros H E. pose proof (padk_length_ge l) as G. rewrite E in G. destruct l; [congruence | simpl in G; lia]. Qed.
End Padk.

Lemma rnd_length k : length (rnd k) = k.
Proof. unfold rnd. now rewrite map_length, seq_length. Qed.

Lemma pad16_nth i l : (i < length l)%nat -> nth i (pad16 l) 0%N = nth i l 0%N.
Proof.
  intros Hi. rewrite pad16_padk. destruct (padk_cases zeros l) as [[-> _]|(k & _ & -> & _)]; [reflexivity|].
  now rewrite app_nth1.
Qed.

Lemma swap8_length b : length b = 16%nat -> length (swap8 b) = 16%nat.
Proof. intros H. unfold swap8. rewrite app_length, !rev_length, firstn_length, skipn_length. lia. Qed.
Lemma swap8_invol b : length b = 16%nat -> swap8 (swap8 b) = b.
Proof.
  intros H. unfold swap8. assert (L8 : length (rev (firstn 8 b)) = 8%nat) by (rewrite rev_length, firstn_length; lia).
  rewrite (firstn_app_exact _ _ _ L8), (skipn_app_exact _ _ _ L8), !rev_involutive. apply firstn_skipn.
Qed.

Lemma be32_length z : length (be32 z) = 4%nat.
Proof. apply be_enc_length. Qed.
Lemma le32_length z : length (le32 z) = 4%nat.
Proof. apply le_enc_length. Qed.

Lemma flags_cases f : 0 <= f < 8 -> f = 0 \/ f = 1 \/ f = 2 \/ f = 3 \/ f = 4 \/ f = 5 \/ f = 6 \/ f = 7.
Proof. lia. Qed.

Lemma ef_nonzero k : kb_wf k ->
  kb_end_with_flags k = Z.lor (Z.lor (Z.land (kb_end k - 1) (Z.lnot 7)) (kb_flags k)) 1016.
Proof.
  intros (_ & H0 & _ & H1 & _). unfold kb_end_with_flags.
  destruct (kb_end k =? 0) eqn:E; [apply Z.eqb_eq in E; lia | reflexivity].
Qed.

Lemma ef_shift k : kb_wf k -> Z.shiftr (kb_end_with_flags k) 10 = (kb_end k - 1) / 1024.
Proof.
  intros W. rewrite (ef_nonzero k W). destruct W as (_ & _ & _ & _ & _ & Hf).
  rewrite !Z.shiftr_lor, Z.shiftr_land.
  change (Z.shiftr (Z.lnot 7) 10) with (-1). change (Z.shiftr 1016 10) with 0.
  rewrite Z.land_m1_r, Z.lor_0_r.
  replace (Z.shiftr (kb_flags k) 10) with 0.
  - rewrite Z.lor_0_r. rewrite Z.shiftr_div_pow2 by lia. reflexivity.
  - rewrite Z.shiftr_div_pow2 by lia. symmetry. apply Z.div_small. change (2 ^ 10) with 1024. lia.
Qed.

Lemma ef_bit k n : kb_wf k -> 0 <= n < 3 -> Z.testbit (kb_end_with_flags k) n = Z.testbit (kb_flags k) n.
Proof.
  intros W Hn. rewrite (ef_nonzero k W).
  rewrite !Z.lor_spec, Z.land_spec, Z.lnot_spec by lia.
  assert (n = 0 \/ n = 1 \/ n = 2) as [-> | [-> | ->]] by lia; simpl;
    rewrite andb_false_r, orb_false_r; reflexivity.
Qed.

Lemma ef_range k : kb_wf k -> 0 <= kb_end_with_flags k < 4294967296.
Proof.
  intros W. pose proof (ef_shift k W) as H. rewrite Z.shiftr_div_pow2 in H by lia. change (2 ^ 10) with 1024 in H.
  destruct W as (_ & H0 & _ & H1 & H2 & Hf). dlia.
Qed.

Lemma oc_hit_blob k a : kb_wf k -> oc_hit (octx_of_blob k) a = Z.testbit (kb_flags k) 0 && kb_covers k a.
Proof.
  intros W. unfold oc_hit, kb_covers. cbn [octx_of_blob oc_w0 oc_w1].
  rewrite (ef_bit k 0 W) by lia. rewrite (ef_shift k W).
  rewrite !Z.shiftr_div_pow2 by lia. change (2 ^ 10) with 1024. now rewrite andb_assoc.
Qed.

Lemma oc_ade_blob k : kb_wf k -> oc_ade (octx_of_blob k) = Z.testbit (kb_flags k) 1.
Proof. intros W. unfold oc_ade. cbn [octx_of_blob oc_w1]. apply ef_bit; [assumption | lia]. Qed.

Lemma kb_is_encrypted_bits k : kb_wf k -> kb_is_encrypted k = Z.testbit (kb_flags k) 0 && Z.testbit (kb_flags k) 1.
Proof.
  intros (_ & _ & _ & _ & _ & Hf). unfold kb_is_encrypted.
  destruct (flags_cases _ Hf) as [E|[E|[E|[E|[E|[E|[E|E]]]]]]]; rewrite E; reflexivity.
Qed.

Lemma kb_covers_unit k a a' : a' / 1024 = a / 1024 -> kb_covers k a' = kb_covers k a.
Proof. intros H. unfold kb_covers. now rewrite H. Qed.

(* SPSDK's test on a piece inside one 1 KiB unit is the hardware's region test *)
Lemma kb_matches_covers k a L :
  kb_wf k -> 0 <= a -> 1 <= L -> a mod 1024 + L <= 1024 ->
  kb_matches k a (a + L - 1) = kb_covers k a.
Proof.
  intros (_ & H0 & H1 & H2 & H3 & _) Ha HL Hin.
  unfold kb_matches, kb_contains, kb_covers. rewrite lor_1023.
  apply eq_true_iff_eq. rewrite !andb_true_iff, !Z.leb_le. dlia.
Qed.

Lemma blob_fold_nomatch {B} (M : B -> bool) enc L l r :
  (forall k, In k l -> M k = false) -> blob_fold M enc L l r = Ok r.
Proof.
  induction l as [|k l IH]; intros H; [reflexivity|].
  cbn [blob_fold]. rewrite (H k (or_introl eq_refl)). apply IH. intros k' Hk'. apply H. now right.
Qed.

(* SPSDK's loop over all blobs is the action of the first blob covering the piece, when regions are disjoint
   (C: the region test, S: a further condition of the blob itself) *)
Lemma blob_fold_sel {B} (M C S : B -> bool) (enc : B -> res (list N)) L (blobs : list B) r :
  (forall k, In k blobs -> M k = C k && S k) ->
  ForallOrdPairs (fun k1 k2 => C k1 = true -> C k2 = false) blobs ->
  blob_fold M enc L blobs r =
  match find C blobs with
  | Some k => if S k then match enc k with Ok d => Ok (d ++ skipn L r) | Err e => Err e end else Ok r
  | None => Ok r
  end.
Proof.
  revert r. induction blobs as [|k l IH]; intros r HM D; [reflexivity|].
  inversion D as [|? ? Dk Dl]; subst. cbn [blob_fold find].
  rewrite (HM k (or_introl eq_refl)). destruct (C k) eqn:Ec; cbn [andb].
  - assert (Hno : forall k', In k' l -> M k' = false).
    { intros k' Hk'. rewrite (HM k' (or_intror Hk')). rewrite Forall_forall in Dk. now rewrite (Dk k' Hk' eq_refl). }
    destruct (S k); [destruct (enc k); [|reflexivity]|]; now apply blob_fold_nomatch.
  - apply IH; [|assumption]. intros k' Hk'. apply HM. now right.
Qed.

Lemma ForallOrdPairs_impl {A} (R R' : A -> A -> Prop) l :
  (forall x y, R x y -> R' x y) -> ForallOrdPairs R l -> ForallOrdPairs R' l.
Proof. intros H. induction 1 as [|x l Hx _ IH]; constructor; [|exact IH]. eapply Forall_impl; [apply H | exact Hx]. Qed.

(* pairwise disjoint regions: at any one address at most one of them covers *)
Lemma disjoint_at {A} (C : A -> Z -> bool) l a :
  ForallOrdPairs (fun x y => forall a, C x a = true -> C y a = false) l ->
  ForallOrdPairs (fun x y => C x a = true -> C y a = false) l.
Proof. apply ForallOrdPairs_impl. intros x y H. apply H. Qed.

Lemma find_ext_in {A} (P P' : A -> bool) l : (forall x, In x l -> P x = P' x) -> find P l = find P' l.
Proof.
  induction l as [|x l IH]; intros H; [reflexivity|]. cbn [find]. rewrite (H x (or_introl eq_refl)).
  destruct (P' x); [reflexivity|]. apply IH. intros y Hy. apply H. now right.
Qed.

(* xor with a 16-byte keystream block, twice *)
Lemma xor_ks_inv b ks : length b = 16%nat -> length ks = 16%nat ->
  length (xor_bytes b ks) = 16%nat /\ xor_bytes (xor_bytes b ks) ks = b.
Proof. intros Hb Hk. split; [rewrite xor_bytes_length_min; lia | apply xor_bytes_cancel; lia]. Qed.

(* a piece inside one 1 KiB unit stays inside it when padded to whole blocks *)
Lemma padk_in_unit fill a p : (forall n, length (fill n) = n) -> a mod 16 = 0 -> a mod 1024 + zlen p <= 1024 ->
  a mod 1024 + zlen (padk fill p) <= 1024 /\ exists q, length (padk fill p) = (q * 16)%nat.
Proof.
  intros Hf H16 Hin.
  assert (H : (length (padk fill p) <= Z.to_nat (1024 - a mod 1024))%nat).
  { apply (padk_le fill Hf); [unfold zlen in Hin; lia|].
    apply Nat2Z.inj. rewrite Nat2Z.inj_mod, Z2Nat.id by dlia. change (Z.of_nat 16) with 16. change (Z.of_nat 0) with 0. dlia. }
  split; [unfold zlen; dlia | exact (mod_mult_exists _ 16 ltac:(lia) (padk_length_mod fill Hf p))].
Qed.

(* what the counter-mode engines of OTFAD and BEE share.  The piece p, padded, is encrypted block by block by a
   function of the address; inside the unit of a the hardware undoes each block at its address, and no address of the
   unit is outside the regions.  Each engine supplies these three facts about its region. *)
Lemma stream_piece_ok hb Q fill (enc dec1 : Z -> list N -> list N) a p :
  (forall n, length (fill n) = n) -> a mod 16 = 0 -> a mod 1024 + zlen p <= 1024 ->
  (forall a' b, a' mod 16 = 0 -> a' / 1024 = a / 1024 -> length b = 16%nat ->
     length (enc a' b) = 16%nat /\ dec1 a' (enc a' b) = b) ->
  (forall c, a mod 1024 + zlen c <= 1024 -> fetched hb 16 a c = concat (pieces dec1 16 a c)) ->
  (forall a', a' / 1024 = a / 1024 -> ~ Q a') ->
  let c := concat (pieces enc 16 a (padk fill p)) in
  rt hb 16 Q a p c /\ (Nat.modulo (length p) 16 = 0%nat -> length c = length p).
Proof.
  intros Hf H16 Hin Hinv Hhw HQ c. destruct (padk_in_unit fill a p Hf H16 Hin) as [Hd (q & Hq)].
  destruct (pieces_inverse enc dec1 16 q a (padk fill p) ltac:(lia) Hq) as [Inv Len].
  { intros j b Hj Hb. apply Hinv; [| |exact Hb]; unfold zlen in Hd; dlia. }
  fold c in Inv, Len. pose proof (padk_length_ge fill p) as Hge. split.
  - unfold rt. rewrite Hhw, Inv, Len by (unfold zlen in *; lia).
    repeat split; try lia; [apply padk_prefix|]. intros i Hi Hq'. destruct (HQ (a + Z.of_nat i)); [|exact Hq'].
    unfold zlen in Hin. dlia.
  - intros Hm. now rewrite Len, padk_aligned.
Qed.

Lemma otfad_piece_sel (E : cipher) blobs swap a p :
  Forall kb_wf blobs -> blobs_disjoint blobs -> 0 <= a -> p <> [] -> a mod 1024 + zlen p <= 1024 ->
  otfad_piece E blobs swap a p =
  match find (fun k => kb_covers k a) blobs with
  | Some k => if kb_is_encrypted k then kb_encrypt_image E k a p swap a else Ok p
  | None => Ok p
  end.
Proof.
  intros W D Ha Hp Hin. unfold otfad_piece.
  assert (HL : 1 <= zlen p) by (unfold zlen; destruct p; [congruence | simpl length; lia]).
  rewrite (blob_fold_sel _ (fun k => kb_covers k a) kb_is_encrypted).
  - destruct (find (fun k => kb_covers k a) blobs) as [k|]; [|reflexivity].
    destruct (kb_is_encrypted k); [|reflexivity].
    destruct (kb_encrypt_image E k a p swap a); [|reflexivity]. now rewrite skipn_all, app_nil_r.
  - intros k Hk. rewrite Forall_forall in W. now rewrite (kb_matches_covers k a (zlen p) (W k Hk) Ha HL Hin).
  - exact (disjoint_at kb_covers _ a D).
Qed.

(* what the hardware does to one 16-byte block inside the region of blob k *)
Definition hwk (E : cipher) (k : kblob) (swap : bool) (a : Z) (c : list N) : list N :=
  let ks := E (kb_key k) (oc_counter (octx_of_blob k) a) in
  if swap then swap8 (xor_bytes (swap8 c) ks) else xor_bytes c ks.

Lemma find_hit_none l a : Forall kb_wf l -> (forall k, In k l -> kb_covers k a = false) ->
  find (fun x => oc_hit x a) (map octx_of_blob l) = None.
Proof.
  induction l as [|k l IH]; intros W H; [reflexivity|]. inversion W; subst.
  cbn [map find]. rewrite oc_hit_blob by assumption. rewrite (H k (or_introl eq_refl)), andb_false_r.
  apply IH; [assumption|]. intros k' Hk'. apply H. now right.
Qed.

Lemma otfad_hw_block_sel (E : cipher) blobs swap a c :
  Forall kb_wf blobs -> blobs_disjoint blobs ->
  otfad_hw_block E (map octx_of_blob blobs) swap a c =
  match find (fun k => kb_covers k a) blobs with
  | Some k => if kb_is_encrypted k then hwk E k swap a c else c
  | None => c
  end.
Proof.
  intros W D. unfold otfad_hw_block.
  induction blobs as [|k l IH]; [reflexivity|].
  inversion W as [|? ? Wk Wl]; subst. inversion D as [|? ? Dk Dl]; subst.
  cbn [map find]. rewrite oc_hit_blob by assumption.
  destruct (kb_covers k a) eqn:Ec.
  - rewrite (kb_is_encrypted_bits k Wk).
    destruct (Z.testbit (kb_flags k) 0) eqn:E0; cbn [andb].
    + rewrite (oc_ade_blob k Wk). destruct (Z.testbit (kb_flags k) 1); reflexivity.
    + rewrite find_hit_none; [reflexivity | assumption|].
      intros k' Hk'. rewrite Forall_forall in Dk. now apply Dk.
  - rewrite andb_false_r. now apply IH.
Qed.

Section OtfadImage.
Variable E : cipher.

Lemma kb_counter_eq k a : length (kb_ctr k) = 8%nat -> a mod 16 = 0 ->
  oc_counter (octx_of_blob k) a = kb_nonce12 (kb_ctr k) ++ be32 a /\ length (oc_counter (octx_of_blob k) a) = 16%nat.
Proof.
  intros Hc Ha. unfold oc_counter, kb_nonce12. cbn [octx_of_blob oc_ctr].
  replace (16 * (a / 16)) with a by dlia. split.
  - rewrite <- !app_assoc. rewrite (app_assoc (firstn 4 (kb_ctr k))), firstn_skipn. reflexivity.
  - rewrite !app_length, xor_bytes_length_min, firstn_length, skipn_length, be32_length, Hc. reflexivity.
Qed.

Lemma kb_block_inverse k swap a b :
  (forall x, length x = 16%nat -> length (E (kb_key k) x) = 16%nat) ->
  length (kb_ctr k) = 8%nat -> a mod 16 = 0 -> length b = 16%nat ->
  length (kb_block (E (kb_key k)) (kb_nonce12 (kb_ctr k)) swap a b) = 16%nat /\
  hwk E k swap a (kb_block (E (kb_key k)) (kb_nonce12 (kb_ctr k)) swap a b) = b.
Proof.
  intros E_len Hc Ha Hb. destruct (kb_counter_eq k a Hc Ha) as [Eq Len].
  unfold hwk, kb_block. rewrite Eq. rewrite Eq in Len.
  set (ks := E (kb_key k) (kb_nonce12 (kb_ctr k) ++ be32 a)).
  assert (Hks : length ks = 16%nat) by (apply E_len; exact Len).
  destruct swap; [|now apply xor_ks_inv].
  destruct (xor_ks_inv (swap8 b) ks (swap8_length b Hb) Hks) as [L1 I1].
  split; [now apply swap8_length|]. now rewrite swap8_invol, I1, swap8_invol.
Qed.

Variable blobs : list kblob.
Variable swap : bool.
(* the block cipher maps 16-byte blocks to 16-byte blocks under the keys in use (no invertibility needed: CTR) *)
Hypothesis E_len : forall k, In k blobs -> forall x, length x = 16%nat -> length (E (kb_key k) x) = 16%nat.
Hypothesis W : Forall kb_wf blobs.
Hypothesis Dj : blobs_disjoint blobs.

Let hb := otfad_hw_block E (map octx_of_blob blobs) swap.

(* inside one 1 KiB unit the hardware sees the same blob at every fetch *)
Lemma otfad_dec_sel a c : 0 <= a -> a mod 1024 + zlen c <= 1024 ->
  fetched hb 16 a c =
  match find (fun k => kb_covers k a) blobs with
  | Some k => if kb_is_encrypted k then concat (pieces (hwk E k swap) 16 a c) else c
  | None => c
  end.
Proof.
  intros Ha Hin. unfold fetched, hb.
  rewrite (pieces_ext_range _ (fun a' b => match find (fun k => kb_covers k a) blobs with
             | Some k => if kb_is_encrypted k then hwk E k swap a' b else b | None => b end) 16 a c); [|lia|].
  - destruct (find (fun k => kb_covers k a) blobs) as [k|]; [destruct (kb_is_encrypted k); [reflexivity|]|];
      apply concat_pieces_id; lia.
  - intros a' b Hr. rewrite otfad_hw_block_sel by assumption.
    rewrite (find_ext_in _ (fun k => kb_covers k a)); [reflexivity|]. intros k _. apply kb_covers_unit. dlia.
Qed.

Lemma otfad_piece_ok a p :
  0 <= a -> a mod 16 = 0 -> p <> [] -> a mod 1024 + zlen p <= 1024 ->
  exists c, otfad_piece E blobs swap a p = Ok c /\ rt hb 16 (otfad_outside blobs) a p c /\
            (Nat.modulo (length p) 16 = 0%nat -> length c = length p).
Proof.
  intros Ha H16 Hp Hin.
  rewrite (otfad_piece_sel E blobs swap a p W Dj Ha Hp Hin).
  pose proof (otfad_dec_sel a p Ha Hin) as Hid.
  destruct (find (fun k => kb_covers k a) blobs) as [k|] eqn:Ef; [destruct (kb_is_encrypted k) eqn:Ee|];
    try (exists p; split; [reflexivity|]; split; [now apply rt_id | reflexivity]).
  destruct (find_some _ _ Ef) as [Hin' Hcov].
  pose proof (proj1 (Forall_forall _ _) W k Hin') as (Hc & H0 & H1 & H2 & H3 & H5).
  assert (Ecv : (if a =? 0 then kb_start k else a) = a).
  { destruct (a =? 0) eqn:E0; [|reflexivity]. apply Z.eqb_eq in E0. subst a.
    unfold kb_covers in Hcov. apply andb_true_iff in Hcov. destruct Hcov as [Hc1 _]. apply Z.leb_le in Hc1. dlia. }
  unfold kb_encrypt_image. rewrite pad16_padk, (proj2 (Z.eqb_eq _ _) H16), Hc. cbn [Nat.eqb negb]. rewrite Ecv.
  eexists. split; [reflexivity|]. apply stream_piece_ok with (dec1 := hwk E k swap); try assumption.
  - exact zeros_length.
  - intros a' b Ha' _ Hb. apply kb_block_inverse; [now apply E_len | assumption..].
  - intros c Hc'. rewrite otfad_dec_sel by assumption. now rewrite Ef, Ee.
  - intros a' Hu HQ. rewrite (HQ k Hin') in Ee; [discriminate|]. now rewrite (kb_covers_unit k a).
Qed.

Lemma otfad_decrypts_l img base : 0 <= base -> base mod 16 = 0 ->
  exists out, otfad_encrypt_image E blobs img base swap = Ok out /\ rt hb 16 (otfad_outside blobs) base img out.
Proof.
  intros Hb H16.
  apply (grid_roundtrip (otfad_piece E blobs swap) hb U1K 64 eq_refl ltac:(lia) (otfad_outside blobs)
           (fun _ => True) ltac:(auto) ltac:(auto)); try assumption; try exact I.
  intros a p A1 A2 Hp Hin _. now apply otfad_piece_ok.
Qed.
End OtfadImage.

Lemma le32_dec z : 0 <= z < 4294967296 -> Z.of_N (le_dec (le32 z)) = z.
Proof.
  intros H. unfold le32. rewrite le_dec_enc_small; [lia|]. change (2 ^ (8 * N.of_nat 4))%N with 4294967296%N. lia.
Qed.

(* reversing every group of c bytes keeps the grouping, so doing it twice is the identity *)
Lemma rev_same_shape (bs : list (list N)) : same_shape bs (map (@rev N) bs).
Proof. induction bs; constructor; [now rewrite rev_length | assumption]. Qed.

Lemma swap_groups_length c l : (0 < c)%nat -> length (swap_groups c l) = length l.
Proof.
  intros Hc. unfold swap_groups. rewrite <- (concat_chunks c l) at 2 by assumption.
  apply concat_length_same_shape, rev_same_shape.
Qed.

Lemma swap_groups_invol c l : (0 < c)%nat -> swap_groups c (swap_groups c l) = l.
Proof.
  intros Hc. unfold swap_groups. rewrite chunks_concat_chunked; [|assumption|].
  - rewrite map_map, (map_ext _ (fun x => x)), map_id by apply rev_involutive. now apply concat_chunks.
  - eapply chunked_same_shape; [apply rev_same_shape | now apply chunked_chunks].
Qed.

Lemma rnd4_wf : wf_bytes (rnd 4) /\ length (rnd 4) = 4%nat.
Proof. split; [|reflexivity]. unfold wf_bytes, wf_byte. repeat constructor. Qed.

Lemma kb_plain_shape k : kb_codec_wf k ->
  exists zf, length zf = 4%nat /\ wf_bytes zf /\
    let hdr := kb_key k ++ kb_ctr k ++ le32 (kb_start k) ++ le32 (kb_end_with_flags k) in
    kb_plain k = Ok (hdr ++ zf ++ le_enc 4 (crc CRC32_MPEG2 hdr) ++ zeros 24) /\ length hdr = 32%nat.
Proof.
  intros (W & Lk & Wk & Wc & Hz & Hcf).
  pose proof (ef_range k W) as He. destruct W as (Lc & H0 & H1 & H2 & H3 & H5).
  assert (Lh : length (kb_key k ++ kb_ctr k ++ le32 (kb_start k) ++ le32 (kb_end_with_flags k)) = 32%nat)
    by (rewrite !app_length, !le32_length, Lk, Lc; reflexivity).
  assert (U : negb (u32_ok (kb_start k)) || negb (u32_ok (kb_end_with_flags k)) = false).
  { unfold u32_ok. apply orb_false_iff. split; apply negb_false_iff, andb_true_iff; split;
      try apply Z.leb_le; try apply Z.ltb_lt; lia. }
  assert (L64 : forall h zf c, length h = 32%nat -> length zf = 4%nat ->
                  length (h ++ zf ++ le_enc 4 c ++ zeros 24) = 64%nat).
  { intros h zf c Hh Hzf. rewrite !app_length, Hh, Hzf, le_enc_length, zeros_length. reflexivity. }
  unfold kb_plain. rewrite U, Hcf.
  destruct (kb_zero k) as [|z0 zt] eqn:Ez.
  - exists (rnd 4). destruct rnd4_wf as [R1 R2]. repeat split; try assumption.
    cbv zeta. rewrite L64 by assumption. reflexivity.
  - destruct Hz as [Hz|[Lz Wz]]; [discriminate|].
    exists (z0 :: zt). repeat split; try assumption.
    rewrite Lz. cbn [Nat.eqb negb]. cbv zeta. rewrite L64 by assumption. reflexivity.
Qed.

Section OtfadKeyBlob.
Variable E D : cipher.
Variable kek : list N.
Hypothesis DE : forall b, okb b -> D kek (E kek b) = b.
Hypothesis E_ok : forall b, okb b -> okb (E kek b).

Lemma otfad_keyblob_unwrap_l k cnt :
  kb_codec_wf k -> length kek = 16%nat -> In cnt [0; 2; 4; 8; 16] ->
  exists rec, kb_export E k kek cnt = Ok rec /\ length rec = 64%nat /\
              otfad_unwrap D kek cnt rec = Some (octx_of_blob k).
Proof.
  intros Wc Lkek Hcnt.
  destruct (kb_plain_shape k Wc) as (zf & Lz & Wz & Hp & Lh). cbv zeta in Hp, Lh.
  destruct Wc as (W & Lk & Wk & Wct & _ & _).
  pose proof (ef_range k W) as He. pose proof W as (Lc & H0 & H1 & H2 & H3 & H5).
  set (hdr := kb_key k ++ kb_ctr k ++ le32 (kb_start k) ++ le32 (kb_end_with_flags k)) in *.
  set (crcb := le_enc 4 (crc CRC32_MPEG2 hdr)) in *.
  set (p40 := hdr ++ zf ++ crcb).
  assert (L40 : length p40 = 40%nat) by (unfold p40, crcb; rewrite !app_length, Lh, Lz, le_enc_length; reflexivity).
  assert (F40 : firstn 40 (hdr ++ zf ++ crcb ++ zeros 24) = p40).
  { unfold p40. rewrite (app_assoc zf), (app_assoc hdr). apply firstn_app_exact. exact L40. }
  assert (W40 : wf_bytes p40).
  { unfold p40, hdr, crcb. repeat apply wf_bytes_app; try assumption; apply le_enc_wf. }
  destruct (kw_wrap_length (E kek) E_ok p40 W40 ltac:(rewrite L40; reflexivity)) as [Lw Ww].
  rewrite L40 in Lw. change (8 + 40)%nat with 48%nat in Lw.
  set (wrap := kw_wrap (E kek) p40) in *.
  pose proof (unwrap_wrap_l (E kek) (D kek) DE E_ok p40 W40 ltac:(rewrite L40; reflexivity)) as Hun.
  fold wrap in Hun.
  (* the parsed fields: p40 is the concatenation of its five fields and the CRC *)
  assert (Ep : p40 = cat [kb_key k; kb_ctr k; le32 (kb_start k); le32 (kb_end_with_flags k); zf] crcb)
    by (unfold p40, hdr; cbn [cat]; now rewrite <- !app_assoc).
  assert (Hctx : octx_of_plain p40 = octx_of_blob k).
  { unfold octx_of_plain, octx_of_blob. rewrite Ep. change (firstn 16 (cat ?x ?y)) with (firstn 16 (skipn 0 (cat x y))).
    rewrite (field_cat _ _ 0 (kb_key k) 0 16), (field_cat _ _ 1 (kb_ctr k) 16 8),
      (field_cat _ _ 2 (le32 (kb_start k)) 24 4), (field_cat _ _ 3 (le32 (kb_end_with_flags k)) 28 4), !le32_dec;
      cbn [nth_error firstn concat]; rewrite ?app_length, ?le32_length, ?Lk, ?Lc; auto; lia. }
  assert (Hcrc : eqb_list (firstn 4 (skipn 36 p40)) (le_enc 4 (crc CRC32_MPEG2 (firstn 32 p40))) = true).
  { apply eqb_list_spec. rewrite Ep at 1. rewrite (skipn_cat _ _ 36), firstn_all2.
    - unfold p40. now rewrite (firstn_app_exact _ _ 32%nat).
    - unfold crcb. rewrite le_enc_length. lia.
    - cbn [concat]. rewrite !app_length, !le32_length, Lk, Lc, Lz. reflexivity. }
  unfold kb_export, otfad_unwrap. rewrite Lkek. cbn [Nat.eqb negb]. rewrite Hp, F40. fold wrap.
  (* the byte swap of the device, if any, keeps the 48 bytes and undoes itself *)
  set (sw := fun w : list N => if cnt >? 0 then swap_groups (Z.to_nat cnt) w else w).
  assert (Hsw : length (sw wrap) = 48%nat /\ sw (sw wrap) = wrap).
  { unfold sw. destruct (cnt >? 0) eqn:Hg; [|auto]. assert (Hn : (0 < Z.to_nat cnt)%nat) by lia.
    now rewrite swap_groups_length, swap_groups_invol. }
  destruct Hsw as [Ls Is]. change (if cnt >? 0 then swap_groups (Z.to_nat cnt) wrap else wrap) with (sw wrap).
  unfold align_zero. rewrite Ls. cbn [Nat.modulo Nat.divmod snd fst Nat.sub]. eexists. split; [reflexivity|].
  split; [rewrite app_length, Ls; reflexivity|]. cbv zeta. rewrite (firstn_app_exact _ _ _ Ls).
  change (if cnt >? 0 then swap_groups (Z.to_nat cnt) (sw wrap) else sw wrap) with (sw (sw wrap)).
  now rewrite Is, Hun, Hcrc, Hctx.
Qed.
End OtfadKeyBlob.

(* cutting the image anywhere on the absolute grid *)
Lemma grid_pieces_app {A} (f : Z -> list N -> A) unit base x y :
  (0 < unit)%nat -> (base + zlen x) mod Z.of_nat unit = 0 ->
  grid_pieces f unit base (x ++ y) = grid_pieces f unit base x ++ grid_pieces f unit (base + zlen x) y.
Proof.
  intros Hu Hcut. set (U := Z.of_nat unit) in *. assert (HU : 0 < U) by (unfold U; lia).
  rewrite (grid_pieces_aligned f unit (base + zlen x) y Hu Hcut).
  set (m := (- base) mod U).
  pose proof (Z.mod_pos_bound (- base) U HU) as Hm. fold m in Hm.
  pose proof (neg_mod_aligns base U HU) as Hal. fold m in Hal.
  pose proof (zlen_nonneg x) as Hx0.
  assert (Hdiv : (U | zlen x - m)).
  { replace (zlen x - m) with ((base + zlen x) - (base + m)) by lia.
    apply Z.divide_sub_r; apply Z.mod_divide; try lia; assumption. }
  destruct Hdiv as [z Hz].
  assert (Hz0 : 0 <= z) by nia.
  assert (Hxm : zlen x = m + Z.of_nat (Z.to_nat z * unit)) by (rewrite Nat2Z.inj_mul, Z2Nat.id by lia; fold U; lia).
  unfold grid_pieces, grid_first. fold U. fold m.
  rewrite zlen_app. pose proof (zlen_nonneg y) as Hy0.
  rewrite !Z.min_r by lia.
  assert (Hmx : (Z.to_nat m <= length x)%nat) by (unfold zlen in Hxm; lia).
  rewrite firstn_app, skipn_app. replace (Z.to_nat m - length x)%nat with 0%nat by lia.
  cbn [firstn skipn]. rewrite app_nil_r.
  rewrite <- app_assoc. f_equal.
  rewrite (pieces_app f unit (Z.to_nat z)); try assumption.
  - f_equal. f_equal. rewrite Z2Nat.id by lia. unfold zlen. rewrite skipn_length.
    unfold zlen in Hxm. lia.
  - rewrite skipn_length. unfold zlen in Hxm. lia.
Qed.

Lemma grid_address_only_l (g : Z -> list N -> res (list N)) unit base x y :
  (0 < unit)%nat -> (base + zlen x) mod Z.of_nat unit = 0 ->
  seq_concat (grid_pieces g unit base (x ++ y)) =
  match seq_concat (grid_pieces g unit base x) with
  | Ok cx => match seq_concat (grid_pieces g unit (base + zlen x) y) with Ok cy => Ok (cx ++ cy) | Err k => Err k end
  | Err k => Err k
  end.
Proof. intros Hu Hcut. rewrite grid_pieces_app by assumption. apply seq_concat_app. Qed.

Lemma otfad_keyblob_unwrap_full (E D : cipher) kek k cnt :
  (forall b, okb b -> D kek (E kek b) = b) -> (forall b, okb b -> okb (E kek b)) ->
  kb_codec_wf k -> length kek = 16%nat -> In cnt [0; 2; 4; 8; 16] ->
  exists rec c, kb_export E k kek cnt = Ok rec /\ length rec = 64%nat /\ otfad_unwrap D kek cnt rec = Some c /\
                oc_key c = kb_key k /\ oc_ctr c = kb_ctr k /\ oc_w0 c = kb_start k /\
                Z.shiftr (oc_w1 c) 10 = (kb_end k - 1) / 1024 /\
                (forall n, 0 <= n < 3 -> Z.testbit (oc_w1 c) n = Z.testbit (kb_flags k) n).
Proof.
  intros DE Eok Wc Lk Hc.
  destruct (otfad_keyblob_unwrap_l E D kek DE Eok k cnt Wc Lk Hc) as (rec & H1 & H2 & H3).
  exists rec, (octx_of_blob k). destruct Wc as (W & _).
  repeat split; try assumption; try reflexivity.
  - now apply ef_shift.
  - intros n Hn. now apply ef_bit.
Qed.

Local Open Scope N_scope.
Lemma le_dec_app a b : le_dec (a ++ b) = le_dec a + 2 ^ (8 * N.of_nat (length a)) * le_dec b.
Proof.
  induction a as [|x a IH]; [cbn [app le_dec length N.of_nat]; rewrite N.mul_0_r; change (2 ^ 0) with 1; lia|].
  cbn [app le_dec length]. rewrite IH.
  replace (8 * N.of_nat (S (length a))) with (8 + 8 * N.of_nat (length a)) by lia.
  rewrite N.pow_add_r. change (2 ^ 8) with 256. lia.
Qed.

Lemma le_enc_add_high w a b : le_enc w (a + 2 ^ (8 * N.of_nat w) * b) = le_enc w a.
Proof.
  revert a b. induction w as [|w IH]; intros a b; [reflexivity|].
  cbn [le_enc].
  replace (8 * N.of_nat (S w)) with (8 + 8 * N.of_nat w) by lia.
  rewrite N.pow_add_r. change (2 ^ 8) with 256.
  replace (a + 256 * 2 ^ (8 * N.of_nat w) * b) with (a + (2 ^ (8 * N.of_nat w) * b) * 256) by lia.
  rewrite N.mod_add by lia. rewrite N.div_add by lia. now rewrite IH.
Qed.

Lemma le_enc_app w1 w2 n : le_enc (w1 + w2) n = le_enc w1 n ++ le_enc w2 (n / 2 ^ (8 * N.of_nat w1)).
Proof.
  revert n. induction w1 as [|w1 IH]; intros n.
  - simpl. now rewrite N.div_1_r.
  - cbn [plus le_enc app]. rewrite IH. f_equal. f_equal.
    replace (8 * N.of_nat (S w1)) with (8 + 8 * N.of_nat w1) by lia.
    rewrite N.pow_add_r. change (2 ^ 8) with 256. now rewrite N.div_div by (try apply N.pow_nonzero; lia).
Qed.

(* the 128-bit big-endian increment of `cryptography` only touches the low word while it does not wrap *)
Lemma inc_be_low x m : length x = 12%nat -> wf_bytes x -> m + 1 < 4294967296 ->
  inc_be (x ++ be_enc 4 m) = x ++ be_enc 4 (m + 1).
Proof.
  intros Lx Wx Hm. unfold inc_be. rewrite app_length, be_enc_length, Lx.
  change (12 + 4)%nat with (4 + 12)%nat.
  unfold be_enc at 1, be_dec. rewrite rev_app_distr. unfold be_enc at 1. rewrite rev_involutive.
  rewrite le_dec_app, le_enc_length.
  rewrite le_dec_enc_small by (change (2 ^ (8 * N.of_nat 4)) with 4294967296; lia).
  change (2 ^ (8 * N.of_nat 4)) with 4294967296.
  rewrite le_enc_app. rewrite rev_app_distr.
  change (2 ^ (8 * N.of_nat 4)) with 4294967296.
  replace (m + 4294967296 * le_dec (rev x) + 1) with ((m + 1) + 4294967296 * le_dec (rev x)) by lia.
  f_equal.
  - replace ((m + 1 + 4294967296 * le_dec (rev x)) / 4294967296) with (le_dec (rev x)).
    + change (le_dec (rev x)) with (be_dec x). change (rev (le_enc 12 (be_dec x))) with (be_enc 12 (be_dec x)).
      rewrite <- Lx. now apply be_enc_dec.
    + rewrite N.mul_comm, N.div_add by lia. rewrite N.div_small by lia. reflexivity.
  - change 4294967296 with (2 ^ (8 * N.of_nat 4)). rewrite le_enc_add_high. reflexivity.
Qed.
Local Close Scope N_scope.

Lemma be32_mod x : 0 <= x -> be32 (x mod M32) = be32 x.
Proof.
  intros Hx. unfold be32, be_enc. f_equal.
  rewrite (Z.div_mod x M32) at 2 by (unfold M32; lia).
  assert (H1 : 0 <= x mod M32) by (apply Z.mod_pos_bound; unfold M32; lia).
  assert (H2 : 0 <= x / M32) by (apply Z.div_pos; unfold M32; lia).
  replace (Z.to_N (M32 * (x / M32) + x mod M32)) with (Z.to_N (x mod M32) + 2 ^ (8 * N.of_nat 4) * Z.to_N (x / M32))%N.
  - now rewrite le_enc_add_high.
  - change (2 ^ (8 * N.of_nat 4))%N with 4294967296%N. unfold M32 in *. lia.
Qed.

Lemma word_rev_fuel fuel l : concat (map (@rev N) (chunks_fuel fuel 4 l)) = rev_longs_fuel fuel l.
Proof.
  revert l. induction fuel as [|f IH]; intros l; [reflexivity|].
  cbn [chunks_fuel rev_longs_fuel]. destruct l as [|b l]; [reflexivity|].
  cbn [map concat]. now rewrite IH.
Qed.
Lemma reverse_bytes_in_longs_word_rev l : Nat.modulo (length l) 4 = 0%nat -> reverse_bytes_in_longs l = Ok (word_rev l).
Proof.
  intros H. unfold reverse_bytes_in_longs, word_rev, chunks. rewrite H. cbn [Nat.eqb]. now rewrite word_rev_fuel.
Qed.

Lemma ib_matches_covers b a L : ib_wf b -> a mod 4096 = 0 -> 1 <= L <= 4096 ->
  ib_matches b a (a + L) = ib_covers b a.
Proof.
  intros (H0 & H1 & H2 & H3 & H4 & _) Ha HL. unfold ib_matches, ib_contains, ib_covers.
  apply eq_true_iff_eq. rewrite !andb_true_iff, !Z.leb_le, Z.ltb_lt. dlia.
Qed.

Lemma mod4096_16 a : a mod 4096 = 0 -> (a mod 16 =? 0) = true.
Proof. intros H. apply Z.eqb_eq. dlia. Qed.

Lemma find_map {A B} (f : A -> B) (P : B -> bool) l : find P (map f l) = option_map f (find (fun x => P (f x)) l).
Proof. induction l as [|x l IH]; [reflexivity|]. cbn [map find]. destruct (P (f x)); [reflexivity | exact IH]. Qed.

(* the model's name for a 16-byte block is CryptoProofs' okb; proofs turn it into okb where ib_cipher_ok is opened *)
Lemma okblock_eq : okblock = okb.
Proof. reflexivity. Qed.

Lemma okblock_okb x : okblock x <-> okb x.
Proof. now rewrite okblock_eq. Qed.

(* the 4 KiB unit is kept folded: as a numeral in nat it would be carried through every arithmetic goal *)
Lemma U4K_Z : Z.of_nat U4K = 4096.
Proof. reflexivity. Qed.

Section IeeImage.
Variable E D : cipher.
Variable blobs : list iblob.
Hypothesis W : Forall ib_wf blobs.
Hypothesis Dj : iblobs_disjoint blobs.
Hypothesis CO : Forall (ib_cipher_ok E D) blobs.

Definition iee_hu := iee_hw_unit E D (map ictx_of_blob blobs).

Lemma iee_piece_sel a p : a mod 4096 = 0 -> p <> [] -> (length p <= U4K)%nat ->
  iee_piece E blobs a p =
  match find (fun b => ib_covers b a) blobs with
  | Some b => ib_encrypt_image E b a p
  | None => Ok p
  end.
Proof.
  intros Ha Hp Hl. unfold iee_piece. pose proof U4K_Z as HU.
  assert (HL : 1 <= zlen p <= 4096) by (unfold zlen; destruct p; [congruence | cbn [length] in *; lia]).
  rewrite (blob_fold_sel _ (fun b => ib_covers b a) (fun _ => true)).
  - destruct (find (fun b => ib_covers b a) blobs) as [b|]; [|reflexivity].
    destruct (ib_encrypt_image E b a p); [|reflexivity]. now rewrite skipn_all, app_nil_r.
  - intros b Hb. rewrite Forall_forall in W. rewrite andb_true_r. now apply ib_matches_covers; [apply W| |].
  - exact (disjoint_at ib_covers _ a Dj).
Qed.

Lemma iee_hu_sel a c :
  iee_hu a c =
  match find (fun b => ib_covers b a) blobs with
  | Some b => iee_hw_unit E D [ictx_of_blob b] a c
  | None => c
  end.
Proof.
  unfold iee_hu, iee_hw_unit. rewrite find_map. cbn [find].
  change (fun x : iblob => ic_hit (ictx_of_blob x) a) with (fun b => ib_covers b a).
  destruct (find (fun b => ib_covers b a) blobs) as [b|] eqn:Ef; [|reflexivity].
  cbn [option_map]. destruct (find_some _ _ Ef) as [_ Hc].
  change (ic_hit (ictx_of_blob b) a) with (ib_covers b a). now rewrite Hc.
Qed.

(* which encryptor IeeKeyBlob.encrypt_image calls at a sector address, by mode; the piece is padded first *)
Lemma ib_encrypt_image_mode b a p : a mod 4096 = 0 ->
  (ib_mode b = MODE_BYPASS -> ib_encrypt_image E b a p = Ok p) /\
  (ib_mode b = MODE_XTS -> ib_encrypt_image E b a p = ib_encrypt_xts E b a (padk zeros p)) /\
  (ib_mode b = MODE_CTR_ADDR -> ib_encrypt_image E b a p = ib_encrypt_ctr E b a (padk zeros p)).
Proof.
  intros H. unfold ib_encrypt_image. rewrite (mod4096_16 a H), pad16_padk. repeat split; intros ->; reflexivity.
Qed.

Lemma iee_xts_piece b a p :
  In b blobs -> ib_mode b = MODE_XTS -> 0 <= a -> a mod 4096 = 0 -> ib_covers b a = true ->
  p <> [] -> (length p <= U4K)%nat -> wf_bytes p ->
  exists c, ib_encrypt_image E b a p = Ok c /\ length c = length (pad16 p) /\
            iee_hw_unit E D [ictx_of_blob b] a c = pad16 p.
Proof.
  intros Hin Hm Ha Hal Hcov Hp Hl Wp.
  rewrite Forall_forall in W, CO. pose proof (W b Hin) as (H0 & H1 & H2 & H3 & H4 & K1 & K2 & _).
  pose proof (CO b Hin) as Hco. unfold ib_cipher_ok in Hco. rewrite okblock_eq, Hm, Z.eqb_refl in Hco.
  destruct Hco as (DE & E1 & E2).
  rewrite pad16_padk, (proj1 (proj2 (ib_encrypt_image_mode b a p Hal)) Hm). set (d := padk zeros p).
  assert (Hd0 : d <> []) by now apply padk_nonnil.
  assert (Hd2 : (length d <= U4K)%nat) by (apply (padk_le zeros zeros_length); [assumption | reflexivity]).
  pose proof (padk_length_mod zeros zeros_length p) as Hd3. fold d in Hd3.
  assert (Hd4 : (16 <= length d)%nat).
  { destruct (mod_mult_exists _ 16 ltac:(lia) Hd3) as [q Hq]. destruct q; [|lia].
    destruct d; [congruence | simpl in Hq; lia]. }
  assert (Wd : wf_bytes d).
  { unfold d. destruct (padk_cases zeros p) as [[-> _]|(k & _ & -> & _)]; auto using wf_bytes_app, wf_zeros. }
  assert (Htw : iee_tweak a = le_enc 16 (Z.to_N (a / 4096))).
  { unfold iee_tweak. rewrite Z.shiftr_div_pow2 by lia. reflexivity. }
  assert (Hokt : okb (E (word_rev (ib_key2 b)) (le_enc 16 (Z.to_N (a / 4096))))) by (apply E2, okb_le_enc).
  unfold ib_encrypt_xts. rewrite !reverse_bytes_in_longs_word_rev by assumption.
  rewrite pieces_single by (try assumption; apply Nat.lt_0_succ). cbn [concat]. rewrite app_nil_r, Htw.
  eexists. split; [reflexivity|]. split.
  - apply (xts_enc_length (E (word_rev (ib_key1 b))) E1); assumption.
  - unfold iee_hw_unit. cbn [find]. change (ic_hit (ictx_of_blob b) a) with (ib_covers b a). rewrite Hcov.
    cbn [ictx_of_blob ic_mode ic_key1 ic_key2]. rewrite Hm, Z.eqb_refl.
    apply (xts_dec_enc_l (E (word_rev (ib_key1 b))) (D (word_rev (ib_key1 b))) DE E1); assumption.
Qed.

(* AES-CTR with address binding; the 32-bit counter word wraps on both sides *)
Lemma iee_ctr_piece b a p :
  In b blobs -> ib_mode b = MODE_CTR_ADDR -> 0 <= a -> a mod 4096 = 0 -> ib_covers b a = true ->
  exists c, ib_encrypt_image E b a p = Ok c /\ length c = length (pad16 p) /\
            iee_hw_unit E D [ictx_of_blob b] a c = pad16 p.
Proof.
  intros Hin Hm Ha Hal Hcov.
  rewrite Forall_forall in W, CO. pose proof (W b Hin) as (H0 & H1 & H2 & H3 & H4 & K1 & K2 & Hmode).
  destruct Hmode as [Hx|[[_ L2]|Hx]]; [rewrite Hx in Hm; discriminate| |rewrite Hx in Hm; discriminate].
  pose proof (CO b Hin) as Elen. unfold ib_cipher_ok in Elen. rewrite Hm in Elen.
  change (MODE_CTR_ADDR =? MODE_XTS) with false in Elen. rewrite Z.eqb_refl in Elen.
  rewrite pad16_padk, (proj2 (proj2 (ib_encrypt_image_mode b a p Hal)) Hm). set (d := padk zeros p).
  destruct (mod_mult_exists _ 16 ltac:(lia) (padk_length_mod zeros zeros_length p)) as [q Hq]. fold d in Hq.
  set (nonce := word_rev (ib_key2 b)).
  assert (Ln : length nonce = 16%nat).
  { unfold nonce. pose proof (reverse_bytes_in_longs_word_rev _ K2) as Hr.
    unfold reverse_bytes_in_longs in Hr. rewrite K2 in Hr. cbn [Nat.eqb] in Hr. injection Hr as <-.
    rewrite rev_longs_length by lia. exact L2. }
  set (n0 := Z.of_N (be_dec (skipn 12 nonce))).
  assert (Hn0 : 0 <= n0) by (unfold n0; lia).
  unfold ib_covers in Hcov. apply andb_true_iff in Hcov. destruct Hcov as [Hc1 Hc2].
  apply Z.leb_le in Hc1. apply Z.ltb_lt in Hc2.
  assert (Hsh : Z.shiftr a 4 = a / 16) by (rewrite Z.shiftr_div_pow2 by lia; reflexivity).
  unfold ib_encrypt_ctr. rewrite !reverse_bytes_in_longs_word_rev by assumption. fold nonce.
  rewrite Ln. cbn [Nat.eqb negb]. fold n0. rewrite Hsh.
  set (key := word_rev (ib_key1 b)) in *.
  replace (16 * (n0 + a / 16)) with (a + 16 * n0) by dlia.
  rewrite pieces_shift.
  destruct (pieces_inverse
              (fun x => ib_ctr_block (E key) (firstn 12 nonce) (x + 16 * n0))
              (fun ba blk => xor_bytes blk (E key (firstn 12 nonce ++ be32 ((n0 + ba / 16) mod M32))))
              16 q a d ltac:(lia) Hq) as [Inv Len].
  { intros j blk Hj Hb. unfold ib_ctr_block.
    replace ((a + Z.of_nat (j * 16) + 16 * n0) / 16) with (n0 + a / 16 + Z.of_nat j) by dlia.
    replace (n0 + (a + Z.of_nat (j * 16)) / 16) with (n0 + a / 16 + Z.of_nat j) by dlia.
    rewrite be32_mod by dlia. apply xor_ks_inv; [assumption|].
    apply Elen. rewrite app_length, firstn_length, be32_length, Ln. reflexivity. }
  eexists. split; [reflexivity|]. split; [exact Len|].
  unfold iee_hw_unit, ic_hit, ictx_of_blob. cbn [find ic_start ic_end ic_mode ic_key1 ic_key2].
  replace ((ib_start b <=? a) && (a <? ib_end b)) with true
    by (symmetry; apply andb_true_iff; split; [apply Z.leb_le | apply Z.ltb_lt]; assumption).
  rewrite Hm. change (MODE_CTR_ADDR =? MODE_XTS) with false. rewrite Z.eqb_refl.
  fold nonce. fold n0. fold key. exact Inv.
Qed.

Lemma iee_piece_ok a p :
  0 <= a -> a mod 4096 = 0 -> p <> [] -> (length p <= U4K)%nat -> wf_bytes p ->
  exists c, iee_piece E blobs a p = Ok c /\ rt iee_hu U4K (iee_outside blobs) a p c /\
            (length p = U4K -> length c = U4K).
Proof.
  intros Ha Hal Hp Hl Wp. pose proof U4K_Z as HU.
  assert (Hone : forall c, c <> [] -> (length c <= U4K)%nat -> fetched iee_hu U4K a c = iee_hu a c).
  { intros c Hc Lc. unfold fetched. rewrite pieces_single by (try assumption; apply Nat.lt_0_succ). apply app_nil_r. }
  rewrite iee_piece_sel by assumption. pose proof (iee_hu_sel a) as Hsel.
  destruct (find (fun b => ib_covers b a) blobs) as [b|] eqn:Ef.
  2:{ exists p. split; [reflexivity|]. split; [|auto]. apply rt_id. now rewrite Hone, Hsel. }
  destruct (find_some _ _ Ef) as [Hin Hcov].
  pose proof (proj1 (Forall_forall _ _) W b Hin) as (H0 & H1 & H2 & H3 & H4 & _ & _ & Hmode).
  destruct (Z.eq_dec (ib_mode b) MODE_BYPASS) as [Hm|Hnb].
  { (* Bypass: SPSDK leaves the piece as it is and so does the hardware *)
    exists p. split; [|split; [apply rt_id; rewrite Hone, Hsel by assumption | auto]].
    - exact (proj1 (ib_encrypt_image_mode b a p Hal) Hm).
    - unfold iee_hw_unit, ic_hit, ictx_of_blob. cbn [find ic_start ic_end ic_mode].
      change ((ib_start b <=? a) && (a <? ib_end b)) with (ib_covers b a). now rewrite Hcov, Hm. }
  assert (Hcase : exists c, ib_encrypt_image E b a p = Ok c /\ length c = length (pad16 p) /\ iee_hu a c = pad16 p).
  { setoid_rewrite Hsel. destruct Hmode as [Hm|[[Hm _]|Hm]];
      [now apply iee_xts_piece | now apply iee_ctr_piece | contradiction]. }
  destruct Hcase as (c & Hc & Lc & Hh). exists c. split; [exact Hc|].
  rewrite pad16_padk in *.
  pose proof (padk_length_ge zeros p) as Hpg. pose proof (padk_le zeros zeros_length p U4K Hl eq_refl) as Hpl.
  assert (Hc0 : c <> []) by (intros ->; destruct p; [congruence | cbn [length] in *; lia]).
  split; [|intros Lp; rewrite Lc; lia].
  unfold rt. rewrite Hone, Hh, Lc by (try assumption; lia). repeat split; try lia; [apply padk_prefix|].
  intros i Hi HQ. exfalso.
  assert (Hcv : ib_covers b (a + Z.of_nat i) = true).
  { unfold ib_covers in *. apply andb_true_iff in Hcov. destruct Hcov as [C1 C2].
    apply Z.leb_le in C1. apply Z.ltb_lt in C2. apply andb_true_iff. split; [apply Z.leb_le | apply Z.ltb_lt]; dlia. }
  rewrite (HQ b Hin) in Hcv. discriminate.
Qed.
End IeeImage.

Lemma iee_decrypts_aligned (E D : cipher) blobs img base :
  Forall ib_wf blobs -> iblobs_disjoint blobs -> Forall (ib_cipher_ok E D) blobs ->
  wf_bytes img -> 0 <= base -> base mod 4096 = 0 ->
  exists out, iee_encrypt_image E blobs img base = Ok out /\ rt (iee_hu E D blobs) U4K (iee_outside blobs) base img out.
Proof.
  intros W Dj CO Wi Hb Hal.
  apply (walk_roundtrip (iee_hu E D blobs) U4K (Nat.lt_0_succ _) (iee_outside blobs) (iee_piece E blobs) U4K 1
           (eq_sym (Nat.mul_1_l _)) Nat.lt_0_1 (fun a => 0 <= a /\ a mod 4096 = 0) wf_bytes wf_bytes_firstn wf_bytes_skipn);
    try (split; assumption); try assumption.
  - intros a [A1 A2]. rewrite U4K_Z. split; [lia|]. now rewrite <- Z.add_mod_idemp_r, Z_mod_same_full, Z.add_0_r by lia.
  - intros a p [A1 A2] Hp Hl Wp. now apply (iee_piece_ok E D blobs W Dj CO).
Qed.

Lemma ctr_xcrypt_nil F c : ctr_xcrypt F c [] = [].
Proof. reflexivity. Qed.

Lemma ctr_xcrypt_cons F c b d : length b = 16%nat ->
  ctr_xcrypt F c (b ++ d) = xor_bytes b (F c) ++ ctr_xcrypt F (inc_be c) d.
Proof. intros Hb. unfold ctr_xcrypt, BS. rewrite chunks_cons by (try assumption; lia). reflexivity. Qed.

(* AES-CTR of `cryptography` over whole blocks = one keystream block per 16-byte address step *)
Lemma ctr_xcrypt_pieces (F : list N -> list N) n12 q : forall n d,
  length n12 = 12%nat -> wf_bytes n12 -> length d = (q * 16)%nat -> 0 <= n -> n + Z.of_nat q <= 4294967296 ->
  ctr_xcrypt F (n12 ++ be32 n) d =
  concat (pieces (fun x blk => xor_bytes blk (F (n12 ++ be32 (x / 16)))) 16 (16 * n) d).
Proof.
  induction q as [|q IH]; intros n d L12 W12 Hd Hn Hq.
  - destruct d; [reflexivity | simpl in Hd; lia].
  - assert (Hdl : (16 <= length d)%nat) by (simpl in Hd; lia).
    assert (Hne : d <> []) by (intros ->; simpl in Hdl; lia).
    rewrite (pieces_cons _ 16 (16 * n) d) by (try assumption; lia).
    assert (Hf : length (firstn 16 d) = 16%nat) by (rewrite firstn_length; lia).
    rewrite <- (firstn_skipn 16 d) at 1. rewrite ctr_xcrypt_cons by assumption.
    cbn [concat]. replace (16 * n / 16) with n by dlia. f_equal.
    replace (zlen (firstn 16 d)) with 16 by (unfold zlen; rewrite Hf; reflexivity).
    replace (16 * n + 16) with (16 * (n + 1)) by lia.
    destruct q as [|q'].
    + assert (Hs : skipn 16 d = []) by (apply length_zero_iff_nil; rewrite skipn_length; simpl in Hd; lia).
      rewrite Hs. reflexivity.
    + unfold be32. rewrite inc_be_low; try assumption; try lia.
      replace (Z.to_N n + 1)%N with (Z.to_N (n + 1)) by lia.
      apply IH; try assumption; try lia. rewrite skipn_length. simpl in Hd |- *. lia.
Qed.

(* hull of the FAC regions: a running minimum lies below its start value and below every element, and dually *)
Lemma fold_min_le {A} (g : A -> Z) fs : forall m,
  fold_left (fun m f => Z.min m (g f)) fs m <= m /\ forall f, In f fs -> fold_left (fun m f => Z.min m (g f)) fs m <= g f.
Proof.
  induction fs as [|x fs IH]; intros m; simpl; [split; [lia | intros f []]|].
  destruct (IH (Z.min m (g x))) as [I1 I2]. split; [lia|]. intros f [->|Hin]; [lia | now apply I2].
Qed.

Lemma fold_max_ge {A} (g : A -> Z) fs : forall m,
  m <= fold_left (fun m f => Z.max m (g f)) fs m /\ forall f, In f fs -> g f <= fold_left (fun m f => Z.max m (g f)) fs m.
Proof.
  induction fs as [|x fs IH]; intros m; simpl; [split; [lia | intros f []]|].
  destruct (IH (Z.max m (g x))) as [I1 I2]. split; [lia|]. intros f [->|Hin]; [lia | now apply I2].
Qed.

Lemma find_existsb {A} (P : A -> bool) l : existsb P l = true -> exists x, find P l = Some x.
Proof.
  induction l as [|x l IH]; [discriminate|]. cbn [existsb find]. destruct (P x); [eauto | exact IH].
Qed.
Lemma find_none_existsb {A} (P : A -> bool) l : existsb P l = false -> find P l = None.
Proof.
  induction l as [|x l IH]; [reflexivity|]. cbn [existsb find]. destruct (P x); [discriminate | exact IH].
Qed.

Lemma bee_block_uncovered (E : cipher) h a data :
  bh_wf h -> bh_covers h a = false -> (length data <= 1024)%nat -> bee_encrypt_block E h a data = Ok data.
Proof.
  intros (Hm & Lk & _) Hc Hl. unfold bee_encrypt_block.
  replace (Nat.ltb 1024 (length data)) with false by (symmetry; apply Nat.ltb_ge; assumption).
  destruct (bh_hull h) as [hs he]. destruct ((hs <=? a) && (a <? he)); [|reflexivity].
  rewrite Hm, Lk. cbn [Z.eqb Pos.eqb Nat.eqb negb].
  unfold bh_covers in Hc. pose proof (find_none_existsb _ _ Hc) as Hf. unfold fac_covers in Hf. rewrite Hf. reflexivity.
Qed.

Lemma bee_block_covered (E : cipher) h a data :
  bh_wf h -> bh_covers h a = true -> 0 <= a -> a mod 1024 + zlen data <= 1024 ->
  bee_encrypt_block E h a data =
  Ok (ctr_xcrypt (E (bh_swkey h)) (firstn 12 (bh_counter h) ++ be32 (a / 16)) (pad16_rnd data)).
Proof.
  intros (Hm & Lk & Lc & Wc & Hz & Wf) Hc Ha Hunit. unfold bee_encrypt_block.
  replace (Nat.ltb 1024 (length data)) with false by (symmetry; apply Nat.ltb_ge; unfold zlen in Hunit; dlia).
  unfold bh_covers in Hc. destruct (find_existsb _ _ Hc) as [f Hf].
  destruct (find_some _ _ Hf) as [Hin Hcov].
  rewrite Forall_forall in Wf. pose proof (Wf f Hin) as (F0 & F1 & F2 & F3 & F4).
  unfold fac_covers in Hcov. apply andb_true_iff in Hcov. destruct Hcov as [C1 C2].
  apply Z.leb_le in C1. apply Z.ltb_lt in C2. unfold fc_end in *.
  assert (Hhull : let '(hs, he) := bh_hull h in (hs <=? a) && (a <? he) = true).
  { unfold bh_hull. destruct (bh_facs h) as [|g fs] eqn:Efs; [contradiction|].
    pose proof (proj2 (fold_min_le fc_start _ 4294967295) f Hin). pose proof (proj2 (fold_max_ge fc_end _ 0) f Hin). unfold fc_end in *.
    apply andb_true_iff. split; [apply Z.leb_le | apply Z.ltb_lt]; lia. }
  destruct (bh_hull h) as [hs he]. rewrite Hhull.
  rewrite Hm, Lk. cbn [Z.eqb Pos.eqb Nat.eqb negb].
  change (fun f0 : fac => (fc_start f0 <=? a) && (a <? fc_start f0 + fc_len f0)) with (fun f0 => fac_covers f0 a) in *.
  unfold fac_covers, fc_end in Hf |- *. rewrite Hf.
  replace (a + zlen data >? fc_start f + fc_len f) with false
    by (symmetry; rewrite Z.gtb_ltb; apply Z.ltb_ge; unfold zlen in *; dlia).
  rewrite Lc, Hz. cbn [Nat.eqb negb].
  change (Z.of_N (be_dec [0%N; 0%N; 0%N; 0%N])) with 0. rewrite Z.shiftr_div_pow2 by lia. change (2 ^ 4) with 16.
  reflexivity.
Qed.

Lemma fac_covers_unit f a a' : fac_wf f -> a' / 1024 = a / 1024 -> fac_covers f a' = fac_covers f a.
Proof.
  intros (F0 & F1 & F2 & F3 & F4) H. unfold fac_covers, fc_end.
  apply eq_true_iff_eq. rewrite !andb_true_iff, !Z.leb_le, !Z.ltb_lt. dlia.
Qed.
Lemma bh_covers_unit h a a' : bh_wf h -> a' / 1024 = a / 1024 -> bh_covers h a' = bh_covers h a.
Proof.
  intros (_ & _ & _ & _ & _ & Wf) H. unfold bh_covers.
  induction Wf as [|f fs Hf _ IH]; [reflexivity|]. cbn [existsb]. now rewrite (fac_covers_unit f a a' Hf H), IH.
Qed.

Lemma bc_hit_bctx h a : bc_hit (bctx_of h) a = bh_covers h a.
Proof.
  unfold bc_hit, bh_covers, bctx_of. cbn [bc_regions].
  induction (bh_facs h) as [|f fs IH]; [reflexivity|]. cbn [map existsb fst snd]. now rewrite IH.
Qed.

Section BeeImage.
Variable E : cipher.
Variable ohs : list (option bhdr).
Hypothesis W : Forall bh_wf (bee_actives ohs).
Hypothesis Dj : bheaders_disjoint (bee_actives ohs).
Hypothesis E_len : forall h, In h (bee_actives ohs) -> forall x, length x = 16%nat -> length (E (bh_swkey h) x) = 16%nat.

Definition bee_enc1 (h : bhdr) (a : Z) (blk : list N) : list N :=
  ctr_xcrypt (E (bh_swkey h)) (firstn 12 (bh_counter h) ++ be32 (a / 16)) (pad16_rnd blk).
Definition bee_dec1 (h : bhdr) (a : Z) (blk : list N) : list N :=
  xor_bytes blk (E (bh_swkey h) (firstn 12 (bh_counter h) ++ be32 ((Z.of_N (be_dec (skipn 12 (bh_counter h))) + a / 16) mod M32))).

Lemma bee_piece_uncovered l a blk :
  Forall bh_wf (bee_actives l) -> (forall h, In h (bee_actives l) -> bh_covers h a = false) ->
  (length blk <= 1024)%nat -> bee_piece E l a blk = Ok blk.
Proof.
  induction l as [|o l IH]; intros Wl Hc Hl; [reflexivity|].
  destruct o as [h|]; cbn [bee_piece].
  - unfold bee_actives in *. cbn [map concat app] in *. inversion Wl; subst.
    rewrite bee_block_uncovered; try assumption; [|apply Hc; now left].
    apply IH; try assumption. intros h' Hh'. apply Hc. now right.
  - apply IH; assumption.
Qed.

Lemma bee_piece_sel a blk : 0 <= a -> a mod 1024 + zlen blk <= 1024 ->
  bee_piece E ohs a blk =
  Ok (match find (fun h => bh_covers h a) (bee_actives ohs) with Some h => bee_enc1 h a blk | None => blk end).
Proof.
  intros Ha Hin. assert (Hl : (length blk <= 1024)%nat) by (unfold zlen in Hin; dlia).
  pose proof (disjoint_at bh_covers _ a Dj) as Dja. clear Dj.
  induction ohs as [|o l IH]; [reflexivity|].
  destruct o as [h|]; cbn [bee_piece].
  - unfold bee_actives in *. cbn [map concat app find] in *.
    inversion W as [|? ? Wh Wl]; subst. inversion Dja as [|? ? Dh Dl]; subst.
    destruct (bh_covers h a) eqn:Ec.
    + rewrite bee_block_covered by assumption. fold (bee_enc1 h a blk).
      apply bee_piece_uncovered; try assumption.
      * intros h' Hh'. rewrite Forall_forall in Dh. now apply Dh.
      * unfold bee_enc1. rewrite ctr_length.
        -- apply (padk_le rnd rnd_length); [assumption | reflexivity].
        -- apply E_len. now left.
        -- destruct Wh as (_ & _ & Lc & _). rewrite app_length, firstn_length, be32_length, Lc. reflexivity.
    + rewrite bee_block_uncovered by assumption. apply IH; try assumption.
      intros h' Hh'. apply E_len. now right.
  - apply IH; assumption.
Qed.

Lemma bee_hw_block_uncovered hs a blk : (forall h, In h hs -> bh_covers h a = false) ->
  bee_hw_block E (map bctx_of hs) a blk = blk.
Proof.
  induction hs as [|h l IH]; intros Hc; [reflexivity|]. cbn [bee_hw_block map fold_right].
  unfold bee_hw_engine at 1. rewrite bc_hit_bctx, (Hc h (or_introl eq_refl)).
  apply IH. intros h' Hh'. apply Hc. now right.
Qed.

Lemma bee_hw_block_sel hs a blk : bheaders_disjoint hs ->
  bee_hw_block E (map bctx_of hs) a blk =
  match find (fun h => bh_covers h a) hs with Some h => bee_dec1 h a blk | None => blk end.
Proof.
  intros D. apply (disjoint_at bh_covers _ a) in D. rename D into Da.
  induction hs as [|h l IH]; [reflexivity|]. inversion Da as [|? ? Dh Dl]; subst.
  cbn [map find]. change (bee_hw_block E (bctx_of h :: map bctx_of l) a blk)
    with (bee_hw_engine E (bctx_of h) a (bee_hw_block E (map bctx_of l) a blk)).
  unfold bee_hw_engine. rewrite bc_hit_bctx. destruct (bh_covers h a) eqn:Ec.
  - rewrite bee_hw_block_uncovered; [reflexivity|]. intros h' Hh'. rewrite Forall_forall in Dh. now apply Dh.
  - now apply IH.
Qed.

Let hb := bee_hw_block E (map bctx_of (bee_actives ohs)).

Lemma bee_dec_sel a c : 0 <= a -> a mod 1024 + zlen c <= 1024 ->
  fetched hb 16 a c =
  match find (fun h => bh_covers h a) (bee_actives ohs) with
  | Some h => concat (pieces (bee_dec1 h) 16 a c)
  | None => c
  end.
Proof.
  intros Ha Hin. unfold fetched, hb.
  rewrite (pieces_ext_range _ (fun a' b => match find (fun h => bh_covers h a) (bee_actives ohs) with
             | Some h => bee_dec1 h a' b | None => b end) 16 a c); [|lia|].
  - destruct (find (fun h => bh_covers h a) (bee_actives ohs)); [reflexivity|]. apply concat_pieces_id. lia.
  - intros a' b Hr. rewrite bee_hw_block_sel by assumption.
    rewrite (find_ext_in _ (fun h => bh_covers h a)); [reflexivity|].
    intros h Hh. rewrite Forall_forall in W. apply bh_covers_unit; [now apply W | dlia].
Qed.

Lemma bee_piece_ok a p : 0 <= a -> a mod 16 = 0 -> p <> [] -> a mod 1024 + zlen p <= 1024 ->
  exists c, bee_piece E ohs a p = Ok c /\ rt hb 16 (bee_outside (bee_actives ohs)) a p c /\
            (Nat.modulo (length p) 16 = 0%nat -> length c = length p).
Proof.
  intros Ha H16 Hp Hin. rewrite bee_piece_sel by assumption. eexists. split; [reflexivity|].
  pose proof (bee_dec_sel a p Ha Hin) as Hid.
  destruct (find (fun h => bh_covers h a) (bee_actives ohs)) as [h|] eqn:Ef; [|split; [now apply rt_id | reflexivity]].
  destruct (find_some _ _ Ef) as [Hin' Hcov].
  pose proof (proj1 (Forall_forall _ _) W h Hin') as Wh. pose proof Wh as (Hm & Lk & Lc & Wc & Hz & Wf).
  unfold bee_enc1. change (pad16_rnd p) with (padk rnd p).
  destruct (padk_in_unit rnd a p rnd_length H16 Hin) as [Hd4 (q & Hq)].
  (* a < 2^32 because it lies in a FAC region *)
  assert (Ha32 : a < 4294967295).
  { unfold bh_covers in Hcov. apply existsb_exists in Hcov. destruct Hcov as (f & Hf & Hc).
    rewrite Forall_forall in Wf. pose proof (Wf f Hf) as (F0 & F1 & F2 & F3 & F4).
    unfold fac_covers, fc_end in *. apply andb_true_iff in Hc. destruct Hc as [C1 C2].
    apply Z.leb_le in C1. apply Z.ltb_lt in C2. lia. }
  set (n12 := firstn 12 (bh_counter h)).
  assert (L12 : length n12 = 12%nat) by (unfold n12; rewrite firstn_length, Lc; reflexivity).
  assert (W12 : wf_bytes n12) by (unfold n12; now apply wf_bytes_firstn).
  rewrite (ctr_xcrypt_pieces _ n12 q) by (try assumption; unfold zlen in Hd4; dlia).
  replace (16 * (a / 16)) with a by dlia.
  apply stream_piece_ok with (dec1 := bee_dec1 h); try assumption.
  - exact rnd_length.
  - intros a' blk Ha' Hu Hb. unfold bee_dec1. fold n12. rewrite Hz.
    change (Z.of_N (be_dec [0%N; 0%N; 0%N; 0%N])) with 0.
    replace ((0 + a' / 16) mod M32) with (a' / 16) by (unfold M32; rewrite Z.mod_small; dlia).
    apply xor_ks_inv; [assumption|]. apply E_len; [assumption|]. rewrite app_length, L12, be32_length. reflexivity.
  - intros c Hc'. rewrite bee_dec_sel by assumption. now rewrite Ef.
  - intros a' Hu HQ. rewrite <- (bh_covers_unit h a a' Wh Hu), (HQ h Hin') in Hcov. discriminate.
Qed.

Lemma bee_decrypts_l img base : 0 <= base -> base mod 16 = 0 ->
  exists out, bee_export_image E ohs img base = Ok out /\ rt hb 16 (bee_outside (bee_actives ohs)) base img out.
Proof.
  intros Hb H16.
  apply (grid_roundtrip (bee_piece E ohs) hb U1K 64 eq_refl ltac:(lia) (bee_outside (bee_actives ohs))
           (fun _ => True) ltac:(auto) ltac:(auto)); try assumption; try exact I.
  intros a p A1 A2 Hp Hin _. now apply bee_piece_ok.
Qed.
End BeeImage.

(* BEE: the premises are satisfiable *)
Definition bee_wit : bhdr :=
  {| bh_counter := le_enc 12 7 ++ [0; 0; 0; 0]%N; bh_mode := 1; bh_lock := 0;
     bh_facs := [{| fc_start := 4096; fc_len := 4096; fc_level := 0 |}];
     bh_swkey := le_enc 16 1; bh_kibkey := le_enc 16 2; bh_kibiv := le_enc 16 3 |}.

Lemma bee_wit_wf : Forall bh_wf (bee_actives [Some bee_wit]) /\ bheaders_disjoint (bee_actives [Some bee_wit]).
Proof.
  split.
  - constructor; [|constructor]. unfold bh_wf, bee_wit. cbn. repeat split; try reflexivity.
    + unfold wf_bytes, wf_byte. repeat constructor.
    + constructor; [|constructor]. unfold fac_wf, fc_end. cbn. repeat split; lia.
  - constructor; constructor.
Qed.

Lemma Ok_inj {A} (x y : A) : Ok x = Ok y -> x = y.
Proof. now injection 1. Qed.

Lemma le32_wf z : wf_bytes (le32 z).
Proof. apply le_enc_wf. Qed.
Lemma extend_to_length n l : (length l <= n)%nat -> length (extend_to n l) = n.
Proof. intros H. unfold extend_to. rewrite app_length, zeros_length. lia. Qed.
Lemma extend_to_wf n l : wf_bytes l -> wf_bytes (extend_to n l).
Proof. intros H. unfold extend_to. apply wf_bytes_app; [assumption | apply wf_zeros]. Qed.

Lemma fac_exports_length fs : length (concat (map fac_export fs)) = (32 * length fs)%nat.
Proof.
  induction fs as [|f fs IH]; [reflexivity|]. cbn [map concat length]. rewrite app_length, IH.
  unfold fac_export. rewrite !app_length, !le32_length, zeros_length. lia.
Qed.
Lemma fac_exports_wf fs : wf_bytes (concat (map fac_export fs)).
Proof.
  induction fs as [|f fs IH]; [constructor|]. cbn [map concat]. apply wf_bytes_app; [|exact IH].
  unfold fac_export. repeat apply wf_bytes_app; try apply le32_wf. apply wf_zeros.
Qed.

Lemma prdb_export_shape h p : wf_bytes (bh_counter h) -> prdb_export h = Ok p -> length p = 256%nat /\ wf_bytes p.
Proof.
  intros Wc. unfold prdb_export. destruct (prdb_ok h) eqn:Eok; [|discriminate]. cbn [negb].
  destruct (u32_ok (bh_lock h)); [|discriminate]. cbn [negb]. destruct (bh_hull h) as [hs he].
  intros H. apply Ok_inj in H as <-.
  unfold prdb_ok in Eok. destruct (match bh_facs h with [] => (0, 0) | _ :: _ => bh_hull h end) as [a b].
  rewrite !andb_true_iff in Eok. destruct Eok as (((((((_ & _) & _) & Lc) & _) & _) & Ln) & _).
  apply Nat.eqb_eq in Lc. apply Nat.leb_le in Ln. split.
  - apply extend_to_length. rewrite !app_length, !le32_length, rev_length, Lc, zeros_length, fac_exports_length. lia.
  - apply extend_to_wf. repeat apply wf_bytes_app; try apply le32_wf; try apply wf_zeros.
    + now apply Forall_rev.
    + apply fac_exports_wf.
Qed.

Lemma align_zero_wf k l : wf_bytes l -> wf_bytes (align_zero k l).
Proof.
  intros H. unfold align_zero. destruct (Nat.modulo (length l) k); [assumption|].
  apply wf_bytes_app; [assumption | apply wf_zeros].
Qed.

Lemma ib_plain_wf b p : wf_bytes (ib_key1 b) -> wf_bytes (ib_key2 b) -> ib_plain b = Ok p -> wf_bytes p.
Proof.
  intros W1 W2. unfold ib_plain.
  destruct (byte_ok (ib_lock b) && byte_ok (ib_keyattr b) && byte_ok (ib_mode b) && u32_ok (ib_po b)
            && u32_ok (ib_start b) && u32_ok (ib_end b)) eqn:Eok; [|discriminate]. cbn [negb].
  intros H. apply Ok_inj in H as <-.
  rewrite !andb_true_iff in Eok. destruct Eok as (((((B1 & B2) & B3) & _) & _) & _).
  unfold byte_ok in B1, B2, B3. rewrite andb_true_iff, Z.leb_le, Z.ltb_lt in B1, B2, B3.
  repeat apply wf_bytes_app; try apply le32_wf; try apply le_enc_wf; try (apply align_zero_wf; assumption).
  unfold wf_bytes, wf_byte. repeat constructor; lia.
Qed.

Lemma res_concat_map_wf {B} (f : B -> res (list N)) l t :
  (forall b p, In b l -> f b = Ok p -> wf_bytes p) -> res_concat_map f l = Ok t -> wf_bytes t.
Proof.
  revert t. induction l as [|b l IH]; intros t Hf H.
  - cbn in H. assert (t = []) by congruence. subst. constructor.
  - cbn [res_concat_map] in H. destruct (f b) as [x|] eqn:Ex; [|discriminate].
    destruct (res_concat_map f l) as [y|] eqn:Ey; [|discriminate].
    assert (t = x ++ y) by congruence. subst. apply wf_bytes_app.
    + apply (Hf b x); [now left | assumption].
    + apply IH; [|reflexivity]. intros b' p Hb'. apply Hf. now right.
Qed.

Lemma aes_cipher_laws key : aes_key_ok key = true -> wf_bytes key ->
  (forall b, okb b -> aes_d key (aes_c key b) = b) /\ (forall b, okb b -> okb (aes_c key b)) /\
  (forall x, length x = 16%nat -> length (aes_c key x) = 16%nat).
Proof.
  intros Hk Wk. split; [|split]; intros b Hb;
    [apply (aes_dec_enc key b Hk Wk Hb) | apply (aes_dec_enc key b Hk Wk Hb) | now apply aes_enc_length].
Qed.

Lemma aes_cipher_laws16 key : length key = 16%nat -> wf_bytes key ->
  (forall b, okb b -> aes_d key (aes_c key b) = b) /\ (forall b, okb b -> okb (aes_c key b)) /\
  (forall x, length x = 16%nat -> length (aes_c key x) = 16%nat).
Proof. intros L. apply aes_cipher_laws. unfold aes_key_ok. now rewrite L. Qed.

(* the cipher premises of the IEE theorem are satisfiable: they hold for the concrete AES *)
Lemma ib_cipher_ok_aes b :
  aes_key_ok (word_rev (ib_key1 b)) = true -> wf_bytes (word_rev (ib_key1 b)) ->
  aes_key_ok (word_rev (ib_key2 b)) = true -> wf_bytes (word_rev (ib_key2 b)) ->
  ib_cipher_ok aes_c aes_d b.
Proof.
  intros K1 W1 K2 W2. unfold ib_cipher_ok. rewrite okblock_eq.
  destruct (aes_cipher_laws _ K1 W1) as (DE & EO & EL). destruct (aes_cipher_laws _ K2 W2) as (_ & EO2 & _).
  destruct (ib_mode b =? MODE_XTS); [split; [exact DE | split; [exact EO | exact EO2]] |].
  destruct (ib_mode b =? MODE_CTR_ADDR); [exact EL | exact I].
Qed.

Definition iee_wit (mode : Z) (key2 : list N) : iblob :=
  {| ib_lock := 89; ib_keyattr := 90; ib_mode := mode; ib_start := 4096; ib_end := 8192;
     ib_key1 := le_enc 16 1; ib_key2 := key2; ib_po := 0 |}.

Example ib_premises_instance :
  let b := iee_wit MODE_XTS (le_enc 16 2) in ib_wf b /\ ib_cipher_ok aes_c aes_d b.
Proof.
  cbv zeta. split.
  - unfold ib_wf, iee_wit. cbn. repeat split; lia.
  - apply ib_cipher_ok_aes; try reflexivity; unfold wf_bytes, wf_byte; cbn; repeat constructor.
Qed.

(* (T1) the constants used by the hand model are the ones found in the source on this run *)
Example flashenc_constants_tied :
  Z.of_nat U1K = src_otfad_unit /\ Z.of_nat U1K = src_bee_unit /\ Z.of_nat U4K = src_iee_unit /\ Z.of_nat U4K = src_iee_xts_unit /\
  src_otfad_start_mask = 1023 /\ src_otfad_end_mask = 1016 /\ src_otfad_flag_mask = 7 /\ src_otfad_flag_ade = 2 /\
  src_otfad_flag_vld = 1 /\ src_otfad_key_size = 16 /\ src_otfad_ctr_size = 8 /\ src_otfad_blob_size = 64 /\
  src_otfad_block = 16 /\ src_iee_block = 16 /\ src_iee_start_mask = 1023 /\ src_iee_table_size = 384 /\
  MODE_BYPASS = src_iee_mode_bypass /\ MODE_XTS = src_iee_mode_xts /\ MODE_CTR_ADDR = src_iee_mode_ctr_addr /\
  MODE_CTR_NOADDR = src_iee_mode_ctr_noaddr /\ MODE_CTR_KS = src_iee_mode_ctr_ks /\
  KEYATTR_128_256 = src_iee_attr_128 /\ KEYATTR_256_512 = src_iee_attr_256 /\
  src_iee_tag = 1229276482 /\ src_iee_version = 1442906112 /\
  src_bee_mask = 1023 /\ src_bee_mode_ctr = 1 /\ src_bee_tagl = 1598505300 /\ src_bee_tagh = 1380206661 /\
  src_bee_version = 1442906112 /\ src_bee_fac_regions = 4 /\ src_bee_prdb_size = 256 /\ src_bee_prdb_offset = 128 /\
  src_bee_header_size = 512.
Proof. repeat split; reflexivity. Qed.
